(* C02 -- Curated layout follows the Pretext edits to within three texel widths.
   Only statements, each closed by [exact] of a lemma from Proofs/.  PARTIAL:
   proved end to end is the property's last clause for the simplest complete
   edit script (one scaffold cut once, the two pieces oriented and placed at
   will): a cut at least three error lengths inside a contig splits it exactly
   at the Pretext coordinate, with the margin shown to be sharp; plus the
   ingredients named in the anchors (error length, exact trims, keep-flag
   order).  The statement over arbitrary edit scripts (several cuts, regrouping,
   Pretext order) is decided by the correspondence of the whole pipeline model
   and the oracle on every run. *)
From Tola Require Import Py.Base Model.Fragment Model.Scaffold Model.Lookup Model.OverlapResult
  Model.Namer Model.Remap Proofs.NullMapAndCuts.
From Tola Require Proofs.TwoPieceCut.

(* END TO END through remap_to_input (lookups, overhang resolver, cuts,
   left-overs), for every texel size n/d, every scaffold pr ++ [f] ++ po of
   distinct well-formed contigs (gaps anywhere, pr / po possibly empty, f on
   either strand), every cut coordinate k with both pieces of f at least
   3 * error_length long, every orientation s1, s2 of the two Pretext
   scaffolds and every rounding E of the scaffold end by less than a texel:
   exactly one cut is counted, nothing is left over, and the two results are
   (oriented as chosen) pr ++ [left piece of f] and [right piece of f] ++ po,
   f being split exactly at scaffold coordinate k -- the left piece of a
   reverse-strand contig is its high end.  The pieces carry the tag "Cut". *)
Theorem C02_two_piece_cut : forall g prefix n d name pr f po k E s1 s2 p1 p2,
  0 <= n -> 0 < d ->
  let rows := pr ++ RF f :: po in
  let err := error_length (n, d) in
  let Sp := rows_len pr in
  Proofs.TwoPieceCut.sc_ok (name, rows) ->
  NoDup (map key_of (frags_of rows)) ->
  Sp + 3 * err <= k ->
  k + 3 * err <= Sp + f_len f ->
  rows_len (removelast rows) < E -> d * (rows_len rows - E) < n ->
  exists rs ra rb,
    remap_to_input repaired g prefix (n, d) [(name, rows)]
       [(p1, [RF (mkFrag (-1) name 1 k s1 [])]); (p2, [RF (mkFrag (-1) name (k+1) E s2 [])])] = Ok rs
    /\ b_cuts (rs_b rs) = 1 /\ rs_left rs = []
    /\ mapM (get_ovr (b_store (rs_b rs))) (b_added (rs_b rs)) = Ok [ra; rb]
    /\ map Proofs.TwoPieceCut.erase_id (to_scaffold_rows ra)
       = Proofs.TwoPieceCut.orient s1 (map Proofs.TwoPieceCut.erase_id pr ++ [RF (Proofs.TwoPieceCut.cut_left f (k - Sp))])
    /\ map Proofs.TwoPieceCut.erase_id (to_scaffold_rows rb)
       = Proofs.TwoPieceCut.orient s2 (RF (Proofs.TwoPieceCut.cut_right f (k - Sp)) :: map Proofs.TwoPieceCut.erase_id po)
    /\ (o_name ra = name /\ o_orig ra = Some p1 /\ o_start ra = 1 /\ o_end ra = k)
    /\ (o_name rb = name /\ o_orig rb = Some p2 /\ o_start rb = k+1 /\ o_end rb = rows_len rows).
Proof. exact Proofs.TwoPieceCut.two_piece_cut. Qed.
Print Assumptions C02_two_piece_cut.

(* non-vacuity: texel 7/2, a reverse-strand contig between gaps cut at 60, the
   first piece presented reversed -- obtained by applying the theorem *)
Theorem C02_two_piece_cut_instance : Proofs.TwoPieceCut.instance_statement.
Proof. exact Proofs.TwoPieceCut.two_piece_cut_instance_by_theorem. Qed.
Print Assumptions C02_two_piece_cut_instance.

(* the margin of three error lengths is sharp: one base less on either side and
   the contig goes whole to one piece, no cut is made (by computation) *)
Theorem C02_margin_sharp_left :
  rows_len Proofs.TwoPieceCut.sh_pre + 3 * error_length (7, 2) = 31 + 1
  /\ 31 + 3 * error_length (7, 2) <= rows_len Proofs.TwoPieceCut.sh_pre + f_len Proofs.TwoPieceCut.sh_f
  /\ exists rs ra rb,
    remap_to_input repaired Proofs.TwoPieceCut.ex_dg (s "SUPER_") (7, 2)
       [(s "scaffold_1", Proofs.TwoPieceCut.sh_pre ++ RF Proofs.TwoPieceCut.sh_f :: Proofs.TwoPieceCut.sh_post)]
       (Proofs.TwoPieceCut.ex_ptx 31 150 1 1) = Ok rs
    /\ b_cuts (rs_b rs) = 0
    /\ mapM (get_ovr (b_store (rs_b rs))) (b_added (rs_b rs)) = Ok [ra; rb]
    /\ map Proofs.TwoPieceCut.erase_id (to_scaffold_rows ra) = [Proofs.TwoPieceCut.ex_F "ctg1" 1 20 1]
    /\ map Proofs.TwoPieceCut.erase_id (to_scaffold_rows rb)
       = [Proofs.TwoPieceCut.ex_F "ctg2" 101 200 1; Proofs.TwoPieceCut.ex_F "ctg3" 1 30 1].
Proof. exact Proofs.TwoPieceCut.margin_sharp_left. Qed.
Print Assumptions C02_margin_sharp_left.

(* error length = 1 + floor(bp per texel): strictly above the texel size, by at most one *)
Theorem C02_error_length_spec : forall n d, 0 <= n -> 0 < d ->
  d * (error_length (n, d) - 1) <= n < d * error_length (n, d).
Proof. exact error_length_spec. Qed.
Print Assumptions C02_error_length_spec.

(* a cut trims the first row of a result exactly to the bait start: the result
   then starts at the bait start; a forward contig loses its first bases, a
   reverse (or unstranded) contig its last bases *)
Theorem C02_trim_first_exact : forall r f t new r',
  o_rows r = RF f :: t -> t <> [] ->
  (forall g, last_opt (o_rows r) = Some (RF g) -> f_id g <> f_id f) ->
  0 < start_overhang r ->
  trim_fragment r f false true = Ok (new, r') ->
  o_start r' = f_start (o_bait r)
  /\ o_end r' = o_end r
  /\ f_len new = f_len f - start_overhang r
  /\ (if f_strand f =? 1 then f_start new = f_start f + start_overhang r /\ f_end new = f_end f
      else f_end new = f_end f - start_overhang r /\ f_start new = f_start f)
  /\ o_rows r' = RF new :: t.
Proof. exact trim_first_exact. Qed.
Print Assumptions C02_trim_first_exact.

Theorem C02_trim_last_exact : forall r f t new r',
  o_rows r = t ++ [RF f] -> t <> [] ->
  (forall g, hd_error (o_rows r) = Some (RF g) -> f_id g <> f_id f) ->
  0 < end_overhang r ->
  trim_fragment r f true false = Ok (new, r') ->
  o_end r' = f_end (o_bait r)
  /\ o_start r' = o_start r
  /\ f_len new = f_len f - end_overhang r
  /\ (if f_strand f =? 1 then f_end new = f_end f - end_overhang r /\ f_start new = f_start f
      else f_start new = f_start f + end_overhang r /\ f_end new = f_end f)
  /\ o_rows r' = t ++ [RF new].
Proof. exact trim_last_exact. Qed.
Print Assumptions C02_trim_last_exact.

(* the first / last piece keeps the outer contig end *)
Theorem C02_trim_first_kept : forall r f t new r',
  o_rows r = RF f :: t -> t <> [] -> (forall g, last_opt (o_rows r) = Some (RF g) -> f_id g <> f_id f) ->
  trim_fragment r f true true = Ok (new, r') ->
  f_start new = f_start f /\ f_end new = f_end f /\ o_start r' = o_start r /\ o_end r' = o_end r.
Proof. exact trim_first_kept. Qed.
Print Assumptions C02_trim_first_kept.

(* the order in which the pieces of a cut contig are visited is the order of
   the coordinates the trimmed copies will actually have *)
Theorem C02_start_if_trimmed_agrees : forall r f t new r' st,
  o_rows r = RF f :: t -> t <> [] ->
  (forall g, last_opt (o_rows r) = Some (RF g) -> f_id g <> f_id f) ->
  f_strand f = 1 -> 0 < start_overhang r ->
  fragment_start_if_trimmed r f = Ok st -> trim_fragment r f false true = Ok (new, r') ->
  f_start new = st.
Proof. exact start_if_trimmed_agrees. Qed.
Print Assumptions C02_start_if_trimmed_agrees.
Theorem C02_start_if_trimmed_agrees_rev : forall r f t new r' st,
  o_rows r = t ++ [RF f] -> t <> [] ->
  (forall g, hd_error (o_rows r) = Some (RF g) -> f_id g <> f_id f) ->
  f_strand f <> 1 -> 0 < end_overhang r ->
  fragment_start_if_trimmed r f = Ok st -> trim_fragment r f true false = Ok (new, r') ->
  f_start new = st.
Proof. exact start_if_trimmed_agrees_rev. Qed.
Print Assumptions C02_start_if_trimmed_agrees_rev.

(* the keep-flag order of the pinned commit fails on every cut of a
   reverse-strand contig; the repaired order cuts it at the bait boundary
   (repaired by a fix: commit) *)
Theorem C02_legacy_refuted :
  exists (b : bstate) (k : fkey), cut_fragments (mkCfg false true true true true) b k = Err ValueError
    /\ exists b', cut_fragments repaired b k = Ok b' /\ b_cuts b' = b_cuts b + 1.
Proof. exact legacy_keep_flags_refuted. Qed.
Print Assumptions C02_legacy_refuted.

(* ========================================================================
   THE MAIN CLAUSE, for EVERY map whose baits are pairwise disjoint -- in
   particular every edit script PretextView can produce, whatever the number
   of cuts, the order, orientation and grouping of the pieces -- and every
   configuration: whenever remapping completes, the result stored for a bait
   (piece) satisfies the C18 invariant against its source scaffold (its rows
   are ONE contiguous run of the source scaffold's rows, collinear, with the
   input's internal gaps, only the terminal contigs possibly shortened,
   covering exactly o_start .. o_end) AND still holds every contig base of the
   source that lies at least 3 error lengths inside the bait; a bait for which
   no result is stored has no such base.  (Orientation input x piece:
   to_scaffold_rows reverses exactly the pieces whose bait is on the minus
   strand, C14.)  What is NOT proved here is that remapping completes on every
   PretextView script (decided by the oracle on every run). *)
From Tola Require Proofs.CoreKept Proofs.CoreKeptDeepCut.
Theorem C02_core_kept : forall c g prefix bpt input pretext rs,
  0 <= fst bpt -> 0 < snd bpt ->
  Forall (fun isc => Model.Lookup.pos_rows (snd isc)) input ->
  NoDup (map key_of (Model.RemapSpec.in_frags input)) ->
  Forall (fun b => 1 <= f_start b <= f_end b) (Proofs.CoreKept.baits_of pretext) ->
  Proofs.CoreKept.disjoint_baits (Proofs.CoreKept.baits_of pretext) ->
  remap_to_input c g prefix bpt input pretext = Ok rs ->
  let err := error_length bpt in
  (forall r, In r (b_store (rs_b rs)) ->
     exists src, In (f_name (o_bait r), src) (number_input input 0)
                 /\ In (o_bait r) (Proofs.CoreKept.baits_of pretext)
                 /\ Model.OvrSpec.Inv src r /\ Proofs.CoreKept.core_kept err src r)
  /\ (forall bait src, In bait (Proofs.CoreKept.baits_of pretext) ->
        In (f_name bait, src) (number_input input 0) ->
        (forall r, In r (b_store (rs_b rs)) -> o_bait r <> bait) ->
        forall x, Proofs.CoreKept.in_core err bait x -> ~ Proofs.CoreKept.contig_base src x).
Proof. exact Proofs.CoreKept.core_kept_end_to_end. Qed.
Print Assumptions C02_core_kept.

(* THE LAST CLAUSE in general: two abutting baits of one input scaffold and a
   contig overlapping each of them in at least 3 error lengths: both results
   exist, the first ends exactly at the boundary with the contig's near part
   as its last row, the second starts exactly after it with the far part as
   its first row -- the contig is split exactly at the position the Pretext
   coordinate designates, whatever else the map contains (other cuts of the
   same contig included). *)
Theorem C02_deep_cut_exact : forall g prefix bpt input pretext rs b1 b2 src k f,
  0 <= fst bpt -> 0 < snd bpt ->
  Forall (fun isc => Model.Lookup.pos_rows (snd isc)) input ->
  NoDup (map key_of (Model.RemapSpec.in_frags input)) ->
  Forall (fun b => 1 <= f_start b <= f_end b) (Proofs.CoreKept.baits_of pretext) ->
  Proofs.CoreKept.disjoint_baits (Proofs.CoreKept.baits_of pretext) ->
  remap_to_input repaired g prefix bpt input pretext = Ok rs ->
  let err := error_length bpt in
  In b1 (Proofs.CoreKept.baits_of pretext) -> In b2 (Proofs.CoreKept.baits_of pretext) ->
  f_name b1 = f_name b2 -> f_end b1 + 1 = f_start b2 ->
  In (f_name b1, src) (number_input input 0) ->
  nth_error src k = Some (RF f) ->
  3 * err <= Z.min (f_end b1) (Model.Lookup.span_end src k) - Z.max (f_start b1) (Model.Lookup.span_start src k) + 1 ->
  3 * err <= Z.min (f_end b2) (Model.Lookup.span_end src k) - Z.max (f_start b2) (Model.Lookup.span_start src k) + 1 ->
  exists r1 r2 t1 f1 f2 t2 ls le,
    In r1 (b_store (rs_b rs)) /\ In r2 (b_store (rs_b rs))
    /\ o_bait r1 = b1 /\ o_bait r2 = b2
    /\ o_rows r1 = t1 ++ [RF f1] /\ o_rows r2 = RF f2 :: t2
    /\ o_end r1 = f_end b1 /\ o_start r2 = f_start b2
    /\ Model.OvrSpec.trimmed f f1 ls (Model.Lookup.span_end src k - f_end b1)
    /\ Model.OvrSpec.trimmed f f2 (f_start b2 - Model.Lookup.span_start src k) le.
Proof. exact Proofs.CoreKeptDeepCut.deep_cut_exact_repaired. Qed.
Print Assumptions C02_deep_cut_exact.

(* non-vacuity of both: scaffold A(100) -10- B(200, minus strand) -10- C(100) cut
   by the map 1..200 | 201..420 at a 1-bp texel (error length 2): the hypotheses
   hold, the run completes, B is cut exactly at scaffold coordinate 200 *)
Theorem C02_core_and_cut_instance :
  (Forall (fun isc => Model.Lookup.pos_rows (snd isc)) Proofs.CoreKeptDeepCut.DeepCutExample.input
   /\ NoDup (map key_of (Model.RemapSpec.in_frags Proofs.CoreKeptDeepCut.DeepCutExample.input))
   /\ Forall (fun b => 1 <= f_start b <= f_end b) (Proofs.CoreKept.baits_of Proofs.CoreKeptDeepCut.DeepCutExample.pretext)
   /\ Proofs.CoreKept.disjoint_baits (Proofs.CoreKept.baits_of Proofs.CoreKeptDeepCut.DeepCutExample.pretext)
   /\ exists rs, remap_to_input repaired Proofs.CoreKeptDeepCut.DeepCutExample.g10 (s "SUPER_") (1, 1)
                   Proofs.CoreKeptDeepCut.DeepCutExample.input Proofs.CoreKeptDeepCut.DeepCutExample.pretext = Ok rs).
Proof. exact Proofs.CoreKeptDeepCut.DeepCutExample.hyps. Qed.
Print Assumptions C02_core_and_cut_instance.

(* ========================================================================
   THE FIRST CLAUSE: "for every edit script PretextView can produce remapping
   completes without error".  Maps that TILE every scaffold they show: the
   baits naming one input scaffold, in ascending order, cover 1..E without hole
   or overlap and -- when the scaffold is shown in more than one piece -- every
   piece is at least two texels long; the pieces in ANY order, orientation and
   grouping into Pretext scaffolds; any subset of scaffolds absent; texel size
   n/d >= 1 bp; untagged baits; input with distinct scaffold names, distinct
   contigs, every row >= 1 bp, scaffolds beginning and ending with a contig,
   contigs on strand +1, -1 or 0 and untagged.  Then remap_to_input returns Ok:
   no lookup fails, the "while multi" loop ends, every contig shared by several
   pieces is cut into abutting parts that pass the QC, and re-adding what no
   bait found succeeds.  With C02_core_kept, C02_deep_cut_exact and the C18
   pipeline invariant this is the property's statement for the remapping stage
   of every PretextView-model edit script (the two-texel hypothesis is used: with
   pieces of one texel about 3% of generated scripts end in the QC error). *)
From Tola Require Proofs.Completion.
Theorem C02_completion : forall g prefix n d input pretext,
  0 < d -> d <= n ->
  Forall Proofs.Completion.input_ok input ->
  NoDup (map fst input) ->
  NoDup (map key_of (Model.RemapSpec.in_frags input)) ->
  Forall (fun f => f_tags f = []) (Model.RemapSpec.in_frags input) ->
  Forall (fun p => exists b t, snd p = RF b :: t) pretext ->
  Forall (fun b => f_tags b = [] /\ (f_strand b = 1 \/ f_strand b = -1)
                   /\ In (f_name b) (map fst input)) (Proofs.CoreKept.baits_of pretext) ->
  Forall (Proofs.Completion.scaffold_tiled n d (Proofs.CoreKept.baits_of pretext)) input ->
  exists rs, remap_to_input repaired g prefix (n, d) input pretext = Ok rs.
Proof. exact Proofs.Completion.completion_of_tiling_maps. Qed.
Print Assumptions C02_completion.

(* the hypothesis "input contigs untagged" was FORCED BY THE PROOF: without it the
   statement is false -- a tagged input contig that no bait finds (here: 1 bp beyond
   the last texel, carrying two chromosome-name tags) makes the re-adding step raise
   TaggingError (reproduced on /repo; DESIGN 13.5) *)
Theorem C02_completion_needs_untagged_input : ~ Proofs.Completion.completion_statement.
Proof. exact Proofs.Completion.completion_statement_refuted. Qed.
Print Assumptions C02_completion_needs_untagged_input.

(* non-vacuity: A(100,+) -10- B(300,-) -10- C(100,+), texel 3.5 bp, pieces
   1-200 | 201-350 | 351-520 shown out of order, two of them reversed, in two
   Pretext scaffolds; B spans all three pieces -- obtained by applying the theorem *)
Theorem C02_completion_instance :
  exists rs, remap_to_input repaired Proofs.Completion.ThreePieces.g10 (s "SUPER_") (7, 2)
               Proofs.Completion.ThreePieces.input Proofs.Completion.ThreePieces.pretext = Ok rs.
Proof. exact Proofs.Completion.three_piece_map_completes. Qed.
Print Assumptions C02_completion_instance.

(* ========================================================================
   THE PRETEXT-ORDER CLAUSE and the layout of the output, for EVERY map: the
   results that take part in the output are, in store order, a SUB-SEQUENCE of
   the baits of the map in file order (Pretext scaffolds in file order, baits
   in row order), and every fused output scaffold is the join -- join gap
   between consecutive pieces -- of the pieces carrying its key in that order,
   the left-over scaffolds last.  Hence two pieces that share a destination
   follow each other in Pretext order (pair form below). *)
From Tola Require Proofs.PretextOrder.
Theorem C02_pretext_order : forall g prefix bpt input pretext rs fused,
  remap_to_input repaired g prefix bpt input pretext = Ok rs ->
  fuse_all repaired g rs = Ok fused ->
  exists results,
    mapM (get_ovr (b_store (rs_b rs))) (b_added (rs_b rs)) = Ok results
    /\ Proofs.PretextOrder.subseq (map o_bait results) (Proofs.CoreKept.baits_of pretext)
    /\ let pieces := map piece_of_result results ++ map (fun sc => (sc, false)) (rs_left rs) in
       forall b, In b fused ->
         sc_rows b = Proofs.JoinGaps.join_rows g (map (fun p => sc_rows (fst p))
                       (filter (fun p => match sc_rows (fst p) with
                                         | [] => false
                                         | _ => fuse_key_eqb (Proofs.JoinGaps.piece_key repaired (fst p))
                                                             (Proofs.JoinGaps.piece_key repaired b)
                                         end) pieces)).
Proof. exact Proofs.PretextOrder.pretext_order. Qed.
Print Assumptions C02_pretext_order.

Theorem C02_pretext_order_pairs : forall g prefix bpt input pretext rs fused l1 id1 l2 id2 l3 r1 r2,
  remap_to_input repaired g prefix bpt input pretext = Ok rs ->
  fuse_all repaired g rs = Ok fused ->
  b_added (rs_b rs) = l1 ++ id1 :: l2 ++ id2 :: l3 ->
  get_ovr (b_store (rs_b rs)) id1 = Ok r1 ->
  get_ovr (b_store (rs_b rs)) id2 = Ok r2 ->
  o_rows r1 <> [] -> o_rows r2 <> [] ->
  Proofs.PretextOrder.result_key r1 = Proofs.PretextOrder.result_key r2 ->
  exists results b,
    mapM (get_ovr (b_store (rs_b rs))) (b_added (rs_b rs)) = Ok results
    /\ In b fused /\ Proofs.JoinGaps.piece_key repaired b = Proofs.PretextOrder.result_key r1
    /\ (exists pre mid post,
          sc_rows b = pre ++ to_scaffold_rows r1 ++ mid ++ to_scaffold_rows r2 ++ post)
    /\ (exists p1 p2 p3,
          map o_bait results = p1 ++ o_bait r1 :: p2 ++ o_bait r2 :: p3
          /\ length p1 = length l1 /\ length p2 = length l2)
    /\ Proofs.PretextOrder.subseq (map o_bait results) (Proofs.CoreKept.baits_of pretext)
    /\ (exists q1 q2 q3, Proofs.CoreKept.baits_of pretext = q1 ++ o_bait r1 :: q2 ++ o_bait r2 :: q3).
Proof. exact Proofs.PretextOrder.pretext_order_pairs. Qed.
Print Assumptions C02_pretext_order_pairs.

(* ========================================================================
   THE CAPSTONE: ONE statement about the FINAL output of [remap] -- the
   renamed, sorted assemblies that are written -- for every untagged map that
   tiles the scaffolds it shows (the hypotheses of C02_completion; pieces in
   any order / orientation / grouping, any texel size >= 1 bp, scaffolds absent
   at will): the WHOLE pipeline completes (remapping, fusion, naming, sorting,
   statistics), and every piece with a contig base in its core has a result
   satisfying the C18 invariant against its source scaffold (one contiguous
   collinear run, the input's internal gaps) and core_kept (every contig base
   >= 3 error lengths inside the piece), whose rows -- reversed and
   complemented exactly when the piece is on the minus strand
   (to_scaffold_rows) -- sit as ONE contiguous block in a scaffold of an output
   assembly.  Composes C02_completion, C02_core_kept, C09_routing_end_to_end
   and the totality of the rest of the pipeline (Proofs/EndToEndC02Total.v).
   One hypothesis was FORCED BY THE PROOF: input contigs on strand +1 or -1
   (an unstranded input contig makes make_stats raise; refuted below). *)
From Tola Require Proofs.EndToEndC02.
Theorem C02_end_to_end : forall g prefix n d input pretext,
  0 < d -> d <= n ->
  Forall Proofs.Completion.input_ok input ->
  NoDup (map fst input) ->
  NoDup (map key_of (Model.RemapSpec.in_frags input)) ->
  Forall (fun f => f_tags f = []) (Model.RemapSpec.in_frags input) ->
  Forall (fun f => f_strand f = 1 \/ f_strand f = -1) (Model.RemapSpec.in_frags input) ->
  Forall (fun p => exists b t, snd p = RF b :: t) pretext ->
  Forall (fun b => f_tags b = [] /\ (f_strand b = 1 \/ f_strand b = -1)
                   /\ In (f_name b) (map fst input)) (Proofs.CoreKept.baits_of pretext) ->
  Forall (Proofs.Completion.scaffold_tiled n d (Proofs.CoreKept.baits_of pretext)) input ->
  exists rs o,
    remap_to_input repaired g prefix (n, d) input pretext = Ok rs
    /\ remap repaired g prefix (n, d) input pretext = Ok o
    /\ let err := error_length (n, d) in
       forall bait src x,
         In bait (Proofs.CoreKept.baits_of pretext) ->
         In (f_name bait, src) (number_input input 0) ->
         Proofs.CoreKept.in_core err bait x -> Proofs.CoreKept.contig_base src x ->
         exists r a sc pre suf,
           In r (b_store (rs_b rs)) /\ o_bait r = bait
           /\ Model.OvrSpec.Inv src r /\ Proofs.CoreKept.core_kept err src r
           /\ In a (out_asms o) /\ In sc (oa_scaffolds a)
           /\ sc_rows sc = pre ++ to_scaffold_rows r ++ suf.
Proof. exact Proofs.EndToEndC02.c02_end_to_end. Qed.
Print Assumptions C02_end_to_end.

(* ... and the Pretext-order clause on the final output: two pieces of ONE
   Pretext scaffold, the first before the second in its rows, both with a
   contig base in their cores, lie in the SAME output scaffold in that order *)
Theorem C02_end_to_end_order : forall g prefix n d input pretext,
  0 < d -> d <= n ->
  Forall Proofs.Completion.input_ok input ->
  NoDup (map fst input) ->
  NoDup (map key_of (Model.RemapSpec.in_frags input)) ->
  Forall (fun f => f_tags f = []) (Model.RemapSpec.in_frags input) ->
  Forall (fun f => f_strand f = 1 \/ f_strand f = -1) (Model.RemapSpec.in_frags input) ->
  Forall (fun p => exists b t, snd p = RF b :: t) pretext ->
  Forall (fun b => f_tags b = [] /\ (f_strand b = 1 \/ f_strand b = -1)
                   /\ In (f_name b) (map fst input)) (Proofs.CoreKept.baits_of pretext) ->
  Forall (Proofs.Completion.scaffold_tiled n d (Proofs.CoreKept.baits_of pretext)) input ->
  exists rs o,
    remap_to_input repaired g prefix (n, d) input pretext = Ok rs
    /\ remap repaired g prefix (n, d) input pretext = Ok o
    /\ let err := error_length (n, d) in
       forall pname prows l1 b1 l2 b2 l3 src1 x1 src2 x2,
         In (pname, prows) pretext ->
         frags_of prows = l1 ++ b1 :: l2 ++ b2 :: l3 ->
         In (f_name b1, src1) (number_input input 0) ->
         Proofs.CoreKept.in_core err b1 x1 -> Proofs.CoreKept.contig_base src1 x1 ->
         In (f_name b2, src2) (number_input input 0) ->
         Proofs.CoreKept.in_core err b2 x2 -> Proofs.CoreKept.contig_base src2 x2 ->
         exists r1 r2 a sc pre mid post,
           In r1 (b_store (rs_b rs)) /\ o_bait r1 = b1
           /\ Model.OvrSpec.Inv src1 r1 /\ Proofs.CoreKept.core_kept err src1 r1
           /\ In r2 (b_store (rs_b rs)) /\ o_bait r2 = b2
           /\ Model.OvrSpec.Inv src2 r2 /\ Proofs.CoreKept.core_kept err src2 r2
           /\ In a (out_asms o) /\ In sc (oa_scaffolds a)
           /\ sc_rows sc = pre ++ to_scaffold_rows r1 ++ mid ++ to_scaffold_rows r2 ++ post.
Proof. exact Proofs.EndToEndC02.c02_end_to_end_order. Qed.
Print Assumptions C02_end_to_end_order.

(* without "input contigs stranded" the capstone is false: scaffold [cA(strand 0);
   gap; cB(+)] shown whole -- remap_to_input completes, make_stats raises
   ValueError in junction_tuple on the INPUT assembly (DESIGN 13.5) *)
Theorem C02_end_to_end_needs_stranded_input : ~ Proofs.EndToEndC02.c02_end_to_end_original.
Proof. exact Proofs.EndToEndC02.c02_end_to_end_original_refuted. Qed.
Print Assumptions C02_end_to_end_needs_stranded_input.

(* non-vacuity: the three-piece map of C02_completion_instance run through the capstone *)
Theorem C02_end_to_end_instance :
  exists o, remap repaired Proofs.Completion.ThreePieces.g10 (s "SUPER_") (7, 2)
              Proofs.Completion.ThreePieces.input Proofs.Completion.ThreePieces.pretext = Ok o.
Proof. exact Proofs.EndToEndC02.c02_end_to_end_instance. Qed.
Print Assumptions C02_end_to_end_instance.

(* ========================================================================
   PAINTED MAPS (what a curator really produces: scaffolds painted as
   chromosomes).  C02_completion for tiling maps whose baits are untagged or
   tagged Painted, and the WHOLE pipeline (fusion, chromosome naming by size,
   sorting, statistics) completes as well under three further hypotheses,
   each shown necessary by a computed counterexample: input contigs stranded,
   painted Pretext scaffolds have a non-empty name, no bait name has the shape
   <hap>_<anything>_<digits> (13.5).  No bound on the number of painted
   scaffolds, no condition on input contig names, Pretext scaffold names need
   not be distinct. *)
From Tola Require Proofs.CompletionPainted.
Theorem C02_completion_painted : forall g prefix n d input pretext,
  0 < d -> d <= n ->
  Forall Proofs.Completion.input_ok input -> NoDup (map fst input) ->
  NoDup (map key_of (Model.RemapSpec.in_frags input)) ->
  Forall (fun f => f_tags f = []) (Model.RemapSpec.in_frags input) ->
  Forall (fun p => exists b t, snd p = RF b :: t) pretext ->
  Forall (fun b => (f_tags b = [] \/ f_tags b = [s "Painted"]) /\ (f_strand b = 1 \/ f_strand b = -1)
                   /\ In (f_name b) (map fst input)) (Proofs.CoreKept.baits_of pretext) ->
  Forall (Proofs.Completion.scaffold_tiled n d (Proofs.CoreKept.baits_of pretext)) input ->
  exists rs, remap_to_input repaired g prefix (n, d) input pretext = Ok rs.
Proof. exact Proofs.CompletionPainted.completion_of_painted_tiling_maps. Qed.
Print Assumptions C02_completion_painted.

Theorem C02_painted_maps_complete : forall g prefix n d input pretext,
  0 < d -> d <= n ->
  Forall Proofs.Completion.input_ok input -> NoDup (map fst input) ->
  NoDup (map key_of (Model.RemapSpec.in_frags input)) ->
  Forall (fun f => f_tags f = []) (Model.RemapSpec.in_frags input) ->
  Forall (fun p => exists b t, snd p = RF b :: t) pretext ->
  Forall (fun b => (f_tags b = [] \/ f_tags b = [s "Painted"]) /\ (f_strand b = 1 \/ f_strand b = -1)
                   /\ In (f_name b) (map fst input)) (Proofs.CoreKept.baits_of pretext) ->
  Forall (Proofs.Completion.scaffold_tiled n d (Proofs.CoreKept.baits_of pretext)) input ->
  Forall (fun f => f_strand f = 1 \/ f_strand f = -1) (Model.RemapSpec.in_frags input) ->
  Forall (fun p => Proofs.UniqueNames.painted_b p = true -> fst p <> []) pretext ->
  Proofs.UniqueNames.no_haplotypes pretext ->
  exists o, remap repaired g prefix (n, d) input pretext = Ok o.
Proof. exact Proofs.CompletionPainted.painted_tiling_maps_complete. Qed.
Print Assumptions C02_painted_maps_complete.

Theorem C02_painted_needs_stranded_contigs : ~ Proofs.CompletionPainted.painted_statement false true true.
Proof. exact Proofs.CompletionPainted.painted_tiling_maps_complete_needs_stranded_contigs. Qed.
Theorem C02_painted_needs_named_scaffolds : ~ Proofs.CompletionPainted.painted_statement true false true.
Proof. exact Proofs.CompletionPainted.painted_tiling_maps_complete_needs_named_painted_scaffolds. Qed.
Theorem C02_painted_needs_no_haplotype_names : ~ Proofs.CompletionPainted.painted_statement true true false.
Proof. exact Proofs.CompletionPainted.painted_tiling_maps_complete_needs_no_haplotypes. Qed.
Print Assumptions C02_painted_needs_stranded_contigs.
Print Assumptions C02_painted_needs_named_scaffolds.
Print Assumptions C02_painted_needs_no_haplotype_names.

(* ========================================================================
   THE CAPSTONE FOR PAINTED MAPS (Proofs/EndToEndC02Painted*.v): the same ONE
   statement about the final output of [remap] for tiling maps whose baits are
   untagged or Painted (hypotheses of C02_painted_maps_complete): the whole
   pipeline completes and every piece with a contig base in its core lands,
   whole and oriented, as one block in a scaffold of an output assembly; two
   such pieces of one Pretext scaffold lie in the same output scaffold in
   Pretext order. *)
From Tola Require Proofs.EndToEndC02Painted Proofs.EndToEndC02PaintedRank.
Theorem C02_end_to_end_painted : forall g prefix n d input pretext,
  0 < d -> d <= n ->
  Forall Proofs.Completion.input_ok input -> NoDup (map fst input) ->
  NoDup (map key_of (Model.RemapSpec.in_frags input)) ->
  Forall (fun f => f_tags f = []) (Model.RemapSpec.in_frags input) ->
  Forall (fun p => exists b t, snd p = RF b :: t) pretext ->
  Forall (fun b => (f_tags b = [] \/ f_tags b = [s "Painted"]) /\ (f_strand b = 1 \/ f_strand b = -1)
                   /\ In (f_name b) (map fst input)) (Proofs.CoreKept.baits_of pretext) ->
  Forall (Proofs.Completion.scaffold_tiled n d (Proofs.CoreKept.baits_of pretext)) input ->
  Forall (fun f => f_strand f = 1 \/ f_strand f = -1) (Model.RemapSpec.in_frags input) ->
  Forall (fun p => Proofs.UniqueNames.painted_b p = true -> fst p <> []) pretext ->
  Proofs.UniqueNames.no_haplotypes pretext ->
  exists rs o,
    remap_to_input repaired g prefix (n, d) input pretext = Ok rs
    /\ remap repaired g prefix (n, d) input pretext = Ok o
    /\ let err := error_length (n, d) in
       forall bait src x,
         In bait (Proofs.CoreKept.baits_of pretext) ->
         In (f_name bait, src) (number_input input 0) ->
         Proofs.CoreKept.in_core err bait x -> Proofs.CoreKept.contig_base src x ->
         exists r a sc pre suf,
           In r (b_store (rs_b rs)) /\ o_bait r = bait
           /\ Model.OvrSpec.Inv src r /\ Proofs.CoreKept.core_kept err src r
           /\ In a (out_asms o) /\ In sc (oa_scaffolds a)
           /\ sc_rows sc = pre ++ to_scaffold_rows r ++ suf.
Proof. exact Proofs.EndToEndC02Painted.c02_end_to_end_painted. Qed.
Print Assumptions C02_end_to_end_painted.

Theorem C02_end_to_end_painted_order : forall g prefix n d input pretext,
  0 < d -> d <= n ->
  Forall Proofs.Completion.input_ok input -> NoDup (map fst input) ->
  NoDup (map key_of (Model.RemapSpec.in_frags input)) ->
  Forall (fun f => f_tags f = []) (Model.RemapSpec.in_frags input) ->
  Forall (fun p => exists b t, snd p = RF b :: t) pretext ->
  Forall (fun b => (f_tags b = [] \/ f_tags b = [s "Painted"]) /\ (f_strand b = 1 \/ f_strand b = -1)
                   /\ In (f_name b) (map fst input)) (Proofs.CoreKept.baits_of pretext) ->
  Forall (Proofs.Completion.scaffold_tiled n d (Proofs.CoreKept.baits_of pretext)) input ->
  Forall (fun f => f_strand f = 1 \/ f_strand f = -1) (Model.RemapSpec.in_frags input) ->
  Forall (fun p => Proofs.UniqueNames.painted_b p = true -> fst p <> []) pretext ->
  Proofs.UniqueNames.no_haplotypes pretext ->
  exists rs o,
    remap_to_input repaired g prefix (n, d) input pretext = Ok rs
    /\ remap repaired g prefix (n, d) input pretext = Ok o
    /\ let err := error_length (n, d) in
       forall pname prows l1 b1 l2 b2 l3 src1 x1 src2 x2,
         In (pname, prows) pretext ->
         frags_of prows = l1 ++ b1 :: l2 ++ b2 :: l3 ->
         In (f_name b1, src1) (number_input input 0) ->
         Proofs.CoreKept.in_core err b1 x1 -> Proofs.CoreKept.contig_base src1 x1 ->
         In (f_name b2, src2) (number_input input 0) ->
         Proofs.CoreKept.in_core err b2 x2 -> Proofs.CoreKept.contig_base src2 x2 ->
         exists r1 r2 a sc pre mid post,
           In r1 (b_store (rs_b rs)) /\ o_bait r1 = b1
           /\ Model.OvrSpec.Inv src1 r1 /\ Proofs.CoreKept.core_kept err src1 r1
           /\ In r2 (b_store (rs_b rs)) /\ o_bait r2 = b2
           /\ Model.OvrSpec.Inv src2 r2 /\ Proofs.CoreKept.core_kept err src2 r2
           /\ In a (out_asms o) /\ In sc (oa_scaffolds a)
           /\ sc_rows sc = pre ++ to_scaffold_rows r1 ++ mid ++ to_scaffold_rows r2 ++ post.
Proof. exact Proofs.EndToEndC02Painted.c02_end_to_end_painted_order. Qed.
Print Assumptions C02_end_to_end_painted_order.

(* ... and WHERE a painted piece lands: in a rank-1 scaffold made from its own
   Pretext scaffold, named <prefix><k>[_unloc_<m>] (with the hypotheses of
   C10_chromosome_numbers).  "A painted Pretext scaffold is not named like an
   input scaffold" was FORCED BY THE PROOF (an unpainted Pretext scaffold showing
   input scaffold Xa whole keeps the name Xa at rank 3; a later painted Pretext
   scaffold that is itself called Xa fuses under the same key and inherits rank 3) *)
Theorem C02_end_to_end_painted_named : forall g prefix n d input pretext,
  0 < d -> d <= n ->
  Forall Proofs.Completion.input_ok input -> NoDup (map fst input) ->
  NoDup (map key_of (Model.RemapSpec.in_frags input)) ->
  Forall (fun f => f_tags f = []) (Model.RemapSpec.in_frags input) ->
  Forall (fun p => exists b t, snd p = RF b :: t) pretext ->
  Forall (fun b => (f_tags b = [] \/ f_tags b = [s "Painted"]) /\ (f_strand b = 1 \/ f_strand b = -1)
                   /\ In (f_name b) (map fst input)) (Proofs.CoreKept.baits_of pretext) ->
  Forall (Proofs.Completion.scaffold_tiled n d (Proofs.CoreKept.baits_of pretext)) input ->
  Forall (fun f => f_strand f = 1 \/ f_strand f = -1) (Model.RemapSpec.in_frags input) ->
  Forall (fun p => Proofs.UniqueNames.painted_b p = true -> fst p <> []) pretext ->
  Proofs.UniqueNames.no_haplotypes pretext ->
  Forall (fun p => Proofs.UniqueNames.painted_b p = true -> ~ In (fst p) (map fst input)) pretext ->
  Proofs.UniqueNames.input_namespace_ok prefix input pretext ->
  (length (filter Proofs.UniqueNames.painted_b pretext) <= 191)%nat ->
  Proofs.UniqueNames.no_haplotypes input ->
  NoDup (map fst pretext) ->
  exists rs o,
    remap_to_input repaired g prefix (n, d) input pretext = Ok rs
    /\ remap repaired g prefix (n, d) input pretext = Ok o
    /\ let err := error_length (n, d) in
       forall bait src x,
         In bait (Proofs.CoreKept.baits_of pretext) ->
         In (f_name bait, src) (number_input input 0) ->
         Proofs.CoreKept.in_core err bait x -> Proofs.CoreKept.contig_base src x ->
         f_tags bait = [s "Painted"] ->
         exists r a sc pre suf,
           In r (b_store (rs_b rs)) /\ o_bait r = bait
           /\ Model.OvrSpec.Inv src r /\ Proofs.CoreKept.core_kept err src r
           /\ In a (out_asms o) /\ In sc (oa_scaffolds a)
           /\ sc_rows sc = pre ++ to_scaffold_rows r ++ suf
           /\ sc_rank sc = 1
           /\ (exists pname prows, In (pname, prows) pretext /\ In bait (frags_of prows)
                                   /\ sc_orig sc = Some pname)
           /\ exists k sfx, sc_name sc = prefix ++ Py.Dec.str_of_Z (Z.of_nat k + 1) ++ sfx
                            /\ Proofs.UniqueNames.unloc_sfx sfx = true.
Proof. exact Proofs.EndToEndC02PaintedRank.c02_end_to_end_painted_named. Qed.
Print Assumptions C02_end_to_end_painted_named.

Theorem C02_painted_rank_needs_fresh_names : ~ Proofs.EndToEndC02PaintedRank.painted_rank_statement false.
Proof. exact Proofs.EndToEndC02PaintedRank.painted_rank_needs_fresh_names. Qed.
Print Assumptions C02_painted_rank_needs_fresh_names.

(* ========================================================================
   TAGGED MAPS: the FIRST half of the pipeline (remap_to_input: lookups,
   labelling, overhang resolution, cuts, QC, renaming of haplotigs / unlocs,
   left-overs) completes on every TILING map whose tags are CONSISTENT per
   Pretext scaffold -- at most one chromosome-name tag, at most one haplotype
   tag, Primary only together with a haplotype tag, Unloc only in a painted
   scaffold; any of Painted / Target / Haplotig / Contaminant / FalseDuplicate /
   Singleton / Cut besides.  A decidable condition on the tags alone
   (Proofs.CompletionTagged.scaffold_tags_consistentb), each clause shown
   necessary by a computed run that ends in TaggingError / ValueError.  (The
   second half -- pairing chromosomes of several haplotypes -- legitimately
   refuses badly paired maps; for Painted maps see C02_painted_maps_complete.) *)
From Tola Require Proofs.CompletionTagged.
Theorem C02_completion_tagged : forall g prefix n d input pretext,
  0 < d -> d <= n ->
  Forall Proofs.Completion.input_ok input -> NoDup (map fst input) ->
  NoDup (map key_of (Model.RemapSpec.in_frags input)) ->
  Forall (fun f => f_tags f = []) (Model.RemapSpec.in_frags input) ->
  Forall (fun p => exists b t, snd p = RF b :: t) pretext ->
  Forall (fun b => (f_strand b = 1 \/ f_strand b = -1) /\ In (f_name b) (map fst input))
         (Proofs.CoreKept.baits_of pretext) ->
  Forall (fun p => Proofs.CompletionTagged.scaffold_tags_consistent (map f_tags (frags_of (snd p)))) pretext ->
  Forall (Proofs.Completion.scaffold_tiled n d (Proofs.CoreKept.baits_of pretext)) input ->
  exists rs, remap_to_input repaired g prefix (n, d) input pretext = Ok rs.
Proof. exact Proofs.CompletionTagged.completion_of_tagged_tiling_maps. Qed.
Print Assumptions C02_completion_tagged.

Theorem C02_tagged_needs_one_name_tag :
  ~ Proofs.CompletionTagged.tagged_statement
      (fun ls => Proofs.CompletionTagged.one_hap_tag (concat ls) /\ Proofs.CompletionTagged.primary_has_hap (concat ls)
                 /\ Proofs.CompletionTagged.unloc_is_painted ls).
Proof. exact Proofs.CompletionTagged.completion_tagged_needs_one_name_tag. Qed.
Theorem C02_tagged_needs_one_hap_tag :
  ~ Proofs.CompletionTagged.tagged_statement
      (fun ls => Proofs.CompletionTagged.one_name_tag (concat ls) /\ Proofs.CompletionTagged.primary_has_hap (concat ls)
                 /\ Proofs.CompletionTagged.unloc_is_painted ls).
Proof. exact Proofs.CompletionTagged.completion_tagged_needs_one_hap_tag. Qed.
Theorem C02_tagged_needs_primary_has_hap :
  ~ Proofs.CompletionTagged.tagged_statement
      (fun ls => Proofs.CompletionTagged.one_name_tag (concat ls) /\ Proofs.CompletionTagged.one_hap_tag (concat ls)
                 /\ Proofs.CompletionTagged.unloc_is_painted ls).
Proof. exact Proofs.CompletionTagged.completion_tagged_needs_primary_has_hap. Qed.
Theorem C02_tagged_needs_unloc_is_painted :
  ~ Proofs.CompletionTagged.tagged_statement
      (fun ls => Proofs.CompletionTagged.one_name_tag (concat ls) /\ Proofs.CompletionTagged.one_hap_tag (concat ls)
                 /\ Proofs.CompletionTagged.primary_has_hap (concat ls)).
Proof. exact Proofs.CompletionTagged.completion_tagged_needs_unloc_is_painted. Qed.
Print Assumptions C02_tagged_needs_one_name_tag.
Print Assumptions C02_tagged_needs_one_hap_tag.
Print Assumptions C02_tagged_needs_primary_has_hap.
Print Assumptions C02_tagged_needs_unloc_is_painted.

(* non-vacuity: a two-haplotype map -- Painted+HAP1+X, an Unloc piece, a reversed
   Haplotig piece, Painted+HAP2, a Contaminant piece, Painted+HAP1, one untagged
   scaffold -- meets every hypothesis; run through the theorem *)
Theorem C02_completion_tagged_instance :
  exists rs, remap_to_input repaired Proofs.CompletionTagged.TwoHaps.g10 (s "SUPER_") (7, 2)
               Proofs.CompletionTagged.TwoHaps.input Proofs.CompletionTagged.TwoHaps.pretext = Ok rs.
Proof. exact Proofs.CompletionTagged.two_haplotype_map_completes. Qed.
Print Assumptions C02_completion_tagged_instance.

(* ========================================================================
   THE LANDING CLAUSE FOR ANY TAGS (haplotypes, Unloc, Haplotig, Contaminant,
   name tags ...): on every map that tiles the scaffolds it shows, whenever the
   whole run completes, every piece with a contig base in its core has a result
   (C18 invariant, core_kept) whose rows sit as ONE contiguous block in a
   scaffold of an output assembly, carrying the result's tag and haplotype --
   the capstone's steps never look at tags.  Completion itself:
   C02_completion_tagged (first half), C02_painted_maps_complete (all of it). *)
From Tola Require Proofs.EndToEndC02.
Theorem C02_cores_land_any_tags : forall g prefix n d input pretext o,
  0 < d -> d <= n ->
  Forall Proofs.Completion.input_ok input -> NoDup (map fst input) ->
  NoDup (map key_of (Model.RemapSpec.in_frags input)) ->
  Forall (fun b => In (f_name b) (map fst input)) (Proofs.CoreKept.baits_of pretext) ->
  Forall (Proofs.Completion.scaffold_tiled n d (Proofs.CoreKept.baits_of pretext)) input ->
  remap repaired g prefix (n, d) input pretext = Ok o ->
  exists rs,
    remap_to_input repaired g prefix (n, d) input pretext = Ok rs
    /\ let err := error_length (n, d) in
       forall bait src x,
         In bait (Proofs.CoreKept.baits_of pretext) ->
         In (f_name bait, src) (number_input input 0) ->
         Proofs.CoreKept.in_core err bait x -> Proofs.CoreKept.contig_base src x ->
         exists r a sc pre suf,
           In r (b_store (rs_b rs)) /\ o_bait r = bait
           /\ Model.OvrSpec.Inv src r /\ Proofs.CoreKept.core_kept err src r
           /\ In a (out_asms o) /\ In sc (oa_scaffolds a)
           /\ sc_rows sc = pre ++ to_scaffold_rows r ++ suf
           /\ sc_tag sc = o_tag r /\ sc_hap sc = o_hap r.
Proof. exact Proofs.EndToEndC02.c02_cores_land_any_tags. Qed.
Print Assumptions C02_cores_land_any_tags.

(* ========================================================================
   TWO HAPLOTYPES, the WHOLE pipeline: on every tiling map painted and tagged
   as the curation discipline asks -- every bait of Pretext scaffold nm carries
   exactly [Painted; hap(nm)], the haplotypes alternate h1, h2, h1, h2, ... down
   the map (each H1 chromosome followed by its H2 homologue), h1 and h2 differ
   beyond letter case, scaffold names non-empty and pairwise different, every
   Pretext scaffold has a piece with a contig base in its core -- the whole of
   [remap] completes (the chromosome namer pairs the homologues and raises
   nothing).  The pairing is needed: HAP1, HAP1, HAP2 ends in ChrNamerError
   although the first half completes. *)
From Tola Require Proofs.CompletionTwoHaps.
Theorem C02_two_haplotype_maps_complete :
  forall g prefix n d input pretext h1 h2 (hapf : str -> str) k,
  0 < d -> d <= n ->
  Forall Proofs.Completion.input_ok input -> NoDup (map fst input) ->
  NoDup (map key_of (Model.RemapSpec.in_frags input)) ->
  Forall (fun f => f_tags f = []) (Model.RemapSpec.in_frags input) ->
  Forall (fun f => f_strand f = 1 \/ f_strand f = -1) (Model.RemapSpec.in_frags input) ->
  Forall (fun p => exists b t, snd p = RF b :: t) pretext ->
  Forall (fun b => (f_strand b = 1 \/ f_strand b = -1) /\ In (f_name b) (map fst input))
         (Proofs.CoreKept.baits_of pretext) ->
  Forall (Proofs.Completion.scaffold_tiled n d (Proofs.CoreKept.baits_of pretext)) input ->
  lower h1 <> lower h2 ->
  Proofs.CompletionTagged.is_hap_tag h1 = true -> Proofs.CompletionTagged.is_hap_tag h2 = true ->
  Proofs.CompletionTwoHaps.hap_baits hapf pretext ->
  map hapf (map fst pretext) = Proofs.CompletionTwoHapsGlue.alternating h1 h2 (S k) ->
  NoDup (map fst pretext) -> Forall (fun p => fst p <> []) pretext ->
  Forall (fun p => exists b src x, In b (frags_of (snd p)) /\ In (f_name b, src) (number_input input 0)
                     /\ Proofs.CoreKept.in_core (error_length (n, d)) b x /\ Proofs.CoreKept.contig_base src x) pretext ->
  exists o, remap repaired g prefix (n, d) input pretext = Ok o.
Proof. exact Proofs.CompletionTwoHaps.two_haplotype_maps_complete. Qed.
Print Assumptions C02_two_haplotype_maps_complete.

Theorem C02_two_haplotype_maps_need_pairing :
  (exists rs, remap_to_input repaired Proofs.CompletionTwoHaps.TwoHapEx.g10 (s "SUPER_") (2, 1)
                Proofs.CompletionTwoHaps.TwoHapEx.input3 Proofs.CompletionTwoHaps.TwoHapEx.pretext_bad = Ok rs)
  /\ remap repaired Proofs.CompletionTwoHaps.TwoHapEx.g10 (s "SUPER_") (2, 1)
       Proofs.CompletionTwoHaps.TwoHapEx.input3 Proofs.CompletionTwoHaps.TwoHapEx.pretext_bad = Err ChrNamerError.
Proof. exact Proofs.CompletionTwoHaps.two_haplotype_maps_need_pairing. Qed.
Print Assumptions C02_two_haplotype_maps_need_pairing.

Theorem C02_two_haplotype_instance :
  exists o, remap repaired Proofs.CompletionTwoHaps.TwoHapEx.g10 (s "SUPER_") (2, 1)
              Proofs.CompletionTwoHaps.TwoHapEx.input Proofs.CompletionTwoHaps.TwoHapEx.pretext_ok = Ok o.
Proof. exact Proofs.CompletionTwoHaps.two_pair_map_completes_by_theorem. Qed.
Print Assumptions C02_two_haplotype_instance.
