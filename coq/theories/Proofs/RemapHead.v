(* C01, first half of the pipeline: whenever remap_to_input completes, the
   fragments held by the overlap results partition the input contigs that were
   found ([Post]), and the left-over scaffolds hold exactly the input contigs
   that were not found.  No axioms; [qc_partition_ok] (the tiling test of
   cut_fragments, proved as RemapTail.qc_partition) is an explicit premise of
   [remap_head].

   The invariant is a balance maintained from the first lookup on, for a
   weight w on fragment keys:   sum of w over the rows of the results = sum
   over found entries (k, (f, ids)) of |ids| * w k,   together with: every row
   is an input row (same object), ids lists are sub-lists of b_added,
   |ids| >= 1, and k in b_multi <-> |ids| >= 2.  With w = [k covers (n, x)] it
   is the coverage equation ([Inv]); with w = 1 it counts fragments
   (RemapFinal.v).  [InvW] states it for a set of weights.

   For proofs about other properties of a run: [remap_to_input_stages],
   [one_pretext_spec], [one_bait_spec] invert the stages, and
   [discard_loop_rule] carries a property through the resolver loop. *)
From Tola Require Import Py.Base Py.Sort Model.Fragment Model.Scaffold Model.Lookup
  Model.OverlapResult Model.Namer Model.Remap Model.RemapSpec
  Proofs.BaseLemmas Proofs.Rows Proofs.Lookup Proofs.OverlapResult.
From Tola Require Proofs.Sort.
From Coq Require Import Lia ZifyBool Permutation.

Lemma bind_ok {A B} (r : res A) (f : A -> res B) b :
  bind r f = Ok b -> exists a, r = Ok a /\ f a = Ok b.
Proof. destruct r as [a|e]; cbn [bind]; [eauto | discriminate]. Qed.

Ltac bind_inv H x Hx :=
  apply bind_ok in H; destruct H as (x & Hx & H).

Fixpoint zsum {A} (g : A -> Z) (l : list A) : Z :=
  match l with [] => 0 | x :: t => g x + zsum g t end.

Lemma zsum_app {A} (g : A -> Z) a b : zsum g (a ++ b) = zsum g a + zsum g b.
Proof. induction a as [|x a IH]; cbn [app zsum]; lia. Qed.

Lemma zsum_ext {A} (g h : A -> Z) l :
  (forall x, In x l -> g x = h x) -> zsum g l = zsum h l.
Proof.
  induction l as [|x l IH]; intros H; cbn [zsum]; [reflexivity|].
  rewrite (H x) by (left; reflexivity). rewrite IH; [reflexivity|].
  intros y Hy. apply H. right; exact Hy.
Qed.

Lemma zsum_map {A B} (g : B -> Z) (h : A -> B) l : zsum g (map h l) = zsum (fun x => g (h x)) l.
Proof. induction l as [|x l IH]; cbn [map zsum]; lia. Qed.

Lemma zsum_perm {A} (g : A -> Z) l l' : Permutation l l' -> zsum g l = zsum g l'.
Proof. induction 1; cbn [zsum]; lia. Qed.

Lemma zsum_flat_map {A B} (g : B -> Z) (h : A -> list B) l :
  zsum g (flat_map h l) = zsum (fun x => zsum g (h x)) l.
Proof. induction l as [|x l IH]; cbn [flat_map zsum]; [reflexivity|]. rewrite zsum_app. lia. Qed.

Lemma zsum_filter {A} (g : A -> Z) (p : A -> bool) l :
  zsum g (filter p l) = zsum (fun x => if p x then g x else 0) l.
Proof.
  induction l as [|x l IH]; cbn [filter zsum]; [reflexivity|].
  destruct (p x); cbn [zsum]; lia.
Qed.

Lemma zsum_const_len {A} (l : list A) : zsum (fun _ => 1) l = Z.of_nat (length l).
Proof. induction l as [|x l IH]; cbn [zsum length]; lia. Qed.

Definition ck (k : fkey) (n : str) (x : Z) : bool :=
  let '(nm, st, en) := k in str_eqb nm n && (st <=? x) && (x <=? en).
Definition cvz (k : fkey) (n : str) (x : Z) : Z := if ck k n x then 1 else 0.
Definition cvf (n : str) (x : Z) (f : frag) : Z := cvz (key_of f) n x.

Lemma covers_ck f n x : covers f n x = ck (key_of f) n x.
Proof. reflexivity. Qed.

Lemma coverage_zsum l n x : Z.of_nat (coverage l n x) = zsum (cvf n x) l.
Proof.
  unfold coverage, cvf, cvz. induction l as [|f l IH]; cbn [filter zsum length]; [reflexivity|].
  rewrite covers_ck. destruct (ck (key_of f) n x); cbn [length]; lia.
Qed.

Lemma cvz_range k n x : 0 <= cvz k n x <= 1.
Proof. unfold cvz. destruct (ck k n x); lia. Qed.

Lemma In_stable_sort {A} (le : A -> A -> bool) l x : In x (stable_sort le l) <-> In x l.
Proof. apply Sort.In_stable_sort. Qed.

Lemma stable_sort_length {A} (le : A -> A -> bool) l : length (stable_sort le l) = length l.
Proof. apply Permutation_length, (Sort.stable_sort_perm (fun a : A => a) le). Qed.

Lemma In_combine_l' {A B} (l : list A) (l' : list B) x y : In (x, y) (combine l l') -> In x l.
Proof. apply in_combine_l. Qed.

Lemma In_py_slice {A} (l : list A) i j x : In x (py_slice l i j) -> In x l.
Proof.
  unfold py_slice. intros H.
  rewrite <- (firstn_skipn (Z.to_nat i) l). apply in_or_app. right.
  rewrite <- (firstn_skipn (Z.to_nat (j - i)) (skipn (Z.to_nat i) l)). apply in_or_app. left. exact H.
Qed.

Lemma remove_first_length l x : existsb (Z.eqb x) l = true ->
  S (length (remove_first Z.eqb x l)) = length l.
Proof.
  induction l as [|y l IH]; cbn [existsb remove_first length]; [discriminate|].
  destruct (x =? y) eqn:E; cbn [orb]; [reflexivity|].
  intros H. cbn [length]. f_equal. apply IH. exact H.
Qed.

Lemma remove_first_incl l x y : In y (remove_first Z.eqb x l) -> In y l.
Proof.
  induction l as [|z l IH]; cbn [remove_first]; [tauto|].
  destruct (x =? z); cbn [In]; [tauto|]. intros [H | H]; auto.
Qed.

Lemma NoDup_map_inj {A B} (g : A -> B) l x y :
  NoDup (map g l) -> In x l -> In y l -> g x = g y -> x = y.
Proof.
  induction l as [|z l IH]; cbn [map]; intros Hnd Hx Hy E; [destruct Hx|].
  inversion Hnd as [|? ? Hn Hnd']; subst.
  destruct Hx as [<- | Hx], Hy as [<- | Hy]; auto.
  - exfalso. apply Hn. rewrite E. apply in_map. exact Hy.
  - exfalso. apply Hn. rewrite <- E. apply in_map. exact Hx.
Qed.

Lemma In_frags_of_iff g rows : In g (frags_of rows) <-> In (RF g) rows.
Proof.
  unfold frags_of. rewrite in_flat_map. split.
  - intros ([f|gp] & Hin & H); cbn [In] in H; [|destruct H].
    destruct H as [<- | []]. exact Hin.
  - intros H. exists (RF g). split; [exact H | left; reflexivity].
Qed.

Lemma frags_of_gaps gaps : all_gaps gaps -> frags_of gaps = [].
Proof.
  induction 1 as [|x l Hx _ IH]; [reflexivity|].
  destruct x as [f|g]; [discriminate|]. exact IH.
Qed.

Lemma not_gap_in f gaps : all_gaps gaps -> ~ In (RF f) gaps.
Proof.
  intros H Hin. unfold all_gaps in H. rewrite Forall_forall in H. apply H in Hin. discriminate.
Qed.

Lemma discard_start_rows r r' : discard_start r = Ok r' ->
  exists d gaps, o_rows r = d :: gaps ++ o_rows r' /\ all_gaps gaps.
Proof. intros H. destruct (discard_start_spec _ _ H) as (d & gaps & E & Hg & _). eauto. Qed.

Lemma discard_end_rows r r' : discard_end r = Ok r' ->
  exists d gaps, o_rows r = o_rows r' ++ gaps ++ [d] /\ all_gaps gaps.
Proof. intros H. destruct (discard_end_spec _ _ H) as (d & gaps & E & Hg & _). eauto. Qed.

Lemma discard_start_incl r r' x : discard_start r = Ok r' -> In x (o_rows r') -> In x (o_rows r).
Proof.
  intros H Hin. destruct (discard_start_spec _ _ H) as (d & gaps & -> & _).
  right. apply in_or_app. right. exact Hin.
Qed.

Lemma discard_end_incl r r' x : discard_end r = Ok r' -> In x (o_rows r') -> In x (o_rows r).
Proof.
  intros H Hin. destruct (discard_end_spec _ _ H) as (d & gaps & -> & _).
  apply in_or_app. left. exact Hin.
Qed.

Lemma trim_large_incl r e r' x : trim_large_overhangs r e = Ok r' -> In x (o_rows r') -> In x (o_rows r).
Proof.
  intros H Hin. apply trim_large_cases in H as (r1 & [-> | H1] & [-> | H2]).
  - exact Hin.
  - eapply discard_end_incl; eassumption.
  - eapply discard_start_incl; eassumption.
  - eapply discard_start_incl; [eassumption|]. eapply discard_end_incl; eassumption.
Qed.

Lemma find_overlaps_rows rows bs be fo x :
  find_overlaps rows bs be = Ok (Some fo) -> In x (fo_rows fo) -> In x rows.
Proof.
  unfold find_overlaps. intros H Hin.
  destruct rows as [|r0 t]; [discriminate|].
  rewrite find_overlaps_unfold in H by discriminate. cbv zeta in H.
  bind_inv H ov0 Hov0. destruct ov0 as [m|]; [|discriminate].
  bind_inv H i1 Hi1. bind_inv H j1 Hj1.
  destruct (negb (i1 <=? j1)); [discriminate|].
  injection H as <-. cbn [fo_rows] in Hin. eapply In_py_slice. exact Hin.
Qed.

Lemma get_ovr_In st id r : get_ovr st id = Ok r -> In r st.
Proof.
  unfold get_ovr. destruct (nth_error st (Z.to_nat id)) eqn:E; [|discriminate].
  intros H. injection H as <-. eapply nth_error_In. exact E.
Qed.

Lemma get_ovr_lt st id r : 0 <= id -> get_ovr st id = Ok r -> id < zlen st.
Proof.
  unfold get_ovr, zlen. intros H0. destruct (nth_error st (Z.to_nat id)) eqn:E; [|discriminate].
  intros _. assert (Z.to_nat id < length st)%nat by (apply nth_error_Some; congruence). lia.
Qed.

Lemma get_ovr_ok st id : 0 <= id < zlen st -> exists r, get_ovr st id = Ok r.
Proof.
  unfold get_ovr, zlen. intros H. destruct (nth_error st (Z.to_nat id)) eqn:E; [eauto|].
  apply nth_error_None in E. lia.
Qed.

Lemma get_ovr_nth st id r : get_ovr st id = Ok r -> nth_error st (Z.to_nat id) = Some r.
Proof. unfold get_ovr. destruct (nth_error st (Z.to_nat id)); [intros [= ->]; reflexivity | discriminate]. Qed.

Lemma put_ovr_length st id r : length (put_ovr st id r) = length st.
Proof. apply set_nth_length. Qed.

Lemma zlen_put st id r : zlen (put_ovr st id r) = zlen st.
Proof. unfold zlen. rewrite put_ovr_length. reflexivity. Qed.

Lemma get_put_same st id r r' : get_ovr st id = Ok r -> get_ovr (put_ovr st id r') id = Ok r'.
Proof.
  unfold get_ovr, put_ovr. destruct (nth_error st (Z.to_nat id)) eqn:E; [|discriminate].
  intros _. rewrite set_nth_same; [reflexivity|]. apply nth_error_Some. congruence.
Qed.

Lemma get_put_other st id id2 r' : 0 <= id -> 0 <= id2 -> id <> id2 ->
  get_ovr (put_ovr st id r') id2 = get_ovr st id2.
Proof.
  intros H1 H2 Hne. unfold get_ovr, put_ovr. rewrite set_nth_other by lia. reflexivity.
Qed.

Lemma put_ovr_In st id r x : In x (put_ovr st id r) -> x = r \/ In x st.
Proof. apply set_nth_In. Qed.

Lemma get_ovr_app st r id : 0 <= id < zlen st -> get_ovr (st ++ [r]) id = get_ovr st id.
Proof.
  unfold get_ovr, zlen. intros H. rewrite nth_error_app1 by lia. reflexivity.
Qed.

Lemma get_ovr_app_new st r : get_ovr (st ++ [r]) (zlen st) = Ok r.
Proof.
  unfold get_ovr, zlen. rewrite Nat2Z.id. rewrite nth_error_app2 by lia.
  rewrite Nat.sub_diag. reflexivity.
Qed.

(* rows held by result [id]; [] when there is no such result *)
Definition rows_at (st : list ovr) (id : rid) : list row :=
  match get_ovr st id with Ok r => o_rows r | Err _ => [] end.

Lemma rows_at_map st st' id : map o_rows st = map o_rows st' -> rows_at st id = rows_at st' id.
Proof.
  intros H. unfold rows_at, get_ovr.
  assert (E : nth_error (map o_rows st) (Z.to_nat id) = nth_error (map o_rows st') (Z.to_nat id))
    by (rewrite H; reflexivity).
  rewrite !nth_error_map in E.
  destruct (nth_error st (Z.to_nat id)), (nth_error st' (Z.to_nat id)); cbn [option_map] in E;
    try discriminate; [injection E as ->|]; reflexivity.
Qed.

Lemma result_frags_alt b :
  result_frags b = flat_map (fun id => frags_of (rows_at (b_store b) id)) (b_added b).
Proof.
  unfold result_frags, rows_at. apply flat_map_ext. intros id.
  destruct (get_ovr (b_store b) id); reflexivity.
Qed.

(* sums of a weight on fragment keys, over the rows of a result and over the
   results listed in [added]; the coverage of a base (weight [cw n x]) and the
   number of fragments (weight 1) are the instances used *)
Definition rsum (w : fkey -> Z) (rows : list row) : Z :=
  zsum (fun f => w (key_of f)) (frags_of rows).
Definition ssum (w : fkey -> Z) (st : list ovr) (added : list rid) : Z :=
  zsum (fun id => rsum w (rows_at st id)) added.

Definition cw (n : str) (x : Z) : fkey -> Z := fun k => cvz k n x.
Definition CovS (st : list ovr) (added : list rid) (n : str) (x : Z) : Z := ssum (cw n x) st added.

Lemma coverage_CovS b n x :
  Z.of_nat (coverage (result_frags b) n x) = CovS (b_store b) (b_added b) n x.
Proof.
  rewrite coverage_zsum, result_frags_alt, zsum_flat_map. reflexivity.
Qed.

Lemma rsum_app w a b : rsum w (a ++ b) = rsum w a + rsum w b.
Proof. unfold rsum. rewrite frags_of_app, zsum_app. reflexivity. Qed.

Lemma rsum_gaps w gaps : all_gaps gaps -> rsum w gaps = 0.
Proof. intros H. unfold rsum. rewrite frags_of_gaps by exact H. reflexivity. Qed.

Lemma rsum_RF w f l : rsum w (RF f :: l) = w (key_of f) + rsum w l.
Proof. reflexivity. Qed.

Lemma rsum_single w f : rsum w [RF f] = w (key_of f).
Proof. unfold rsum. cbn [frags_of flat_map app zsum]. lia. Qed.

Lemma ssum_map w st st' added : map o_rows st = map o_rows st' -> ssum w st added = ssum w st' added.
Proof.
  intros H. unfold ssum. apply zsum_ext. intros id _. rewrite (rows_at_map _ _ _ H). reflexivity.
Qed.

Lemma ssum_app_old w st r added :
  Forall (fun a => 0 <= a < zlen st) added -> ssum w (st ++ [r]) added = ssum w st added.
Proof.
  intros H. unfold ssum. apply zsum_ext. intros a Ha. rewrite Forall_forall in H.
  unfold rows_at. rewrite get_ovr_app by (apply H; exact Ha). reflexivity.
Qed.

Lemma ssum_put_notin w st id r' added :
  0 <= id -> Forall (fun a => 0 <= a) added -> ~ In id added ->
  ssum w (put_ovr st id r') added = ssum w st added.
Proof.
  intros H0 Hpos Hn. unfold ssum. apply zsum_ext. intros a Ha.
  unfold rows_at. rewrite get_put_other; [reflexivity | exact H0 | | intros E; subst; contradiction].
  rewrite Forall_forall in Hpos. apply Hpos. exact Ha.
Qed.

(* changing one result that is listed exactly once *)
Lemma ssum_put w st id r r' added :
  NoDup added -> Forall (fun a => 0 <= a) added -> In id added ->
  get_ovr st id = Ok r ->
  ssum w (put_ovr st id r') added + rsum w (o_rows r)
  = ssum w st added + rsum w (o_rows r').
Proof.
  intros Hnd Hpos Hin Hget. induction added as [|a added IH]; [destruct Hin|].
  inversion Hnd as [|? ? Hn Hnd']; subst. inversion Hpos as [|? ? Ha Hpos']; subst.
  unfold ssum. cbn [zsum]. fold (ssum w (put_ovr st id r') added). fold (ssum w st added).
  destruct Hin as [-> | Hin].
  - rewrite ssum_put_notin by assumption.
    unfold rows_at at 1 2. rewrite (get_put_same _ _ _ _ Hget), Hget. lia.
  - assert (Hne : id <> a) by (intros ->; contradiction).
    assert (H0 : 0 <= id) by (rewrite Forall_forall in Hpos'; apply Hpos'; exact Hin).
    specialize (IH Hnd' Hpos' Hin).
    unfold rows_at at 1 2. rewrite get_put_other by assumption. lia.
Qed.

Lemma number_rows_spec rows : forall n rows' n',
  number_rows rows n = (rows', n') ->
  n <= n'
  /\ map key_of (frags_of rows') = map key_of (frags_of rows)
  /\ Forall (fun f => n <= f_id f < n') (frags_of rows')
  /\ NoDup (map f_id (frags_of rows')).
Proof.
  induction rows as [|r rows IH]; intros n rows' n' H; cbn [number_rows] in H.
  - injection H as <- <-. repeat split; [lia | constructor | constructor].
  - destruct r as [f|g]; destruct (number_rows rows (n + 1)) as [t' n1] eqn:E;
      injection H as <- <-; destruct (IH _ _ _ E) as (H1 & H2 & H3 & H4).
    + rewrite !frags_of_RF. cbn [map f_id]. repeat split.
      * lia.
      * cbn [key_of f_name f_start f_end]. unfold key_of at 2. f_equal. exact H2.
      * constructor; [cbn [f_id]; lia|]. eapply Forall_impl; [|exact H3]. cbn beta. intros; lia.
      * constructor; [|exact H4]. intros Hin. apply in_map_iff in Hin. destruct Hin as (y & E1 & Hy).
        rewrite Forall_forall in H3. apply H3 in Hy. lia.
    + rewrite !frags_of_RG. repeat split; [lia | exact H2 | | exact H4].
      eapply Forall_impl; [|exact H3]. cbn beta. intros; lia.
Qed.

Lemma number_input_spec input : forall n,
  map key_of (in_frags (number_input input n)) = map key_of (in_frags input)
  /\ Forall (fun f => n <= f_id f) (in_frags (number_input input n))
  /\ NoDup (map f_id (in_frags (number_input input n))).
Proof.
  induction input as [|[name rows] input IH]; intros n; cbn [number_input].
  - repeat split; constructor.
  - destruct (number_rows rows n) as [rows' n'] eqn:E.
    destruct (number_rows_spec _ _ _ _ E) as (H1 & H2 & H3 & H4).
    destruct (IH n') as (G2 & G3 & G4).
    unfold in_frags in *. cbn [flat_map snd]. rewrite !map_app. repeat split.
    + rewrite H2, G2. reflexivity.
    + apply Forall_app. split.
      * eapply Forall_impl; [|exact H3]. cbn beta. intros; lia.
      * eapply Forall_impl; [|exact G3]. cbn beta. intros; lia.
    + apply NoDup_app_intro; [exact H4 | exact G4|].
      intros a Ha Hb. apply in_map_iff in Ha. destruct Ha as (y & <- & Hy).
      apply in_map_iff in Hb. destruct Hb as (z & Ez & Hz).
      rewrite Forall_forall in H3, G3. apply H3 in Hy. apply G3 in Hz. lia.
Qed.

(* numbering replaces the object id of every fragment row and nothing else *)
Definition renumbered (r r' : row) : Prop :=
  match r, r' with
  | RF f, RF g => g = mkFrag (f_id g) (f_name f) (f_start f) (f_end f) (f_strand f) (f_tags f)
  | RG a, RG b => a = b
  | _, _ => False
  end.

Lemma number_rows_Forall2 rows : forall n, Forall2 renumbered rows (fst (number_rows rows n)).
Proof.
  induction rows as [|r rows IH]; intros n; cbn [number_rows]; [constructor|].
  specialize (IH (n + 1)).
  destruct r as [f|g]; destruct (number_rows rows (n + 1)) as [t' n1]; cbn [fst] in *;
    constructor; try exact IH; reflexivity.
Qed.

Lemma number_input_Forall2 input : forall n,
  Forall2 (fun p q => fst q = fst p /\ Forall2 renumbered (snd p) (snd q)) input (number_input input n).
Proof.
  induction input as [|[name rows] input IH]; intros n; cbn [number_input]; [constructor|].
  pose proof (number_rows_Forall2 rows n) as R.
  destruct (number_rows rows n) as [rows' n']. constructor; [split; [reflexivity | exact R] | apply IH].
Qed.

Lemma remap_to_input_stages c g prefix bpt input0 pretext rs :
  remap_to_input c g prefix bpt input0 pretext = Ok rs ->
  has_dup_names (map fst input0) = false /\
  exists b1 b2 b3 st nl,
    foldM (one_pretext_scaffold (number_input input0 0) (error_length bpt)) pretext
          (mkB [] [] [] [] (new_namer prefix) 0) = Ok b1
    /\ discard_loop (S (S (total_rows pretext + length (b_store b1)
                           + length (concat (map o_rows (b_store b1)))))) (error_length bpt) b1 = Ok b2
    /\ cut_remaining_overhangs c b2 = Ok b3
    /\ rename_results (b_store b3) (nm_hap_scaffolds (b_namer b3)) = Ok st
    /\ foldM (add_missing_one c g (b_found b3)) (number_input input0 0) (b_namer b3, []) = Ok nl
    /\ rs = mkRun (with_namer (with_store b3 st) (fst nl)) (snd nl).
Proof.
  unfold remap_to_input. destruct (has_dup_names (map fst input0)); [discriminate|].
  cbv zeta. intros H. split; [reflexivity|].
  bind_inv H b1 Hb1. bind_inv H b2 Hb2. bind_inv H b3 Hb3. bind_inv H st Hst. bind_inv H nl Hnl.
  injection H as <-. exists b1, b2, b3, st, nl. repeat split; assumption.
Qed.

Lemma one_pretext_spec input err b pname prows b' :
  one_pretext_scaffold input err b (pname, prows) = Ok b' ->
  exists nm b1 st,
    make_scaffold_name (b_namer b) pname prows (fragment_tags prows) = Ok nm
    /\ foldM (one_bait input err (fragment_tags prows) pname) (frags_of prows) (with_namer b nm) = Ok b1
    /\ rename_results (b_store b1) (nm_unloc_scaffolds (b_namer b1)) = Ok st
    /\ b' = with_store b1 st.
Proof.
  unfold one_pretext_scaffold. intros H.
  bind_inv H nm Hnm. bind_inv H b1 Hb1. bind_inv H st Hst. injection H as <-.
  exists nm, b1, st. repeat split; assumption.
Qed.

(* one bait: nothing found and nothing changes, or a new result [r1] is
   stored under the next id; only a result that kept rows is added and has
   its fragments recorded *)
Lemma one_bait_spec input err sc_tags orig b bait b' :
  one_bait input err sc_tags orig b bait = Ok b' ->
  exists rows, input_rows input (f_name bait) = Ok rows /\
  ((find_overlaps rows (f_start bait) (f_end bait) = Ok None /\ b' = b)
   \/ exists fo nm lab r1,
        find_overlaps rows (f_start bait) (f_end bait) = Ok (Some fo)
        /\ label_scaffold (b_namer b) (zlen (b_store b)) (f_tags bait) sc_tags = Ok (nm, lab)
        /\ trim_large_overhangs (set_labels (ovr_of_found bait fo) lab orig sc_tags) err = Ok r1
        /\ b_store b' = b_store b ++ [r1] /\ b_namer b' = nm /\ b_cuts b' = b_cuts b
        /\ ((o_rows r1 = [] /\ b_added b' = b_added b
              /\ b_found b' = b_found b /\ b_multi b' = b_multi b)
            \/ (o_rows r1 <> [] /\ b_added b' = b_added b ++ [zlen (b_store b)]
                /\ (b_found b', b_multi b')
                   = fold_left (store_found_one (zlen (b_store b))) (frags_of (o_rows r1))
                               (b_found b, b_multi b)))).
Proof.
  unfold one_bait. intros H. bind_inv H rows Hrows. exists rows. split; [exact Hrows|].
  bind_inv H fo Hfo. destruct fo as [fo|]; [|injection H as <-; left; split; [exact Hfo | reflexivity]].
  bind_inv H nl Hnl. destruct nl as [nm lab]. bind_inv H r1 Hr1.
  right. exists fo, nm, lab, r1. split; [exact Hfo|]. split; [exact Hnl|]. split; [exact Hr1|].
  destruct (o_rows r1) as [|x0 t0] eqn:Er1.
  - injection H as <-. cbn [b_store b_namer b_cuts b_added b_found b_multi].
    repeat split; try reflexivity. left. repeat split; reflexivity.
  - assert (Hne : o_rows r1 <> []) by (rewrite Er1; discriminate).
    rewrite <- Er1 in H |- *. injection H as <-. unfold store_fragments_found.
    cbn [b_store b_added b_found b_multi b_namer b_cuts].
    destruct (fold_left _ _ _) as [found' multi'].
    cbn [b_store b_namer b_cuts b_added b_found b_multi].
    repeat split; try reflexivity. right. split; [exact Hne|]. split; reflexivity.
Qed.

Lemma foldM_inv {A S} (f : S -> A -> res S) (P : S -> Prop) :
  (forall s a s', P s -> f s a = Ok s' -> P s') ->
  forall l s s', P s -> foldM f l s = Ok s' -> P s'.
Proof.
  intros Hstep. induction l as [|a l IH]; intros s s' Hs H; cbn [foldM] in H.
  - injection H as <-. exact Hs.
  - bind_inv H s1 Hs1. eapply IH; [|exact H]. eapply Hstep; eassumption.
Qed.

Lemma map_set_nth_same {A B} (g : A -> B) : forall (l : list A) n x,
  nth_error (map g l) n = Some (g x) -> map g (set_nth l n x) = map g l.
Proof.
  induction l as [|y l IH]; intros [|n] x H; cbn [map nth_error set_nth] in *; try reflexivity.
  - injection H as H. rewrite H. reflexivity.
  - rewrite IH by exact H. reflexivity.
Qed.

Lemma get_ovr_nth_rows st id r :
  get_ovr st id = Ok r -> nth_error (map o_rows st) (Z.to_nat id) = Some (o_rows r).
Proof.
  unfold get_ovr. rewrite nth_error_map.
  destruct (nth_error st (Z.to_nat id)); [|discriminate]. intros H. injection H as ->. reflexivity.
Qed.

Lemma rename_results_rows st ids st' :
  rename_results st ids = Ok st' -> map o_rows st' = map o_rows st.
Proof.
  unfold rename_results. intros H. bind_inv H rs Hrs. injection H as <-.
  set (pairs := rename_by_size rs _ _).
  assert (Hp : forall id r n, In ((id, r), n) pairs ->
                 nth_error (map o_rows st) (Z.to_nat id) = Some (o_rows r)).
  { intros id r n Hin. unfold pairs, rename_by_size in Hin. apply in_combine_l in Hin.
    unfold sort_by_Z_desc in Hin. apply In_stable_sort in Hin.
    destruct (mapM_In _ _ _ Hrs _ Hin) as (id0 & _ & Hf).
    bind_inv Hf r0 Hr0. injection Hf as <- <-. apply get_ovr_nth_rows. exact Hr0. }
  clearbody pairs. clear Hrs.
  assert (G : forall cur, map o_rows cur = map o_rows st ->
    map o_rows (fold_left (fun st0 '(id, r, n) => put_ovr st0 id (set_name r n)) pairs cur)
    = map o_rows st).
  { induction pairs as [|[[id r] n] pairs IH]; intros cur Hc; cbn [fold_left]; [exact Hc|].
    apply IH.
    - intros id' r' n' Hin. apply (Hp id' r' n'). right. exact Hin.
    - rewrite <- Hc. unfold put_ovr. apply map_set_nth_same.
      rewrite Hc. cbn [set_name o_rows]. apply (Hp id r n). left. reflexivity. }
  apply G. reflexivity.
Qed.

Section Head.
  Variable inp : list (str * list row).
  Hypothesis Hids : NoDup (map f_id (in_frags inp)).
  Hypothesis Hpos : Forall (fun f => 0 <= f_id f) (in_frags inp).

  (* every fragment row is an input row *)
  Definition rows_in (rows : list row) : Prop := forall g, In (RF g) rows -> In g (in_frags inp).
  Definition store_in (st : list ovr) : Prop := forall r, In r st -> rows_in (o_rows r).

  Definition fsum (w : fkey -> Z) (found : list (fkey * (frag * list rid))) : Z :=
    zsum (fun e => zlen (snd (snd e)) * w (fst e)) found.
  Definition wsum (found : list (fkey * (frag * list rid))) (n : str) (x : Z) : Z :=
    fsum (cw n x) found.

  (* an entry (k, (f, ids)) of found_fragments: f is the input fragment with key k,
     ids are the results that hold it, and k is in b_multi iff there are two or more *)
  Definition entry_ok (added : list rid) (multi : list fkey) (e : fkey * (frag * list rid)) : Prop :=
    key_of (fst (snd e)) = fst e /\ In (fst (snd e)) (in_frags inp)
    /\ incl (snd (snd e)) added /\ (1 <= length (snd (snd e)))%nat
    /\ (In (fst e) multi <-> (2 <= length (snd (snd e)))%nat).

  Definition FInv (added : list rid) found (multi : list fkey) : Prop :=
    NoDup (map fst found) /\ NoDup multi /\ Forall (entry_ok added multi) found
    /\ incl multi (map fst found).

  Definition AddedOk (st : list ovr) (added : list rid) : Prop :=
    NoDup added /\ Forall (fun a => 0 <= a < zlen st) added.

  Definition Inv (b : bstate) : Prop :=
    store_in (b_store b) /\ AddedOk (b_store b) (b_added b)
    /\ FInv (b_added b) (b_found b) (b_multi b)
    /\ forall n x, CovS (b_store b) (b_added b) n x = wsum (b_found b) n x.

  (* the same with the balance stated for every weight in [W]; [Inv] is the
     instance of the coverage weights, and the fragment count is weight 1 *)
  Definition InvW (W : (fkey -> Z) -> Prop) (b : bstate) : Prop :=
    store_in (b_store b) /\ AddedOk (b_store b) (b_added b)
    /\ FInv (b_added b) (b_found b) (b_multi b)
    /\ forall w, W w -> ssum w (b_store b) (b_added b) = fsum w (b_found b).

  Definition coverage_weight (w : fkey -> Z) : Prop := exists n x, w = cw n x.

  Lemma Inv_InvW b : Inv b <-> InvW coverage_weight b.
  Proof.
    split; intros (I1 & IA & I3 & I4); (split; [exact I1|]; split; [exact IA|]; split; [exact I3|]).
    - intros w (n & x & ->). apply I4.
    - intros n x. apply (I4 (cw n x)). exists n, x. reflexivity.
  Qed.

  Lemma id_inj f g : In f (in_frags inp) -> In g (in_frags inp) -> f_id f = f_id g -> f = g.
  Proof. intros. eapply (NoDup_map_inj f_id); eassumption. Qed.

  Lemma in_frags_id_pos f : In f (in_frags inp) -> 0 <= f_id f.
  Proof. intros H. rewrite Forall_forall in Hpos. apply Hpos. exact H. Qed.

  Lemma rows_in_input name rows : In (name, rows) inp -> rows_in rows.
  Proof.
    intros Hin g Hg. unfold in_frags. apply in_flat_map. exists (name, rows).
    split; [exact Hin|]. cbn [snd]. apply In_frags_of_iff. exact Hg.
  Qed.

  Lemma rows_in_incl rows rows' : (forall x, In x rows' -> In x rows) -> rows_in rows -> rows_in rows'.
  Proof. intros Hi H g Hg. apply H. apply Hi. exact Hg. Qed.

  Lemma AddedOk_pos st added : AddedOk st added -> Forall (fun a => 0 <= a) added.
  Proof. intros [_ H]. eapply Forall_impl; [|exact H]. cbn beta. intros; lia. Qed.

  Lemma entry_ok_multi added multi multi' e :
    (In (fst e) multi' <-> In (fst e) multi) -> entry_ok added multi e -> entry_ok added multi' e.
  Proof. unfold entry_ok. intros Hm (H1 & H2 & H3 & H4 & H5). rewrite Hm. auto. Qed.

  Lemma entry_ok_incl added added' multi e :
    incl added added' -> entry_ok added multi e -> entry_ok added' multi e.
  Proof.
    unfold entry_ok. intros Hi (H1 & H2 & H3 & H4 & H5). repeat split; auto; try apply H5.
    intros a Ha. apply Hi. apply H3. exact Ha.
  Qed.

  Lemma FInv_incl added added' found multi :
    incl added added' -> FInv added found multi -> FInv added' found multi.
  Proof.
    intros Hi (H1 & H2 & H3 & H4). repeat split; auto.
    eapply Forall_impl; [|exact H3]. intros e. apply entry_ok_incl. exact Hi.
  Qed.

  Lemma fsum_app w a b : fsum w (a ++ b) = fsum w a + fsum w b.
  Proof. apply zsum_app. Qed.

  Lemma fsum_cons w k f ids l : fsum w ((k, (f, ids)) :: l) = zlen ids * w k + fsum w l.
  Proof. reflexivity. Qed.

  Lemma split_keys_ne (l1 l2 : list (fkey * (frag * list rid))) k v :
    NoDup (map fst (l1 ++ (k, v) :: l2)) ->
    forall e, In e (l1 ++ l2) -> fst e <> k.
  Proof.
    intros Hnd e He E. rewrite map_app in Hnd. cbn [map fst] in Hnd.
    apply NoDup_remove_2 in Hnd. apply Hnd. rewrite <- map_app. rewrite <- E. apply in_map. exact He.
  Qed.

  (* the ids of the entry of [k] replaced, [multi'] differing from [multi] at most in [k] *)
  Lemma FInv_set_ids added found multi k f ids ids' multi' :
    FInv added found multi -> aget key_eqb found k = Some (f, ids) ->
    NoDup multi' -> (forall k', k' <> k -> (In k' multi' <-> In k' multi)) ->
    (entry_ok added multi (k, (f, ids)) ->
       incl ids' added /\ (1 <= length ids')%nat /\ (In k multi' <-> (2 <= length ids')%nat)) ->
    FInv added (aset key_eqb found k (f, ids')) multi'
    /\ forall w, fsum w (aset key_eqb found k (f, ids')) + zlen ids * w k
                 = fsum w found + zlen ids' * w k.
  Proof.
    intros (F1 & F2 & F3 & F4) E Hnd Hother Hk.
    destruct (aget_split key_eqb key_eqb_eq _ _ _ E) as (l1 & l2 & Ef & _ & Hs). rewrite Hs.
    assert (Hne : forall e, In e (l1 ++ l2) -> fst e <> k).
    { rewrite Ef in F1. eapply split_keys_ne. exact F1. }
    rewrite Ef in F3. apply Forall_app in F3. destruct F3 as [F3a F3b].
    apply Forall_cons_iff in F3b. destruct F3b as [F3k F3c].
    destruct (Hk F3k) as (K3 & K4 & K5). destruct F3k as (K1 & K2 & _).
    split.
    - unfold FInv.
      replace (map fst (l1 ++ (k, (f, ids')) :: l2)) with (map fst found) by (rewrite Ef, !map_app; reflexivity).
      split; [exact F1|]. split; [exact Hnd|]. split.
      + apply Forall_app. split; [|constructor].
        * rewrite Forall_forall in *. intros e He. apply entry_ok_multi with (multi := multi); [|apply F3a, He].
          apply Hother, Hne, in_or_app. left. exact He.
        * unfold entry_ok. cbn [fst snd]. auto.
        * rewrite Forall_forall in *. intros e He. apply entry_ok_multi with (multi := multi); [|apply F3c, He].
          apply Hother, Hne, in_or_app. right. exact He.
      + intros k' Hk'. destruct (key_eqb k' k) eqn:Ek.
        * apply key_eqb_eq in Ek. subst k'. rewrite Ef, map_app. apply in_or_app. right. left. reflexivity.
        * apply key_eqb_neq in Ek. apply F4, Hother; assumption.
    - intros w. rewrite Ef, !fsum_app, !fsum_cons. lia.
  Qed.

  Lemma store_found_one_ok added id found multi g found' multi' :
    In id added -> In g (in_frags inp) -> FInv added found multi ->
    store_found_one id (found, multi) g = (found', multi') ->
    FInv added found' multi' /\ forall w, fsum w found' = fsum w found + w (key_of g).
  Proof.
    intros Hid Hg HF H. unfold store_found_one in H.
    destruct (aget key_eqb found (key_of g)) as [[f0 ids]|] eqn:E.
    - injection H as <- <-. destruct HF as (F1 & F2 & F3 & F4).
      destruct (FInv_set_ids added found multi (key_of g) f0 ids (ids ++ [id])
                  (if existsb (key_eqb (key_of g)) multi then multi else multi ++ [key_of g])
                  (conj F1 (conj F2 (conj F3 F4))) E) as (HF' & Hw).
      + destruct (existsb (key_eqb (key_of g)) multi) eqn:Ex; [exact F2|].
        apply NoDup_snoc; [exact F2|]. apply existsb_key_false. exact Ex.
      + intros k' Hk'. destruct (existsb (key_eqb (key_of g)) multi); [reflexivity|].
        rewrite in_app_iff. cbn [In]. intuition congruence.
      + intros (_ & _ & K3 & K4 & _). cbn [fst snd] in K3, K4. rewrite app_length. cbn [length].
        split; [|split; [lia|split; [lia|intros _]]].
        * intros a Ha. apply in_app_or in Ha. destruct Ha as [Ha | [<- | []]]; auto.
        * destruct (existsb (key_eqb (key_of g)) multi) eqn:Ex; [apply existsb_key; exact Ex|].
          apply in_or_app. right. left. reflexivity.
      + split; [exact HF'|]. intros w. pose proof (Hw w) as Hw'. rewrite zlen_snoc in Hw'. lia.
    - destruct HF as (F1 & F2 & F3 & F4).
      injection H as <- <-. apply (aget_None key_eqb key_eqb_eq) in E. split.
      + unfold FInv. repeat split.
        * rewrite map_app. cbn [map fst]. apply NoDup_snoc; assumption.
        * exact F2.
        * apply Forall_app. split; [exact F3|]. constructor; [|constructor].
          unfold entry_ok. cbn [fst snd length]. repeat split; auto; try lia.
          -- intros a [<- | []]. exact Hid.
          -- intros Hm. exfalso. apply E. apply F4. exact Hm.
        * intros k' Hk'. rewrite map_app. apply in_or_app. left. apply F4. exact Hk'.
      + intros w. rewrite fsum_app, fsum_cons. unfold fsum, zlen. cbn [zsum length]. lia.
  Qed.

  Lemma store_found_fold added id : In id added -> forall gs found multi found' multi',
    Forall (fun g => In g (in_frags inp)) gs -> FInv added found multi ->
    fold_left (store_found_one id) gs (found, multi) = (found', multi') ->
    FInv added found' multi' /\ forall w, fsum w found' = fsum w found + zsum (fun g => w (key_of g)) gs.
  Proof.
    intros Hid. induction gs as [|g gs IH]; intros found multi found' multi' Hgs HF H; cbn [fold_left] in H.
    - injection H as <- <-. split; [exact HF|]. intros w. cbn [zsum]. lia.
    - inversion Hgs as [|? ? Hg Hgs']; subst.
      destruct (store_found_one id (found, multi) g) as [f1 m1] eqn:E1.
      destruct (store_found_one_ok _ _ _ _ _ _ _ Hid Hg HF E1) as (HF1 & Hw1).
      destruct (IH _ _ _ _ Hgs' HF1 H) as (HF2 & Hw2). split; [exact HF2|].
      intros w. rewrite Hw2, Hw1. cbn [zsum]. lia.
  Qed.

  Lemma input_rows_in name rows : input_rows inp name = Ok rows -> rows_in rows.
  Proof.
    unfold input_rows. destruct (aget str_eqb inp name) as [rows0|] eqn:E; [|discriminate].
    intros H. injection H as <-. apply (aget_In str_eqb str_eqb_eq) in E.
    eapply rows_in_input. exact E.
  Qed.

  Lemma rows_in_frags rows : rows_in rows -> Forall (fun g => In g (in_frags inp)) (frags_of rows).
  Proof. intros H. apply Forall_forall. intros g Hg. apply H. apply In_frags_of_iff. exact Hg. Qed.

  Lemma one_bait_invW W err sc_tags orig b bait b' :
    InvW W b -> one_bait inp err sc_tags orig b bait = Ok b' -> InvW W b'.
  Proof.
    intros (I1 & (A1 & A2) & I3 & I4) H.
    destruct (one_bait_spec _ _ _ _ _ _ _ H)
      as (rows & Hrows & [(_ & ->) | (fo & nm & lab & r1 & Hfo & _ & Hr1 & Es & _ & _ & Hcase)]).
    { exact (conj I1 (conj (conj A1 A2) (conj I3 I4))). }
    assert (Hr1in : rows_in (o_rows r1)).
    { intros g Hg. eapply input_rows_in; [exact Hrows|].
      eapply find_overlaps_rows; [exact Hfo|].
      apply (trim_large_incl _ _ _ _ Hr1) in Hg. exact Hg. }
    assert (Hst : store_in (b_store b ++ [r1])).
    { intros r Hr. apply in_app_or in Hr. destruct Hr as [Hr | [<- | []]]; [apply I1; exact Hr | exact Hr1in]. }
    assert (A2' : Forall (fun a => 0 <= a < zlen (b_store b ++ [r1])) (b_added b)).
    { eapply Forall_impl; [|exact A2]. cbn beta. intros a. rewrite zlen_snoc. lia. }
    unfold InvW. rewrite Es. split; [exact Hst|].
    destruct Hcase as [(_ & -> & -> & ->) | (_ & -> & Ef)].
    - split; [split; [exact A1 | exact A2']|]. split; [exact I3|].
      intros w Hw. rewrite ssum_app_old by exact A2. apply I4, Hw.
    - assert (Hnew : In (zlen (b_store b)) (b_added b ++ [zlen (b_store b)]))
        by (apply in_or_app; right; left; reflexivity).
      assert (HF : FInv (b_added b ++ [zlen (b_store b)]) (b_found b) (b_multi b)).
      { eapply FInv_incl; [|exact I3]. intros a Ha. apply in_or_app. left. exact Ha. }
      destruct (store_found_fold _ _ Hnew _ _ _ _ _ (rows_in_frags _ Hr1in) HF (eq_sym Ef)) as (HF' & Hw).
      split; [split|]. 3: split; [exact HF'|].
      + apply NoDup_snoc; [exact A1|]. intros Hin. rewrite Forall_forall in A2. apply A2 in Hin. lia.
      + apply Forall_app. split; [exact A2'|]. constructor; [|constructor]. rewrite zlen_snoc.
        unfold zlen. lia.
      + intros w Hw0. rewrite Hw. unfold ssum. rewrite zsum_app. cbn [zsum].
        fold (ssum w (b_store b ++ [r1]) (b_added b)). rewrite ssum_app_old by exact A2.
        unfold rows_at. rewrite get_ovr_app_new. rewrite (I4 w Hw0). unfold rsum. lia.
  Qed.

  Lemma one_bait_inv err sc_tags orig b bait b' :
    Inv b -> one_bait inp err sc_tags orig b bait = Ok b' -> Inv b'.
  Proof. rewrite !Inv_InvW. apply one_bait_invW. Qed.

  Lemma InvW_store_map W b st' :
    InvW W b -> map o_rows st' = map o_rows (b_store b) -> InvW W (with_store b st').
  Proof.
    intros (I1 & (A1 & A2) & I3 & I4) Hm. unfold InvW. cbn [with_store b_store b_added b_found b_multi].
    split; [|split; [split; [exact A1|]|split; [exact I3|]]].
    - intros r Hr. assert (Hi : In (o_rows r) (map o_rows (b_store b))) by (rewrite <- Hm; apply in_map; exact Hr).
      apply in_map_iff in Hi. destruct Hi as (r0 & E & Hr0). rewrite <- E. apply I1. exact Hr0.
    - assert (El : zlen st' = zlen (b_store b)).
      { unfold zlen. f_equal. rewrite <- (map_length o_rows st'), Hm, map_length. reflexivity. }
      rewrite El. exact A2.
    - intros w Hw. rewrite (ssum_map w _ _ _ Hm). apply I4, Hw.
  Qed.

  Lemma Inv_store_map b st' : Inv b -> map o_rows st' = map o_rows (b_store b) -> Inv (with_store b st').
  Proof. rewrite !Inv_InvW. apply InvW_store_map. Qed.

  Lemma one_pretext_scaffold_invW W err b psc b' :
    InvW W b -> one_pretext_scaffold inp err b psc = Ok b' -> InvW W b'.
  Proof.
    intros HI H. destruct psc as [pname prows].
    destruct (one_pretext_spec _ _ _ _ _ _ H) as (nm & b1 & st & _ & Hb1 & Hst & ->).
    apply InvW_store_map; [|eapply rename_results_rows; exact Hst].
    eapply (foldM_inv _ (InvW W)); [|exact (HI : InvW W (with_namer b nm)) | exact Hb1].
    intros s0 a s1 Hs Hf. eapply one_bait_invW; eassumption.
  Qed.

  Lemma InvW_init W nm : InvW W (mkB [] [] [] [] nm 0).
  Proof.
    unfold InvW, store_in, AddedOk, FInv. cbn [b_store b_added b_found b_multi map].
    repeat split; try constructor; try (intros ? []).
  Qed.

  Lemma Inv_init nm : Inv (mkB [] [] [] [] nm 0).
  Proof. apply Inv_InvW, InvW_init. Qed.

  Lemma pretext_invW W err pretext nm b1 :
    foldM (one_pretext_scaffold inp err) pretext (mkB [] [] [] [] nm 0) = Ok b1 -> InvW W b1.
  Proof.
    intros H. eapply (foldM_inv _ (InvW W)); [|apply InvW_init | exact H].
    intros s0 a s1 Hs Hf. eapply one_pretext_scaffold_invW; eassumption.
  Qed.

End Head.

Lemma py_nth_0_inv {A} (l : list A) x : py_nth l 0 = Ok x -> exists t, l = x :: t.
Proof.
  destruct l as [|y l]; intros H.
  - rewrite py_nth_nil in H. discriminate.
  - rewrite py_nth_0 in H. injection H as <-. eauto.
Qed.

Lemma py_nth_m1_inv {A} (l : list A) x : py_nth l (-1) = Ok x -> exists t, l = t ++ [x].
Proof.
  destruct (list_snoc_cases l) as [-> | (l' & y & ->)]; intros H.
  - rewrite py_nth_nil in H. discriminate.
  - rewrite py_nth_m1 in H. injection H as <-. eauto.
Qed.

Lemma row_is_true x f : row_is x f = true -> exists g, x = RF g /\ f_id g = f_id f.
Proof. destruct x as [g|g]; cbn [row_is]; [|discriminate]. intros H. exists g. split; [reflexivity | lia]. Qed.

(* trim_fragment replaces the last row if that is [t], else the first; the copy
   gets the id -2 or -1 (Model/OverlapResult.v), never an input id *)
Lemma trim_fragment_rows r t ks ke new r' :
  trim_fragment r t ks ke = Ok (new, r') ->
  (exists tl g, o_rows r = tl ++ [RF g] /\ f_id g = f_id t
                /\ o_rows r' = tl ++ [RF new] /\ f_id new = -2)
  \/ (exists g tl, o_rows r = RF g :: tl /\ f_id g = f_id t
                   /\ o_rows r' = RF new :: tl /\ f_id new = -1).
Proof.
  intros H. destruct (trim_fragment_spec _ _ _ _ _ _ H)
    as (x0 & xl & ds & de & E0 & El & Eat & _ & _ & _ & _ & En & _ & ->).
  apply py_nth_0_inv in E0. destruct E0 as (t0 & E0).
  apply py_nth_m1_inv in El. destruct El as (tl & El).
  cbn [set_span_rows o_rows]. destruct (row_is xl t) eqn:Ee.
  - left. apply row_is_true in Ee. destruct Ee as (g & -> & Eg). exists tl, g.
    rewrite El, set_last_snoc, En. auto.
  - right. rewrite Bool.orb_false_r in Eat. apply row_is_true in Eat. destruct Eat as (g & -> & Eg).
    exists g, t0. rewrite E0, En. cbn [set_nth]. auto.
Qed.

Definition pkey (p : premise) : fkey := key_of (pr_frag p).

(* the premise's fragment is (still) the row at its end of its result *)
Definition pvalid (st : list ovr) (p : premise) : Prop :=
  0 <= pr_rid p /\ exists r, get_ovr st (pr_rid p) = Ok r /\
  match pr_kind p with
  | PStart => exists t, o_rows r = RF (pr_frag p) :: t
  | PEnd => exists t, o_rows r = t ++ [RF (pr_frag p)]
  end.

Lemma p_apply_valid st p st' : pvalid st p -> p_apply st p = Ok st' ->
  exists r r', get_ovr st (pr_rid p) = Ok r /\ st' = put_ovr st (pr_rid p) r'
   /\ (forall x, In x (o_rows r') -> In x (o_rows r))
   /\ (forall w, rsum w (o_rows r) = rsum w (o_rows r') + w (pkey p)).
Proof.
  intros (H0 & r & Hr & Hk) H. unfold p_apply in H. rewrite Hr in H. cbn [bind] in H.
  bind_inv H r' Hr'. injection H as <-. exists r, r'. split; [exact Hr|]. split; [reflexivity|].
  destruct (pr_kind p).
  - destruct Hk as (t & Et). destruct (discard_start_spec _ _ Hr') as (d & gaps & E & Hg & _). split.
    + intros x Hx. eapply discard_start_incl; eassumption.
    + intros w. rewrite E in Et. injection Et as -> _. rewrite E.
      rewrite rsum_RF, rsum_app, (rsum_gaps _ _ Hg). unfold pkey. lia.
  - destruct Hk as (t & Et). destruct (discard_end_spec _ _ Hr') as (d & gaps & E & Hg & _). split.
    + intros x Hx. eapply discard_end_incl; eassumption.
    + intros w. rewrite E in Et. rewrite app_assoc in Et. apply app_inj_tail in Et. destruct Et as [_ ->].
      rewrite E, !rsum_app, (rsum_gaps _ _ Hg), rsum_single. unfold pkey. lia.
Qed.

Lemma pkey_neq_frag p q : pkey p <> pkey q -> pr_frag p <> pr_frag q.
Proof. unfold pkey. intros H E. apply H. rewrite E. reflexivity. Qed.

(* q's discard removes q's own end row and the gaps next to it; p's fragment has
   another key and is not a gap, so it is still the end row of its result *)
Lemma pvalid_pres st p q st' :
  pvalid st p -> pvalid st q -> pkey p <> pkey q -> p_apply st q = Ok st' -> pvalid st' p.
Proof.
  intros (P0 & rp & Hrp & Hkp) (Q0 & rq & Hrq & Hkq) Hne H. apply pkey_neq_frag in Hne.
  unfold p_apply in H. rewrite Hrq in H. cbn [bind] in H. bind_inv H r' Hr'. injection H as <-.
  split; [exact P0|].
  destruct (Z.eq_dec (pr_rid q) (pr_rid p)) as [Eid | Nid].
  2:{ exists rp. split; [|exact Hkp]. rewrite get_put_other by assumption. exact Hrp. }
  rewrite Eid in *. rewrite Hrp in Hrq. injection Hrq as <-.
  exists r'. split; [eapply get_put_same; exact Hrp|].
  destruct (pr_kind p), (pr_kind q).
  - destruct Hkp as (t & Et), Hkq as (t2 & Et2). rewrite Et in Et2. injection Et2 as E _. contradiction.
  - (* p at the start, q discards the end *)
    destruct Hkp as (t & Et), Hkq as (t2 & Et2).
    destruct (discard_end_spec _ _ Hr') as (d & gaps & E & Hg & _).
    rewrite E in Et2. rewrite app_assoc in Et2. apply app_inj_tail in Et2. destruct Et2 as [_ ->].
    rewrite E in Et. destruct (o_rows r') as [|y rest].
    + exfalso. cbn [app] in Et.
      destruct gaps as [|g0 gaps]; cbn [app] in Et; injection Et as E1 _.
      * congruence.
      * apply (not_gap_in (pr_frag p) (g0 :: gaps) Hg). left. exact E1.
    + cbn [app] in Et. injection Et as -> _. eauto.
  - (* p at the end, q discards the start *)
    destruct Hkp as (t & Et), Hkq as (t2 & Et2).
    destruct (discard_start_spec _ _ Hr') as (d & gaps & E & Hg & _).
    rewrite E in Et2. injection Et2 as -> _.
    rewrite E in Et. destruct (list_snoc_cases (o_rows r')) as [En | (rest & y & En)]; rewrite En in Et.
    + exfalso. rewrite app_nil_r in Et.
      destruct (list_snoc_cases gaps) as [-> | (gs & g0 & ->)].
      * destruct t as [|t0 t]; cbn [app] in Et; [injection Et as Et; congruence|].
        injection Et as _ Et. destruct t; discriminate.
      * rewrite app_comm_cons in Et. apply app_inj_tail in Et. destruct Et as [_ Et].
        apply (not_gap_in (pr_frag p) (gs ++ [g0]) Hg). apply in_or_app. right. left. exact Et.
    + rewrite app_comm_cons, app_assoc in Et. apply app_inj_tail in Et. destruct Et as [_ ->].
      rewrite En. eauto.
  - destruct Hkp as (t & Et), Hkq as (t2 & Et2). rewrite Et in Et2.
    apply app_inj_tail in Et2. destruct Et2 as [_ E]. injection E as E. contradiction.
Qed.

Definition fix_general (err : Z) (store : list ovr) (pl : list premise)
  : res (list ovr * option premise) :=
  match pl with
  | _ :: _ :: _ =>
      do ds <- mapM (fun p => do d <- p_delta store p; Ok (d, p)) pl;
      match sort_by_Z fst ds with
      | (_, bst) :: (_, nxt) :: _ =>
          do i <- p_improves store err bst;
          if i then
            do j <- p_improves store err nxt;
            if negb j then do st <- p_apply store bst; Ok (st, Some bst)
            else Ok (store, None)
          else Ok (store, None)
      | _ => Ok (store, None)
      end
  | _ => Ok (store, None)
  end.

Lemma fix_one_unfold err store pl :
  fix_one err store pl =
  match pl with
  | [frst; scnd] =>
      do b1 <- p_bait_overlap store frst;
      if b1 <? err then
        do b2 <- p_bait_overlap store scnd;
        if b2 <? err then
          if b1 <? b2 then do st <- p_apply store frst; Ok (st, Some frst)
          else do st <- p_apply store scnd; Ok (st, Some scnd)
        else fix_general err store pl
      else fix_general err store pl
  | _ => fix_general err store pl
  end.
Proof. destruct pl as [|p1 [|p2 [|p3 t]]]; reflexivity. Qed.

(* what a premise list yields: no fix and the store unchanged, or one of its premises applied *)
Definition fix_outcome (st : list ovr) (pl : list premise) (st' : list ovr) (fx : option premise) : Prop :=
  (fx = None /\ st' = st) \/ (exists p, fx = Some p /\ In p pl /\ p_apply st p = Ok st').

Lemma fix_general_cases err st pl st' fx :
  fix_general err st pl = Ok (st', fx) -> fix_outcome st pl st' fx.
Proof.
  unfold fix_general. intros H.
  (* every branch but one returns the store unchanged and no fix *)
  assert (Hno : forall (X : res (list ovr * option premise)), X = Ok (st, None) -> X = Ok (st', fx) ->
                 fix_outcome st pl st' fx).
  { intros X -> E. injection E as <- <-. left. auto. }
  destruct pl as [|p1 [|p2 t]]; try (eapply Hno; [reflexivity | exact H]).
  set (pl := p1 :: p2 :: t) in *.
  bind_inv H ds Hds.
  destruct (sort_by_Z fst ds) as [|[d1 bst] [|[d2 nxt] rest]] eqn:Es;
    try (eapply Hno; [reflexivity | exact H]).
  bind_inv H i Hi. destruct i; [|eapply Hno; [reflexivity | exact H]].
  bind_inv H j Hj. destruct j; cbn [negb] in H; [eapply Hno; [reflexivity | exact H]|].
  bind_inv H st1 Hst1. injection H as <- <-. right. exists bst. split; [reflexivity|]. split; [|exact Hst1].
  assert (Hin : In (d1, bst) (sort_by_Z fst ds)) by (rewrite Es; left; reflexivity).
  unfold sort_by_Z in Hin. apply In_stable_sort in Hin.
  destruct (mapM_In _ _ _ Hds _ Hin) as (p0 & Hp0 & Hf). bind_inv Hf d0 Hd0. injection Hf as _ <-. exact Hp0.
Qed.

Lemma fix_one_cases err st pl st' fx :
  fix_one err st pl = Ok (st', fx) -> fix_outcome st pl st' fx.
Proof.
  rewrite fix_one_unfold. intros H.
  destruct pl as [|p1 [|p2 [|p3 t]]]; try (apply fix_general_cases in H; exact H).
  bind_inv H b1 Hb1. destruct (b1 <? err); [|apply fix_general_cases in H; exact H].
  bind_inv H b2 Hb2. destruct (b2 <? err); [|apply fix_general_cases in H; exact H].
  destruct (b1 <? b2); bind_inv H st1 Hst1; injection H as <- <-; right.
  - exists p1. split; [reflexivity|]. split; [left; reflexivity | exact Hst1].
  - exists p2. split; [reflexivity|]. split; [right; left; reflexivity | exact Hst1].
Qed.

Lemma FOP_filter {A} (R : A -> A -> Prop) p l : ForallOrdPairs R l -> ForallOrdPairs R (filter p l).
Proof.
  induction 1 as [|a l Ha Hl IH]; cbn [filter]; [constructor|].
  destruct (p a); [|exact IH]. constructor; [|exact IH].
  rewrite Forall_forall in *. intros x Hx. apply filter_In in Hx. apply Ha. tauto.
Qed.

(* premise lists of different found fragments *)
Definition keys_apart (pl pl' : list premise) : Prop :=
  forall p p', In p pl -> In p' pl' -> pkey p <> pkey p'.

Section Fixes.
  Variable inp : list (str * list row).
  Hypothesis Hids : NoDup (map f_id (in_frags inp)).
  Hypothesis Hpos : Forall (fun f => 0 <= f_id f) (in_frags inp).

  Lemma premise_for_ok st f id p : store_in inp st -> In f (in_frags inp) -> 0 <= id ->
    premise_for st f id = Ok (Some p) -> pr_frag p = f /\ pr_rid p = id /\ pvalid st p.
  Proof.
    intros Hst Hf H0 H. unfold premise_for in H. bind_inv H r Hr. bind_inv H r0 Hr0.
    assert (Hrin : rows_in inp (o_rows r)) by (apply Hst; eapply get_ovr_In; exact Hr).
    destruct (row_is r0 f) eqn:E0.
    - injection H as <-. cbn [pr_frag pr_rid]. split; [reflexivity|]. split; [reflexivity|].
      split; [exact H0|]. exists r. split; [exact Hr|]. cbn [pr_kind pr_frag].
      apply py_nth_0_inv in Hr0. destruct Hr0 as (t & Et).
      apply row_is_true in E0. destruct E0 as (g & -> & Eg).
      assert (g = f). { apply (id_inj inp Hids); [apply Hrin; rewrite Et; left; reflexivity | exact Hf | exact Eg]. }
      subst g. eauto.
    - bind_inv H rl Hrl. destruct (row_is rl f) eqn:El; [|discriminate].
      injection H as <-. cbn [pr_frag pr_rid]. split; [reflexivity|]. split; [reflexivity|].
      split; [exact H0|]. exists r. split; [exact Hr|]. cbn [pr_kind pr_frag].
      apply py_nth_m1_inv in Hrl. destruct Hrl as (t & Et).
      apply row_is_true in El. destruct El as (g & -> & Eg).
      assert (g = f).
      { apply (id_inj inp Hids); [apply Hrin; rewrite Et; apply in_or_app; right; left; reflexivity | exact Hf | exact Eg]. }
      subst g. eauto.
  Qed.

  Lemma premises_of_ok st f : store_in inp st -> In f (in_frags inp) -> forall ids ps,
    Forall (fun a => 0 <= a) ids -> premises_of st f ids = Ok ps ->
    Forall (fun p => pr_frag p = f /\ In (pr_rid p) ids /\ pvalid st p) ps.
  Proof.
    intros Hst Hf. induction ids as [|id ids IH]; intros ps Hp H; cbn [premises_of] in H.
    - injection H as <-. constructor.
    - inversion Hp as [|? ? Hid Hp']; subst. bind_inv H p Hp1. bind_inv H ps0 Hps0. injection H as <-.
      assert (G : Forall (fun p => pr_frag p = f /\ In (pr_rid p) (id :: ids) /\ pvalid st p) ps0).
      { eapply Forall_impl; [|apply (IH _ Hp' Hps0)]. cbn beta. intros q (Q1 & Q2 & Q3).
        split; [exact Q1|]. split; [right; exact Q2 | exact Q3]. }
      destruct p as [p|]; [|exact G]. constructor; [|exact G].
      destruct (premise_for_ok _ _ _ _ Hst Hf Hid Hp1) as (E1 & E2 & E3).
      split; [exact E1|]. split; [left; symmetry; exact E2 | exact E3].
  Qed.

  Lemma make_fixes_sum err added : NoDup added -> Forall (fun a => 0 <= a) added ->
    forall pls st st' fixes,
    store_in inp st ->
    Forall (Forall (fun p => pvalid st p /\ In (pr_rid p) added)) pls ->
    ForallOrdPairs keys_apart pls ->
    make_fixes err st pls = Ok (st', fixes) ->
    store_in inp st' /\ length st' = length st
    /\ (forall w, ssum w st added = ssum w st' added + zsum w (map pkey fixes))
    /\ (forall p, In p fixes -> exists pl, In pl pls /\ In p pl)
    /\ NoDup (map pkey fixes).
  Proof.
    intros Hnd Hadd. induction pls as [|pl pls IH]; intros st st' fixes Hst Hv Hop H; cbn [make_fixes] in H.
    - injection H as <- <-. split; [exact Hst|]. split; [reflexivity|]. split; [intros; cbn [map zsum]; lia|].
      split; [intros p []|constructor].
    - bind_inv H r1 Hr1. destruct r1 as [st1 fx]. bind_inv H r2 Hr2. destruct r2 as [st2 fxs].
      injection H as <- <-.
      inversion Hv as [|? ? Hvpl Hvpls]; subst. inversion Hop as [|? ? Hap Hop']; subst.
      apply fix_one_cases in Hr1. destruct Hr1 as [(-> & ->) | (p & -> & Hpin & Happ)].
      + destruct (IH _ _ _ Hst Hvpls Hop' Hr2) as (G1 & G2 & G3 & G4 & G5).
        split; [exact G1|]. split; [exact G2|]. split; [exact G3|]. split; [|exact G5].
        intros p Hp. destruct (G4 p Hp) as (pl0 & Hpl0 & Hin). exists pl0. split; [right; exact Hpl0 | exact Hin].
      + rewrite Forall_forall in Hvpl. destruct (Hvpl p Hpin) as (Hpv & Hpa).
        destruct (p_apply_valid _ _ _ Hpv Happ) as (r & r' & Hr & Est & Hsub & Hcov).
        assert (Hst1 : store_in inp st1).
        { subst st1. intros y Hy. apply put_ovr_In in Hy. destruct Hy as [-> | Hy]; [|apply Hst; exact Hy].
          eapply rows_in_incl; [exact Hsub|]. apply Hst. eapply get_ovr_In. exact Hr. }
        assert (Hv1 : Forall (Forall (fun q => pvalid st1 q /\ In (pr_rid q) added)) pls).
        { rewrite Forall_forall in *. intros pl' Hpl'. specialize (Hvpls pl' Hpl'). specialize (Hap pl' Hpl').
          rewrite Forall_forall in *. intros q Hq. destruct (Hvpls q Hq) as (Q1 & Q2). split; [|exact Q2].
          eapply pvalid_pres; [exact Q1 | exact Hpv | | exact Happ].
          intros E. apply (Hap p q Hpin Hq). symmetry. exact E. }
        destruct (IH _ _ _ Hst1 Hv1 Hop' Hr2) as (G1 & G2 & G3 & G4 & G5).
        split; [exact G1|]. split; [rewrite G2, Est; apply put_ovr_length|]. split; [|split].
        * intros w. cbn [map zsum]. pose proof (G3 w) as Hg3.
          pose proof (ssum_put w st (pr_rid p) r r' added Hnd Hadd Hpa Hr) as Hc.
          rewrite <- Est in Hc. pose proof (Hcov w) as Hcv. lia.
        * intros q [<- | Hq]; [exists pl; split; [left; reflexivity | exact Hpin]|].
          destruct (G4 q Hq) as (pl0 & Hpl0 & Hin). exists pl0. split; [right; exact Hpl0 | exact Hin].
        * cbn [map]. constructor; [|exact G5]. intros Hin. apply in_map_iff in Hin.
          destruct Hin as (q & Eq & Hq). destruct (G4 q Hq) as (pl0 & Hpl0 & Hin0).
          rewrite Forall_forall in Hap. apply (Hap pl0 Hpl0 p q Hpin Hin0). symmetry. exact Eq.
  Qed.

  (* the bookkeeping of the fix will succeed: p's fragment is multiply found and p's result is among its ids *)
  Definition fix_booked (found : list (fkey * (frag * list rid))) (multi : list fkey) (p : premise) : Prop :=
    In (pkey p) multi /\ exists ids, aget key_eqb found (pkey p) = Some (pr_frag p, ids) /\ In (pr_rid p) ids.

  Lemma existsb_Zeqb x l : In x l -> existsb (Z.eqb x) l = true.
  Proof. intros H. apply existsb_exists. exists x. split; [exact H | apply Z.eqb_refl]. Qed.

  Lemma bookkeeping_step found multi p ids :
    In (pkey p) multi -> aget key_eqb found (pkey p) = Some (pr_frag p, ids) -> In (pr_rid p) ids ->
    apply_fix_bookkeeping (found, multi) p
    = Ok (aset key_eqb found (pkey p) (pr_frag p, remove_first Z.eqb (pr_rid p) ids),
          if zlen (remove_first Z.eqb (pr_rid p) ids) <=? 1
          then filter (fun k' => negb (key_eqb (pkey p) k')) multi else multi).
  Proof.
    intros Hpm Ha Hi. unfold apply_fix_bookkeeping. fold (pkey p).
    apply existsb_key in Hpm. rewrite Hpm, Ha, (existsb_Zeqb _ _ Hi). reflexivity.
  Qed.

  (* the other fixes stay booked when the entry of [p] is rewritten *)
  Lemma fix_booked_step found multi p v fixes :
    ~ In (pkey p) (map pkey fixes) -> Forall (fix_booked found multi) fixes ->
    forall c : bool,
    Forall (fix_booked (aset key_eqb found (pkey p) v)
              (if c then filter (fun k' => negb (key_eqb (pkey p) k')) multi else multi)) fixes.
  Proof.
    intros Hnp Hb c. apply Forall_forall. intros q Hq. rewrite Forall_forall in Hb.
    destruct (Hb q Hq) as (Q1 & idsq & Q2 & Q3).
    assert (Hne : pkey q <> pkey p).
    { intros E. apply Hnp. rewrite <- E. apply in_map. exact Hq. }
    split.
    - destruct c; [|exact Q1]. apply filter_In. split; [exact Q1|].
      apply Bool.negb_true_iff. apply key_eqb_neq. intros E. apply Hne. symmetry. exact E.
    - exists idsq. split; [|exact Q3].
      rewrite (aget_aset_other key_eqb key_eqb_eq) by exact Hne. exact Q2.
  Qed.

  Lemma bookkeeping_sum added : forall fixes found multi found' multi',
    FInv inp added found multi -> NoDup (map pkey fixes) ->
    Forall (fix_booked found multi) fixes ->
    foldM apply_fix_bookkeeping fixes (found, multi) = Ok (found', multi') ->
    FInv inp added found' multi'
    /\ forall w, fsum w found = fsum w found' + zsum w (map pkey fixes).
  Proof.
    induction fixes as [|p fixes IH]; intros found multi found' multi' HF Hnd Hb H; cbn [foldM] in H.
    - injection H as <- <-. split; [exact HF|]. intros; cbn [map zsum]; lia.
    - bind_inv H acc Hacc.
      inversion Hnd as [|? ? Hnk Hnd']; subst. inversion Hb as [|? ? Hbp Hb']; subst.
      destruct Hbp as (Hkm & ids & Hget & Hrid).
      rewrite (bookkeeping_step _ _ _ _ Hkm Hget Hrid) in Hacc. injection Hacc as <-.
      pose proof (fix_booked_step found multi p (pr_frag p, remove_first Z.eqb (pr_rid p) ids) fixes Hnk Hb'
                    (zlen (remove_first Z.eqb (pr_rid p) ids) <=? 1)) as Hb1.
      set (ids' := remove_first Z.eqb (pr_rid p) ids) in *.
      assert (Hlen : S (length ids') = length ids) by (apply remove_first_length, existsb_Zeqb, Hrid).
      assert (Hids' : incl ids' ids) by (intros a Ha; eapply remove_first_incl; exact Ha).
      clearbody ids'.
      destruct (FInv_set_ids inp added found multi (pkey p) (pr_frag p) ids ids'
                  (if zlen ids' <=? 1 then filter (fun k' => negb (key_eqb (pkey p) k')) multi else multi)
                  HF Hget) as (HF1 & Hw1).
      + destruct (zlen ids' <=? 1); [apply NoDup_filter|]; apply HF.
      + intros k' Hk'. destruct (zlen ids' <=? 1); [|reflexivity].
        rewrite filter_In. assert (E : key_eqb (pkey p) k' = false) by (apply key_eqb_neq; congruence).
        rewrite E. cbn [negb]. tauto.
      + intros (_ & _ & K3 & K4 & K5). cbn [fst snd] in K3, K4, K5.
        assert (K6 : (2 <= length ids)%nat) by (apply K5; exact Hkm). unfold rid in *.
        split; [intros a Ha; apply K3, Hids', Ha|]. split; [lia|].
        unfold zlen. destruct (Z.of_nat (length ids') <=? 1) eqn:El.
        * rewrite filter_In, key_eqb_refl. cbn [negb]. split; [intros [_ X]; discriminate | lia].
        * split; [lia | intros _; exact Hkm].
      + destruct (IH _ _ _ _ HF1 Hnd' Hb1 H) as (G1 & G2). split; [exact G1|].
        intros w. cbn [map zsum]. pose proof (G2 w) as Hg2. pose proof (Hw1 w) as Hw2.
        unfold zlen in *. unfold rid in *. lia.
  Qed.

  Definition round_premises (b : bstate) (ks : list fkey) : res (list (list premise)) :=
    mapM (fun k => match aget key_eqb (b_found b) k with
                   | Some (f, ids) => premises_of (b_store b) f ids
                   | None => Err KeyError
                   end) ks.

  (* what a premise of a round satisfies in the state the round starts from *)
  Definition pgood (b : bstate) (p : premise) : Prop :=
    pvalid (b_store b) p /\ In (pr_rid p) (b_added b) /\ fix_booked (b_found b) (b_multi b) p.

  Lemma round_premises_okW W b : InvW inp W b -> forall ks pls,
    NoDup ks -> incl ks (b_multi b) -> round_premises b ks = Ok pls ->
    Forall (Forall (pgood b)) pls /\ ForallOrdPairs keys_apart pls
    /\ (forall pl p, In pl pls -> In p pl -> In (pkey p) ks).
  Proof.
    intros (I1 & IA & (F1 & F2 & F3 & F4) & I4). unfold round_premises.
    induction ks as [|k ks IH]; intros pls Hnd Hincl H; cbn [mapM] in H.
    - injection H as <-. split; [constructor|]. split; [constructor | intros ? ? []].
    - bind_inv H pl Hpl. bind_inv H pls0 Hpls0. injection H as <-.
      inversion Hnd as [|? ? Hnk Hnd']; subst.
      assert (Hincl' : incl ks (b_multi b)) by (intros a Ha; apply Hincl; right; exact Ha).
      destruct (IH _ Hnd' Hincl' Hpls0) as (G1 & G2 & G3).
      destruct (aget key_eqb (b_found b) k) as [[f ids]|] eqn:Eg; [|discriminate].
      pose proof (aget_In key_eqb key_eqb_eq _ _ _ Eg) as Hin.
      rewrite Forall_forall in F3. destruct (F3 _ Hin) as (K1 & K2 & K3 & K4 & K5). cbn [fst snd] in *.
      assert (Hidpos : Forall (fun a => 0 <= a) ids).
      { apply Forall_forall. intros a Ha. apply K3 in Ha. pose proof (AddedOk_pos _ _ IA) as Hp.
        rewrite Forall_forall in Hp. apply Hp. exact Ha. }
      pose proof (premises_of_ok _ _ I1 K2 _ _ Hidpos Hpl) as Hps.
      assert (Hkey : forall p, In p pl -> pkey p = k).
      { intros p Hp. rewrite Forall_forall in Hps. destruct (Hps p Hp) as (E & _). unfold pkey. rewrite E. exact K1. }
      split; [constructor; [|exact G1]|]. 2: split; [constructor; [|exact G2]|].
      + rewrite Forall_forall in *. intros p Hp. destruct (Hps p Hp) as (E1 & E2 & E3).
        split; [exact E3|]. split; [apply K3; exact E2|]. split.
        * rewrite (Hkey p Hp). apply Hincl. left. reflexivity.
        * exists ids. rewrite (Hkey p Hp), E1. split; [exact Eg | exact E2].
      + apply Forall_forall. intros pl' Hpl' p p' Hp Hp' E. apply Hnk.
        rewrite <- (Hkey p Hp), E. eapply G3; eassumption.
      + intros pl' p [<- | Hpl'] Hp; [left; symmetry; apply Hkey; exact Hp | right; eapply G3; eassumption].
  Qed.

  (* what one round of the loop establishes, whatever else is being proved
     about the run *)
  Lemma discard_roundW W err b pls st fixes :
    InvW inp W b -> round_premises b (b_multi b) = Ok pls ->
    let pls' := filter (fun pl => match pl with [] => false | _ => true end) pls in
    make_fixes err (b_store b) pls' = Ok (st, fixes) ->
    Forall (Forall (pgood b)) pls' /\ ForallOrdPairs keys_apart pls'
    /\ (forall p, In p fixes -> exists pl, In pl pls' /\ In p pl)
    /\ NoDup (map pkey fixes)
    /\ Forall (fix_booked (b_found b) (b_multi b)) fixes
    /\ (fixes = [] -> InvW inp W (with_store b st))
    /\ (forall found' multi',
          foldM apply_fix_bookkeeping fixes (b_found b, b_multi b) = Ok (found', multi') ->
          InvW inp W (mkB st (b_added b) found' multi' (b_namer b) (b_cuts b))).
  Proof.
    intros HI Hpls pls' Hr.
    pose proof HI as (I1 & (A1 & A2) & HF & I4).
    pose proof HF as (F1 & F2 & F3 & F4).
    destruct (round_premises_okW W b HI _ _ F2 (incl_refl _) Hpls) as (G1 & G2 & _).
    assert (G1' : Forall (Forall (pgood b)) pls').
    { apply Forall_forall. intros pl Hpl. apply filter_In in Hpl. rewrite Forall_forall in G1. apply G1. tauto. }
    assert (G2' : ForallOrdPairs keys_apart pls') by (apply FOP_filter; exact G2).
    assert (Hv : Forall (Forall (fun p => pvalid (b_store b) p /\ In (pr_rid p) (b_added b))) pls').
    { eapply Forall_impl; [|exact G1']. intros pl Hpl. eapply Forall_impl; [|exact Hpl].
      intros p (P1 & P2 & _). split; assumption. }
    destruct (make_fixes_sum err _ A1 (AddedOk_pos _ _ (conj A1 A2)) _ _ _ _ I1 Hv G2' Hr)
      as (M1 & M2 & M3 & M4 & M5).
    assert (A2' : Forall (fun a => 0 <= a < zlen st) (b_added b)).
    { unfold zlen. rewrite M2. exact A2. }
    assert (Hb : Forall (fix_booked (b_found b) (b_multi b)) fixes).
    { apply Forall_forall. intros p Hp. destruct (M4 p Hp) as (pl & Hpl & Hin).
      rewrite Forall_forall in G1'. specialize (G1' pl Hpl). rewrite Forall_forall in G1'.
      apply (G1' p Hin). }
    split; [exact G1'|]. split; [exact G2'|]. split; [exact M4|]. split; [exact M5|].
    split; [exact Hb|]. split.
    - intros ->. unfold InvW. cbn [with_store b_store b_added b_found b_multi].
      split; [exact M1|]. split; [split; assumption|]. split; [exact HF|].
      intros w Hw. rewrite <- (I4 w Hw), (M3 w). cbn [map zsum]. lia.
    - intros found' multi' Hfm.
      destruct (bookkeeping_sum _ _ _ _ _ _ HF M5 Hb Hfm) as (B1 & B2).
      unfold InvW. cbn [b_store b_added b_found b_multi].
      split; [exact M1|]. split; [split; assumption|]. split; [exact B1|].
      intros w Hw. pose proof (I4 w Hw). pose proof (M3 w). pose proof (B2 w). lia.
  Qed.

  Lemma discard_loop_invW W err : forall fuel b b',
    InvW inp W b -> discard_loop fuel err b = Ok b' -> InvW inp W b'.
  Proof.
    induction fuel as [|fuel IH]; intros b b' HI H; cbn [discard_loop] in H; [discriminate|].
    destruct (b_multi b) as [|k0 m0] eqn:Em; [injection H as <-; exact HI|].
    rewrite <- Em in H. fold (round_premises b (b_multi b)) in H.
    bind_inv H pls Hpls. bind_inv H r Hr. destruct r as [st fixes].
    destruct (discard_roundW W err b pls st fixes HI Hpls Hr) as (_ & _ & _ & _ & _ & Inil & Icons).
    destruct fixes as [|p0 fx0] eqn:Efx.
    - injection H as <-. apply Inil. reflexivity.
    - rewrite <- Efx in *. bind_inv H fm Hfm. destruct fm as [found' multi'].
      eapply IH; [apply Icons; exact Hfm | exact H].
  Qed.

  (* a property that every round keeps holds when the loop returns *)
  Lemma discard_loop_rule err (Q : bstate -> Prop) :
    (forall b pls st fixes,
       Inv inp b -> Q b -> round_premises b (b_multi b) = Ok pls ->
       let pls' := filter (fun pl => match pl with [] => false | _ => true end) pls in
       make_fixes err (b_store b) pls' = Ok (st, fixes) ->
       Forall (Forall (pgood b)) pls' -> ForallOrdPairs keys_apart pls' ->
       (forall p, In p fixes -> exists pl, In pl pls' /\ In p pl) ->
       NoDup (map pkey fixes) ->
       Forall (fix_booked (b_found b) (b_multi b)) fixes ->
       (fixes = [] -> Q (with_store b st))
       /\ (forall found' multi', fixes <> [] ->
             foldM apply_fix_bookkeeping fixes (b_found b, b_multi b) = Ok (found', multi') ->
             Inv inp (mkB st (b_added b) found' multi' (b_namer b) (b_cuts b)) ->
             Q (mkB st (b_added b) found' multi' (b_namer b) (b_cuts b)))) ->
    forall fuel b b', Inv inp b -> Q b -> discard_loop fuel err b = Ok b' -> Inv inp b' /\ Q b'.
  Proof.
    intros Hstep. induction fuel as [|fuel IH]; intros b b' HI HQ H; cbn [discard_loop] in H; [discriminate|].
    destruct (b_multi b) as [|k0 m0] eqn:Em; [injection H as <-; split; assumption|].
    rewrite <- Em in H. fold (round_premises b (b_multi b)) in H.
    bind_inv H pls Hpls. bind_inv H r Hr. destruct r as [st fixes].
    destruct (discard_roundW _ err b pls st fixes (proj1 (Inv_InvW inp b) HI) Hpls Hr)
      as (G1 & G2 & M4 & M5 & Hb & Inil & Icons).
    destruct (Hstep b pls st fixes HI HQ Hpls Hr G1 G2 M4 M5 Hb) as (Qnil & Qcons).
    destruct fixes as [|p0 fx0] eqn:Efx.
    - injection H as <-. split; [apply (Inv_InvW inp), Inil | apply Qnil]; reflexivity.
    - rewrite <- Efx in *. bind_inv H fm Hfm. destruct fm as [found' multi'].
      pose proof (proj2 (Inv_InvW inp _) (Icons _ _ Hfm)) as HI'.
      eapply IH; [exact HI' | | exact H].
      apply Qcons; [rewrite Efx; discriminate | exact Hfm | exact HI'].
  Qed.

End Fixes.

(* the abutting/overlap/gap test of cut_fragments forces the pieces to tile
   the original (RemapTail.qc_partition; kept as an explicit premise) *)
Definition qc_partition_ok : Prop := forall orig subs, f_start orig <= f_end orig ->
  Forall (fun f => f_name f = f_name orig /\ f_start orig <= f_start f /\ f_start f <= f_end f /\ f_end f <= f_end orig) subs ->
  qc_sub_fragments orig subs = Ok tt -> forall n x, coverage subs n x = coverage [orig] n x.

Definition sub_piece (f s : frag) : Prop :=
  f_name s = f_name f /\ f_start f <= f_start s /\ f_start s <= f_end s /\ f_end s <= f_end f.

Section Cut.
  Variable inp : list (str * list row).
  Hypothesis Hids : NoDup (map f_id (in_frags inp)).
  Hypothesis Hpos : Forall (fun f => 0 <= f_id f) (in_frags inp).
  Hypothesis Hwf : Forall (fun f => f_start f <= f_end f) (in_frags inp).
  Hypothesis Hkeys : NoDup (map key_of (in_frags inp)).
  Hypothesis Hqc : qc_partition_ok.

  (* rows after some cuts: input rows (id >= 0) or trimmed copies (id < 0) *)
  Definition rows_cut (rows : list row) : Prop :=
    forall g, In (RF g) rows -> (0 <= f_id g -> In g (in_frags inp)) /\ sub_of_input inp g.
  Definition store_cut (st : list ovr) : Prop := forall r, In r st -> rows_cut (o_rows r).

  Lemma in_frags_wf f : In f (in_frags inp) -> f_start f <= f_end f.
  Proof. intros H. rewrite Forall_forall in Hwf. apply Hwf. exact H. Qed.

  Lemma sub_of_input_self f : In f (in_frags inp) -> sub_of_input inp f.
  Proof.
    intros H. exists f. split; [exact H|]. split; [reflexivity|].
    pose proof (in_frags_wf f H). lia.
  Qed.

  Lemma rows_in_cut rows : rows_in inp rows -> rows_cut rows.
  Proof. intros H g Hg. split; [intros _; apply H; exact Hg | apply sub_of_input_self; apply H; exact Hg]. Qed.

  Lemma store_in_cut st : store_in inp st -> store_cut st.
  Proof. intros H r Hr. apply rows_in_cut. apply H. exact Hr. Qed.

  (* a row with the id of an input fragment is that fragment *)
  Lemma cut_row_id rows g f : rows_cut rows -> In (RF g) rows -> In f (in_frags inp) ->
    f_id g = f_id f -> g = f.
  Proof.
    intros Hc Hg Hf Eg. apply (id_inj inp Hids); [|exact Hf | exact Eg].
    apply (Hc g Hg). rewrite Eg. apply (in_frags_id_pos inp Hpos). exact Hf.
  Qed.

  Lemma trim_fragment_ok r f ks ke new r' :
    rows_cut (o_rows r) -> In f (in_frags inp) -> trim_fragment r f ks ke = Ok (new, r') ->
    rows_cut (o_rows r')
    /\ (forall w, rsum w (o_rows r') + w (key_of f) = rsum w (o_rows r) + w (key_of new))
    /\ sub_piece f new.
  Proof.
    intros Hc Hf H.
    assert (Hsub : sub_piece f new).
    { destruct (trim_fragment_spec _ _ _ _ _ _ H)
        as (x0 & xl & ds & de & _ & _ & _ & _ & _ & Hds & Hde & -> & Hle & _).
      unfold sub_piece. cbn [f_name f_start f_end] in *. split; [reflexivity|].
      destruct (f_strand f =? 1); lia. }
    assert (Hnew : (0 <= f_id new -> In new (in_frags inp)) /\ sub_of_input inp new).
    { split; [intros Hp; exfalso|exists f; split; [exact Hf | exact Hsub]].
      destruct (trim_fragment_rows _ _ _ _ _ _ H) as [(? & ? & _ & _ & _ & E) | (? & ? & _ & _ & _ & E)]; lia. }
    split; [|split; [|exact Hsub]];
      destruct (trim_fragment_rows _ _ _ _ _ _ H)
        as [(tl & g & Er & Eg & Er' & _) | (g & tl & Er & Eg & Er' & _)];
      rewrite Er in Hc; rewrite ?Er, Er'.
    - intros g0 Hg0. apply in_app_or in Hg0. destruct Hg0 as [Hg0 | [Hg0 | []]].
      + apply Hc. apply in_or_app. left. exact Hg0.
      + injection Hg0 as <-. exact Hnew.
    - intros g0 [Hg0 | Hg0]; [injection Hg0 as <-; exact Hnew|]. apply Hc. right. exact Hg0.
    - assert (g = f) as -> by (eapply cut_row_id; [exact Hc | apply in_or_app; right; left; reflexivity | exact Hf | exact Eg]).
      intros w. rewrite !rsum_app, !rsum_single. lia.
    - assert (g = f) as -> by (eapply cut_row_id; [exact Hc | left; reflexivity | exact Hf | exact Eg]).
      intros w. rewrite !rsum_RF. lia.
  Qed.

  Lemma trim_all_ok c f added : In f (in_frags inp) -> NoDup added -> Forall (fun a => 0 <= a) added ->
    forall ids st i last st' subs,
    store_cut st -> incl ids added ->
    trim_all c st f ids i last = Ok (st', subs) ->
    store_cut st' /\ length st' = length st /\ length subs = length ids
    /\ Forall (sub_piece f) subs
    /\ forall w, ssum w st' added + Z.of_nat (length ids) * w (key_of f)
                 = ssum w st added + zsum (fun s => w (key_of s)) subs.
  Proof.
    intros Hf Hnd Hadd. induction ids as [|id ids IH]; intros st i last st' subs Hst Hincl H; cbn [trim_all] in H.
    - injection H as <- <-. split; [exact Hst|]. split; [reflexivity|]. split; [reflexivity|].
      split; [constructor|]. intros w. cbn [length zsum]. lia.
    - cbv zeta in H. bind_inv H r Hr. bind_inv H fr Hfr. destruct fr as [new r'].
      bind_inv H rest Hrest. destruct rest as [st2 subs2]. cbn [fst snd] in H. injection H as <- <-.
      assert (Hrc : rows_cut (o_rows r)) by (apply Hst; eapply get_ovr_In; exact Hr).
      destruct (trim_fragment_ok _ _ _ _ _ _ Hrc Hf Hfr) as (T1 & T2 & T3).
      assert (Hst1 : store_cut (put_ovr st id r')).
      { intros y Hy. apply put_ovr_In in Hy. destruct Hy as [-> | Hy]; [exact T1 | apply Hst; exact Hy]. }
      assert (Hincl' : incl ids added) by (intros a Ha; apply Hincl; right; exact Ha).
      destruct (IH _ _ _ _ _ Hst1 Hincl' Hrest) as (G1 & G2 & G3 & G4 & G5).
      split; [exact G1|]. split; [rewrite G2; apply put_ovr_length|]. split; [cbn [length]; rewrite G3; reflexivity|].
      split; [constructor; assumption|].
      intros w. pose proof (G5 w) as Hg5. pose proof (T2 w) as Ht2.
      assert (Hida : In id added) by (apply Hincl; left; reflexivity).
      pose proof (ssum_put w st id r r' added Hnd Hadd Hida Hr) as Hc.
      cbn [length zsum]. lia.
  Qed.

  (* the pieces cut out of the found fragment [k], whatever is summed *)
  Lemma cut_fragments_parts c b k b' :
    store_cut (b_store b) -> AddedOk (b_store b) (b_added b) ->
    FInv inp (b_added b) (b_found b) (b_multi b) ->
    cut_fragments c b k = Ok b' ->
    exists f ids st subs,
      aget key_eqb (b_found b) k = Some (f, ids) /\ key_of f = k /\ In f (in_frags inp)
      /\ b' = mkB st (b_added b) (b_found b) (b_multi b) (b_namer b) (b_cuts b + zlen subs - 1)
      /\ qc_sub_fragments f subs = Ok tt
      /\ store_cut st /\ length st = length (b_store b) /\ length subs = length ids
      /\ Forall (sub_piece f) subs
      /\ forall w, ssum w st (b_added b) + zlen ids * w k
                   = ssum w (b_store b) (b_added b) + zsum (fun s => w (key_of s)) subs.
  Proof.
    intros C1 (A1 & A2) (F1 & F2 & F3 & F4) H. unfold cut_fragments in H.
    destruct (aget key_eqb (b_found b) k) as [[f ids]|] eqn:Eg; [|discriminate].
    bind_inv H keyed Hkeyed. bind_inv H r Hr. destruct r as [st subs]. bind_inv H u Hu. injection H as <-.
    pose proof (aget_In key_eqb key_eqb_eq _ _ _ Eg) as Hin.
    rewrite Forall_forall in F3. destruct (F3 _ Hin) as (K1 & K2 & K3 & K4 & K5). cbn [fst snd] in *.
    set (ordered := map snd (sort_by_Z fst keyed)) in *.
    assert (Hord : incl ordered (b_added b)).
    { intros id Hid. apply K3. unfold ordered in Hid. apply in_map_iff in Hid. destruct Hid as ([s0 id0] & E & Hs0).
      cbn [snd] in E. subst id0. unfold sort_by_Z in Hs0. apply In_stable_sort in Hs0.
      destruct (mapM_In _ _ _ Hkeyed _ Hs0) as (id1 & Hid1 & Hf).
      bind_inv Hf r1 Hr1. bind_inv Hf s1 Hs1. injection Hf as _ <-. exact Hid1. }
    assert (Hlen : length ordered = length ids).
    { unfold ordered, sort_by_Z. rewrite map_length, stable_sort_length. eapply mapM_length. exact Hkeyed. }
    clearbody ordered.
    pose proof (AddedOk_pos _ _ (conj A1 A2)) as Hadd.
    destruct (trim_all_ok c f _ K2 A1 Hadd _ _ _ _ _ _ C1 Hord Hr) as (T1 & T2 & T3 & T4 & T5).
    destruct u. exists f, ids, st, subs.
    split; [reflexivity|]. split; [exact K1|]. split; [exact K2|]. split; [reflexivity|].
    split; [exact Hu|]. split; [exact T1|]. split; [exact T2|]. split; [rewrite T3; exact Hlen|]. split; [exact T4|].
    intros w. rewrite <- (T5 w), K1. unfold zlen. unfold rid in *. rewrite Hlen. reflexivity.
  Qed.

  (* entries still to be cut weigh as many times as results hold them *)
  Definition wt (todo : list fkey) (e : fkey * (frag * list rid)) : Z :=
    if existsb (key_eqb (fst e)) todo then zlen (snd (snd e)) else 1.
  Definition tsum (w : fkey -> Z) (todo : list fkey) (found : list (fkey * (frag * list rid))) : Z :=
    zsum (fun e => wt todo e * w (fst e)) found.
  Definition wsumT (todo : list fkey) (found : list (fkey * (frag * list rid))) (n : str) (x : Z) : Z :=
    tsum (cw n x) todo found.

  Definition CInv (todo : list fkey) (b : bstate) : Prop :=
    store_cut (b_store b) /\ AddedOk (b_store b) (b_added b)
    /\ FInv inp (b_added b) (b_found b) (b_multi b)
    /\ forall n x, CovS (b_store b) (b_added b) n x = wsumT todo (b_found b) n x.

  Lemma tsum_step w todo found k f ids :
    NoDup (map fst found) -> aget key_eqb found k = Some (f, ids) -> ~ In k todo ->
    tsum w (k :: todo) found = tsum w todo found + (zlen ids - 1) * w k.
  Proof.
    intros Hnd Hget Hn. destruct (aget_split key_eqb key_eqb_eq _ _ _ Hget) as (l1 & l2 & Ef & _ & _).
    assert (Hne : forall e, In e (l1 ++ l2) -> fst e <> k).
    { rewrite Ef in Hnd. eapply split_keys_ne. exact Hnd. }
    assert (Hsame : forall l, (forall e, In e l -> fst e <> k) -> tsum w (k :: todo) l = tsum w todo l).
    { intros l Hl. unfold tsum. apply zsum_ext. intros e He. unfold wt. cbn [existsb].
      assert (E : key_eqb (fst e) k = false) by (apply key_eqb_neq; apply Hl; exact He).
      rewrite E. reflexivity. }
    rewrite Ef. unfold tsum. rewrite !zsum_app. cbn [zsum].
    fold (tsum w (k :: todo) l1) (tsum w todo l1) (tsum w (k :: todo) l2) (tsum w todo l2).
    rewrite (Hsame l1) by (intros e He; apply Hne; apply in_or_app; left; exact He).
    rewrite (Hsame l2) by (intros e He; apply Hne; apply in_or_app; right; exact He).
    unfold wt. cbn [fst snd existsb]. rewrite key_eqb_refl. cbn [orb].
    assert (E : existsb (key_eqb k) todo = false) by (apply existsb_key_false; exact Hn).
    rewrite E. lia.
  Qed.

  (* before the cuts the entries to cut are those of b_multi, the others are held once *)
  Lemma tsum_multi w added found multi : FInv inp added found multi -> tsum w multi found = fsum w found.
  Proof.
    intros (_ & _ & F3 & _). unfold fsum, tsum. apply zsum_ext. intros e He.
    rewrite Forall_forall in F3. destruct (F3 e He) as (_ & _ & _ & K4 & K5).
    unfold wt. destruct (existsb (key_eqb (fst e)) multi) eqn:Ex; [reflexivity|].
    apply existsb_key_false in Ex. unfold zlen.
    assert (E : (length (snd (snd e)) = 1)%nat) by (destruct (le_lt_dec 2 (length (snd (snd e)))); [exfalso; tauto | lia]).
    rewrite E. reflexivity.
  Qed.

  Lemma Inv_CInv b : Inv inp b -> CInv (b_multi b) b.
  Proof.
    intros (I1 & IA & HF & I4). split; [apply store_in_cut; exact I1|]. split; [exact IA|]. split; [exact HF|].
    intros n x. rewrite I4. symmetry. eapply tsum_multi. exact HF.
  Qed.

  Lemma cut_fragments_ok c todo b k b' :
    CInv (k :: todo) b -> ~ In k todo -> cut_fragments c b k = Ok b' -> CInv todo b'.
  Proof.
    intros (C1 & (A1 & A2) & HF & C4) Hn H.
    destruct (cut_fragments_parts c b k b' C1 (conj A1 A2) HF H)
      as (f & ids & st & subs & Eg & K1 & K2 & -> & Hu & T1 & T2 & T3 & T4 & T5).
    unfold CInv. cbn [b_store b_added b_found b_multi].
    split; [exact T1|]. split; [split; [exact A1 | unfold zlen; rewrite T2; exact A2]|]. split; [exact HF|].
    intros n x. pose proof (T5 (cw n x)) as Ht5. pose proof (C4 n x) as C4'.
    pose proof (Hqc f subs (in_frags_wf f K2) T4 Hu n x) as Hq.
    apply (f_equal Z.of_nat) in Hq. rewrite !coverage_zsum in Hq. cbn [zsum] in Hq.
    unfold CovS, wsumT in *. destruct HF as (F1 & _).
    rewrite (tsum_step _ todo _ k f ids F1 Eg Hn) in C4'.
    unfold cvf in Hq. rewrite K1 in Hq. fold (cw n x k) in Hq.
    change (zsum (fun f0 => cvz (key_of f0) n x) subs) with (zsum (fun s => cw n x (key_of s)) subs) in Hq.
    unfold rid in *. lia.
  Qed.

  Lemma cut_fold_ok c : forall todo b b',
    NoDup todo -> CInv todo b -> foldM (cut_fragments c) todo b = Ok b' -> CInv [] b'.
  Proof.
    induction todo as [|k todo IH]; intros b b' Hnd HC H; cbn [foldM] in H.
    - injection H as <-. exact HC.
    - bind_inv H b1 Hb1. inversion Hnd as [|? ? Hn Hnd']; subst.
      eapply IH; [exact Hnd' | | exact H]. eapply cut_fragments_ok; eassumption.
  Qed.

  (* after the cuts every found fragment is covered once; b_multi is no longer looked at *)
  Definition FinalInv (b : bstate) : Prop :=
    store_cut (b_store b)
    /\ NoDup (map fst (b_found b))
    /\ Forall (fun e => key_of (fst (snd e)) = fst e /\ In (fst (snd e)) (in_frags inp)) (b_found b)
    /\ forall n x, CovS (b_store b) (b_added b) n x = zsum (fun e => cvz (fst e) n x) (b_found b).

  Lemma CInv_final b : CInv [] b -> FinalInv b.
  Proof.
    intros (C1 & _ & (F1 & _ & F3 & _) & C4). split; [exact C1|]. split; [exact F1|]. split.
    - eapply Forall_impl; [|exact F3]. intros e (K1 & K2 & _). split; assumption.
    - intros n x. rewrite C4. unfold wsumT, tsum. apply zsum_ext. intros e _. unfold wt, cw. cbn [existsb]. lia.
  Qed.

  Lemma cut_remaining_ok c b b' : Inv inp b -> cut_remaining_overhangs c b = Ok b' -> FinalInv b'.
  Proof.
    intros HI H. unfold cut_remaining_overhangs in H. bind_inv H b1 Hb1. injection H as <-.
    pose proof HI as (_ & _ & (_ & F2 & _) & _).
    pose proof (cut_fold_ok c _ _ _ F2 (Inv_CInv b HI) Hb1) as HC.
    apply CInv_final in HC. exact HC.
  Qed.

  Lemma FinalInv_store_map b st' nm :
    FinalInv b -> map o_rows st' = map o_rows (b_store b) -> FinalInv (with_namer (with_store b st') nm).
  Proof.
    intros (C1 & F1 & F3 & C4) Hm. unfold FinalInv. cbn [with_namer with_store b_store b_added b_found].
    split; [|split; [exact F1|split; [exact F3|]]].
    - intros r Hr. assert (Hi : In (o_rows r) (map o_rows (b_store b))) by (rewrite <- Hm; apply in_map; exact Hr).
      apply in_map_iff in Hi. destruct Hi as (r0 & E & Hr0). rewrite <- E. apply C1. exact Hr0.
    - intros n x. unfold CovS. rewrite (ssum_map _ _ _ _ Hm). apply C4.
  Qed.

  Lemma is_found_iff b f : is_found b f = true <-> In (key_of f) (map fst (b_found b)).
  Proof.
    unfold is_found. destruct (aget key_eqb (b_found b) (key_of f)) eqn:E.
    - split; [intros _|reflexivity]. apply aget_In in E; [|exact key_eqb_eq].
      apply in_map_iff. exists (key_of f, p). auto.
    - apply (aget_None key_eqb key_eqb_eq) in E. split; [discriminate | contradiction].
  Qed.

  (* the found entries are the found input fragments, one entry each *)
  Lemma found_keys_perm b :
    NoDup (map fst (b_found b)) ->
    Forall (fun e => key_of (fst (snd e)) = fst e /\ In (fst (snd e)) (in_frags inp)) (b_found b) ->
    Permutation (map fst (b_found b)) (map key_of (filter (is_found b) (in_frags inp))).
  Proof.
    intros F1 F3. apply NoDup_Permutation.
    - exact F1.
    - apply NoDup_map_filter. exact Hkeys.
    - intros k. split.
      + intros Hk. apply in_map_iff in Hk. destruct Hk as (e & <- & He).
        rewrite Forall_forall in F3. destruct (F3 e He) as (K1 & K2).
        apply in_map_iff. exists (fst (snd e)). split; [exact K1|]. apply filter_In. split; [exact K2|].
        apply is_found_iff. rewrite K1. apply in_map. exact He.
      + intros Hk. apply in_map_iff in Hk. destruct Hk as (f & <- & Hf). apply filter_In in Hf.
        apply is_found_iff. tauto.
  Qed.

  Theorem FinalInv_Post b : FinalInv b -> Post inp b.
  Proof.
    intros (C1 & F1 & F3 & C4). split.
    - intros n x. apply Nat2Z.inj. rewrite coverage_CovS, C4, coverage_zsum.
      unfold cvf. rewrite <- (zsum_map (fun k => cvz k n x) fst), <- (zsum_map (fun k => cvz k n x) key_of).
      apply zsum_perm, found_keys_perm; assumption.
    - apply Forall_forall. intros g Hg. rewrite result_frags_alt in Hg. apply in_flat_map in Hg.
      destruct Hg as (id & _ & Hg). unfold rows_at in Hg. destruct (get_ovr (b_store b) id) as [r|] eqn:Er; [|destruct Hg].
      apply In_frags_of_iff in Hg. apply (C1 r (get_ovr_In _ _ _ Er) g Hg).
  Qed.
End Cut.

Definition not_found (found : list (fkey * (frag * list rid))) (f : frag) : bool :=
  match aget key_eqb found (key_of f) with Some _ => false | None => true end.

Lemma frags_of_gap_rows : forall l, forallb is_gap_row l = true -> frags_of l = [].
Proof.
  induction l as [|[f|gp] l IH]; cbn [forallb is_gap_row andb]; intro H; [reflexivity|discriminate|].
  rewrite frags_of_RG. apply IH, H.
Qed.

(* in both modes the separator is made of gap rows only *)
Lemma frags_of_missing_sep c dg between : frags_of (missing_sep c dg between) = [].
Proof.
  unfold missing_sep. destruct (fix_gap_run c && forallb is_gap_row between) eqn:E.
  - apply andb_prop in E. apply frags_of_gap_rows, E.
  - destruct (last between _) as [?|?]; reflexivity.
Qed.

Lemma missing_rows_frags c found dg : forall rows between i la,
  frags_of (missing_rows c found dg rows between i la) = filter (not_found found) (frags_of rows).
Proof.
  induction rows as [|r rows IH]; intros between i la; cbn [missing_rows]; [reflexivity|].
  destruct r as [f|gp].
  - rewrite frags_of_RF. cbn [filter]. unfold not_found at 1.
    destruct (aget key_eqb found (key_of f)) as [v|] eqn:E.
    + apply IH.
    + rewrite frags_of_app, frags_of_RF, IH.
      match goal with |- frags_of ?sep ++ _ = _ => assert (Es : frags_of sep = []) end.
      { destruct la as [la|]; [|reflexivity]. destruct (negb (la =? i - 1)); [|reflexivity].
        apply frags_of_missing_sep. }
      rewrite Es. reflexivity.
  - rewrite frags_of_RG. apply IH.
Qed.

Definition left_frags (l : list scaffold) : list frag := flat_map (fun sc => frags_of (sc_rows sc)) l.

Lemma add_missing_fold c dg found : forall input nm left nm' left',
  foldM (add_missing_one c dg found) input (nm, left) = Ok (nm', left') ->
  left_frags left' = left_frags left ++ filter (not_found found) (in_frags input).
Proof.
  induction input as [|[name rows] input IH]; intros nm left nm' left' H; cbn [foldM] in H.
  - injection H as <- <-. cbn [in_frags flat_map filter]. rewrite app_nil_r. reflexivity.
  - bind_inv H acc Hacc. destruct acc as [nm1 left1]. rewrite (IH _ _ _ _ H).
    unfold in_frags at 2. cbn [flat_map snd]. fold (in_frags input). rewrite filter_app, app_assoc. f_equal.
    unfold add_missing_one in Hacc. pose proof (missing_rows_frags c found dg rows [] 0 None) as Hm.
    destruct (missing_rows c found dg rows [] 0 None) as [|x0 t0] eqn:Em.
    + injection Hacc as <- <-. rewrite <- Hm. cbn [frags_of flat_map]. rewrite app_nil_r. reflexivity.
    + bind_inv Hacc nm2 Hnm2. injection Hacc as <- <-. rewrite <- Hm.
      unfold left_frags. rewrite flat_map_app. cbn [flat_map sc_rows]. rewrite app_nil_r. reflexivity.
Qed.

Lemma wf_by_keys : forall l l' : list frag, map key_of l = map key_of l' ->
  Forall (fun f => f_start f <= f_end f) l' -> Forall (fun f => f_start f <= f_end f) l.
Proof.
  induction l as [|f l IH]; intros [|f' l'] E H; cbn [map] in E; try discriminate; [constructor|].
  assert (E1 : key_of f = key_of f') by congruence.
  assert (E2 : map key_of l = map key_of l') by congruence.
  inversion H as [|? ? Hf Hl]; subst. constructor; [|eapply IH; eassumption].
  unfold key_of in E1. assert (f_start f = f_start f' /\ f_end f = f_end f') by (split; congruence). lia.
Qed.

Theorem remap_head : qc_partition_ok -> forall c g prefix bpt input pretext rs,
  input_ok input ->
  remap_to_input c g prefix bpt input pretext = Ok rs ->
  let inp := number_input input 0 in
  Post inp (rs_b rs)
  /\ map key_of (flat_map (fun sc => frags_of (sc_rows sc)) (rs_left rs))
     = map key_of (filter (fun f => negb (is_found (rs_b rs) f)) (in_frags inp)).
Proof.
  intros Hqc c g prefix bpt input pretext rs (Hwf0 & Hkeys0) H inp.
  destruct (number_input_spec input 0) as (Ek & Hpos & Hids). fold inp in Ek, Hpos, Hids.
  assert (Hkeys : NoDup (map key_of (in_frags inp))) by (rewrite Ek; exact Hkeys0).
  assert (Hwf : Forall (fun f => f_start f <= f_end f) (in_frags inp)) by (eapply wf_by_keys; eassumption).
  destruct (remap_to_input_stages _ _ _ _ _ _ _ H)
    as (_ & b1 & b2 & b3 & st & nl & Hb1 & Hb2 & Hb3 & Hst & Hnl & ->).
  fold inp in Hb1, Hnl. cbn [rs_b rs_left].
  assert (I1 : InvW inp coverage_weight b1) by (eapply pretext_invW; eassumption).
  assert (I2 : Inv inp b2) by (apply Inv_InvW; eapply discard_loop_invW; eassumption).
  assert (I3 : FinalInv inp b3) by (eapply cut_remaining_ok; eassumption).
  assert (I4 : FinalInv inp (with_namer (with_store b3 st) (fst nl))).
  { apply FinalInv_store_map; [exact I3|]. eapply rename_results_rows. exact Hst. }
  split.
  - eapply FinalInv_Post; eassumption.
  - destruct nl as [nm left]. cbn [fst snd] in *.
    pose proof (add_missing_fold _ _ _ _ _ _ _ _ Hnl) as Hl. unfold left_frags in Hl. cbn [flat_map app] in Hl.
    rewrite Hl. f_equal. apply filter_ext. intros f. unfold not_found, is_found.
    cbn [with_namer with_store b_found]. destruct (aget key_eqb (b_found b3) (key_of f)); reflexivity.
Qed.

Print Assumptions remap_head.
