(* C08, end to end on the model: an unedited (null) Pretext map reproduces the
   input assembly -- same scaffold names, same rows, no cuts, no breaks, no
   joins -- for maps whose baits are all untagged (here) or all tagged Painted
   (the stages up to the fusion by name are shared with Proofs.NullMapPainted).
   Every bait finds its whole scaffold, so nothing is resolved, cut or renamed;
   the scaffolds no bait names are re-added with every gap of a run of gaps
   ([fix_gap_run]; the pinned commit kept only the last one:
   [null_map_legacy_refuted]); names being distinct nothing is fused, and one
   primary curated assembly comes out whose junctions are the input's. *)
From Tola Require Import Py.Base Model.Fragment Model.Scaffold Model.Lookup
  Model.OverlapResult Model.Namer Model.Remap
  Proofs.BaseLemmas Proofs.Rows Proofs.NaturalKey Proofs.NullMapAndCuts Proofs.Junctions
  Proofs.Routing.
From Tola Require Proofs.RemapTail Proofs.JoinGaps.
From Coq Require Import Lia ZifyBool Permutation.

(* rows with the object ids erased (number_input assigns ids; the outputs carry them) *)
Definition erase_id (r : row) : row :=
  match r with
  | RF f => RF (mkFrag (-1) (f_name f) (f_start f) (f_end f) (f_strand f) (f_tags f))
  | RG g => RG g
  end.

(* no two consecutive gap rows: what the pinned commit needed of a scaffold
   that no bait names; the theorem does not assume it *)
Definition no_gap_pair (rows : list row) : Prop :=
  forall a g1 g2 b, rows <> a ++ RG g1 :: RG g2 :: b.

(* an input scaffold the theorem speaks about *)
Definition sc_ok (sc : str * list row) : Prop :=
  snd sc <> [] /\ pos_rows (snd sc)
  /\ (exists f t, snd sc = RF f :: t) /\ (exists f t, snd sc = t ++ [RF f])
  /\ Forall (fun f => f_tags f = [] /\ (f_strand f = 1 \/ f_strand f = -1) /\ f_start f <= f_end f)
            (frags_of (snd sc))
  /\ haplotype_prefix_of_name (fst sc) = None
  /\ (forall f t, snd sc = RF f :: t -> haplotype_prefix_of_name (f_name f) = None).

(* a null map: every Pretext scaffold is one whole input scaffold, painted
   [1, E] with E within a texel of its length, in the order of the input;
   any input scaffold may be absent from the map *)
Inductive null_map (n d : Z) : list (str * list row) -> list (str * list row) -> Prop :=
  | nm_nil : null_map n d [] []
  | nm_absent : forall sc input ptx, null_map n d input ptx -> null_map n d (sc :: input) ptx
  | nm_present : forall name rows E pname input ptx,
      null_map n d input ptx -> 1 <= E -> rows_len (removelast rows) < E ->
      d * (rows_len rows - E) < n -> pname <> [] ->
      null_map n d ((name, rows) :: input) ((pname, [RF (mkFrag (-1) name 1 E 1 [])]) :: ptx).


Lemma number_rows_erase : forall rows n,
  map erase_id (fst (number_rows rows n)) = map erase_id rows.
Proof.
  induction rows as [|r rows IH]; intro n; [reflexivity|].
  cbn [number_rows]. specialize (IH (n + 1)).
  destruct r as [f|g]; destruct (number_rows rows (n + 1)) as [t' n']; cbn [fst map] in *;
    rewrite IH; reflexivity.
Qed.

Lemma number_input_erase : forall input n,
  map (fun p => (fst p, map erase_id (snd p))) (number_input input n)
  = map (fun p => (fst p, map erase_id (snd p))) input.
Proof.
  induction input as [|[name rows] input IH]; intro n; [reflexivity|].
  cbn [number_input]. pose proof (number_rows_erase rows n) as E.
  destruct (number_rows rows n) as [rows' n']. cbn [fst snd map] in *. rewrite E, IH. reflexivity.
Qed.

(* everything the theorem assumes of a scaffold is blind to the ids *)
Lemma row_len_erase r : row_len (erase_id r) = row_len r.
Proof. destruct r; reflexivity. Qed.

Lemma erase_same_lens a b : map erase_id a = map erase_id b -> map row_len a = map row_len b.
Proof.
  intro E. apply (f_equal (map row_len)) in E. rewrite !map_map in E.
  erewrite (map_ext _ row_len), (map_ext (fun x => row_len (erase_id x)) row_len) in E
    by (intro; apply row_len_erase).
  exact E.
Qed.

Definition erase_frag (f : frag) : frag :=
  mkFrag (-1) (f_name f) (f_start f) (f_end f) (f_strand f) (f_tags f).

Lemma frags_of_erase rows : frags_of (map erase_id rows) = map erase_frag (frags_of rows).
Proof.
  induction rows as [|[f|g] rows IH]; [reflexivity| |]; cbn [map erase_id].
  - rewrite !frags_of_RF. cbn [map]. rewrite IH. reflexivity.
  - rewrite !frags_of_RG. exact IH.
Qed.

Lemma erase_same_frags (P : frag -> Prop) a b :
  (forall f, P (erase_frag f) <-> P f) ->
  map erase_id a = map erase_id b -> Forall P (frags_of a) -> Forall P (frags_of b).
Proof.
  intros HP E F.
  assert (G : Forall P (map erase_frag (frags_of b))).
  { rewrite <- frags_of_erase, <- E, frags_of_erase. rewrite Forall_map.
    eapply Forall_impl; [|exact F]. intros f Hf. apply HP, Hf. }
  rewrite Forall_map in G. eapply Forall_impl; [|exact G]. intros f Hf. apply HP, Hf.
Qed.

Lemma erase_last a b f t :
  map erase_id a = map erase_id b -> a = t ++ [RF f] -> exists f' t', b = t' ++ [RF f'].
Proof.
  intros E ->. destruct (exists_last (l := b)) as (t' & x & ->).
  { intros ->. destruct t; discriminate. }
  rewrite !map_app in E. apply app_inj_tail in E as [_ E].
  destruct x as [f'|g]; [eauto | discriminate].
Qed.

Lemma no_gap_pair_erase a b :
  map erase_id a = map erase_id b -> no_gap_pair a -> no_gap_pair b.
Proof.
  intros E H p g1 g2 q ->. rewrite map_app in E. cbn [map erase_id] in E.
  apply map_eq_app in E as (p' & r' & -> & _ & E).
  destruct r' as [|x [|y r']]; try discriminate. cbn [map] in E.
  injection E as E1 E2 _. destruct x as [?|x]; [discriminate|]. destruct y as [?|y]; [discriminate|].
  exact (H p' x y r' eq_refl).
Qed.

Lemma sc_ok_erase name a b :
  map erase_id a = map erase_id b -> sc_ok (name, a) -> sc_ok (name, b).
Proof.
  intros E (H1 & H2 & (f0 & t0 & H3) & (fl & tl & H4) & H5 & H6 & H7). unfold sc_ok. cbn [fst snd] in *.
  assert (EL := erase_same_lens a b E).
  split; [|split; [|split; [|split; [|split; [|split]]]]].
  - intros ->. destruct a; [congruence | discriminate].
  - unfold pos_rows in *. rewrite <- (Forall_map row_len (fun z => 1 <= z)) in *.
    rewrite <- EL. exact H2.
  - subst a. destruct b as [|[f'|g] b']; try discriminate. eauto.
  - eapply erase_last; eassumption.
  - eapply (erase_same_frags _ a b); [|exact E|exact H5]. intro f. reflexivity.
  - exact H6.
  - intros f t ->. subst a. cbn [map erase_id] in E. injection E as E _.
    rewrite <- E. apply (H7 f0 t0 eq_refl).
Qed.

Lemma rows_len_erase a b : map erase_id a = map erase_id b -> rows_len a = rows_len b.
Proof. intro E. unfold rows_len. rewrite (erase_same_lens a b E). reflexivity. Qed.

Lemma null_map_number n d : forall input ptx, null_map n d input ptx ->
  forall k, null_map n d (number_input input k) ptx.
Proof.
  induction 1 as [|[name rows] input ptx H IH|name rows E pname input ptx H IH H1 H2 H3 H4];
    intro k; cbn [number_input].
  - constructor.
  - destruct (number_rows rows k) as [rows' k']. cbn [fst snd] in *.
    apply nm_absent. apply IH.
  - pose proof (number_rows_erase rows k) as Er.
    destruct (number_rows rows k) as [rows' k']. cbn [fst] in Er.
    apply nm_present; try assumption; [apply IH | |].
    + rewrite (rows_len_erase (removelast rows') (removelast rows)); [exact H2|].
      rewrite !map_removelast, Er. reflexivity.
    + rewrite (rows_len_erase rows' rows Er). exact H3.
Qed.

Lemma sc_ok_number : forall input k, Forall sc_ok input -> Forall sc_ok (number_input input k).
Proof.
  induction input as [|[name rows] input IH]; intros k F; cbn [number_input]; [constructor|].
  pose proof (number_rows_erase rows k) as Er.
  destruct (number_rows rows k) as [rows' k']. cbn [fst] in Er.
  inversion F as [|? ? F1 F2]; subst. constructor; [|apply IH, F2].
  eapply sc_ok_erase; [symmetry; exact Er | exact F1].
Qed.

(* a scaffold the map shows: its Pretext name, its input name and rows, the end E of its bait *)
Record pres := mkP { p_pname : str; p_name : str; p_rows : list row; p_E : Z }.

(* the baits of a map are all untagged, or all tagged Painted and nothing else *)
Definition bait_tags (painted : bool) : list str := if painted then [s "Painted"] else [].
Definition ptx_of (painted : bool) (q : pres) : str * list row :=
  (p_pname q, [RF (mkFrag (-1) (p_name q) 1 (p_E q) 1 (bait_tags painted))]).
Definition pres_ok (n d : Z) (inp : list (str * list row)) (q : pres) : Prop :=
  In (p_name q, p_rows q) inp /\ 1 <= p_E q /\ rows_len (removelast (p_rows q)) < p_E q
  /\ d * (rows_len (p_rows q) - p_E q) < n.

Lemma null_map_pres n d : forall sub ptx, null_map n d sub ptx -> NoDup (map fst sub) ->
  exists ps, ptx = map (ptx_of false) ps /\ Forall (pres_ok n d sub) ps /\ NoDup (map p_name ps).
Proof.
  induction 1 as [|sc input ptx H IH|name rows E pname input ptx H IH H1 H2 H3 H4]; intro N.
  - exists []. repeat split; constructor.
  - cbn [map] in N. inversion N as [|? ? N1 N2]; subst.
    destruct (IH N2) as (ps & -> & F & ND). exists ps.
    split; [reflexivity|]. split; [|exact ND].
    eapply Forall_impl; [|exact F]. intros q (Q1 & Q2). split; [right; exact Q1 | exact Q2].
  - cbn [map fst] in N. inversion N as [|? ? N1 N2]; subst.
    destruct (IH N2) as (ps & -> & F & ND). exists (mkP pname name rows E :: ps).
    split; [reflexivity|]. split.
    + constructor.
      * split; [left; reflexivity|]. cbn [p_E p_rows]. auto.
      * eapply Forall_impl; [|exact F]. intros q (Q1 & Q2). split; [right; exact Q1 | exact Q2].
    + cbn [map p_name]. constructor; [|exact ND]. intro I. apply N1.
      apply in_map_iff in I as (q & <- & Iq). rewrite Forall_forall in F.
      destruct (F q Iq) as (Q1 & _). change (p_name q) with (fst (p_name q, p_rows q)).
      apply in_map, Q1.
Qed.

(* the namer between two Pretext scaffolds of a null map: no primary haplotype,
   no target, no haplotig or unloc waiting to be renamed *)
Definition nm_inv (nm : namer) : Prop :=
  nm_primary nm = None /\ nm_target nm = false
  /\ nm_hap_scaffolds nm = [] /\ nm_unloc_scaffolds nm = [].

(* an unpainted result keeps the name of its scaffold at rank 3; a painted one
   takes the name of the Pretext scaffold at rank 1 *)
Definition piece_name (painted : bool) (q : pres) : str := if painted then p_pname q else p_name q.
Definition piece_rank (painted : bool) : Z := if painted then 1 else 3.
Definition piece_of (painted : bool) (q : pres) : scaffold * bool :=
  (mkScaffold (piece_name painted q) (p_rows q) None None (piece_rank painted) (Some (p_pname q))
              (bait_tags painted), true).

(* [msn_]: make_scaffold_name.  For an untagged, unpainted scaffold whose first
   contig does not look like <hap>_..._<n>: *)
Lemma msn_plain nm sc_name0 rows fn :
  fragment_tags rows = [] -> first_row_name rows = Ok fn -> haplotype_prefix_of_name fn = None ->
  nm_primary nm = None ->
  make_scaffold_name nm sc_name0 rows [] =
    Ok (mkNamer (nm_prefix nm) (Some fn) 3 None (nm_hap_n nm) (nm_hap_scaffolds nm) None
                (nm_target nm) 0 [] (nm_hap_lc nm)).
Proof.
  intros H1 H2 H3 H4. unfold make_scaffold_name. rewrite H1.
  cbn [foldM bind ts_hap ts_lc ts_primary ts_name ts_painted ts_rank ts_target truthy andb negb].
  rewrite H2. cbn [bind]. rewrite H3. cbn [bind andb]. rewrite H4. reflexivity.
Qed.

Lemma label_plain nm id name : nm_cur_name nm = Some name -> nm_target nm = false ->
  label_scaffold nm id [] [] = Ok (nm, mkLabel name None (nm_cur_hap nm) (nm_cur_rank nm)).
Proof. intros H1 H2. unfold label_scaffold. rewrite H1, H2. reflexivity. Qed.

(* the bait of a null map: tagged Painted it gives the Pretext name at rank 1 *)
Lemma msn_bait painted nm pname name E :
  haplotype_prefix_of_name name = None -> nm_primary nm = None ->
  make_scaffold_name nm pname [RF (mkFrag (-1) name 1 E 1 (bait_tags painted))] (bait_tags painted) =
    Ok (mkNamer (nm_prefix nm) (Some (if painted then pname else name)) (piece_rank painted) None
                (nm_hap_n nm) (nm_hap_scaffolds nm) None (nm_target nm) 0 [] (nm_hap_lc nm)).
Proof.
  intros H3 H4. destruct painted; [|apply (msn_plain nm pname _ name); solve [reflexivity | assumption]].
  unfold make_scaffold_name. cbn [bait_tags].
  change (foldM scan_tag [s "Painted"] (mkScan None None false None false (nm_target nm) (nm_hap_lc nm)))
    with (Ok (mkScan None None true None false (nm_target nm) (nm_hap_lc nm))).
  cbn [bind ts_hap ts_lc ts_primary ts_name ts_painted ts_rank ts_target truthy andb negb first_row_name f_name].
  rewrite H3. cbn [bind andb]. rewrite H4. reflexivity.
Qed.

Lemma label_bait painted nm id name : nm_cur_name nm = Some name -> nm_target nm = false ->
  label_scaffold nm id (bait_tags painted) (bait_tags painted)
  = Ok (nm, mkLabel name None (nm_cur_hap nm) (nm_cur_rank nm)).
Proof.
  intros H1 H2. destruct painted; [|apply label_plain; assumption].
  unfold label_scaffold. rewrite H1, H2. reflexivity.
Qed.

Lemma store_found_fresh id : forall fs found multi,
  NoDup (map fst found ++ map key_of fs) ->
  fold_left (store_found_one id) fs (found, multi)
  = (found ++ map (fun g => (key_of g, (g, [id]))) fs, multi).
Proof.
  induction fs as [|f fs IH]; intros found multi N; cbn [fold_left map].
  - rewrite app_nil_r. reflexivity.
  - cbn [map] in N. pose proof (NoDup_remove_2 _ _ _ N) as NI.
    assert (E : store_found_one id (found, multi) f = (found ++ [(key_of f, (f, [id]))], multi)).
    { unfold store_found_one.
      rewrite (aget_notin key_eqb key_eqb_eq found (key_of f))
        by (intro G; apply NI, in_or_app; left; exact G).
      reflexivity. }
    rewrite E, IH.
    + rewrite <- app_assoc. reflexivity.
    + rewrite map_app. cbn [map fst]. rewrite <- app_assoc. exact N.
Qed.

(* A Pretext scaffold of one bait, whose lookup finds rows that trim_large_overhangs
   leaves alone: the result is stored under the next id, its contigs are recorded. *)
Lemma one_pretext_one_bait inp err b pname bait rows nm lab fo found' multi' :
  aget str_eqb inp (f_name bait) = Some rows ->
  make_scaffold_name (b_namer b) pname [RF bait] (fragment_tags [RF bait]) = Ok nm ->
  nm_unloc_scaffolds nm = [] ->
  label_scaffold nm (zlen (b_store b)) (f_tags bait) (fragment_tags [RF bait]) = Ok (nm, lab) ->
  find_overlaps rows (f_start bait) (f_end bait) = Ok (Some fo) ->
  let r := set_labels (ovr_of_found bait fo) lab pname (fragment_tags [RF bait]) in
  trim_large_overhangs r err = Ok r -> fo_rows fo <> [] ->
  fold_left (store_found_one (zlen (b_store b))) (frags_of (fo_rows fo)) (b_found b, b_multi b)
    = (found', multi') ->
  one_pretext_scaffold inp err b (pname, [RF bait])
  = Ok (mkB (b_store b ++ [r]) (b_added b ++ [zlen (b_store b)]) found' multi' nm (b_cuts b)).
Proof.
  intros IR MS UN LB FO r TR NE FS.
  unfold one_pretext_scaffold. rewrite MS. cbn [bind]. change (frags_of [RF bait]) with [bait].
  cbn [foldM]. unfold one_bait at 1. unfold input_rows. rewrite IR. cbn [bind].
  rewrite FO. cbn [bind]. unfold with_namer. cbn [b_store b_added b_found b_multi b_namer b_cuts].
  rewrite LB. cbn [bind]. fold r. rewrite TR. cbn [bind].
  replace (o_rows r) with (fo_rows fo) by reflexivity.
  destruct (fo_rows fo) as [|x t] eqn:EF; [congruence|]. cbv iota.
  unfold store_fragments_found. cbn [b_store b_added b_found b_multi b_namer b_cuts].
  rewrite FS. cbn [bind foldM].
  unfold rename_results. cbn [b_store b_namer]. rewrite UN. cbn [mapM bind].
  unfold rename_by_size. cbn [map combine fold_left]. unfold with_store.
  cbn [b_store b_added b_found b_multi b_namer b_cuts]. reflexivity.
Qed.

Lemma one_pretext_whole painted n d inp q b :
  0 <= n -> 0 < d ->
  NoDup (map fst inp) -> sc_ok (p_name q, p_rows q) -> pres_ok n d inp q ->
  b_multi b = [] -> nm_inv (b_namer b) ->
  NoDup (map fst (b_found b) ++ map key_of (frags_of (p_rows q))) ->
  exists r found' nm',
    one_pretext_scaffold inp (error_length (n, d)) b (ptx_of painted q)
      = Ok (mkB (b_store b ++ [r]) (b_added b ++ [zlen (b_store b)]) found' [] nm' (b_cuts b))
    /\ piece_of_result r = piece_of painted q
    /\ map fst found' = map fst (b_found b) ++ map key_of (frags_of (p_rows q))
    /\ nm_inv nm'.
Proof.
  intros Hn Hd N (S1 & S2 & S3 & S4 & S5 & S6 & S7) (Q1 & Q2 & Q3 & Q4) M (I1 & I2 & I3 & I4) ND.
  destruct q as [pname name rows E]. destruct b as [store added found multi nm cuts].
  cbn [fst snd p_pname p_name p_rows p_E b_store b_added b_found b_multi b_namer b_cuts] in *. subst multi.
  destruct (null_bait_result rows name E 1 (bait_tags painted) n d S1 S2 S3 S4 Q2 Q3 Hn Hd Q4)
    as (fo & F1 & F2 & F3 & F4 & _).
  set (bait := mkFrag (-1) name 1 E 1 (bait_tags painted)).
  set (lname := if painted then pname else name).
  set (r := set_labels (ovr_of_found bait fo) (mkLabel lname None None (piece_rank painted)) pname (bait_tags painted)).
  assert (T : trim_large_overhangs r (error_length (n, d)) = Ok r).
  { apply trim_large_keep; left.
    - unfold start_overhang, r, set_labels, ovr_of_found. cbn [o_bait o_start f_start bait]. rewrite F3.
      pose proof (error_length_pos n d Hn Hd). lia.
    - unfold end_overhang, r, set_labels, ovr_of_found. cbn [o_bait o_end f_end bait]. rewrite F4.
      pose proof (within_texel n d _ Hn Hd Q4). lia. }
  assert (R : o_rows r = rows) by (unfold r, set_labels, ovr_of_found; cbn [o_rows]; exact F2).
  pose proof (store_found_fresh (zlen store) (frags_of rows) found [] ND) as E1.
  set (found' := found ++ map (fun g => (key_of g, (g, [zlen store]))) (frags_of rows)) in E1.
  assert (E2 : map fst found' = map fst found ++ map key_of (frags_of rows)).
  { unfold found'. rewrite map_app, map_map. reflexivity. }
  set (nm' := mkNamer (nm_prefix nm) (Some lname) (piece_rank painted) None (nm_hap_n nm)
                      (nm_hap_scaffolds nm) None (nm_target nm) 0 [] (nm_hap_lc nm)).
  exists r, found', nm'.
  split; [|split; [|split; [exact E2|]]].
  - assert (FT : fragment_tags [RF bait] = bait_tags painted) by (unfold bait; destruct painted; reflexivity).
    pose proof (one_pretext_one_bait inp (error_length (n, d)) (mkB store added found [] nm cuts) pname bait rows
                  nm' (mkLabel lname None None (piece_rank painted)) fo found' []
                  (In_aget str_eqb str_eqb_eq inp name rows N Q1)) as G.
    rewrite FT in G. apply G; clear G.
    + exact (msn_bait painted nm pname name E S6 I1).
    + reflexivity.
    + exact (label_bait painted nm' _ lname eq_refl I2).
    + exact F1.
    + exact T.
    + rewrite F2. exact S1.
    + rewrite F2. exact E1.
  - unfold piece_of_result, piece_of, piece_name, to_scaffold_rows, r, set_labels, ovr_of_found.
    cbn [o_name o_tag o_hap o_rank o_orig o_orig_tags o_bait o_rows f_strand lb_name lb_tag lb_hap lb_rank
         p_name p_rows p_pname bait].
    change (1 =? -1) with false. cbv iota. rewrite F2. reflexivity.
  - unfold nm_inv, nm'. cbn. auto.
Qed.

(* every result stored so far was added: b_added lists the whole store in order *)
Definition added_ok (b : bstate) : Prop :=
  b_added b = map Z.of_nat (seq 0 (length (b_store b))).

Definition pres_frags (ps : list pres) : list frag := flat_map (fun q => frags_of (p_rows q)) ps.

Lemma pretext_whole painted n d inp : 0 <= n -> 0 < d -> NoDup (map fst inp) -> Forall sc_ok inp ->
  forall ps b,
  Forall (pres_ok n d inp) ps ->
  b_multi b = [] -> nm_inv (b_namer b) -> added_ok b ->
  NoDup (map fst (b_found b) ++ map key_of (pres_frags ps)) ->
  exists b',
    foldM (one_pretext_scaffold inp (error_length (n, d))) (map (ptx_of painted) ps) b = Ok b'
    /\ map piece_of_result (b_store b') = map piece_of_result (b_store b) ++ map (piece_of painted) ps
    /\ map fst (b_found b') = map fst (b_found b) ++ map key_of (pres_frags ps)
    /\ b_multi b' = [] /\ nm_inv (b_namer b') /\ added_ok b' /\ b_cuts b' = b_cuts b.
Proof.
  intros Hn Hd N OK. induction ps as [|q ps IH]; intros b F M I A ND.
  - exists b. cbn [map foldM pres_frags flat_map]. rewrite !app_nil_r. auto 10.
  - inversion F as [|? ? F1 F2]; subst.
    assert (Sq : sc_ok (p_name q, p_rows q)).
    { rewrite Forall_forall in OK. apply OK. apply F1. }
    unfold pres_frags in ND. cbn [flat_map] in ND. rewrite map_app, app_assoc in ND.
    destruct (NoDup_app_inv _ _ ND) as (ND1 & _ & _).
    destruct (one_pretext_whole painted n d inp q b Hn Hd N Sq F1 M I ND1) as (r & found' & nm' & E & P & Fd & I').
    cbn [map foldM]. rewrite E. cbn [bind].
    destruct (IH (mkB (b_store b ++ [r]) (b_added b ++ [zlen (b_store b)]) found' [] nm' (b_cuts b)))
      as (b' & E' & P' & Fd' & M' & I'' & A' & C'); try assumption; try reflexivity.
    + unfold added_ok in *. cbn [b_added b_store]. rewrite A, app_length. cbn [length].
      rewrite Nat.add_1_r, seq_S, map_app. reflexivity.
    + cbn [b_found]. rewrite Fd. exact ND.
    + exists b'. split; [exact E'|]. cbn [b_store b_found b_cuts] in *.
      split; [|split; [|auto]].
      * rewrite P', map_app, <- app_assoc. cbn [map app]. rewrite P. reflexivity.
      * rewrite Fd', Fd. unfold pres_frags. cbn [flat_map]. rewrite map_app, <- app_assoc. reflexivity.
Qed.

Lemma discard_loop_nomulti fuel err b : b_multi b = [] -> discard_loop (S fuel) err b = Ok b.
Proof. intro M. cbn [discard_loop]. rewrite M. reflexivity. Qed.

Lemma cut_remaining_nomulti c b : b_multi b = [] -> cut_remaining_overhangs c b = Ok b.
Proof.
  intro M. unfold cut_remaining_overhangs. rewrite M. cbn [foldM bind].
  destruct b; cbn in *. subst. reflexivity.
Qed.

(* [alt_ok prev_gap rows]: no two consecutive gaps in [rows], no gap at the end,
   and no gap at the start if [prev_gap] (the row before was a gap) *)
Fixpoint alt_ok (prev_gap : bool) (rows : list row) : Prop :=
  match rows with
  | [] => prev_gap = false
  | RF _ :: t => alt_ok false t
  | RG _ :: t => prev_gap = false /\ alt_ok true t
  end.

Lemma alt_ok_of_no_gap_pair : forall rows,
  (exists f t, rows = t ++ [RF f]) -> no_gap_pair rows ->
  alt_ok false rows /\ ((exists f t, rows = RF f :: t) -> alt_ok true rows).
Proof.
  induction rows as [|r rows IH]; intros (fl & tl & L) G.
  - destruct tl; discriminate.
  - destruct rows as [|r2 rows'].
    + destruct tl as [|x [|y tl]]; try discriminate. injection L as ->.
      cbn [alt_ok]. split; [reflexivity|]. intros _. reflexivity.
    + assert (L' : exists f t, r2 :: rows' = t ++ [RF f]).
      { destruct tl as [|x tl]; [discriminate|]. injection L as _ L. eauto. }
      assert (G' : no_gap_pair (r2 :: rows')).
      { intros a g1 g2 b E. apply (G (r :: a) g1 g2 b). rewrite E. reflexivity. }
      destruct (IH L' G') as (I1 & I2).
      destruct r as [f|g].
      * cbn [alt_ok]. split; [exact I1|]. intros _. exact I1.
      * split; [|intros (f & t & E); discriminate].
        cbn [alt_ok]. split; [reflexivity|]. apply I2.
        destruct r2 as [f2|g2]; [eauto|]. exfalso. exact (G [] g g2 rows' eq_refl).
Qed.

Definition none_found (found : list (fkey * (frag * list rid))) (rows : list row) : Prop :=
  Forall (fun f => aget key_eqb found (key_of f) = None) (frags_of rows).
Definition all_found (found : list (fkey * (frag * list rid))) (rows : list row) : Prop :=
  Forall (fun f => aget key_eqb found (key_of f) <> None) (frags_of rows).

Lemma missing_all_found c found dg : forall rows between i la,
  all_found found rows -> missing_rows c found dg rows between i la = [].
Proof.
  induction rows as [|[f|g] rows IH]; intros between i la A; cbn [missing_rows]; [reflexivity| |].
  - unfold all_found in A. rewrite frags_of_RF in A. inversion A as [|? ? A1 A2]; subst.
    destruct (aget key_eqb found (key_of f)); [apply IH, A2 | congruence].
  - apply IH, A.
Qed.

Lemma missing_sep_single c dg g : missing_sep c dg [RG g] = [RG g].
Proof. unfold missing_sep. cbn [forallb is_gap_row andb last]. destruct (fix_gap_run c); reflexivity. Qed.

(* Both values of [fix_gap_run]: rows without two consecutive gaps come back
   unchanged.  [between] is [] right after an added fragment and [RG g] after
   one gap; a single gap is its own separator whatever [fix_gap_run] says. *)
Lemma missing_none_found_gen c found dg : forall rows i, none_found found rows ->
  (alt_ok false rows -> missing_rows c found dg rows [] i (Some (i - 1)) = rows)
  /\ (alt_ok true rows -> forall g, missing_rows c found dg rows [RG g] i (Some (i - 2)) = RG g :: rows).
Proof.
  induction rows as [|[f|g'] rows IH]; intros i NF.
  - split; [reflexivity|]. cbn [alt_ok]. discriminate.
  - unfold none_found in NF. rewrite frags_of_RF in NF. inversion NF as [|? ? N1 N2]; subst.
    destruct (IH (i + 1) N2) as (I1 & _).
    replace (Some (i + 1 - 1)) with (Some i) in I1 by (f_equal; lia).
    cbn [missing_rows alt_ok]. rewrite N1. split.
    + intros A. rewrite Z.eqb_refl. cbn [negb app]. rewrite (I1 A). reflexivity.
    + intros A x. replace (i - 2 =? i - 1) with false by lia. cbn [negb].
      rewrite missing_sep_single. cbn [app]. rewrite (I1 A). reflexivity.
  - destruct (IH (i + 1) NF) as (_ & I2).
    replace (Some (i + 1 - 2)) with (Some (i - 1)) in I2 by (f_equal; lia).
    cbn [missing_rows alt_ok app]. split.
    + intros (_ & A). apply I2, A.
    + intros (A & _). discriminate.
Qed.

Lemma missing_none_found c found dg f t :
  none_found found (RF f :: t) -> alt_ok false t ->
  missing_rows c found dg (RF f :: t) [] 0 None = RF f :: t.
Proof.
  intros NF A. unfold none_found in NF. rewrite frags_of_RF in NF.
  inversion NF as [|? ? N1 N2]; subst.
  cbn [missing_rows]. rewrite N1. cbn [app]. f_equal.
  destruct (missing_none_found_gen c found dg t (0 + 1) N2) as (I1 & _).
  apply (I1 A).
Qed.

Lemma none_found_app found a b : none_found found (a ++ b) <-> none_found found a /\ none_found found b.
Proof. unfold none_found. rewrite frags_of_app. apply Forall_app. Qed.

Lemma missing_sep_run c dg between i j :
  fix_gap_run c = true -> forallb is_gap_row between = true -> (j = i - 1 -> between = []) ->
  (if negb (j =? i - 1) then missing_sep c dg between else []) = between.
Proof.
  intros FX GB B. destruct (Z.eqb_spec j (i - 1)) as [E|E]; cbn [negb].
  - symmetry. apply B, E.
  - unfold missing_sep. rewrite FX, GB. reflexivity.
Qed.

(* [fix_gap_run c = true] only: ANY rows that begin and end with a fragment
   come back unchanged, runs of several gaps included (false of the pinned
   commit: [null_map_legacy_refuted]).  The invariant of missing_rows: [j] is
   the index of the last row added, [between] the gap rows met since, all of
   them kept when the next fragment is added. *)
Lemma missing_none_found_runs_gen c found dg fl : fix_gap_run c = true ->
  forall rows between i j, none_found found (rows ++ [RF fl]) ->
  forallb is_gap_row between = true -> j < i -> (j = i - 1 -> between = []) ->
  missing_rows c found dg (rows ++ [RF fl]) between i (Some j) = between ++ rows ++ [RF fl].
Proof.
  intros FX. induction rows as [|[f|g'] rows IH]; intros between i j NF GB Hj B; cbn [app missing_rows].
  - unfold none_found in NF. cbn [frags_of flat_map app] in NF. inversion NF as [|? ? N1 _]; subst.
    rewrite N1, (missing_sep_run c dg between i j FX GB B). reflexivity.
  - cbn [app] in NF. unfold none_found in NF. rewrite frags_of_RF in NF.
    inversion NF as [|? ? N1 N2]; subst.
    rewrite N1, (missing_sep_run c dg between i j FX GB B).
    rewrite (IH [] (i + 1) i N2 eq_refl) by (first [lia | intros; reflexivity]). reflexivity.
  - rewrite (IH (between ++ [RG g']) (i + 1) j NF); [rewrite <- app_assoc; reflexivity | | lia | lia].
    rewrite forallb_app, GB. reflexivity.
Qed.

Lemma missing_none_found_runs c found dg rows :
  fix_gap_run c = true -> none_found found rows ->
  (exists f t, rows = RF f :: t) -> (exists f t, rows = t ++ [RF f]) ->
  missing_rows c found dg rows [] 0 None = rows.
Proof.
  intros FX NF (f0 & t0 & ->) (fl & tl & S4).
  unfold none_found in NF. rewrite frags_of_RF in NF. inversion NF as [|? ? N1 N2]; subst.
  cbn [missing_rows]. rewrite N1. cbn [app]. f_equal.
  destruct tl as [|x tl]; cbn [app] in S4; injection S4 as S4 ->.
  - reflexivity.
  - rewrite (missing_none_found_runs_gen c found dg fl FX tl [] (0 + 1) 0 N2 eq_refl)
      by (first [lia | intros; reflexivity]).
    reflexivity.
Qed.

Definition leftb (found : list (fkey * (frag * list rid))) (p : str * list row) : bool :=
  match frags_of (snd p) with
  | f :: _ => match aget key_eqb found (key_of f) with None => true | Some _ => false end
  | [] => false
  end.
Definition mk_left (p : str * list row) : scaffold := mkScaffold (fst p) (snd p) None None 3 None [].

Lemma add_missing_one_left c dg found nm left name rows :
  fix_gap_run c = true ->
  nm_primary nm = None -> nm_target nm = false -> sc_ok (name, rows) ->
  none_found found rows ->
  exists fn, add_missing_one c dg found (nm, left) (name, rows)
  = Ok (mkNamer (nm_prefix nm) (Some fn) 3 None (nm_hap_n nm) (nm_hap_scaffolds nm)
                None false 0 [] (nm_hap_lc nm),
        left ++ [mkScaffold name rows None None 3 None []]).
Proof.
  intros FX P T (S1 & S2 & (f0 & t0 & S3) & S4 & S5 & S6 & S7) NF. cbn [fst snd] in *.
  exists (f_name f0).
  assert (MR : missing_rows c found dg rows [] 0 None = rows).
  { apply missing_none_found_runs; eauto. }
  unfold add_missing_one. rewrite MR.
  (* show the match on the rows their first row, then fold them back *)
  rewrite S3 at 1. rewrite <- S3.
  rewrite (msn_plain nm name rows (f_name f0)); [| |subst rows; reflexivity|apply (S7 f0 t0 S3)|exact P].
  2:{ apply fragment_tags_untagged. eapply Forall_impl; [|exact S5]. cbn. tauto. }
  cbn [bind nm_target nm_cur_hap]. rewrite T. reflexivity.
Qed.

Lemma add_missing_null c dg found : fix_gap_run c = true -> forall inp nm left,
  nm_primary nm = None -> nm_target nm = false ->
  Forall (fun p => sc_ok p /\ (all_found found (snd p) \/ none_found found (snd p))) inp ->
  exists nm', foldM (add_missing_one c dg found) inp (nm, left)
              = Ok (nm', left ++ map mk_left (filter (leftb found) inp)).
Proof.
  intros FX. induction inp as [|[name rows] inp IH]; intros nm left P T F.
  - exists nm. cbn [foldM filter map]. rewrite app_nil_r. reflexivity.
  - inversion F as [|? ? F1 F2]; subst. destruct F1 as (OK & C). cbn [snd] in C.
    cbn [foldM]. destruct C as [A|NF].
    + unfold add_missing_one at 1.
      rewrite (missing_all_found c found dg rows [] 0 None A). cbn [bind].
      destruct (IH nm left P T F2) as (nm' & E). exists nm'. rewrite E.
      assert (L : leftb found (name, rows) = false).
      { destruct OK as (_ & _ & (f0 & t0 & S3) & _). cbn [snd] in S3.
        unfold leftb. cbn [snd]. subst rows. rewrite frags_of_RF.
        unfold all_found in A. rewrite frags_of_RF in A. inversion A as [|? ? A1 _]; subst.
        destruct (aget key_eqb found (key_of f0)); [reflexivity | congruence]. }
      cbn [filter]. rewrite L. reflexivity.
    + destruct (add_missing_one_left c dg found nm left name rows FX P T OK NF) as (fn & E1).
      rewrite E1. cbn [bind].
      destruct (IH (mkNamer (nm_prefix nm) (Some fn) 3 None (nm_hap_n nm) (nm_hap_scaffolds nm)
                            None false 0 [] (nm_hap_lc nm))
                   (left ++ [mkScaffold name rows None None 3 None []]) eq_refl eq_refl F2) as (nm' & E).
      exists nm'. rewrite E.
      assert (L : leftb found (name, rows) = true).
      { destruct OK as (_ & _ & (f0 & t0 & S3) & _). cbn [snd] in S3.
        unfold leftb. cbn [snd]. rewrite S3, frags_of_RF.
        unfold none_found in NF. rewrite S3, frags_of_RF in NF. inversion NF as [|? ? N1 _]; subst.
        rewrite N1. reflexivity. }
      cbn [filter]. rewrite L. cbn [map]. rewrite <- app_assoc. reflexivity.
Qed.

Lemma mapM_get_all : forall l pre,
  mapM (get_ovr (pre ++ l)) (map Z.of_nat (seq (length pre) (length l))) = Ok l.
Proof.
  induction l as [|x l IH]; intro pre; [reflexivity|].
  cbn [length seq map mapM].
  assert (G : get_ovr (pre ++ x :: l) (Z.of_nat (length pre)) = Ok x).
  { unfold get_ovr. rewrite Nat2Z.id, nth_error_app2 by lia. rewrite Nat.sub_diag. reflexivity. }
  rewrite G. cbn [bind].
  specialize (IH (pre ++ [x])). rewrite <- app_assoc, app_length in IH. cbn [app length] in IH.
  rewrite Nat.add_1_r in IH. rewrite IH. reflexivity.
Qed.

Lemma fuse_fold_distinct g : forall pieces acc,
  Forall (fun p : scaffold * bool => sc_rows (fst p) <> []) pieces ->
  NoDup (map fst acc ++ map (fun p => key_of_piece (fst p)) pieces) ->
  fold_left (fuse_step repaired g) pieces acc
  = acc ++ map (fun p => (key_of_piece (fst p), fst p)) pieces.
Proof.
  induction pieces as [|[sc isr] pieces IH]; intros acc F N; cbn [fold_left map fst].
  - rewrite app_nil_r. reflexivity.
  - inversion F as [|? ? F1 F2]; subst. cbn [fst map] in *.
    rewrite (JoinGaps.fuse_step_spec repaired g acc sc isr F1).
    change (JoinGaps.piece_key repaired sc) with (key_of_piece sc).
    assert (NI : ~ In (key_of_piece sc) (map fst acc)).
    { intro G. apply (NoDup_remove_2 _ _ _ N), in_or_app. left. exact G. }
    rewrite (aset_new fuse_key_eqb JoinGaps.fuse_key_eqb_eq acc _ _ NI),
      (aget_notin fuse_key_eqb JoinGaps.fuse_key_eqb_eq acc _ NI).
    assert (B : JoinGaps.fused_with repaired g None sc isr = sc).
    { unfold JoinGaps.fused_with. cbn [sc_name sc_rows sc_tag sc_hap sc_rank sc_orig sc_orig_tags].
      rewrite JoinGaps.append_rows_nil. destruct sc; reflexivity. }
    rewrite B, IH; [rewrite <- app_assoc; reflexivity | exact F2 |].
    rewrite map_app, <- app_assoc. exact N.
Qed.

Definition plain (sc : scaffold) : Prop := sc_tag sc = None /\ sc_hap sc = None /\ sc_rank sc = 3.

Definition untagged (sc : scaffold) : Prop := sc_tag sc = None /\ sc_hap sc = None.

Lemma plain_untagged sc : plain sc -> untagged sc.
Proof. intros (T & H & _). split; assumption. Qed.

Lemma asm_key_untagged sc : untagged sc -> asm_key_of sc = (None, true).
Proof. intros (T & H). unfold asm_key_of. rewrite T, H. reflexivity. Qed.

Lemma group_untagged_acc : forall l scs, Forall untagged l ->
  fold_left RemapTail.group_step l [(None, (true, scs))] = [(None, (true, scs ++ l))].
Proof.
  induction l as [|sc l IH]; intros scs F; cbn [fold_left].
  - rewrite app_nil_r. reflexivity.
  - inversion F as [|? ? F1 F2]; subst. unfold RemapTail.group_step at 2. rewrite (asm_key_untagged sc F1).
    cbn [aget aset opt_eqb]. rewrite (IH _ F2), <- app_assoc. reflexivity.
Qed.

Lemma group_untagged : forall l, Forall untagged l -> l <> [] ->
  fold_left RemapTail.group_step l [] = [(None, (true, l))].
Proof.
  intros [|sc l] F NE; [congruence|]. inversion F as [|? ? F1 F2]; subst.
  cbn [fold_left]. unfold RemapTail.group_step at 2. rewrite (asm_key_untagged sc F1). cbn [aget app].
  rewrite (group_untagged_acc l [sc] F2). reflexivity.
Qed.

Definition jset (rows : list row) : list junction :=
  match junction_set repaired rows with Ok l => l | Err _ => [] end.

Definition mem_any {K} (x : junction) (d : list (K * list junction)) : Prop :=
  exists p, In p d /\ In x (snd p).

Lemma mem_any_cons {K} x (p : K * list junction) d : mem_any x (p :: d) <-> In x (snd p) \/ mem_any x d.
Proof.
  unfold mem_any. split.
  - intros (q & [<-|I] & H); [left; exact H | right; eauto].
  - intros [H|(q & I & H)]; [exists p; split; [left; reflexivity | exact H] | exists q; split; [right; exact I | exact H]].
Qed.

Lemma mem_any_nil {K} x : ~ mem_any x (@nil (K * list junction)).
Proof. intros (q & [] & _). Qed.

Lemma mem_any_aset x : forall (d : list (option str * list junction)) k js,
  mem_any x (aset (opt_eqb str_eqb) d k
               (union_j (match aget (opt_eqb str_eqb) d k with Some l => l | None => [] end) js))
  <-> mem_any x d \/ In x js.
Proof.
  induction d as [|[k0 v0] d IH]; intros k js; cbn [aget aset].
  - rewrite mem_any_cons. cbn [snd]. rewrite union_j_in. pose proof (@mem_any_nil (option str) x). cbn [In]. tauto.
  - destruct (opt_eqb str_eqb k k0).
    + rewrite !mem_any_cons. cbn [snd]. rewrite union_j_in. tauto.
    + rewrite !mem_any_cons, IH. tauto.
Qed.

Lemma fold_union_in {K} x : forall (d : list (K * list junction)) a0,
  In x (fold_left (fun acc p => union_j acc (snd p)) d a0) <-> In x a0 \/ mem_any x d.
Proof.
  induction d as [|p d IH]; intro a0; cbn [fold_left].
  - pose proof (@mem_any_nil K x). tauto.
  - rewrite IH, union_j_in, mem_any_cons. tauto.
Qed.

Definition pm_rows (rows : list row) : Prop := Forall pm (frags_of rows).

Lemma jset_ok rows : pm_rows rows -> junction_set repaired rows = Ok (jset rows).
Proof. intro H. unfold jset. destruct (junction_set_ok repaired rows H) as (js & ->). reflexivity. Qed.

Lemma jset_nofrags rows : frags_of rows = [] -> jset rows = [].
Proof. intro H. unfold jset, junction_set, scaffold_junctions. rewrite H. reflexivity. Qed.

Lemma input_junctions_null : forall (inp : list (str * list row)) acc,
  Forall (fun p => pm_rows (snd p)) inp ->
  exists ijs,
    foldM (fun acc '(_, rows) =>
             match frags_of rows with
             | [] => Ok acc
             | f :: _ =>
                 let k := asm_prefix_of (f_name f) in
                 do js <- junction_set repaired rows;
                 let old := match aget (opt_eqb str_eqb) acc k with Some l => l | None => [] end in
                 Ok (aset (opt_eqb str_eqb) acc k (union_j old js))
             end) inp acc = Ok ijs
    /\ forall x, mem_any x ijs <-> mem_any x acc \/ exists p, In p inp /\ In x (jset (snd p)).
Proof.
  induction inp as [|[name rows] inp IH]; intros acc F; cbn [foldM].
  - exists acc. split; [reflexivity|]. intro x. split; [auto|]. intros [H|(p & [] & _)]. exact H.
  - inversion F as [|? ? F1 F2]; subst. cbn [snd] in F1.
    destruct (frags_of rows) as [|f fs] eqn:FR.
    + cbn [bind]. destruct (IH acc F2) as (ijs & E & M). exists ijs. split; [exact E|].
      intro x. rewrite M. split; intros [H|(p & I & H)]; auto.
      * right. exists p. split; [right; exact I | exact H].
      * destruct I as [<-|I]; [cbn [snd] in H; rewrite (jset_nofrags rows FR) in H; destruct H|].
        right. eauto.
    + rewrite (jset_ok rows F1). cbn [bind]. cbv zeta.
      match goal with |- context [foldM _ inp ?a] => destruct (IH a F2) as (ijs & E & M) end.
      exists ijs. split; [exact E|].
      intro x. rewrite M, mem_any_aset. split.
      * intros [[H|H]|(p & I & H)]; auto.
        -- right. exists (name, rows). split; [left; reflexivity | exact H].
        -- right. exists p. split; [right; exact I | exact H].
      * intros [H|(p & [<-|I] & H)]; auto. right. eauto.
Qed.

Lemma asm_junctions_null : forall scs acc,
  Forall (fun sc => pm_rows (sc_rows sc)) scs ->
  exists js,
    foldM (fun acc sc => do js <- junction_set repaired (sc_rows sc); Ok (union_j acc js)) scs acc = Ok js
    /\ forall x, In x js <-> In x acc \/ exists sc, In sc scs /\ In x (jset (sc_rows sc)).
Proof.
  induction scs as [|sc scs IH]; intros acc F; cbn [foldM].
  - exists acc. split; [reflexivity|]. intro x. split; [auto|]. intros [H|(p & [] & _)]. exact H.
  - inversion F as [|? ? F1 F2]; subst. rewrite (jset_ok _ F1). cbn [bind].
    destruct (IH (union_j acc (jset (sc_rows sc))) F2) as (js & E & M). exists js. split; [exact E|].
    intro x. rewrite M, union_j_in. split.
    + intros [[H|H]|(p & I & H)]; auto.
      * right. exists sc. split; [left; reflexivity | exact H].
      * right. exists p. split; [right; exact I | exact H].
    + intros [H|(p & [<-|I] & H)]; auto. right. eauto.
Qed.

Lemma diff_j_nil a b : (forall x, In x a -> In x b) -> diff_j a b = [].
Proof.
  intro H. destruct (diff_j a b) as [|j l] eqn:E; [reflexivity|].
  assert (G : In j (diff_j a b)) by (rewrite E; left; reflexivity).
  apply diff_j_in in G as (G1 & G2). exfalso. apply G2, H, G1.
Qed.

Lemma inter_j_nil_r a : inter_j a [] = [].
Proof.
  destruct (inter_j a []) as [|j l] eqn:E; [reflexivity|].
  assert (G : In j (inter_j a [])) by (rewrite E; left; reflexivity).
  apply inter_j_in in G as (_ & []).
Qed.

Lemma make_stats_null (inp : list (str * list row)) scs :
  Forall (fun p => pm_rows (snd p)) inp ->
  (forall rows, In rows (map sc_rows scs) <-> In rows (map snd inp)) ->
  exists per, make_stats repaired inp [mkOutAsm None true scs] = Ok (0, 0, per)
    /\ Forall (fun p => snd p = (0, 0)) per.
Proof.
  intros F Same.
  assert (F' : Forall (fun sc => pm_rows (sc_rows sc)) scs).
  { rewrite Forall_forall in *. intros sc I.
    assert (G : In (sc_rows sc) (map snd inp)) by (apply Same, in_map, I).
    apply in_map_iff in G as (p & <- & Ip). apply F, Ip. }
  destruct (input_junctions_null inp [] F) as (ijs & E1 & M1).
  destruct (asm_junctions_null scs [] F') as (js & E2 & M2).
  assert (E1' : input_junctions_by_prefix repaired inp = Ok ijs) by exact E1.
  assert (E2' : asm_junctions repaired scs = Ok js) by exact E2.
  unfold make_stats. rewrite E1'. cbn [bind mapM oa_scaffolds oa_key].
  rewrite E2'. cbn [bind fold_left snd].
  set (iset := fold_left _ ijs []). set (oset := union_j [] js).
  assert (EQ : forall x, In x iset <-> In x oset).
  { intro x. unfold iset, oset. rewrite fold_union_in, union_j_in, M1, M2.
    pose proof (@mem_any_nil (option str) x). cbn [In]. split.
    - intros [[]|[H1|(p & I & H1)]]; [contradiction|]. right. right.
      assert (G : In (snd p) (map sc_rows scs)) by (apply Same, in_map, I).
      apply in_map_iff in G as (sc & G & Is). exists sc. rewrite G. auto.
    - intros [[]|[[]|(sc & I & H1)]]. right. right.
      assert (G : In (sc_rows sc) (map snd inp)) by (apply Same, in_map, I).
      apply in_map_iff in G as (p & G & Ip). exists p. rewrite G. auto. }
  rewrite (diff_j_nil iset oset) by (intro x; apply EQ).
  rewrite (diff_j_nil oset iset) by (intro x; apply EQ).
  eexists. split; [reflexivity|].
  destruct (aget (opt_eqb str_eqb) ijs None) as [[|j0 l0]|]; try constructor.
  - rewrite !inter_j_nil_r. reflexivity.
  - constructor.
Qed.

(* From the fused scaffolds on, when none of them is tagged or of rank 2: whatever
   the chromosome namer makes of the rank-1 scaffolds, one primary curated
   assembly comes out, and it has no break and no join if its rows are the input's. *)
Lemma assemblies_untagged g prefix input0 rs fused fused' :
  fuse_all repaired g rs = Ok fused -> Forall (fun sc => sc_rank sc <> 2) fused ->
  name_chromosomes prefix fused
    (flat_map (fun '(i, sc) => if sc_rank sc =? 1 then [(hap_str (fst (asm_key_of sc)), i)] else [])
              (combine (seq 0 (length fused)) fused)) = Ok fused' ->
  Forall untagged fused' -> fused' <> [] ->
  Forall (fun p => pm_rows (snd p)) (number_input input0 0) ->
  (forall rows, In rows (map sc_rows fused') <-> In rows (map snd (number_input input0 0))) ->
  exists sorted per, Permutation sorted fused'
    /\ assemblies_with_scaffolds_fused repaired g prefix input0 rs
       = Ok (mkOut [mkOutAsm None true sorted] (b_cuts (rs_b rs)) 0 0 per)
    /\ Forall (fun p => snd p = (0, 0)) per.
Proof.
  intros HF R2 EN UT NE PM Same.
  destruct (smart_sort_total sc_rank sc_name fused') as (sorted & ES & PS).
  destruct (make_stats_null (number_input input0 0) sorted PM) as (per & EM & FP).
  { intro rows. rewrite <- Same.
    split; intro H; apply in_map_iff in H as (sc & <- & I); apply in_map;
      [apply (Permutation_in _ PS) | apply (Permutation_in _ (Permutation_sym PS))]; exact I. }
  exists sorted, per. split; [exact PS|]. split; [|exact FP].
  unfold assemblies_with_scaffolds_fused. rewrite HF. cbn [bind]. cbv zeta.
  match goal with |- context [map ?f fused] => replace (map f fused) with fused end.
  2:{ symmetry. apply map_id_in. intros sc I. rewrite Forall_forall in R2.
      replace (sc_rank sc =? 2) with false by (specialize (R2 sc I); lia). reflexivity. }
  rewrite EN. cbn [bind].
  fold RemapTail.group_step. rewrite (group_untagged fused' UT NE). cbn [mapM]. rewrite ES. cbn [bind]. rewrite EM. reflexivity.
Qed.

Lemma assemblies_null g prefix input0 rs fused :
  fuse_all repaired g rs = Ok fused -> Forall plain fused -> fused <> [] ->
  Forall (fun p => pm_rows (snd p)) (number_input input0 0) ->
  (forall rows, In rows (map sc_rows fused) <-> In rows (map snd (number_input input0 0))) ->
  exists sorted per, Permutation sorted fused
    /\ assemblies_with_scaffolds_fused repaired g prefix input0 rs
       = Ok (mkOut [mkOutAsm None true sorted] (b_cuts (rs_b rs)) 0 0 per)
    /\ Forall (fun p => snd p = (0, 0)) per.
Proof.
  intros HF P NE. apply (assemblies_untagged g prefix input0 rs fused fused HF).
  - eapply Forall_impl; [|exact P]. intros sc (_ & _ & R). lia.
  - rewrite flat_map_nil_in; [reflexivity|]. intros [i sc] I. apply in_combine_r in I.
    rewrite Forall_forall in P. destruct (P sc I) as (_ & _ & R). rewrite R. reflexivity.
  - eapply Forall_impl; [|exact P]. apply plain_untagged.
  - exact NE.
Qed.

Definition sc_of (q : pres) : str * list row := (p_name q, p_rows q).
Definition keys_of_sc (p : str * list row) : list fkey := map key_of (frags_of (snd p)).

Lemma map_flat_map' {A B C} (f : B -> C) (g : A -> list B) l :
  map f (flat_map g l) = flat_map (fun x => map f (g x)) l.
Proof. induction l as [|x l IH]; [reflexivity|]. cbn [flat_map]. rewrite map_app, IH. reflexivity. Qed.

Lemma flat_nodup_disj {A B} (F : A -> list B) : forall l x x' y,
  NoDup (flat_map F l) -> In x l -> In x' l -> In y (F x) -> In y (F x') -> x = x'.
Proof.
  induction l as [|a l IH]; intros x x' y N I I' Hy Hy'; [destruct I|].
  cbn [flat_map] in N. destruct (NoDup_app_inv _ _ N) as (N1 & N2 & D).
  destruct I as [<-|I], I' as [<-|I'].
  - reflexivity.
  - exfalso. apply (D y Hy). apply in_flat_map. eauto.
  - exfalso. apply (D y Hy'). apply in_flat_map. eauto.
  - eapply IH; eassumption.
Qed.

Lemma flat_nodup_in {A B} (F : A -> list B) : forall l x, NoDup (flat_map F l) -> In x l -> NoDup (F x).
Proof.
  induction l as [|a l IH]; intros x N I; [destruct I|].
  cbn [flat_map] in N. destruct (NoDup_app_inv _ _ N) as (N1 & N2 & D).
  destruct I as [<-|I]; [exact N1 | apply IH; assumption].
Qed.

Lemma flat_nodup_sub {A B} (F : A -> list B) inp : NoDup (flat_map F inp) ->
  forall l, NoDup l -> incl l inp -> NoDup (flat_map F l).
Proof.
  intros N. induction l as [|x l IH]; intros ND INC; [constructor|].
  inversion ND as [|? ? ND1 ND2]; subst. cbn [flat_map].
  apply NoDup_app_intro.
  - apply (flat_nodup_in F inp x N). apply INC. left. reflexivity.
  - apply IH; [exact ND2|]. intros y Hy. apply INC. right. exact Hy.
  - intros y Hy G. apply in_flat_map in G as (x' & Ix' & Hy').
    assert (x = x').
    { apply (flat_nodup_disj F inp x x' y N); auto.
      - apply INC. left. reflexivity.
      - apply INC. right. exact Ix'. }
    subst x'. contradiction.
Qed.

Section Classify.
  Variables (n d : Z) (inp : list (str * list row)) (ps : list pres)
            (found : list (fkey * (frag * list rid))).
  Hypothesis Nn : NoDup (map fst inp).
  Hypothesis OK : Forall sc_ok inp.
  Hypothesis NK : NoDup (map key_of (flat_map (fun p => frags_of (snd p)) inp)).
  Hypothesis PO : Forall (pres_ok n d inp) ps.
  Hypothesis NP : NoDup (map p_name ps).
  Hypothesis FD : map fst found = map key_of (pres_frags ps).

  Lemma keys_of_sc_nodup : NoDup (flat_map keys_of_sc inp).
  Proof. unfold keys_of_sc. rewrite <- map_flat_map'. exact NK. Qed.

  Lemma sc_of_in q : In q ps -> In (sc_of q) inp.
  Proof. intro I. rewrite Forall_forall in PO. apply (PO q I). Qed.

  Lemma pres_keys_eq : map key_of (pres_frags ps) = flat_map keys_of_sc (map sc_of ps).
  Proof.
    unfold pres_frags. rewrite map_flat_map', RemapTail.flat_map_map. reflexivity.
  Qed.

  Lemma found_keys : map fst found = flat_map keys_of_sc (map sc_of ps).
  Proof. rewrite FD. apply pres_keys_eq. Qed.

  Lemma nodup_sc_of : NoDup (map sc_of ps).
  Proof.
    apply (NoDup_map_inv fst). rewrite map_map. exact NP.
  Qed.

  Lemma pres_keys_nodup : NoDup (map key_of (pres_frags ps)).
  Proof.
    rewrite pres_keys_eq. apply (flat_nodup_sub keys_of_sc inp keys_of_sc_nodup _ nodup_sc_of).
    intros p I. apply in_map_iff in I as (q & <- & Iq). apply sc_of_in, Iq.
  Qed.

  Lemma classify p : In p inp ->
    (exists q, In q ps /\ p = sc_of q /\ all_found found (snd p) /\ leftb found p = false)
    \/ (~ In (fst p) (map p_name ps) /\ none_found found (snd p) /\ leftb found p = true).
  Proof.
    intro I.
    assert (SP : sc_ok p) by (rewrite Forall_forall in OK; apply OK, I).
    destruct SP as (_ & _ & (f0 & t0 & S3) & _).
    destruct (mem_str (fst p) (map p_name ps)) eqn:M.
    - left. apply mem_str_in in M. apply in_map_iff in M as (q & E & Iq).
      exists q. split; [exact Iq|].
      assert (P : p = sc_of q).
      { destruct p as [nm rows]. cbn [fst] in E. subst nm. unfold sc_of. f_equal.
        eapply NoDup_fst_inj; [exact Nn | exact I | apply sc_of_in, Iq]. }
      split; [exact P|].
      assert (A : all_found found (snd p)).
      { unfold all_found. rewrite Forall_forall. intros f If.
        destruct (aget_in key_eqb key_eqb_eq found (key_of f)) as (v & ->); [|discriminate].
        rewrite found_keys. apply in_flat_map. exists p. split.
        - rewrite P. apply in_map, Iq.
        - unfold keys_of_sc. apply in_map, If. }
      split; [exact A|]. unfold leftb. rewrite S3, frags_of_RF.
      unfold all_found in A. rewrite S3, frags_of_RF in A. inversion A as [|? ? A1 _]; subst.
      destruct (aget key_eqb found (key_of f0)); [reflexivity | congruence].
    - right.
      assert (NI : ~ In (fst p) (map p_name ps)).
      { intro G. apply mem_str_in in G. congruence. }
      split; [exact NI|].
      assert (NF : none_found found (snd p)).
      { unfold none_found. rewrite Forall_forall. intros f If.
        apply (aget_notin key_eqb key_eqb_eq). rewrite found_keys. intro G.
        apply in_flat_map in G as (p' & Ip' & Hk).
        apply in_map_iff in Ip' as (q & <- & Iq).
        assert (p = sc_of q).
        { apply (flat_nodup_disj keys_of_sc inp p (sc_of q) (key_of f) keys_of_sc_nodup I (sc_of_in q Iq)); [|exact Hk].
          unfold keys_of_sc. apply in_map, If. }
        subst p. apply NI. cbn [sc_of fst]. apply in_map, Iq. }
      split; [exact NF|].
      unfold leftb. rewrite S3, frags_of_RF.
      unfold none_found in NF. rewrite S3, frags_of_RF in NF. inversion NF as [|? ? N1 _]; subst.
      rewrite N1. reflexivity.
  Qed.

  Definition lefts : list (str * list row) := filter (leftb found) inp.

  Lemma nodup_all_names : NoDup (map p_name ps ++ map fst lefts).
  Proof.
    apply NoDup_app_intro; [exact NP | apply NoDup_map_filter, Nn |].
    intros nm I G. apply in_map_iff in G as (p & <- & Ip). apply filter_In in Ip as (Ip & L).
    destruct (classify p Ip) as [(q & _ & _ & _ & L')|(NI & _)]; [congruence | contradiction].
  Qed.

  Lemma all_perm : Permutation (map sc_of ps ++ lefts) inp.
  Proof.
    apply NoDup_Permutation.
    - apply (NoDup_map_inv fst). rewrite map_app, map_map. exact nodup_all_names.
    - apply (NoDup_map_inv fst), Nn.
    - intro p. rewrite in_app_iff. split.
      + intros [G|G].
        * apply in_map_iff in G as (q & <- & Iq). apply sc_of_in, Iq.
        * apply filter_In in G. tauto.
      + intro I. destruct (classify p I) as [(q & Iq & -> & _)|(_ & _ & L)].
        * left. apply in_map, Iq.
        * right. apply filter_In. auto.
  Qed.

  Lemma add_missing_ready :
    Forall (fun p => sc_ok p /\ (all_found found (snd p) \/ none_found found (snd p))) inp.
  Proof.
    rewrite Forall_forall. intros p I. split; [rewrite Forall_forall in OK; apply OK, I|].
    destruct (classify p I) as [(q & _ & _ & A & _)|(_ & NF & _)]; auto.
  Qed.
End Classify.

Definition fused_of (painted : bool) (ps : list pres) (ls : list (str * list row)) : list scaffold :=
  map (fun q => fst (piece_of painted q)) ps ++ map mk_left ls.

Lemma fused_of_names_rows ps ls :
  map (fun sc => (sc_name sc, sc_rows sc)) (fused_of false ps ls) = map sc_of ps ++ ls.
Proof.
  unfold fused_of. rewrite map_app, !map_map. f_equal.
  rewrite <- (map_id ls) at 2. apply map_ext. intros [a b]. reflexivity.
Qed.

Lemma fused_of_plain ps ls : Forall plain (fused_of false ps ls).
Proof.
  unfold fused_of. apply Forall_app. split; rewrite Forall_map, Forall_forall; intros x _;
    unfold plain; cbn; auto.
Qed.

(* The run up to the fusion by name: every bait finds its whole scaffold, nothing
   is resolved, cut or renamed, the scaffolds no bait names are left over
   unchanged, and, the names of the pieces and of the left-overs being pairwise
   distinct, nothing is fused. *)
Lemma remap_to_input_null painted g prefix n d input0 ps :
  0 <= n -> 0 < d ->
  NoDup (map fst input0) -> Forall sc_ok (number_input input0 0) ->
  NoDup (map key_of (flat_map (fun p => frags_of (snd p)) (number_input input0 0))) ->
  Forall (pres_ok n d (number_input input0 0)) ps -> NoDup (map p_name ps) ->
  exists rs ls,
    remap_to_input repaired g prefix (n, d) input0 (map (ptx_of painted) ps) = Ok rs
    /\ b_cuts (rs_b rs) = 0
    /\ Permutation (map sc_of ps ++ ls) (number_input input0 0)
    /\ Forall (fun p => In p (number_input input0 0) /\ ~ In (fst p) (map p_name ps)) ls
    /\ (NoDup (map (piece_name painted) ps ++ map fst ls) ->
        fuse_all repaired g rs = Ok (fused_of painted ps ls)).
Proof.
  intros Hn Hd N0 OK NK PO NP.
  set (inp := number_input input0 0) in *.
  assert (Nn : NoDup (map fst inp)) by (unfold inp; rewrite RemapTail.number_input_names; exact N0).
  destruct (pretext_whole painted n d inp Hn Hd Nn OK ps (mkB [] [] [] [] (new_namer prefix) 0) PO eq_refl)
    as (b1 & E1 & P1 & Fd1 & M1 & I1 & A1 & C1).
  { unfold nm_inv. cbn. auto. }
  { reflexivity. }
  { cbn [b_found map app]. exact (pres_keys_nodup n d inp ps NK PO NP). }
  destruct b1 as [st1 ad1 fd1 mu1 nm1 cu1].
  cbn [b_store b_added b_found b_multi b_namer b_cuts map app] in *. subst mu1 cu1.
  destruct I1 as (J1 & J2 & J3 & J4). unfold added_ok in A1. cbn [b_store b_added] in A1.
  pose proof (add_missing_ready n d inp ps fd1 Nn OK NK PO Fd1) as RD.
  destruct (add_missing_null repaired g fd1 eq_refl inp nm1 [] J1 J2 RD) as (nm' & E3). cbn [app] in E3.
  fold (lefts inp fd1) in E3.
  set (ls := lefts inp fd1) in *.
  exists (mkRun (mkB st1 ad1 fd1 [] nm' 0) (map mk_left ls)), ls.
  split; [|split; [reflexivity|split; [|split]]].
  - unfold remap_to_input. rewrite (RemapTail.has_dup_names_nodup _ N0). fold inp. rewrite E1. cbn [bind].
    rewrite discard_loop_nomulti by reflexivity. cbn [bind].
    rewrite cut_remaining_nomulti by reflexivity. cbn [bind b_store b_namer].
    rewrite J3, RemapTail.rename_results_nil. cbn [bind]. unfold with_store.
    cbn [b_store b_added b_found b_multi b_namer b_cuts].
    rewrite E3. cbn [bind fst snd]. reflexivity.
  - exact (all_perm n d inp ps fd1 Nn OK NK PO NP Fd1).
  - rewrite Forall_forall. intros p Ip. apply filter_In in Ip as (Ip & L). split; [exact Ip|].
    destruct (classify n d inp ps fd1 Nn OK NK PO Fd1 p Ip) as [(q & _ & _ & _ & L')|(NI & _)];
      [congruence | exact NI].
  - intro ND. unfold fuse_all. cbn [rs_b rs_left b_store b_added]. rewrite A1.
    pose proof (mapM_get_all st1 []) as G. cbn [app length] in G. rewrite G. cbn [bind].
    rewrite P1. rewrite fuse_fold_distinct.
    + cbn [app]. rewrite map_map. cbn [snd]. unfold fused_of.
      rewrite map_app, !map_map. reflexivity.
    + apply Forall_app. split; rewrite Forall_map, Forall_forall.
      * intros q Iq. cbn [piece_of fst sc_rows].
        assert (S : sc_ok (sc_of q)).
        { rewrite Forall_forall in OK. apply OK. apply (sc_of_in n d inp ps PO q Iq). }
        apply S.
      * intros sc Isc. apply in_map_iff in Isc as (p & <- & Ip). cbn [fst mk_left sc_rows].
        apply filter_In in Ip as (Ip & _). rewrite Forall_forall in OK. apply (OK p Ip).
    + cbn [map app]. rewrite map_app, !map_map.
      cbn [piece_of fst mk_left key_of_piece sc_tag sc_hap sc_name].
      apply (NoDup_map_inv (fun k : fuse_key => snd k)).
      rewrite map_app, !map_map. cbn [snd]. exact ND.
Qed.

Lemma remap_null_numbered g prefix n d input0 ps :
  0 <= n -> 0 < d ->
  NoDup (map fst input0) -> Forall sc_ok (number_input input0 0) ->
  NoDup (map key_of (flat_map (fun p => frags_of (snd p)) (number_input input0 0))) ->
  Forall (pres_ok n d (number_input input0 0)) ps -> NoDup (map p_name ps) ->
  number_input input0 0 <> [] ->
  exists scs per,
    remap repaired g prefix (n, d) input0 (map (ptx_of false) ps)
      = Ok (mkOut [mkOutAsm None true scs] 0 0 0 per)
    /\ Forall (fun p => snd p = (0, 0)) per
    /\ Permutation (map (fun sc => (sc_name sc, sc_rows sc)) scs) (number_input input0 0)
    /\ Forall plain scs.
Proof.
  intros Hn Hd N0 OK NK PO NP NE.
  destruct (remap_to_input_null false g prefix n d input0 ps Hn Hd N0 OK NK PO NP)
    as (rs & ls & ER & CU & PERM & _ & HF).
  set (inp := number_input input0 0) in *.
  set (fused := fused_of false ps ls).
  assert (NR : map (fun sc => (sc_name sc, sc_rows sc)) fused = map sc_of ps ++ ls)
    by apply fused_of_names_rows.
  assert (HF' : fuse_all repaired g rs = Ok fused).
  { apply HF. change (NoDup (map (fun q => fst (sc_of q)) ps ++ map fst ls)).
    rewrite <- (map_map sc_of fst), <- map_app.
    eapply Permutation_NoDup; [apply Permutation_map, Permutation_sym, PERM|].
    unfold inp. rewrite RemapTail.number_input_names. exact N0. }
  destruct (assemblies_null g prefix input0 rs fused HF' (fused_of_plain _ _)) as (sorted & per & PS & EA & FP).
  - intros Z. rewrite Z in NR. cbn [map] in NR. rewrite <- NR in PERM.
    apply Permutation_nil in PERM. contradiction.
  - fold inp. rewrite Forall_forall in *. intros p Ip. destruct (OK p Ip) as (_ & _ & _ & _ & S5 & _).
    unfold pm_rows, pm. rewrite Forall_forall in *. intros f If. apply (S5 f If).
  - fold inp. intro rows.
    replace (map sc_rows fused) with (map snd (map (fun sc => (sc_name sc, sc_rows sc)) fused))
      by (rewrite map_map; reflexivity).
    rewrite NR. split; intro H; apply in_map_iff in H as (p & <- & Ip); apply in_map;
      [apply (Permutation_in _ PERM) | apply (Permutation_in _ (Permutation_sym PERM))]; exact Ip.
  - exists sorted, per. split; [|split; [exact FP|split]].
    + unfold remap. rewrite ER. cbn [bind]. rewrite EA, CU. reflexivity.
    + eapply perm_trans; [apply Permutation_map, PS|]. rewrite NR. exact PERM.
    + pose proof (fused_of_plain ps ls) as FPL. rewrite Forall_forall in *.
      intros sc I. apply FPL. apply (Permutation_in _ PS I).
Qed.

Theorem null_map_identity : forall g prefix n d input ptx,
  0 <= n -> 0 < d -> input <> [] ->
  NoDup (map fst input) -> Forall sc_ok input ->
  NoDup (map key_of (flat_map (fun p => frags_of (snd p)) input)) ->     (* distinct contigs *)
  null_map n d input ptx ->
  exists scs per,
    remap repaired g prefix (n, d) input ptx = Ok (mkOut [mkOutAsm None true scs] 0 0 0 per)
    /\ Forall (fun p => snd p = (0, 0)) per
    /\ Permutation (map (fun sc => (sc_name sc, map erase_id (sc_rows sc))) scs)
                   (map (fun p => (fst p, map erase_id (snd p))) input)
    /\ Forall (fun sc => sc_tag sc = None /\ sc_hap sc = None /\ sc_rank sc = 3) scs.
Proof.
  intros g prefix n d input ptx Hn Hd NE N0 OK NK NM.
  pose proof (null_map_number n d input ptx NM 0) as NM'.
  assert (Nn : NoDup (map fst (number_input input 0))) by (rewrite RemapTail.number_input_names; exact N0).
  destruct (null_map_pres n d _ _ NM' Nn) as (ps & -> & PO & NP).
  destruct (remap_null_numbered g prefix n d input ps Hn Hd N0 (sc_ok_number input 0 OK))
    as (scs & per & E & FP & PERM & PL); try assumption.
  - pose proof (RemapTail.number_input_keys input 0) as K. unfold RemapSpec.in_frags in K.
    rewrite K. exact NK.
  - intro Z. apply NE. apply (f_equal (map fst)) in Z. rewrite RemapTail.number_input_names in Z.
    destruct input; [reflexivity | discriminate].
  - exists scs, per. split; [exact E|]. split; [exact FP|]. split; [|exact PL].
    rewrite <- (number_input_erase input 0).
    apply (Permutation_map (fun p : str * list row => (fst p, map erase_id (snd p)))) in PERM.
    rewrite map_map in PERM. exact PERM.
Qed.

(* [sc_ok] decided, for concrete assemblies *)
Definition is_none {A} (o : option A) : bool := match o with None => true | Some _ => false end.
Definition frag_okb (f : frag) : bool :=
  match f_tags f with [] => true | _ => false end
  && ((f_strand f =? 1) || (f_strand f =? -1)) && (f_start f <=? f_end f).
Definition sc_okb (sc : str * list row) : bool :=
  match snd sc, last_opt (snd sc) with
  | RF f :: _, Some (RF _) =>
      forallb (fun r => 1 <=? row_len r) (snd sc) && forallb frag_okb (frags_of (snd sc))
      && is_none (haplotype_prefix_of_name (fst sc)) && is_none (haplotype_prefix_of_name (f_name f))
  | _, _ => false
  end.

Lemma sc_okb_ok sc : sc_okb sc = true -> sc_ok sc.
Proof.
  destruct sc as [name rows]. unfold sc_okb, sc_ok. cbn [fst snd].
  destruct rows as [|[f|g] t]; try discriminate.
  destruct (list_snoc_cases (RF f :: t)) as [E|(l & x & E)]; [discriminate|].
  rewrite E, last_opt_snoc, <- E. destruct x as [fl|gl]; [|discriminate].
  intro H. apply andb_prop in H as [H H4]. apply andb_prop in H as [H H3]. apply andb_prop in H as [H1 H2].
  split; [discriminate|]. split; [|split; [eauto|split; [eauto|split; [|split]]]].
  - unfold pos_rows. rewrite forallb_forall in H1. apply Forall_forall. intros r Ir.
    specialize (H1 r Ir). lia.
  - rewrite forallb_forall in H2. apply Forall_forall. intros h Ih. specialize (H2 h Ih).
    unfold frag_okb in H2. destruct (f_tags h); [|discriminate]. split; [reflexivity|]. lia.
  - destruct (haplotype_prefix_of_name name); [discriminate | reflexivity].
  - intros f' t' E'. injection E' as <- _.
    destruct (haplotype_prefix_of_name (f_name f)); [discriminate | reflexivity].
Qed.

Lemma sc_okb_all l : forallb sc_okb l = true -> Forall sc_ok l.
Proof.
  intro H. rewrite forallb_forall in H. apply Forall_forall. intros sc I. apply sc_okb_ok, H, I.
Qed.

(* The pinned commit ([fix_gap_run] off) is refuted by a scaffold that no
   bait names and that has two consecutive gaps: every hypothesis of
   [null_map_identity] holds, and it comes back with only the second gap *)
Definition cex_F (nm : string) (a b st : Z) : row := RF (mkFrag (-1) (list_ascii_of_string nm) a b st []).
Arguments cex_F nm%string_scope a b st.
Definition cex_input : list (str * list row) :=
  [ (s "scaffold_1", [cex_F "ctg1" 1 100 1; RG (mkGap 50 (s "scaffold")); cex_F "ctg2" 1 200 (-1)]);
    (s "scaffold_2", [cex_F "ctg3" 1 5 1; RG (mkGap 2 (s "x")); RG (mkGap 3 (s "y")); cex_F "ctg4" 1 3 1]) ].
Definition cex_ptx : list (str * list row) :=
  [ (s "Scaffold_1", [RF (mkFrag (-1) (s "scaffold_1") 1 345 1 [])]) ].

Lemma cex_sc_ok : Forall sc_ok cex_input.
Proof.
  apply sc_okb_all. vm_compute. reflexivity.
Qed.

(* what a run put out, read off without evaluating it *)
Definition out_of (r : res outputs) : outputs :=
  match r with Ok o => o | Err _ => mkOut [] 0 0 0 [] end.

Theorem null_map_legacy_refuted :
  0 <= 10 /\ 0 < 1 /\ cex_input <> []
  /\ NoDup (map fst cex_input) /\ Forall sc_ok cex_input
  /\ NoDup (map key_of (flat_map (fun p => frags_of (snd p)) cex_input))
  /\ null_map 10 1 cex_input cex_ptx
  /\ exists o, remap (mkCfg true true true true false) (mkGap 200 (s "scaffold")) (s "SUPER_") (10, 1)
                     cex_input cex_ptx = Ok o
     /\ map (fun sc => (sc_name sc, map erase_id (sc_rows sc))) (flat_map oa_scaffolds (out_asms o))
        = [ (s "scaffold_1", [cex_F "ctg1" 1 100 1; RG (mkGap 50 (s "scaffold")); cex_F "ctg2" 1 200 (-1)]);
            (s "scaffold_2", [cex_F "ctg3" 1 5 1; RG (mkGap 3 (s "y")); cex_F "ctg4" 1 3 1]) ].
Proof.
  split; [lia|]. split; [lia|]. split; [discriminate|].
  split; [|split; [exact cex_sc_ok|split; [|split]]].
  - apply (nodupb_ok str_eqb str_eqb_refl). vm_compute. reflexivity.
  - apply (nodupb_ok key_eqb key_eqb_refl). vm_compute. reflexivity.
  - unfold cex_input, cex_ptx. apply nm_present; [apply nm_absent; constructor | | | |]; cbn; try lia; discriminate.
  - set (run := remap _ _ _ _ _ _). exists (out_of run). split; vm_compute; reflexivity.
Qed.

(* the same run under the repaired code: scaffold_2 keeps both gaps *)
Example null_map_repaired_keeps_gap_run :
  exists o, remap repaired (mkGap 200 (s "scaffold")) (s "SUPER_") (10, 1) cex_input cex_ptx = Ok o
     /\ map (fun sc => (sc_name sc, map erase_id (sc_rows sc))) (flat_map oa_scaffolds (out_asms o))
        = cex_input.
Proof. set (run := remap _ _ _ _ _ _). exists (out_of run). split; vm_compute; reflexivity. Qed.

(* The hypotheses are satisfiable: three scaffolds, the middle one absent
   from the map, with a run of two gaps, a reverse-strand contig *)
Definition ok_input : list (str * list row) :=
  [ (s "scaffold_1", [cex_F "ctg1" 1 100 1; RG (mkGap 50 (s "scaffold")); cex_F "ctg2" 1 200 (-1)]);
    (s "scaffold_2", [cex_F "ctg3" 1 5 1; RG (mkGap 2 (s "x")); RG (mkGap 3 (s "y")); cex_F "ctg4" 1 3 1]);
    (s "scaffold_3", [cex_F "ctg5" 1 300 1]) ].
Definition ok_ptx : list (str * list row) :=
  [ (s "Scaffold_1", [RF (mkFrag (-1) (s "scaffold_1") 1 345 1 [])]);
    (s "Scaffold_2", [RF (mkFrag (-1) (s "scaffold_3") 1 300 1 [])]) ].

Example null_map_hypotheses_satisfiable :
  ok_input <> [] /\ NoDup (map fst ok_input) /\ Forall sc_ok ok_input
  /\ NoDup (map key_of (flat_map (fun p => frags_of (snd p)) ok_input))
  /\ null_map 10 1 ok_input ok_ptx
  /\ ~ no_gap_pair (snd (nth 1 ok_input ([], []))).     (* the absent scaffold has a run of two gaps *)
Proof.
  split; [discriminate|]. split; [|split; [|split; [|split]]].
  - apply (nodupb_ok str_eqb str_eqb_refl). vm_compute. reflexivity.
  - apply sc_okb_all. vm_compute. reflexivity.
  - apply (nodupb_ok key_eqb key_eqb_refl). vm_compute. reflexivity.
  - unfold ok_input, ok_ptx.
    apply nm_present; [apply nm_absent; apply nm_present; [constructor| | | |]| | | |];
      cbn; try lia; try discriminate.
  - intro H. exact (H [cex_F "ctg3" 1 5 1] (mkGap 2 (s "x")) (mkGap 3 (s "y")) [cex_F "ctg4" 1 3 1] eq_refl).
Qed.

Print Assumptions null_map_identity.
Print Assumptions null_map_legacy_refuted.
Print Assumptions null_map_repaired_keeps_gap_run.
Print Assumptions null_map_hypotheses_satisfiable.
