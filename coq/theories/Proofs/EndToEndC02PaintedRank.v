(* Where a painted piece lands: the output scaffold that holds the rows of a
   bait tagged ["Painted"] is a CHROMOSOME: it has rank 1 and, under the
   hypotheses of Proofs.ChromosomeNumbers.chromosome_numbers_end_to_end, its
   name is prefix ++ <number> ++ <unloc suffix>.

   One hypothesis is ADDED to those of the painted capstone: the name of a
   painted Pretext scaffold is not the name of an input scaffold.  Without it
   the statement is false ([painted_rank_needs_fresh_names]): an unpainted
   Pretext scaffold is named after the input scaffold of its first bait
   (rank 3); if a painted Pretext scaffold listed later bears the same name, the
   two fuse under one key and the fused scaffold keeps the rank of the FIRST
   piece: the painted bait's rows end up in a rank-3 scaffold that the ChrNamer
   never numbers. *)
From Tola Require Import Py.Base Py.Dec Model.Fragment Model.Scaffold Model.OverlapResult
  Model.Namer Model.Remap Proofs.BaseLemmas Proofs.RemapHead Proofs.Junctions
  Proofs.EndToEndC02Total Proofs.EndToEndC02 Proofs.EndToEndC02Painted.
From Tola Require Proofs.Completion Proofs.CompletionPainted Proofs.CoreKept Proofs.RoutingEndToEnd
  Proofs.Routing Proofs.RemapTail Proofs.UniqueNames Proofs.ChromosomeNumbers
  Proofs.JoinGaps Proofs.CompletionLookup.
From Coq Require Import Lia.

Notation labs := Proofs.UniqueNames.labs.
Notation o_labs := Proofs.UniqueNames.o_labs.
Notation sc_labs := Proofs.UniqueNames.sc_labs.
Notation painted_b := Proofs.UniqueNames.painted_b.

(* what make_scaffold_name decides for a Pretext scaffold whose tag set is []
   or ["Painted"] *)
Lemma msn_tags_ok nm pname rows f t nm' :
  rows = RF f :: t -> tags_ok (fragment_tags rows) ->
  make_scaffold_name nm pname rows (fragment_tags rows) = Ok nm' ->
  nm_target nm' = nm_target nm
  /\ (fragment_tags rows = [] -> nm_cur_name nm' = Some (f_name f) /\ nm_cur_rank nm' = 3)
  /\ (fragment_tags rows = [s "Painted"] -> nm_cur_name nm' = Some pname /\ nm_cur_rank nm' = 1).
Proof.
  intros -> Ht H.
  destruct (Proofs.Routing.make_scaffold_name_inv _ _ _ _ _ H)
    as (sc & hap & lc1 & prim & lc2 & name & rank & Es & _ & _ & En & ->).
  cbn [nm_target nm_cur_name nm_cur_rank]. unfold Proofs.Routing.fin_name in En.
  destruct Ht as [Ht | Ht]; rewrite Ht in *; cbn [Proofs.Routing.eff_tags foldM] in Es.
  - rewrite Ht in Es. injection Es as <-.
    cbn [Proofs.Routing.scan0 ts_name ts_painted ts_target first_row_name bind] in *.
    injection En as <- <-. split; [reflexivity|]. split; [intros _; split; reflexivity | discriminate].
  - rewrite Proofs.Routing.scan_painted in Es. cbn [bind] in Es. injection Es as <-.
    cbn [Proofs.Routing.scan0 ts_name ts_painted ts_rank ts_target] in *.
    injection En as <- <-. split; [reflexivity|]. split; [discriminate | intros _; split; reflexivity].
Qed.

Lemma painted_in_fragment_tags rows f :
  In f (frags_of rows) -> f_tags f = [s "Painted"] -> In (s "Painted") (fragment_tags rows).
Proof.
  intros Hf Ht. unfold fragment_tags. apply (dedup_in str_eqb str_eqb_eq).
  apply in_flat_map. exists f. split; [exact Hf|]. rewrite Ht. left. reflexivity.
Qed.

Section Names.
  Variables (inames : list str) (pretext : list (str * list row)).

  (* the labels of a stored result: rank 1 under its own (Pretext) name, or the
     name of an input scaffold; for a Painted bait the first, and the name is
     that of a painted Pretext scaffold holding the bait *)
  Definition LN (bait : frag) (l : labs) : Prop :=
    let '(name, _, _, rank, orig) := l in
    ((rank = 1 /\ orig = Some name) \/ In name inames)
    /\ (f_tags bait = [s "Painted"] ->
        rank = 1 /\ orig = Some name
        /\ exists prows, In (name, prows) pretext /\ In bait (frags_of prows)
                         /\ painted_b (name, prows) = true).
  Definition LNr (r : ovr) : Prop := LN (o_bait r) (o_labs r).

  (* what the fusion needs of every piece *)
  Definition Qn (l : labs) : Prop :=
    let '(name, _, _, rank, orig) := l in (rank = 1 /\ orig = Some name) \/ In name inames.

  Lemma LNr_ext st st' :
    map o_bait st' = map o_bait st -> map o_labs st' = map o_labs st ->
    Forall LNr st -> Forall LNr st'.
  Proof.
    intros EB EL.
    exact (Proofs.UniqueNames.Forall_map_eq (fun r => (o_bait r, o_labs r)) (fun p => LN (fst p) (snd p))
             st st' (map_pair_eq o_bait o_labs st st' EB EL)).
  Qed.

  (* the state of the namer while the baits of (pname, prows) are looked up *)
  Definition cur_ok (nm : namer) (pname : str) (prows : list row) : Prop :=
    (fragment_tags prows = [] /\ nm_cur_rank nm = 3
     /\ exists n, nm_cur_name nm = Some n /\ In n inames)
    \/ (fragment_tags prows = [s "Painted"] /\ nm_cur_rank nm = 1 /\ nm_cur_name nm = Some pname).

  Lemma one_bait_LN inp err pname prows b bait b' :
    tags_ok (f_tags bait) -> In bait (frags_of prows) -> In (pname, prows) pretext ->
    nm_target (b_namer b) = false -> cur_ok (b_namer b) pname prows ->
    Forall LNr (b_store b) ->
    one_bait inp err (fragment_tags prows) pname b bait = Ok b' ->
    Forall LNr (b_store b') /\ b_namer b' = b_namer b.
  Proof.
    intros Ht Hb Hp T C F H.
    destruct (one_bait_tags_ok _ _ _ _ _ _ _ Ht H) as [N [S | (r & S & Br & L)]].
    - rewrite S. auto.
    - split; [|exact N]. rewrite S. apply Forall_app. split; [exact F|]. constructor; [|constructor].
      unfold LNr. rewrite Br, L. unfold LN, llabs. rewrite T. cbn [andb].
      destruct C as [(Et & Ck & n & Cn & In_n) | (Et & Ck & Cn)]; rewrite Cn, Ck.
      + split; [right; exact In_n|]. intro Pb. exfalso.
        pose proof (painted_in_fragment_tags prows bait Hb Pb) as X. rewrite Et in X. destruct X.
      + split; [left; split; reflexivity|]. intros _. split; [reflexivity|]. split; [reflexivity|].
        exists prows. split; [exact Hp|]. split; [exact Hb|]. unfold Proofs.UniqueNames.painted_b. cbn [snd]. rewrite Et. reflexivity.
  Qed.

  (* what the lookups keep: no Target mode, no haplotig registered, LN of every result *)
  Definition head_inv (b : bstate) : Prop :=
    nm_target (b_namer b) = false /\ nm_hap_scaffolds (b_namer b) = [] /\ Forall LNr (b_store b).

  Lemma one_pretext_LN inp err b pname prows b' :
    (exists f t, prows = RF f :: t /\ In (f_name f) inames) ->
    Forall (fun f => tags_ok (f_tags f)) (frags_of prows) ->
    In (pname, prows) pretext ->
    head_inv b -> one_pretext_scaffold inp err b (pname, prows) = Ok b' -> head_inv b'.
  Proof.
    intros (f & t & Hrows & Hfn) Hu Hp (T & Hh & F) H.
    destruct (one_pretext_spec _ _ _ _ _ _ H) as (nm & b1 & st & Hnm & Hb1 & Hst & ->).
    cbn [with_store b_store b_namer].
    pose proof (Proofs.CompletionLookup.fragment_tags_painted prows Hu) as Ht.
    destruct (msn_lists _ _ _ _ _ Hnm) as [U1 U2].
    destruct (msn_tags_ok _ _ _ _ _ _ Hrows Ht Hnm) as (Tn & C0 & C1).
    assert (C : cur_ok nm pname prows).
    { destruct Ht as [Ht | Ht].
      - left. destruct (C0 Ht) as [X Y]. split; [exact Ht|]. split; [exact Y|]. exists (f_name f). auto.
      - right. destruct (C1 Ht) as [X Y]. auto. }
    assert (I1 : Forall LNr (b_store b1) /\ b_namer b1 = nm).
    { apply (foldM_inv_In (one_bait inp err (fragment_tags prows) pname)
               (fun b0 => Forall LNr (b_store b0) /\ b_namer b0 = nm) (frags_of prows)) with (3 := Hb1).
      - intros s0 a s1 Ia [Fs En] E. rewrite Forall_forall in Hu.
        destruct (one_bait_LN _ _ _ _ _ _ _ (Hu a Ia) Ia Hp
                    ltac:(rewrite En, Tn; exact T) ltac:(rewrite En; exact C) Fs E) as [K1 K2].
        split; [exact K1 | congruence].
      - split; [exact F | reflexivity]. }
    destruct I1 as [F1 N1].
    rewrite N1, U1, Proofs.RemapTail.rename_results_nil in Hst. injection Hst as <-.
    unfold head_inv. cbn [with_store b_store b_namer]. rewrite N1.
    split; [congruence|]. split; [congruence | exact F1].
  Qed.

  Lemma leftovers_named c g found inp nm left nm' left' :
    Forall (fun sc => In (sc_name sc) inames /\ sc_rank sc = 3) left ->
    incl (map fst inp) inames ->
    foldM (add_missing_one c g found) inp (nm, left) = Ok (nm', left') ->
    Forall (fun sc => In (sc_name sc) inames /\ sc_rank sc = 3) left'.
  Proof.
    intros F I H.
    apply (foldM_inv_In (add_missing_one c g found)
             (fun acc => Forall (fun sc => In (sc_name sc) inames /\ sc_rank sc = 3) (snd acc)) inp)
      with (3 := H); [|exact F].
    intros [nm0 left0] [name rows] acc1 Ia F0 E. cbn [snd] in F0.
    destruct (Proofs.JoinGaps.add_missing_one_spec _ _ _ _ _ _ _ _ E) as [[_ ->] | (nm2 & _ & _ & ->)];
      cbn [snd]; [exact F0|].
    apply Forall_app. split; [exact F0|]. constructor; [|constructor].
    cbn [sc_name sc_rank]. split; [|reflexivity]. apply I. exact (in_map fst _ _ Ia).
  Qed.
End Names.

Theorem head_LN : forall c g prefix bpt input pretext rs,
  Forall (fun p => exists b t, snd p = RF b :: t) pretext ->
  Forall (fun b => tags_ok (f_tags b) /\ In (f_name b) (map fst input)) (baits_of pretext) ->
  remap_to_input c g prefix bpt input pretext = Ok rs ->
  Forall (LNr (map fst input) pretext) (b_store (rs_b rs))
  /\ Forall (fun sc => In (sc_name sc) (map fst input) /\ sc_rank sc = 3) (rs_left rs).
Proof.
  intros c g prefix bpt input pretext rs Hpre Hb H.
  destruct (remap_to_input_stages _ _ _ _ _ _ _ H)
    as (_ & b1 & b2 & b3 & st & [nm left] & E1 & E2 & E3 & E4 & E5 & ->).
  set (inames := map fst input) in *.
  assert (O1 : head_inv inames pretext b1).
  { apply (foldM_inv_In _ (head_inv inames pretext) pretext) with (3 := E1).
    - intros s0 [pname prows] s1 Ia Hs E. rewrite Forall_forall in Hpre, Hb.
      destruct (Hpre _ Ia) as (f & t & Hrows). cbn [snd] in Hrows.
      assert (Hin : forall x, In x (frags_of prows) -> In x (baits_of pretext)).
      { intros x Hx. eapply (in_baits_of (pname, prows)); eassumption. }
      apply (one_pretext_LN inames pretext _ _ _ _ _ _) with (5 := E); [| |exact Ia|exact Hs].
      + exists f, t. split; [exact Hrows|]. apply (Hb f). apply Hin. rewrite Hrows. left. reflexivity.
      + apply Forall_forall. intros x Hx. exact (proj1 (Hb x (Hin x Hx))).
    - split; [reflexivity|]. split; [reflexivity | constructor]. }
  destruct O1 as (T1 & Hh1 & F1).
  destruct (later_stages_same _ _ _ _ _ _ _ E2 E3 Hh1 E4) as (EB & EL & _).
  cbn [rs_b rs_left with_namer with_store b_store fst snd].
  split.
  - exact (LNr_ext inames pretext (b_store b1) st EB EL F1).
  - apply (leftovers_named inames c g _ _ _ _ _ _ (Forall_nil _)) with (2 := E5).
    unfold inames. rewrite RemapTail.number_input_names. apply incl_refl.
Qed.

(* the statement, with the added hypothesis switched on or off *)
Definition painted_rank_statement (fresh : bool) : Prop :=
  forall g prefix n d input pretext,
  0 < d -> d <= n ->
  Forall Proofs.Completion.input_ok input -> NoDup (map fst input) ->
  NoDup (map key_of (Model.RemapSpec.in_frags input)) ->
  Forall (fun f => f_tags f = []) (Model.RemapSpec.in_frags input) ->
  Forall (fun p => exists b t, snd p = RF b :: t) pretext ->
  Forall (fun b => (f_tags b = [] \/ f_tags b = [s "Painted"]) /\ (f_strand b = 1 \/ f_strand b = -1)
                   /\ In (f_name b) (map fst input)) (Proofs.CoreKept.baits_of pretext) ->
  Forall (Proofs.Completion.scaffold_tiled n d (Proofs.CoreKept.baits_of pretext)) input ->
  Forall (fun f => f_strand f = 1 \/ f_strand f = -1) (Model.RemapSpec.in_frags input) ->
  Forall (fun p => Proofs.UniqueNames.painted_b p = true -> fst p <> []) pretext ->
  Proofs.UniqueNames.no_haplotypes pretext ->
  (* ADDED: a painted Pretext scaffold is not named like an input scaffold *)
  (fresh = true ->
   Forall (fun p => Proofs.UniqueNames.painted_b p = true -> ~ In (fst p) (map fst input)) pretext) ->
  exists rs o,
    remap_to_input repaired g prefix (n, d) input pretext = Ok rs
    /\ remap repaired g prefix (n, d) input pretext = Ok o
    /\ let err := error_length (n, d) in
       forall bait src x,
         In bait (Proofs.CoreKept.baits_of pretext) ->
         In (f_name bait, src) (number_input input 0) ->
         Proofs.CoreKept.in_core err bait x -> Proofs.CoreKept.contig_base src x ->
         f_tags bait = [s "Painted"] ->
         exists r a sc pre suf,
           In r (b_store (rs_b rs)) /\ o_bait r = bait
           /\ Model.OvrSpec.Inv src r /\ Proofs.CoreKept.core_kept err src r
           /\ In a (out_asms o) /\ In sc (oa_scaffolds a)
           /\ sc_rows sc = pre ++ to_scaffold_rows r ++ suf
           /\ sc_rank sc = 1
           /\ exists pname prows, In (pname, prows) pretext /\ In bait (frags_of prows)
                                  /\ sc_orig sc = Some pname.

Theorem c02_end_to_end_painted_rank : painted_rank_statement true.
Proof.
  intros g prefix n d input pretext Hd Hdn Hin Hnm Hkeys Hunt Hpre Hb Htile Hstr Hnames NHp Hfresh.
  specialize (Hfresh eq_refl).
  set (all := Proofs.CoreKept.baits_of pretext) in *.
  destruct (Proofs.CompletionPainted.completion_of_painted_tiling_maps g prefix n d input pretext
              Hd Hdn Hin Hnm Hkeys Hunt Hpre Hb Htile) as (rs & Hrs).
  destruct (Proofs.CompletionPainted.painted_tiling_maps_complete g prefix n d input pretext
              Hd Hdn Hin Hnm Hkeys Hunt Hpre Hb Htile Hstr Hnames NHp) as (o & Hremap).
  assert (Hnamed : Forall (fun b => In (f_name b) (map fst input)) all).
  { eapply Forall_impl; [|exact Hb]. intros b (_ & _ & H). exact H. }
  (* the labels of the results, of the left-overs, of the fused scaffolds *)
  assert (Hb2 : Forall (fun b => tags_ok (f_tags b) /\ In (f_name b) (map fst input)) all).
  { eapply Forall_impl; [|exact Hb]. intros b (H1 & _ & H2). split; assumption. }
  destruct (head_LN repaired g prefix (n, d) input pretext rs Hpre Hb2 Hrs) as [FL FLeft].
  destruct (Proofs.RemapTail.remap_stages _ _ _ _ _ _ _ Hremap) as (rs' & Hrs' & Ho').
  rewrite Hrs in Hrs'. injection Hrs' as <-.
  destruct (Proofs.RoutingEndToEnd.assemblies_out _ _ _ _ _ _ Ho') as (fused0 & fused & F & _).
  assert (FQ : Forall (fun sc => Qn (map fst input) (sc_labs sc)) fused0).
  { apply (Proofs.UniqueNames.fuse_all_labs (Qn (map fst input)) repaired g rs fused0) with (3 := F).
    - eapply Forall_impl; [|exact FL]. intros r X.
      unfold LNr, LN, Proofs.UniqueNames.o_labs in X. unfold Qn, Proofs.UniqueNames.o_labs. exact (proj1 X).
    - eapply Forall_impl; [|exact FLeft]. intros sc [X Y]. unfold Qn, Proofs.UniqueNames.sc_labs. right. exact X. }
  exists rs, o. split; [exact Hrs|]. split; [exact Hremap|].
  cbv zeta. intros bait src x Hbait Hsrc Hcore Hbase Hpt.
  destruct (core_result g prefix n d input pretext rs Hd Hdn Hin Hnm Hkeys Hnamed Htile Hrs
              bait src x Hbait Hsrc Hcore Hbase) as (k & r & Hk & Eb & HI & HK & Hne & Hin_added).
  pose proof (nth_error_In _ _ Hk) as Hr.
  (* its label: rank 1, named after a painted Pretext scaffold that holds the bait *)
  rewrite Forall_forall in FL. pose proof (FL r Hr) as X.
  unfold LNr, LN, Proofs.UniqueNames.o_labs in X. rewrite Eb in X. destruct X as [_ X].
  destruct (X Hpt) as (Rk & Og & prows & Hp & Hbp & Pb).
  (* the fused scaffold of that name has rank 1 ... *)
  destruct (Proofs.RoutingEndToEnd.piece_in_fused g rs fused0 (fst (piece_of_result r)) true F)
    as (b & pre & suf & Hbf & Rb & _ & _ & Nb).
  { left. split; [reflexivity|]. exists (Z.of_nat k), r.
    split; [exact Hin_added|]. split; [exact (get_ovr_of_nat _ _ _ Hk) | reflexivity]. }
  { cbn [piece_of_result fst sc_rows]. intros E. apply Hne.
    apply Proofs.JoinGaps.to_scaffold_rows_nil_iff. exact E. }
  cbn [piece_of_result fst sc_rows sc_name] in Rb, Nb.
  rewrite Forall_forall in FQ, Hfresh. pose proof (FQ b Hbf) as Qb.
  unfold Qn, Proofs.UniqueNames.sc_labs in Qb. rewrite Nb in Qb.
  destruct Qb as [[Rkb Ogb] | Bad].
  2:{ exfalso. exact (Hfresh _ Hp Pb Bad). }
  (* ... and so has the output scaffold *)
  destruct (Proofs.RoutingEndToEnd.fused_in_output_named _ _ _ _ _ _ _ b Ho' F Hbf)
    as (a & sc & Ha & Hsc & Esc & _).
  (* sc is b under the name the ChrNamer gave it *)
  assert (E3 : sc_rows sc = sc_rows b /\ sc_rank sc = sc_rank b /\ sc_orig sc = sc_orig b).
  { rewrite Esc. repeat split. }
  destruct E3 as (R1 & R2 & R3).
  exists r, a, sc, pre, suf.
  split; [eapply nth_error_In; exact Hk|]. split; [exact Eb|]. split; [exact HI|].
  split; [exact HK|]. split; [exact Ha|]. split; [exact Hsc|].
  split; [rewrite R1; exact Rb|]. split; [congruence|].
  exists (o_name r), prows. split; [exact Hp|]. split; [exact Hbp | congruence].
Qed.

Module FreshNeeded.
  Import Proofs.CompletionPainted.Needs.
  (* P1 (unpainted) shows input scaffold Xa and is therefore named "Xa", rank 3;
     the painted Pretext scaffold that shows Xb is itself named "Xa" *)
  Definition input := [(s "Xa", [RF (ctg (s "cA") 1)]); (s "Xb", [RF (ctg (s "cB") 1)])].
  Definition pretext := [(s "P1", [RF (mkFrag 0 (s "Xa") 1 100 1 [])]); (s "Xa", [RF (pbait (s "Xb") 100)])].

  (* every output scaffold has rank 3 *)
  Lemma run : exists o, remap repaired g10 (s "SUPER_") (2, 1) input pretext = Ok o
    /\ forallb (fun a => forallb (fun sc => sc_rank sc =? 3) (oa_scaffolds a)) (out_asms o) = true.
  Proof. eexists. split; vm_compute; reflexivity. Qed.

  (* ... although the namespace and no-haplotype hypotheses of
     chromosome_numbers_end_to_end hold as well *)
  Lemma names_ok : Proofs.UniqueNames.input_namespace_ok_b (s "SUPER_") input pretext = true
    /\ Proofs.UniqueNames.no_haplotypes_b input = true /\ Proofs.UniqueNames.no_haplotypes_b pretext = true.
  Proof. vm_compute. auto. Qed.
End FreshNeeded.

Theorem painted_rank_needs_fresh_names : ~ painted_rank_statement false.
Proof.
  intros H.
  destruct (Proofs.Completion.tiling_map_okb_sound 2 1 FreshNeeded.input FreshNeeded.pretext)
    as (H1 & H2 & H3 & H4 & H5 & H7 & H8 & H9); [vm_compute; reflexivity|].
  destruct (H Proofs.CompletionPainted.Needs.g10 (s "SUPER_") 2 1 FreshNeeded.input FreshNeeded.pretext
              H1 H2 H3 H4 H5) as (rs & o & _ & Ho & HC).
  - repeat constructor.
  - exact H7.
  - apply Forall_and; [cbn; repeat (apply Forall_cons; [auto|]); apply Forall_nil | exact H8].
  - exact H9.
  - repeat constructor; cbn; auto.
  - repeat constructor; intros _; discriminate.
  - apply Proofs.UniqueNames.no_haplotypes_b_sound. vm_compute. reflexivity.
  - discriminate.
  - destruct FreshNeeded.run as (o' & Ho' & Hall). rewrite Ho' in Ho. injection Ho as <-.
    cbv zeta in HC.
    destruct (HC (Proofs.CompletionPainted.Needs.pbait (s "Xb") 100)
                 [RF (mkFrag 1 (s "cB") 1 100 1 [])] 50)
      as (r & a & sc & pre & suf & _ & _ & _ & _ & Ha & Hsc & _ & Rk & _).
    + cbn. auto.
    + vm_compute. right. left. reflexivity.
    + unfold Proofs.CoreKept.in_core. vm_compute. split; discriminate.
    + exists 0%nat. split; [eexists; reflexivity|]. vm_compute. split; discriminate.
    + reflexivity.
    + rewrite forallb_forall in Hall. specialize (Hall a Ha). rewrite forallb_forall in Hall.
      specialize (Hall sc Hsc). rewrite Rk in Hall. discriminate.
Qed.

(* with the hypotheses of chromosome_numbers_end_to_end: the scaffold is a
   numbered chromosome, prefix ++ <number> ++ <"" or "_unloc_<digits>"> *)
Theorem c02_end_to_end_painted_named : forall g prefix n d input pretext,
  0 < d -> d <= n ->
  Forall Proofs.Completion.input_ok input -> NoDup (map fst input) ->
  NoDup (map key_of (Model.RemapSpec.in_frags input)) ->
  Forall (fun f => f_tags f = []) (Model.RemapSpec.in_frags input) ->
  Forall (fun p => exists b t, snd p = RF b :: t) pretext ->
  Forall (fun b => (f_tags b = [] \/ f_tags b = [s "Painted"]) /\ (f_strand b = 1 \/ f_strand b = -1)
                   /\ In (f_name b) (map fst input)) (Proofs.CoreKept.baits_of pretext) ->
  Forall (Proofs.Completion.scaffold_tiled n d (Proofs.CoreKept.baits_of pretext)) input ->
  Forall (fun f => f_strand f = 1 \/ f_strand f = -1) (Model.RemapSpec.in_frags input) ->
  Forall (fun p => Proofs.UniqueNames.painted_b p = true -> fst p <> []) pretext ->
  Proofs.UniqueNames.no_haplotypes pretext ->
  (* ADDED for the rank (refuted without: painted_rank_needs_fresh_names) *)
  Forall (fun p => Proofs.UniqueNames.painted_b p = true -> ~ In (fst p) (map fst input)) pretext ->
  (* the other hypotheses of chromosome_numbers_end_to_end (191 = 256 - 65: the
     chromosome letter wraps in the byte model, see Proofs.UniqueNames) *)
  Proofs.UniqueNames.input_namespace_ok prefix input pretext ->
  (length (filter Proofs.UniqueNames.painted_b pretext) <= 191)%nat ->
  Proofs.UniqueNames.no_haplotypes input ->
  NoDup (map fst pretext) ->
  exists rs o,
    remap_to_input repaired g prefix (n, d) input pretext = Ok rs
    /\ remap repaired g prefix (n, d) input pretext = Ok o
    /\ let err := error_length (n, d) in
       forall bait src x,
         In bait (Proofs.CoreKept.baits_of pretext) ->
         In (f_name bait, src) (number_input input 0) ->
         Proofs.CoreKept.in_core err bait x -> Proofs.CoreKept.contig_base src x ->
         f_tags bait = [s "Painted"] ->
         exists r a sc pre suf,
           In r (b_store (rs_b rs)) /\ o_bait r = bait
           /\ Model.OvrSpec.Inv src r /\ Proofs.CoreKept.core_kept err src r
           /\ In a (out_asms o) /\ In sc (oa_scaffolds a)
           /\ sc_rows sc = pre ++ to_scaffold_rows r ++ suf
           /\ sc_rank sc = 1
           /\ (exists pname prows, In (pname, prows) pretext /\ In bait (frags_of prows)
                                   /\ sc_orig sc = Some pname)
           /\ exists k sfx, sc_name sc = prefix ++ str_of_Z (Z.of_nat k + 1) ++ sfx
                            /\ Proofs.UniqueNames.unloc_sfx sfx = true.
Proof.
  intros g prefix n d input pretext Hd Hdn Hin Hnm Hkeys Hunt Hpre Hb Htile Hstr Hnames NHp Hfresh
         INS B191 NHi NDp.
  destruct (c02_end_to_end_painted_rank g prefix n d input pretext Hd Hdn Hin Hnm Hkeys Hunt Hpre Hb Htile
              Hstr Hnames NHp (fun _ => Hfresh)) as (rs & o & Hrs & Ho & HC).
  cbv zeta in HC.
  destruct (Proofs.ChromosomeNumbers.chromosome_numbers_end_to_end g prefix (n, d) input pretext o
              Ho INS B191 NHi NHp NDp) as (chroms & _ & Hnum & _).
  exists rs, o. split; [exact Hrs|]. split; [exact Ho|]. cbv zeta.
  intros bait src x Hbait Hsrc Hcore Hbase Hpt.
  destruct (HC bait src x Hbait Hsrc Hcore Hbase Hpt)
    as (r & a & sc & pre & suf & C1 & C2 & C3 & C4 & Ha & Hsc & C7 & Rk & C9).
  exists r, a, sc, pre, suf. repeat (split; [assumption|]).
  assert (Iout : In sc (Proofs.ChromosomeNumbers.out_scaffolds o)).
  { unfold Proofs.ChromosomeNumbers.out_scaffolds. apply in_flat_map. exists a. split; assumption. }
  destruct (Hnum sc Iout Rk) as (k & orig & sfx & _ & _ & En & Es).
  exists k, sfx. split; assumption.
Qed.

(* non-vacuity:
   the painted three-piece map: the bait p1 (tagged Painted, 1..200 of scaf1) has
   contig base 50 in its core; its rows are in a rank-1 output scaffold whose
   original name is P2 *)
Example c02_end_to_end_painted_rank_instance :
  exists o sc a,
    remap repaired Proofs.Completion.ThreePieces.g10 (s "SUPER_") (7, 2)
          Proofs.Completion.ThreePieces.input Proofs.CompletionPainted.PaintedThreePieces.pretext = Ok o
    /\ In a (out_asms o) /\ In sc (oa_scaffolds a) /\ sc_rank sc = 1
    /\ exists k sfx, sc_name sc = s "SUPER_" ++ str_of_Z (Z.of_nat k + 1) ++ sfx.
Proof.
  destruct Instance.hyps as (H1 & H2 & H3 & H4 & H5 & H6 & H7 & H8 & H9 & H10 & H11 & H12).
  destruct (c02_end_to_end_painted_named Proofs.Completion.ThreePieces.g10 (s "SUPER_") 7 2
              Proofs.Completion.ThreePieces.input Proofs.CompletionPainted.PaintedThreePieces.pretext
              H1 H2 H3 H4 H5 H6 H7 H8 H9 H10 H11 H12) as (rs & o & _ & Ho & HC).
  - repeat constructor; cbn; intros _; intuition discriminate.
  - apply Proofs.UniqueNames.input_namespace_ok_b_sound. vm_compute. reflexivity.
  - vm_compute. lia.
  - apply Proofs.UniqueNames.no_haplotypes_b_sound. vm_compute. reflexivity.
  - cbn. repeat constructor; cbn; intuition discriminate.
  - cbv zeta in HC.
    destruct (HC Proofs.CompletionPainted.PaintedThreePieces.p1
                 (snd (hd (s "", []) (number_input Proofs.Completion.ThreePieces.input 0))) 50)
      as (r & a & sc & pre & suf & _ & _ & _ & _ & Ha & Hsc & _ & Rk & _ & k & sfx & En & _).
    + cbn. auto.
    + vm_compute. left. reflexivity.
    + unfold Proofs.CoreKept.in_core. vm_compute. split; discriminate.
    + exists 0%nat. split; [eexists; vm_compute; reflexivity|]. vm_compute. split; discriminate.
    + reflexivity.
    + exists o, sc, a. repeat (split; [assumption|]). exists k, sfx. exact En.
Qed.

Print Assumptions head_LN.
Print Assumptions c02_end_to_end_painted_rank.
Print Assumptions painted_rank_needs_fresh_names.
Print Assumptions c02_end_to_end_painted_named.
Print Assumptions c02_end_to_end_painted_rank_instance.
