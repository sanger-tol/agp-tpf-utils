(* Facts that characterise the definitions of Model/Fragment.v and
   Model/Scaffold.v: fragment keys, rows and their lengths, reversal. *)
From Tola Require Import Py.Base Model.Fragment Model.Scaffold Proofs.BaseLemmas.
From Coq Require Import Lia.

Lemma new_frag_ok id name st en strand tags nf :
  new_frag id name st en strand tags = Ok nf ->
  nf = mkFrag id name st en strand tags /\ st <= en.
Proof.
  unfold new_frag. destruct (negb (strand_ok strand)); [discriminate|].
  destruct (st >? en) eqn:E; [discriminate|]. intros H; injection H as <-. split; [reflexivity | lia].
Qed.

Lemma key_eqb_eq a b : key_eqb a b = true <-> a = b.
Proof.
  destruct a as [[n1 s1] e1], b as [[n2 s2] e2]. unfold key_eqb. split.
  - destruct (s1 =? s2) eqn:E1; [|discriminate].
    destruct (e1 =? e2) eqn:E2; [|discriminate].
    intros H. apply str_eqb_eq in H. f_equal; [f_equal|]; [exact H | lia | lia].
  - intros H. injection H as -> -> ->. rewrite !Z.eqb_refl. apply str_eqb_refl.
Qed.

Lemma key_eqb_refl a : key_eqb a a = true.
Proof. apply key_eqb_eq. reflexivity. Qed.

Lemma key_eqb_neq a b : key_eqb a b = false <-> a <> b.
Proof.
  split.
  - intros H E. apply key_eqb_eq in E. congruence.
  - intros H. destruct (key_eqb a b) eqn:E; [apply key_eqb_eq in E; contradiction | reflexivity].
Qed.

Lemma existsb_key k l : existsb (key_eqb k) l = true <-> In k l.
Proof.
  rewrite existsb_exists. split.
  - intros (y & Hy & E). apply key_eqb_eq in E. subst. exact Hy.
  - intros H. exists k. split; [exact H | apply key_eqb_refl].
Qed.

Lemma existsb_key_false k l : existsb (key_eqb k) l = false <-> ~ In k l.
Proof.
  split.
  - intros H Hin. apply existsb_key in Hin. congruence.
  - intros H. destruct (existsb (key_eqb k) l) eqn:E; [apply existsb_key in E; contradiction | reflexivity].
Qed.

Lemma rows_len_nil : rows_len [] = 0.
Proof. reflexivity. Qed.

Lemma rows_len_cons x l : rows_len (x :: l) = row_len x + rows_len l.
Proof. unfold rows_len. cbn [map]. apply sumZ_cons. Qed.

Lemma rows_len_app a b : rows_len (a ++ b) = rows_len a + rows_len b.
Proof. unfold rows_len. rewrite map_app. apply sumZ_app. Qed.

Lemma rows_len_rev a : rows_len (rev a) = rows_len a.
Proof. unfold rows_len. rewrite map_rev. apply sumZ_rev. Qed.

Lemma rows_len_single x : rows_len [x] = row_len x.
Proof. rewrite rows_len_cons, rows_len_nil. lia. Qed.

Lemma frags_of_RF o l : frags_of (RF o :: l) = o :: frags_of l.
Proof. reflexivity. Qed.

Lemma frags_of_RG g l : frags_of (RG g :: l) = frags_of l.
Proof. reflexivity. Qed.

Lemma frags_of_app a b : frags_of (a ++ b) = frags_of a ++ frags_of b.
Proof. unfold frags_of. apply flat_map_app. Qed.

Lemma frag_reverse_involutive f : frag_reverse (frag_reverse f) = f.
Proof. destruct f. unfold frag_reverse. cbn. f_equal. lia. Qed.

Lemma row_reverse_involutive r : row_reverse (row_reverse r) = r.
Proof. destruct r; cbn [row_reverse]; [rewrite frag_reverse_involutive|]; reflexivity. Qed.

Lemma rows_reverse_app a b : rows_reverse (a ++ b) = rows_reverse b ++ rows_reverse a.
Proof. unfold rows_reverse. rewrite rev_app_distr, map_app. reflexivity. Qed.

Lemma rows_reverse_cons c a : rows_reverse (c :: a) = rows_reverse a ++ [row_reverse c].
Proof. unfold rows_reverse. cbn [rev]. rewrite map_app. reflexivity. Qed.

Lemma rows_reverse_involutive rows : rows_reverse (rows_reverse rows) = rows.
Proof.
  unfold rows_reverse. rewrite <- map_rev, rev_involutive, map_map.
  rewrite <- (map_id rows) at 2. apply map_ext.
  intros [f|g]; cbn; [rewrite frag_reverse_involutive|]; reflexivity.
Qed.

Lemma frags_of_reverse rows : frags_of (rows_reverse rows) = map frag_reverse (rev (frags_of rows)).
Proof.
  unfold rows_reverse. induction rows as [|r rows IH]; [reflexivity|].
  cbn [rev]. rewrite map_app, frags_of_app, IH.
  destruct r as [f|g]; cbn.
  - change (frags_of (RF f :: rows)) with (f :: frags_of rows). cbn [rev].
    rewrite map_app. reflexivity.
  - change (frags_of (RG g :: rows)) with (frags_of rows). apply app_nil_r.
Qed.

Lemma flat_map_tags_nil : forall l : list frag,
  Forall (fun f => f_tags f = []) l -> flat_map f_tags l = [].
Proof.
  induction l as [|f l IH]; intro H; [reflexivity|].
  inversion H as [|f' l' Hf Hl]; subst. cbn [flat_map]. rewrite Hf, (IH Hl). reflexivity.
Qed.

Lemma fragment_tags_untagged rows :
  Forall (fun f => f_tags f = []) (frags_of rows) -> fragment_tags rows = [].
Proof. intro H. unfold fragment_tags. rewrite (flat_map_tags_nil _ H). reflexivity. Qed.

Lemma new_frag_mk id name st en strand tags :
  strand_ok strand = true -> st <= en ->
  new_frag id name st en strand tags = Ok (mkFrag id name st en strand tags).
Proof.
  intros H1 H2. unfold new_frag. rewrite H1. cbn [negb].
  rewrite Z.gtb_ltb, (proj2 (Z.ltb_ge en st) H2). reflexivity.
Qed.
