(* What the capstones need of the first half of [remap] and of its end.
   Whatever the tags, the ids in b_added index the store, every result with
   rows is listed there, and the store lists the results in the order of their
   baits.  Baits that are untagged or tagged ["Painted"] leave the namer alone,
   so the results of one Pretext scaffold carry one fusion key.  With untagged
   baits everything gets rank 3, and the rest of [remap] cannot fail when every
   contig is on strand +1 / -1. *)
From Tola Require Import Py.Base Model.Fragment Model.Scaffold Model.OverlapResult Model.Namer
  Model.Remap Model.RemapSpec Proofs.BaseLemmas Proofs.RemapHead Proofs.Junctions Proofs.CoreKeptGood.
From Tola Require Proofs.RemapTail Proofs.Rows Proofs.Routing Proofs.OverlapResult Proofs.UniqueNames
  Proofs.CompletionPainted Proofs.PretextOrder Proofs.CoreKept Proofs.StoreInv
  Proofs.CompletionLookup Proofs.ChromosomeNumbersHead.
From Coq Require Import Lia.

Notation baits_of := Proofs.CoreKept.baits_of.
Notation result_key := Proofs.PretextOrder.result_key.
Notation tags_ok := Proofs.CompletionLookup.tags_ok.

(* what no later stage undoes: the rank, and "has no rows" *)
Definition keeps (r r' : ovr) : Prop :=
  o_rank r' = o_rank r /\ (o_rows r' <> [] -> o_rows r <> []).

Lemma keeps_refl r : keeps r r.
Proof. split; auto. Qed.

Lemma keeps_trans a b c : keeps a b -> keeps b c -> keeps a c.
Proof. intros [A1 A2] [B1 B2]. split; [congruence | auto]. Qed.

Lemma keeps_set_name r n : keeps r (set_name r n).
Proof. split; [reflexivity | auto]. Qed.

Lemma keeps_discard_start r r' : discard_start r = Ok r' -> keeps r r'.
Proof.
  intros H. destruct (Proofs.OverlapResult.discard_start_spec _ _ H) as (d & gaps & E & _ & _ & _ & ->).
  split; [reflexivity|]. intros _. rewrite E. discriminate.
Qed.

Lemma keeps_discard_end r r' : discard_end r = Ok r' -> keeps r r'.
Proof.
  intros H. destruct (Proofs.OverlapResult.discard_end_spec _ _ H) as (d & gaps & E & _ & _ & _ & ->).
  split; [reflexivity|]. intros _ E0. rewrite E0 in E. symmetry in E.
  apply app_eq_nil in E as [_ E]. apply app_eq_nil in E as [_ E]. discriminate.
Qed.

Lemma keeps_trim_large r e r' : trim_large_overhangs r e = Ok r' -> keeps r r'.
Proof.
  intros H. apply Proofs.OverlapResult.trim_large_cases in H.
  destruct H as (r1 & H1 & H2). apply (keeps_trans r r1 r').
  - destruct H1 as [-> | H1]; [apply keeps_refl | apply keeps_discard_start; exact H1].
  - destruct H2 as [-> | H2]; [apply keeps_refl | apply keeps_discard_end; exact H2].
Qed.

Lemma keeps_trim_fragment r t ks ke new r' :
  trim_fragment r t ks ke = Ok (new, r') -> keeps r r'.
Proof.
  intros H.
  destruct (Proofs.OverlapResult.trim_fragment_spec _ _ _ _ _ _ H) as (x0 & xl & ds & de & E0 & _ & _ & _ & _ & _ & _ & _ & _ & ->).
  split; [reflexivity|]. intros _ En. unfold first_row in E0. rewrite En in E0. discriminate.
Qed.

Lemma keeps_rename st ids st' : rename_results st ids = Ok st' -> Forall2 keeps st st'.
Proof. exact (Proofs.StoreInv.rename_results_pointwise keeps keeps_refl keeps_set_name st ids st'). Qed.

(* the resolver, the cuts and the last renaming relate the store position by
   position: discard_loop fuel err b1 = Ok b2 -> cut_remaining_overhangs c b2 =
   Ok b3 -> rename_results (b_store b3) ids = Ok st -> Forall2 keeps (b_store b1)
   st /\ b_added b3 = b_added b1 /\ b_namer b3 = b_namer b1 *)
Definition keeps_stages :=
  Proofs.StoreInv.store_pointwise keeps keeps_refl keeps_trans keeps_discard_start keeps_discard_end
    keeps_trim_fragment keeps_set_name.

(* an indexed store invariant that survives every [keeps] update *)
Section KeepInv.
  Variable Q : nat -> ovr -> Prop.
  Hypothesis Q_ext : forall n r r', keeps r r' -> Q n r -> Q n r'.

  Definition each_at (st : list ovr) : Prop := forall n r, nth_error st n = Some r -> Q n r.

  Lemma each_at_nil : each_at [].
  Proof. intros [|n] r H; discriminate H. Qed.

  Lemma each_at_snoc st r : each_at st -> Q (length st) r -> each_at (st ++ [r]).
  Proof.
    intros Hs Hr n x H. destruct (Nat.lt_ge_cases n (length st)) as [Hlt | Hge].
    - rewrite nth_error_app1 in H by exact Hlt. apply Hs. exact H.
    - rewrite nth_error_app2 in H by exact Hge.
      destruct (n - length st)%nat as [|m] eqn:E; cbn [nth_error] in H.
      + injection H as <-. replace n with (length st) by lia. exact Hr.
      + destruct m; discriminate H.
  Qed.

  Lemma each_at_keeps st st' : Forall2 keeps st st' -> each_at st -> each_at st'.
  Proof.
    intros F K n r' Hn. destruct (Forall2_nth_error_r _ _ _ F n r' Hn) as (r & Hr & Kr).
    exact (Q_ext n r r' Kr (K n r Hr)).
  Qed.
End KeepInv.

(* result number n is in [added] if it still has rows *)
Definition QA (added : list rid) (n : nat) (r : ovr) : Prop :=
  o_rows r <> [] -> In (Z.of_nat n) added.

Lemma QA_ext added n r r' : keeps r r' -> QA added n r -> QA added n r'.
Proof. intros [_ K2] H X. apply H, K2, X. Qed.

Lemma each_at_QA_mono added added' st : incl added added' -> each_at (QA added) st -> each_at (QA added') st.
Proof. intros I H n r Hn X. apply I. exact (H n r Hn X). Qed.

Lemma one_bait_A inp err tags orig b bait b' :
  each_at (QA (b_added b)) (b_store b) -> one_bait inp err tags orig b bait = Ok b' ->
  each_at (QA (b_added b')) (b_store b').
Proof.
  intros Hs H.
  destruct (one_bait_spec _ _ _ _ _ _ _ H)
    as (rows & _ & [[_ ->] | (fo & nm & lab & r1 & _ & _ & _ & ES & _ & _ & C)]); [exact Hs|].
  rewrite ES. destruct C as [(Er & EA & _) | (_ & EA & _)]; rewrite EA.
  - apply each_at_snoc; [exact Hs|]. intros X. contradiction.
  - apply each_at_snoc.
    + eapply each_at_QA_mono; [|exact Hs]. intros z Hz. apply in_or_app. left. exact Hz.
    + intros _. apply in_or_app. right. left. reflexivity.
Qed.

Lemma one_pretext_A inp err b p b' :
  each_at (QA (b_added b)) (b_store b) -> one_pretext_scaffold inp err b p = Ok b' ->
  each_at (QA (b_added b')) (b_store b').
Proof.
  destruct p as [pname prows]. intros Hs H.
  destruct (one_pretext_spec _ _ _ _ _ _ H) as (nm & b1 & st & _ & Hb1 & Hst & ->).
  cbn [with_store b_store b_added].
  apply (each_at_keeps _ (QA_ext (b_added b1)) _ _ (keeps_rename _ _ _ Hst)).
  apply (foldM_inv _ (fun b0 => each_at (QA (b_added b0)) (b_store b0))) with (3 := Hb1); [|exact Hs].
  intros s0 a s1 Hs0 Hf. eapply one_bait_A; eassumption.
Qed.

Lemma asc_range hi : forall l lo, Proofs.PretextOrder.asc lo hi l -> 0 <= lo ->
  Forall (fun x => 0 <= x < hi) l.
Proof.
  induction l as [|x l IH]; intros lo H Hlo; [constructor|].
  cbn [Proofs.PretextOrder.asc] in H. destruct H as [H1 H2].
  constructor; [lia|]. apply (IH (x + 1)); [exact H2 | lia].
Qed.

Theorem head_added : forall c g prefix bpt input pretext rs,
  remap_to_input c g prefix bpt input pretext = Ok rs ->
  Forall (fun id => 0 <= id < zlen (b_store (rs_b rs))) (b_added (rs_b rs))
  /\ (forall n r, nth_error (b_store (rs_b rs)) n = Some r -> o_rows r <> [] ->
        In (Z.of_nat n) (b_added (rs_b rs))).
Proof.
  intros c g prefix bpt input pretext rs H0.
  destruct (Proofs.PretextOrder.remap_order _ _ _ _ _ _ _ H0) as [_ HA].
  unfold Proofs.PretextOrder.OKA in HA.
  destruct (remap_to_input_stages _ _ _ _ _ _ _ H0)
    as (_ & b1 & b2 & b3 & st & nl & E1 & E2 & E3 & E4 & _ & ->).
  cbn [rs_b with_namer with_store b_store b_added] in *.
  destruct (keeps_stages _ _ _ _ _ _ _ _ E2 E3 E4) as (F & EA & _). rewrite EA in *.
  split; [eapply asc_range; [exact HA | lia]|].
  apply (each_at_keeps _ (QA_ext (b_added b1)) _ _ F).
  apply (foldM_inv _ (fun b0 => each_at (QA (b_added b0)) (b_store b0))) with (3 := E1); [|apply each_at_nil].
  intros s0 p s1 Hs0 Hf. eapply one_pretext_A; eassumption.
Qed.

(* the position is not used: [each_at] takes a predicate on position and result *)
Definition rank3 (n : nat) (r : ovr) : Prop := o_rank r = 3.

Lemma rank3_ext n r r' : keeps r r' -> rank3 n r -> rank3 n r'.
Proof. unfold rank3. intros [K _] H. congruence. Qed.

Lemma msn_rank3 nm pname rows nm' :
  fragment_tags rows = [] -> make_scaffold_name nm pname rows (fragment_tags rows) = Ok nm' ->
  nm_cur_rank nm' = 3.
Proof.
  intros E H. rewrite E in H.
  destruct (Proofs.Routing.make_scaffold_name_inv _ _ _ _ _ H)
    as (sc & hap & lc1 & prim & lc2 & name & rank & Es & _ & _ & En & ->).
  cbn [Proofs.Routing.eff_tags] in Es. rewrite E in Es. injection Es as <-.
  unfold Proofs.Routing.fin_name in En. cbn [Proofs.Routing.scan0 ts_name ts_painted] in En.
  bind_inv En fn Hfn. injection En as _ <-. reflexivity.
Qed.

Lemma one_bait_K inp err tags orig b bait b' :
  each_at rank3 (b_store b) /\ nm_cur_rank (b_namer b) = 3 -> one_bait inp err tags orig b bait = Ok b' ->
  each_at rank3 (b_store b') /\ nm_cur_rank (b_namer b') = 3.
Proof.
  intros [Hs Hr] H.
  destruct (one_bait_spec _ _ _ _ _ _ _ H)
    as (rows & _ & [[_ ->] | (fo & nm & lab & r1 & _ & EL & Hr1 & ES & EN & _)]); [auto|].
  (* whatever the tags of the bait, the label has rank 3 or the current rank *)
  assert (Hl : lb_rank lab = 3 /\ nm_cur_rank nm = 3).
  { destruct (Proofs.Routing.label_scaffold_inv _ _ _ _ _ _ EL); cbn [lb_rank nm_cur_rank]; rewrite Hr;
      try destruct (Proofs.Routing.contaminant _ _ _); auto. }
  pose proof (keeps_trim_large _ _ _ Hr1) as [K1 _]. cbn [set_labels ovr_of_found o_rank] in K1.
  rewrite ES, EN. split; [|exact (proj2 Hl)].
  apply each_at_snoc; [exact Hs|]. unfold rank3. rewrite K1. exact (proj1 Hl).
Qed.

Lemma one_pretext_K inp err b pname prows b' :
  Forall (fun f => f_tags f = []) (frags_of prows) ->
  each_at rank3 (b_store b) -> one_pretext_scaffold inp err b (pname, prows) = Ok b' ->
  each_at rank3 (b_store b').
Proof.
  intros Hu Hs H.
  destruct (one_pretext_spec _ _ _ _ _ _ H) as (nm & b1 & st & Hnm & Hb1 & Hst & ->).
  cbn [with_store b_store].
  apply (each_at_keeps _ rank3_ext _ _ (keeps_rename _ _ _ Hst)).
  pose proof (msn_rank3 _ _ _ _ (Proofs.Rows.fragment_tags_untagged prows Hu) Hnm) as Hr.
  apply (foldM_inv _ (fun b0 => each_at rank3 (b_store b0) /\ nm_cur_rank (b_namer b0) = 3)) with (3 := Hb1);
    [|split; [exact Hs | exact Hr]].
  intros s0 a s1 Hs0 Hf. eapply one_bait_K; eassumption.
Qed.

Theorem head_untagged : forall c g prefix bpt input pretext rs,
  Forall (fun f => f_tags f = []) (baits_of pretext) ->
  remap_to_input c g prefix bpt input pretext = Ok rs ->
  Forall (fun r => o_rank r = 3) (b_store (rs_b rs))
  /\ Forall (fun sc => sc_rank sc = 3) (rs_left rs).
Proof.
  intros c g prefix bpt input pretext rs Hu H0.
  destruct (remap_to_input_stages _ _ _ _ _ _ _ H0)
    as (_ & b1 & b2 & b3 & st & [nm left] & E1 & E2 & E3 & E4 & E5 & ->).
  cbn [rs_b rs_left with_namer with_store b_store fst snd].
  assert (K1 : each_at rank3 (b_store b1)).
  { apply (foldM_inv_In _ (fun b0 => each_at rank3 (b_store b0)) pretext) with (3 := E1); [|apply each_at_nil].
    intros s0 [pname prows] s1 Ip Hs0 Hf. eapply one_pretext_K; [|exact Hs0 | exact Hf].
    rewrite Forall_forall in Hu |- *. intros f Hf'. apply Hu.
    unfold baits_of. apply in_flat_map. exists (pname, prows). split; assumption. }
  pose proof (each_at_keeps _ rank3_ext _ _ (proj1 (keeps_stages _ _ _ _ _ _ _ _ E2 E3 E4)) K1) as K4.
  split.
  - apply Forall_forall. intros r Hr. apply In_nth_error in Hr. destruct Hr as (k & Hk). exact (K4 k r Hk).
  - pose proof (Proofs.ChromosomeNumbersHead.leftovers_left_lab c g _ _ _ _ _ _ (Forall_nil _) E5) as HL.
    eapply Forall_impl; [|exact HL]. intros sc [X _]. exact X.
Qed.

(* everything has rank 3: no rank-2 name gets the prefix and the ChrNamer has
   no rank-1 scaffold to name *)
Theorem tail_total : forall g prefix bpt input pretext rs,
  remap_to_input repaired g prefix bpt input pretext = Ok rs ->
  Forall pm (in_frags input) ->
  Forall (fun r => o_rank r = 3) (b_store (rs_b rs)) ->
  Forall (fun sc => sc_rank sc = 3) (rs_left rs) ->
  exists o, assemblies_with_scaffolds_fused repaired g prefix input rs = Ok o.
Proof.
  intros g prefix bpt input pretext rs Hrs Hpm Hrk Hlrk.
  destruct (Proofs.CompletionPainted.mapM_get_total _ _ (proj1 (head_added _ _ _ _ _ _ _ Hrs)))
    as (results & Hres).
  set (fused0 := map snd (fold_left (fuse_step repaired g)
                    (map piece_of_result results ++ map (fun sc => (sc, false)) (rs_left rs)) [])).
  assert (HF : fuse_all repaired g rs = Ok fused0).
  { unfold fuse_all. rewrite Hres. reflexivity. }
  assert (R0 : Forall (fun sc => sc_rank sc = 3) fused0).
  { pose proof (Proofs.UniqueNames.fuse_all_labs
                  (fun l : Proofs.UniqueNames.labs => let '(_, _, _, rk, _) := l in rk = 3)
                  repaired g rs fused0) as X.
    cbv beta in X. unfold Proofs.UniqueNames.o_labs, Proofs.UniqueNames.sc_labs in X.
    apply X; assumption. }
  rewrite Forall_forall in R0.
  apply (Proofs.CompletionPainted.tail_after_namer g prefix input rs fused0 fused0 Hpm HF).
  - rewrite (map_id_in (Proofs.UniqueNames.prefix_rank2 prefix) fused0).
    2:{ intros sc I. unfold Proofs.UniqueNames.prefix_rank2. rewrite (R0 sc I). reflexivity. }
    replace (Proofs.UniqueNames.chr_items fused0) with (@nil (str * nat)); [reflexivity|].
    symmetry. unfold Proofs.UniqueNames.chr_items, Proofs.UniqueNames.chr_items_from.
    apply flat_map_nil_in. intros [i sc] I. apply in_combine_r in I.
    rewrite (R0 sc I). reflexivity.
  - apply (Proofs.CompletionPainted.fuse_all_spm repaired g rs fused0);
      [exact (Proofs.CompletionPainted.store_pm _ _ _ _ _ _ _ Hpm Hrs)
      | exact (Proofs.CompletionPainted.left_pm _ _ _ _ _ _ _ Hpm Hrs) | exact HF].
Qed.

Lemma baits_of_app a b : baits_of (a ++ b) = baits_of a ++ baits_of b.
Proof. unfold baits_of. apply flat_map_app. Qed.

Lemma disjoint_valid_nodup (l : list frag) :
  Proofs.CoreKept.disjoint_baits l -> Forall (fun b => 1 <= f_start b <= f_end b) l -> NoDup l.
Proof.
  unfold Proofs.CoreKept.disjoint_baits. induction 1 as [|x l Hx _ IH]; intro V; [constructor|].
  inversion V as [|? ? Vx Vl]; subst. constructor; [|apply IH; exact Vl].
  intro Hin. rewrite Forall_forall in Hx. specialize (Hx x Hin eq_refl). lia.
Qed.

(* the fusion key that label_scaffold gives a bait that does not touch the namer *)
Definition lkey (nm : namer) (tags : list str) : fuse_key :=
  (if nm_target nm && negb (mem_str (s "Target") tags) then Some (s "Contaminant") else None,
   nm_cur_hap nm,
   match nm_cur_name nm with Some n => n | None => [] end).

(* [done] are the Pretext scaffolds processed so far: every stored bait is a bait
   of one of them, and the results of one of them carry one fusion key *)
Definition SK (done : list (str * list row)) (st : list ovr) : Prop :=
  (forall r, In r st -> In (o_bait r) (baits_of done))
  /\ (forall r r' e, In r st -> In r' st -> In e done ->
        In (o_bait r) (frags_of (snd e)) -> In (o_bait r') (frags_of (snd e)) ->
        result_key r = result_key r').

Lemma in_baits_of e done f : In e done -> In f (frags_of (snd e)) -> In f (baits_of done).
Proof. intros He Hf. unfold baits_of. apply in_flat_map. exists e. split; assumption. Qed.

(* with no haplotig to rename, the resolver, the cuts and the last renaming
   leave every bait and every label where the lookups put them *)
Lemma later_stages_same c err fuel b1 b2 b3 st :
  discard_loop fuel err b1 = Ok b2 -> cut_remaining_overhangs c b2 = Ok b3 ->
  nm_hap_scaffolds (b_namer b1) = [] ->
  rename_results (b_store b3) (nm_hap_scaffolds (b_namer b3)) = Ok st ->
  map o_bait st = map o_bait (b_store b1)
  /\ map Proofs.UniqueNames.o_labs st = map Proofs.UniqueNames.o_labs (b_store b1)
  /\ b_namer b3 = b_namer b1.
Proof.
  intros E2 E3 Hh E4.
  destruct (Proofs.StoreInv.store_kept o_bait (fun _ _ _ _ => eq_refl) (fun _ _ => eq_refl) _ _ _ _ _ _ _ _ E2 E3 E4)
    as (FB & _ & N).
  split; [exact (Proofs.StoreInv.kept_map o_bait _ _ FB)|].
  rewrite N, Hh, Proofs.RemapTail.rename_results_nil in E4. injection E4 as <-.
  destruct (Proofs.StoreInv.discard_loop_kept Proofs.UniqueNames.o_labs (fun _ _ _ _ => eq_refl) _ _ _ _ E2) as [L2 _].
  destruct (Proofs.StoreInv.cut_remaining_kept Proofs.UniqueNames.o_labs (fun _ _ _ _ => eq_refl) _ _ _ E3) as [L3 _].
  split; [congruence | exact N].
Qed.

(* SK only reads the baits and the labels *)
Lemma SK_ext done st st' :
  map o_bait st' = map o_bait st ->
  map Proofs.UniqueNames.o_labs st' = map Proofs.UniqueNames.o_labs st ->
  SK done st -> SK done st'.
Proof.
  intros EB EL [H1 H2].
  apply (f_equal (map (fun l : Proofs.UniqueNames.labs => let '(n, t, h, _, _) := l in (t, h, n)))) in EL.
  rewrite !map_map in EL.
  pose proof (map_pair_eq o_bait result_key st st' EB EL) as E.
  assert (T : forall r', In r' st' -> exists r, In r st /\ o_bait r = o_bait r' /\ result_key r = result_key r').
  { intros r' Hr'. apply (in_map (fun x => (o_bait x, result_key x))) in Hr'. rewrite E in Hr'.
    apply in_map_iff in Hr' as (r & Er & Hr). exists r. split; [exact Hr|]. split; [exact (f_equal fst Er) | exact (f_equal snd Er)]. }
  split.
  - intros r' Hr'. destruct (T r' Hr') as (r & Hr & Eb & _). rewrite <- Eb. apply H1. exact Hr.
  - intros r1' r2' e Hr1 Hr2 He B1 B2.
    destruct (T r1' Hr1) as (r1 & Hi1 & Eb1 & Ek1). destruct (T r2' Hr2) as (r2 & Hi2 & Eb2 & Ek2).
    rewrite <- Ek1, <- Ek2. apply (H2 r1 r2 e Hi1 Hi2 He); [rewrite Eb1 | rewrite Eb2]; assumption.
Qed.

Lemma nodup_order_contra {A} (x y : A) : forall q1 q2 q3 t1 t2 t3,
  NoDup (q1 ++ x :: q2 ++ y :: q3) -> q1 ++ x :: q2 ++ y :: q3 = t1 ++ y :: t2 ++ x :: t3 -> False.
Proof.
  induction q1 as [|z q1 IH]; intros q2 q3 t1 t2 t3 N E; cbn [app] in N, E;
    inversion N as [|? ? N1 N2]; subst.
  - (* x is first on the left: y first on the right, or x again further on *)
    destruct t1 as [|w t1]; cbn [app] in E; injection E as E1 E2.
    + apply N1. rewrite E1. apply in_elt.
    + apply N1. rewrite E2. apply in_or_app. right. right. apply in_elt.
  - destruct t1 as [|w t1]; cbn [app] in E; injection E as E1 E2.
    + apply N1. rewrite E1. apply in_or_app. right. right. apply in_elt.
    + exact (IH _ _ _ _ _ N2 E2).
Qed.

Theorem store_order : forall c g prefix bpt input pretext rs k1 k2 r1 r2 q1 q2 q3,
  NoDup (baits_of pretext) ->
  remap_to_input c g prefix bpt input pretext = Ok rs ->
  nth_error (b_store (rs_b rs)) k1 = Some r1 -> nth_error (b_store (rs_b rs)) k2 = Some r2 ->
  baits_of pretext = q1 ++ o_bait r1 :: q2 ++ o_bait r2 :: q3 ->
  (k1 < k2)%nat.
Proof.
  intros c g prefix bpt input pretext rs k1 k2 r1 r2 q1 q2 q3 ND H H1 H2 EQ.
  destruct (Proofs.PretextOrder.remap_order _ _ _ _ _ _ _ H) as [Hsub _].
  unfold Proofs.PretextOrder.SBo in Hsub.
  destruct (Nat.lt_total k1 k2) as [L | [E | L]]; [exact L | |]; exfalso.
  - subst k2. assert (r2 = r1) by congruence. subst r2.
    rewrite EQ in ND. apply NoDup_app_inv in ND. destruct ND as (_ & ND & _).
    inversion ND as [|? ? N1 _]; subst. apply N1. apply in_or_app. right. left. reflexivity.
  - destruct (nth_error_split _ _ H2) as (s1 & s' & E2 & L2).
    rewrite E2 in H1. rewrite nth_error_app2 in H1 by lia.
    destruct (k1 - length s1)%nat as [|m] eqn:Em; [lia|]. cbn [nth_error] in H1.
    destruct (nth_error_split _ _ H1) as (s2 & s3 & E3 & _).
    assert (EB : map o_bait (b_store (rs_b rs))
                 = map o_bait s1 ++ o_bait r2 :: (map o_bait s2 ++ o_bait r1 :: map o_bait s3)).
    { rewrite E2, E3, map_app. cbn [map]. rewrite map_app. reflexivity. }
    destruct (Proofs.PretextOrder.subseq_split _ _ Hsub _ _ _ EB) as (t1 & t' & Et & _ & Ht').
    destruct (Proofs.PretextOrder.subseq_split _ _ Ht' _ _ _ eq_refl) as (t2 & t3 & Et' & _ & _).
    rewrite Et' in Et. rewrite EQ in ND. rewrite EQ in Et.
    exact (nodup_order_contra _ _ _ _ _ _ _ _ ND Et).
Qed.

Lemma asc_split hi : forall l lo x y, Proofs.PretextOrder.asc lo hi l -> In x l -> In y l -> x < y ->
  exists l1 l2 l3, l = l1 ++ x :: l2 ++ y :: l3.
Proof.
  induction l as [|z l IH]; intros lo x y A Hx Hy L; [destruct Hx|].
  cbn [Proofs.PretextOrder.asc] in A. destruct A as [A1 A2].
  pose proof (Proofs.PretextOrder.asc_lower _ _ _ A2) as Low. rewrite Forall_forall in Low.
  destruct Hx as [-> | Hx].
  - destruct Hy as [-> | Hy]; [lia|].
    apply in_split in Hy. destruct Hy as (l2 & l3 & ->). exists [], l2, l3. reflexivity.
  - destruct Hy as [-> | Hy]; [specialize (Low x Hx); lia|].
    destruct (IH _ x y A2 Hx Hy L) as (l1 & l2 & l3 & ->). exists (z :: l1), l2, l3. reflexivity.
Qed.

(* the labels of the result of a bait that is untagged or tagged ["Painted"]:
   label_scaffold reads them off the namer and leaves it alone *)
Definition llabs (nm : namer) (tags : list str) (orig : str) : Proofs.UniqueNames.labs :=
  (match nm_cur_name nm with Some n => n | None => [] end,
   if nm_target nm && negb (mem_str (s "Target") tags) then Some (s "Contaminant") else None,
   nm_cur_hap nm,
   if nm_target nm && negb (mem_str (s "Target") tags) then 3 else nm_cur_rank nm,
   Some orig).

Lemma llabs_key r nm tags orig :
  Proofs.UniqueNames.o_labs r = llabs nm tags orig -> result_key r = lkey nm tags.
Proof. intro L. injection L as Ln Lt Lh _ _. rewrite Proofs.PretextOrder.result_key_eq, Ln, Lt, Lh. reflexivity. Qed.

Lemma one_bait_tags_ok inp err tags orig b bait b' :
  tags_ok (f_tags bait) -> one_bait inp err tags orig b bait = Ok b' ->
  b_namer b' = b_namer b
  /\ (b_store b' = b_store b
      \/ exists r, b_store b' = b_store b ++ [r] /\ o_bait r = bait
                   /\ Proofs.UniqueNames.o_labs r = llabs (b_namer b) tags orig).
Proof.
  intros Hu H.
  destruct (one_bait_spec _ _ _ _ _ _ _ H)
    as (rows & _ & [[_ ->] | (fo & nm & lab & r1 & _ & EL & Hr1 & ES & EN & _)]); [auto|].
  pose proof (Proofs.StoreInv.kept_trim_large Proofs.UniqueNames.o_labs (fun _ _ _ _ => eq_refl) _ _ _ Hr1) as L.
  pose proof (Proofs.StoreInv.kept_trim_large o_bait (fun _ _ _ _ => eq_refl) _ _ _ Hr1) as B.
  unfold Proofs.StoreInv.kept in L, B.
  cbn [set_labels ovr_of_found o_bait] in B.
  (* neither tag list holds FalseDuplicate, Haplotig or Unloc: the plain label *)
  assert (E : nm = b_namer b /\ Proofs.UniqueNames.o_labs r1 = llabs (b_namer b) tags orig).
  { rewrite L. destruct Hu as [E | E]; rewrite E in EL;
      destruct (Proofs.Routing.label_scaffold_inv _ _ _ _ _ _ EL) as [F|F Hp|F Hp U P|F Hp U];
      try discriminate; split; reflexivity. }
  destruct E as [-> E]. rewrite EN, ES. split; [reflexivity|]. right. exists r1. auto.
Qed.

(* make_scaffold_name always starts a scaffold with an empty unloc list and
   never touches the haplotig list *)
Lemma msn_lists nm pname rows tags nm' :
  make_scaffold_name nm pname rows tags = Ok nm' ->
  nm_unloc_scaffolds nm' = [] /\ nm_hap_scaffolds nm' = nm_hap_scaffolds nm.
Proof.
  intros H.
  destruct (Proofs.Routing.make_scaffold_name_inv _ _ _ _ _ H) as (sc & hap & lc1 & prim & lc2 & name & rank & _ & _ & _ & _ & ->).
  split; reflexivity.
Qed.

Lemma one_pretext_tags_ok inp err b pname prows b' :
  Forall (fun f => tags_ok (f_tags f)) (frags_of prows) ->
  nm_hap_scaffolds (b_namer b) = [] ->
  one_pretext_scaffold inp err b (pname, prows) = Ok b' ->
  nm_hap_scaffolds (b_namer b') = []
  /\ exists new K, b_store b' = b_store b ++ new
       /\ Forall (fun r => In (o_bait r) (frags_of prows) /\ result_key r = K) new.
Proof.
  intros Hu Hh H.
  destruct (one_pretext_spec _ _ _ _ _ _ H) as (nm & b1 & st & Hnm & Hb1 & Hst & ->).
  cbn [with_store b_store b_namer].
  destruct (msn_lists _ _ _ _ _ Hnm) as [U1 U2].
  set (P := fun b0 : bstate => b_namer b0 = nm /\ exists new, b_store b0 = b_store b ++ new
     /\ Forall (fun r => In (o_bait r) (frags_of prows) /\ result_key r = lkey nm (fragment_tags prows)) new).
  assert (I1 : P b1).
  { apply (foldM_inv_In (one_bait inp err (fragment_tags prows) pname) P (frags_of prows))
      with (3 := Hb1); unfold P.
    - intros s0 bait s1 Ib (N0 & new & S0 & F0) E. rewrite Forall_forall in Hu.
      destruct (one_bait_tags_ok _ _ _ _ _ _ _ (Hu bait Ib) E) as [N [S | (r & S & Br & L)]].
      + split; [congruence|]. exists new. rewrite S. split; assumption.
      + split; [congruence|]. exists (new ++ [r]). rewrite S, S0, <- app_assoc. split; [reflexivity|].
        apply Forall_app. split; [exact F0|]. constructor; [|constructor].
        split; [rewrite Br; exact Ib | rewrite <- N0; exact (llabs_key _ _ _ _ L)].
    - split; [reflexivity|]. exists []. rewrite app_nil_r. split; [reflexivity | constructor]. }
  destruct I1 as (N1 & new & S1 & F1).
  rewrite N1, U1, Proofs.RemapTail.rename_results_nil in Hst. injection Hst as <-.
  split; [rewrite N1; congruence|]. exists new, (lkey nm (fragment_tags prows)). split; assumption.
Qed.

Lemma pretext_fold_SK_tags_ok inp err : forall todo done b b',
  NoDup (baits_of (done ++ todo)) ->
  Forall (fun f => tags_ok (f_tags f)) (baits_of todo) ->
  nm_hap_scaffolds (b_namer b) = [] ->
  SK done (b_store b) ->
  foldM (one_pretext_scaffold inp err) todo b = Ok b' ->
  SK (done ++ todo) (b_store b') /\ nm_hap_scaffolds (b_namer b') = [].
Proof.
  induction todo as [|[pname prows] todo IH]; intros done b b' ND Hu Hh HS H; cbn [foldM] in H.
  - injection H as <-. rewrite app_nil_r. auto.
  - bind_inv H b1 Hb1.
    change ((pname, prows) :: todo) with ([(pname, prows)] ++ todo) in Hu, ND |- *.
    rewrite baits_of_app in Hu. apply Forall_app in Hu. destruct Hu as [Hu1 Hu2].
    unfold baits_of in Hu1. cbn [flat_map snd] in Hu1. rewrite app_nil_r in Hu1.
    destruct (one_pretext_tags_ok _ _ _ _ _ _ Hu1 Hh Hb1) as (Hh1 & new & K & S1 & F1).
    rewrite app_assoc in ND |- *.
    apply (IH (done ++ [(pname, prows)]) b1 b' ND Hu2 Hh1); [|exact H].
    assert (Fresh : forall f, In f (frags_of prows) -> ~ In f (baits_of done)).
    { rewrite !baits_of_app in ND. apply NoDup_app_inv in ND. destruct ND as (ND1 & _ & _).
      apply NoDup_app_inv in ND1. destruct ND1 as (_ & _ & D).
      intros f Hf Hd. apply (D f Hd). unfold baits_of. cbn [flat_map snd].
      rewrite app_nil_r. exact Hf. }
    destruct HS as [HS1 HS2]. rewrite S1. rewrite Forall_forall in F1. split.
    + intros r Hr. rewrite baits_of_app. apply in_or_app. apply in_app_or in Hr. destruct Hr as [Hr | Hr].
      * left. apply HS1. exact Hr.
      * right. unfold baits_of. cbn [flat_map snd]. rewrite app_nil_r.
        exact (proj1 (F1 r Hr)).
    + intros r r' e Hr Hr' He B B'.
      apply in_app_or in Hr. apply in_app_or in Hr'. apply in_app_or in He.
      destruct He as [He | [<- | []]].
      * destruct Hr as [Hr | Hr].
        2:{ exfalso. apply (Fresh _ (proj1 (F1 r Hr))). eapply in_baits_of; eassumption. }
        destruct Hr' as [Hr' | Hr'].
        2:{ exfalso. apply (Fresh _ (proj1 (F1 r' Hr'))). eapply in_baits_of; eassumption. }
        exact (HS2 r r' e Hr Hr' He B B').
      * cbn [snd] in B, B'.
        destruct Hr as [Hr | Hr]; [exfalso; exact (Fresh _ B (HS1 r Hr))|].
        destruct Hr' as [Hr' | Hr']; [exfalso; exact (Fresh _ B' (HS1 r' Hr'))|].
        rewrite (proj2 (F1 r Hr)), (proj2 (F1 r' Hr')). reflexivity.
Qed.

Theorem same_scaffold_same_key_painted : forall c g prefix bpt input pretext rs,
  Forall (fun f => tags_ok (f_tags f)) (baits_of pretext) ->
  NoDup (baits_of pretext) ->
  remap_to_input c g prefix bpt input pretext = Ok rs ->
  forall r r' pname prows,
    In r (b_store (rs_b rs)) -> In r' (b_store (rs_b rs)) ->
    In (pname, prows) pretext ->
    In (o_bait r) (frags_of prows) -> In (o_bait r') (frags_of prows) ->
    result_key r = result_key r'.
Proof.
  intros c g prefix bpt input pretext rs Hu ND H.
  destruct (remap_to_input_stages _ _ _ _ _ _ _ H)
    as (_ & b1 & b2 & b3 & st & nl & Hb1 & Hb2 & Hb3 & Hst & _ & ->).
  cbn [rs_b with_namer with_store b_store].
  destruct (pretext_fold_SK_tags_ok (number_input input 0) (error_length bpt) pretext []
              (mkB [] [] [] [] (new_namer prefix) 0) b1 ND Hu eq_refl)
    as [S1 Hh1]; [|exact Hb1|].
  { split; [intros r []|intros r r' e []]. }
  cbn [app] in S1.
  destruct (later_stages_same _ _ _ _ _ _ _ Hb2 Hb3 Hh1 Hst) as (EB & EL & _).
  pose proof (SK_ext pretext (b_store b1) st EB EL S1) as S3.
  intros r r' pname prows Hr Hr' He B B'.
  exact (proj2 S3 r r' (pname, prows) Hr Hr' He B B').
Qed.

Print Assumptions head_added.
Print Assumptions head_untagged.
Print Assumptions tail_total.
Print Assumptions store_order.
Print Assumptions same_scaffold_same_key_painted.
