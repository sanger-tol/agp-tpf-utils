(* End-to-end composition of the FASTA indexer theorems (Proofs/FastaIndex.v)
   with the streaming theorems (Proofs/Stream.v, Proofs/StreamFinal.v): the
   premise [seqs_accessible] of the streaming theorems is discharged for every
   well-formed rendered FASTA file and the index the indexer computes for it. *)
From Tola Require Import Py.Base Model.Fragment Model.Fasta Model.Stream Model.FastaSpec.
From Tola Require Import Proofs.BaseLemmas Proofs.FastaIndex Proofs.StreamFinal.
From Tola Require Proofs.Stream.
From Coq Require Import Lia.

Definition seqs_of (recs : list record) : list (str * str) :=
  map (fun r => (r_name r, r_seq r)) recs.

(* looking a name up in [seqs_of recs] and in any index built over the same
   records in the same order finds the same (first) record *)
Lemma aget_seqs_index {V} (f : record -> Z -> V) : forall recs offs n x,
  length offs = length recs ->
  aget str_eqb (seqs_of recs) n = Some x ->
  exists k r off, nth_error recs k = Some r /\ r_name r = n /\ r_seq r = x
    /\ nth_error offs k = Some off
    /\ aget str_eqb (map (fun '(r, off) => (r_name r, f r off)) (combine recs offs)) n
       = Some (f r off).
Proof.
  induction recs as [|r t IH]; intros offs n x Hl H; cbn [seqs_of map aget] in H; [discriminate|].
  destruct offs as [|o offs]; [discriminate|]. cbn [length] in Hl. injection Hl as Hl.
  cbn [combine map aget].
  destruct (str_eqb n (r_name r)) eqn:E.
  - injection H as <-. apply str_eqb_eq in E. exists 0%nat, r, o. cbn [nth_error]. auto.
  - destruct (IH offs n x Hl H) as (k & r' & off & Hk & Hn & Hx & Ho & Hi).
    exists (S k), r', off. cbn [nth_error]. auto.
Qed.

Theorem rendered_accessible : forall w eol final_nl recs,
  fasta_wf w eol recs ->
  Proofs.Stream.seqs_accessible (render w eol final_nl recs) (expected_index w eol recs) (seqs_of recs).
Proof.
  intros w eol fnl recs Hwf n x H.
  destruct (aget_seqs_index (expected_info w eol) recs (offsets w eol recs 0) n x
              (FastaIndex.offsets_length w eol recs 0) H)
    as (k & r & off & Hk & Hn & Hx & Ho & Hi).
  exists (expected_info w eol r off). split; [exact Hi|]. subst x.
  exact (random_access_spec w eol fnl recs k r off Hwf Hk Ho).
Qed.

Lemma index_result w eol final_nl recs ibuf idx asm peak :
  fasta_wf w eol recs ->
  index_fasta (render w eol final_nl recs) ibuf = Ok (idx, asm, peak) ->
  idx = expected_index w eol recs /\ asm = expected_asm recs.
Proof.
  intros Hwf Hi. pose proof (index_spec w eol final_nl recs ibuf Hwf) as S.
  rewrite Hi in S. cbn [drop_peak] in S. injection S as -> ->. split; reflexivity.
Qed.

(* C03 end to end *)
Theorem index_then_stream : forall w eol final_nl recs ibuf idx asm peak buf L gap_char name rows body,
  fasta_wf w eol recs ->
  index_fasta (render w eol final_nl recs) ibuf = Ok (idx, asm, peak) ->
  1 <= buf -> (1 <= L)%nat -> gaps_nonneg rows ->
  rows_bytes (seqs_of recs) gap_char rows = Some body ->
  write_scaffold (render w eol final_nl recs) idx buf (Z.of_nat L) gap_char name rows
  = Ok (GT :: name ++ LF :: wrap_body L body).
Proof.
  intros w eol fnl recs ibuf idx asm peak buf L gc name rows body Hwf Hi Hb HL Hg Hr.
  destruct (index_result w eol fnl recs ibuf idx asm peak Hwf Hi) as [-> _].
  apply (write_scaffold_final (render w eol fnl recs) (expected_index w eol recs) (seqs_of recs)
           buf L gc name rows body Hb HL (rendered_accessible w eol fnl recs Hwf) Hg Hr).
Qed.

(* C04 stream-back: what is read back is the record with every non-ACGT residue masked *)
Definition mask (gap_char : ascii) (x : str) : str :=
  map (fun c => if is_acgt c then c else gap_char) x.

Lemma mask_app gc a b : mask gc (a ++ b) = mask gc a ++ mask gc b.
Proof. apply map_app. Qed.

Lemma mask_all_acgt gc a : all_acgt a -> mask gc a = a.
Proof.
  unfold all_acgt. induction a as [|c a IH]; intro H; [reflexivity|].
  cbn [forallb] in H. apply andb_prop in H as [Hc Ha]. cbn [mask map]. rewrite Hc.
  f_equal. apply IH, Ha.
Qed.

Lemma mask_none_acgt gc a : none_acgt a -> mask gc a = repeat gc (length a).
Proof.
  unfold none_acgt. induction a as [|c a IH]; intro H; [reflexivity|].
  cbn [forallb] in H. apply andb_prop in H as [Hc Ha]. cbn [mask map length repeat].
  destruct (is_acgt c); [discriminate|]. f_equal. apply IH, Ha.
Qed.

Lemma slice1_mid (pre run rest : str) :
  slice1 (pre ++ run ++ rest) (zlen pre + 1) (zlen pre + zlen run) = run.
Proof.
  unfold slice1, py_slice, zlen.
  replace (Z.to_nat (Z.of_nat (length pre) + 1 - 1)) with (length pre) by lia.
  replace (Z.to_nat (Z.of_nat (length pre) + Z.of_nat (length run) - (Z.of_nat (length pre) + 1 - 1)))
    with (length run) by lia.
  rewrite skipn_app, skipn_all, Nat.sub_diag. cbn [skipn app].
  rewrite firstn_app, firstn_all, Nat.sub_diag. cbn [firstn]. apply app_nil_r.
Qed.

(* the rows tiling the not yet consumed suffix [rest] of a record read back
   as that suffix, masked; [pre] is what has been consumed *)
Lemma tile_rows_bytes_from (seqs : list (str * str)) gc name (full : str) :
  aget str_eqb seqs name = Some full ->
  forall fuel (rest pre : str), full = pre ++ rest -> (length rest < fuel)%nat ->
  rows_bytes seqs gc (tile_rows fuel name rest (zlen pre)) = Some (mask gc rest).
Proof.
  intros Hget. induction fuel as [|f IH]; intros rest pre Hfull Hlt; [lia|].
  destruct rest as [|c t]; [reflexivity|].
  destruct (tile_rows_step f name c t (zlen pre))
    as (run & rest' & E & Hne & Hlen & [(Hrun & _ & ->)|(Hrun & _ & ->)]);
    rewrite E in *; pose proof (zlen_pos run Hne).
  - cbn [rows_bytes row_bytes f_name f_start f_end f_strand]. rewrite Hget.
    assert (C : (1 <=? zlen pre + 1) && (zlen pre + 1 <=? zlen pre + zlen run)
                && (zlen pre + zlen run <=? zlen full) = true).
    { rewrite Hfull, !zlen_app. pose proof (zlen_nonneg pre). pose proof (zlen_nonneg rest'). lia. }
    rewrite C. change (1 =? -1) with false. cbv iota.
    rewrite Hfull, slice1_mid, <- zlen_app.
    rewrite (IH rest' (pre ++ run)); [| rewrite Hfull; apply app_assoc | lia].
    rewrite mask_app, (mask_all_acgt gc run Hrun). reflexivity.
  - cbn [rows_bytes row_bytes g_len].
    rewrite <- zlen_app.
    rewrite (IH rest' (pre ++ run)); [| rewrite Hfull; apply app_assoc | lia].
    rewrite mask_app, (mask_none_acgt gc run Hrun). unfold zlen. rewrite Nat2Z.id. reflexivity.
Qed.

Lemma aget_seqs_of_in recs r : In r recs -> NoDup (map r_name recs) ->
  aget str_eqb (seqs_of recs) (r_name r) = Some (r_seq r).
Proof.
  induction recs as [|a t IH]; intros Hin Hnd; [destruct Hin|].
  cbn [map] in Hnd. inversion Hnd as [|? ? Hnot Hnd']; subst.
  cbn [seqs_of map aget]. destruct Hin as [->|Hin].
  - rewrite str_eqb_refl. reflexivity.
  - destruct (str_eqb (r_name r) (r_name a)) eqn:E.
    + apply str_eqb_eq in E. exfalso. apply Hnot. rewrite <- E. apply in_map, Hin.
    + apply IH; assumption.
Qed.

(* the record may even be empty: [tile_rows] of [] is [] *)
Lemma tile_rows_bytes_any recs r gap_char : In r recs -> NoDup (map r_name recs) ->
  rows_bytes (seqs_of recs) gap_char (tile_rows (S (length (r_seq r))) (r_name r) (r_seq r) 0)
  = Some (mask gap_char (r_seq r)).
Proof.
  intros Hin Hnd.
  change 0 with (zlen (@nil ascii)).
  apply (tile_rows_bytes_from (seqs_of recs) gap_char (r_name r) (r_seq r)
           (aget_seqs_of_in recs r Hin Hnd)); [reflexivity | lia].
Qed.

Theorem tile_rows_bytes : forall recs r gap_char,
  In r recs -> NoDup (map r_name recs) -> r_seq r <> [] ->
  rows_bytes (seqs_of recs) gap_char (tile_rows (S (length (r_seq r))) (r_name r) (r_seq r) 0)
  = Some (mask gap_char (r_seq r)).
Proof. intros recs r gc Hin Hnd _. apply tile_rows_bytes_any; assumption. Qed.

Lemma tile_rows_gaps_nonneg name : forall f x pos, gaps_nonneg (tile_rows f name x pos).
Proof.
  unfold gaps_nonneg.
  induction f as [|f IH]; intros x pos; [constructor|].
  destruct x as [|c t]; [constructor|].
  destruct (tile_rows_step f name c t pos) as (run & rest & _ & _ & _ & [(_ & _ & ->)|(_ & _ & ->)]);
    (constructor; [|apply IH]).
  - exact I.
  - apply zlen_nonneg.
Qed.

Lemma expected_asm_gaps_nonneg recs :
  Forall (fun sc => gaps_nonneg (snd sc)) (expected_asm recs).
Proof.
  unfold expected_asm. apply Forall_forall. intros sc Hin.
  apply in_map_iff in Hin as (r & <- & _). cbn [snd]. apply tile_rows_gaps_nonneg.
Qed.

Definition masked_record (L : nat) (gap_char : ascii) (r : record) : str :=
  GT :: r_name r ++ LF :: wrap_body L (mask gap_char (r_seq r)).

Lemma expected_assembly_tiles recs gc L : NoDup (map r_name recs) ->
  forall l, incl l recs ->
  Proofs.Stream.expected_assembly (seqs_of recs) gc L (expected_asm l)
  = Some (concat (map (masked_record L gc) l)).
Proof.
  intros Hnd. induction l as [|r l IH]; intro Hincl; [reflexivity|].
  cbn [expected_asm map Proofs.Stream.expected_assembly concat].
  unfold expected_scaffold.
  rewrite (tile_rows_bytes_any recs r gc (Hincl r (or_introl eq_refl)) Hnd).
  fold (expected_asm l). rewrite IH; [reflexivity|].
  intros y Hy. apply Hincl. right. exact Hy.
Qed.

Theorem stream_back : forall w eol final_nl recs ibuf idx asm peak buf L gap_char,
  fasta_wf w eol recs ->
  index_fasta (render w eol final_nl recs) ibuf = Ok (idx, asm, peak) ->
  1 <= buf -> (1 <= L)%nat ->
  write_assembly (render w eol final_nl recs) idx buf (Z.of_nat L) gap_char asm
  = Ok (concat (map (fun r => GT :: r_name r ++ LF :: wrap_body L (mask gap_char (r_seq r))) recs)).
Proof.
  intros w eol fnl recs ibuf idx asm peak buf L gc Hwf Hi Hb HL.
  destruct (index_result w eol fnl recs ibuf idx asm peak Hwf Hi) as [-> ->].
  pose proof Hwf as (_ & _ & _ & _ & Hnd).
  apply (write_assembly_final (render w eol fnl recs) (expected_index w eol recs) (seqs_of recs)
           buf L gc (expected_asm recs) _ Hb HL (rendered_accessible w eol fnl recs Hwf)
           (expected_asm_gaps_nonneg recs)).
  apply (expected_assembly_tiles recs gc L Hnd recs (incl_refl recs)).
Qed.

(* non-vacuity *)
(* two records, CRLF line ends, no newline after the last line, lines of 5 *)
Definition e2e_recs : list record :=
  [ mkRecord (s "chr1") (s " first record") (s "ACGTNNNNacgtRYAC");
    mkRecord (s "scaffold_2") [] (s "NNACGTACGTAN") ].
Definition e2e_file : str := render 5 [CR; LF] false e2e_recs.

Lemma e2e_fasta_wf : fasta_wf 5 [CR; LF] e2e_recs.
Proof.
  unfold fasta_wf. split; [lia|]. split; [right; reflexivity|]. split; [discriminate|]. split.
  - repeat constructor; try discriminate.
  - repeat constructor; cbn; intro H; repeat (destruct H as [H|H]; try discriminate H); exact H.
Qed.

(* the file really is CRLF without a final line end *)
Example e2e_file_tail :
  e2e_file = s ">chr1 first record" ++ [CR; LF] ++ s "ACGTN" ++ [CR; LF] ++ s "NNNac" ++ [CR; LF]
             ++ s "gtRYA" ++ [CR; LF] ++ s "C" ++ [CR; LF]
             ++ s ">scaffold_2" ++ [CR; LF] ++ s "NNACG" ++ [CR; LF] ++ s "TACGT" ++ [CR; LF] ++ s "AN".
Proof. vm_compute. reflexivity. Qed.

(* the indexer succeeds on it (indexer buffer 4), so the premises of the
   theorems are jointly satisfiable *)
Example e2e_index_ok :
  index_fasta e2e_file 4 = Ok (expected_index 5 [CR; LF] e2e_recs, expected_asm e2e_recs, 5).
Proof. vm_compute. reflexivity. Qed.

(* C04 by computation: index, then stream the derived assembly with reader
   buffer 3, line length 4, gap character '-' *)
Example e2e_stream_back_computed :
  match index_fasta e2e_file 4 with
  | Ok (idx, asm, _) => write_assembly e2e_file idx 3 4 "-"%char asm
  | Err e => Err e
  end
  = Ok (s ">chr1" ++ LF :: s "ACGT" ++ LF :: s "----" ++ LF :: s "acgt" ++ LF :: s "--AC" ++ [LF]
        ++ s ">scaffold_2" ++ LF :: s "--AC" ++ LF :: s "GTAC" ++ LF :: s "GTA-" ++ [LF]).
Proof. vm_compute. reflexivity. Qed.

(* ... and the same equation as an instance of [stream_back] *)
Example e2e_stream_back_instance :
  write_assembly e2e_file (expected_index 5 [CR; LF] e2e_recs) 3 (Z.of_nat 4) "-"%char
                 (expected_asm e2e_recs)
  = Ok (concat (map (fun r => GT :: r_name r ++ LF :: wrap_body 4 (mask "-"%char (r_seq r))) e2e_recs)).
Proof.
  apply (stream_back 5 [CR; LF] false e2e_recs 4 _ _ 5 3 4%nat "-"%char e2e_fasta_wf e2e_index_ok);
    lia.
Qed.

(* C03: a scaffold mixing a reverse-strand piece of record 2, a gap and a
   forward piece of record 1 that crosses line boundaries of the file *)
Definition e2e_rows : list row :=
  [ RF (mkFrag 1 (s "scaffold_2") 3 9 (-1) []); RG (mkGap 3 (s "scaffold"));
    RF (mkFrag 2 (s "chr1") 4 14 1 []) ].

Example e2e_rows_bytes :
  rows_bytes (seqs_of e2e_recs) "n"%char e2e_rows = Some (s "CGTACGTnnnTNNNNacgtRY").
Proof. vm_compute. reflexivity. Qed.

Example e2e_index_then_stream_computed :
  match index_fasta e2e_file 4 with
  | Ok (idx, _, _) => write_scaffold e2e_file idx 2 6 "n"%char (s "joined") e2e_rows
  | Err e => Err e
  end
  = Ok (s ">joined" ++ LF :: s "CGTACG" ++ LF :: s "TnnnTN" ++ LF :: s "NNNacg" ++ LF :: s "tRY" ++ [LF]).
Proof. vm_compute. reflexivity. Qed.

Example e2e_index_then_stream_instance :
  write_scaffold e2e_file (expected_index 5 [CR; LF] e2e_recs) 2 (Z.of_nat 6) "n"%char (s "joined") e2e_rows
  = Ok (GT :: s "joined" ++ LF :: wrap_body 6 (s "CGTACGTnnnTNNNNacgtRY")).
Proof.
  apply (index_then_stream 5 [CR; LF] false e2e_recs 4 _ _ 5 2 6%nat "n"%char (s "joined") e2e_rows _
           e2e_fasta_wf e2e_index_ok); try lia.
  - repeat constructor. cbn. lia.
  - exact e2e_rows_bytes.
Qed.

Print Assumptions rendered_accessible.
Print Assumptions index_then_stream.
Print Assumptions tile_rows_bytes.
Print Assumptions stream_back.
Print Assumptions e2e_stream_back_instance.
Print Assumptions e2e_index_then_stream_instance.
