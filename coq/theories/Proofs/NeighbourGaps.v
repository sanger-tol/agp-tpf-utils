(* C07, second sentence, END TO END through [remap], for EVERY input whose rows
   are at least 1 bp long and EVERY Pretext map: whenever two fragments follow each other in an output scaffold
   with only gap rows [mid] between them (mid = [] : directly adjacent), then
   either mid is exactly the configured join gap, or the two fragments are
   pieces of two input contigs that follow each other in ONE input scaffold
   with exactly the same gap rows between them (read in the same direction, or
   -- for a piece presented reversed -- in the opposite direction with every
   strand inverted), or -- third case, see [skipped] and
   [third_disjunct_needed] -- they are two contigs of one input scaffold that
   were NOT neighbours (contigs placed elsewhere by the map lay between them)
   and mid is the single input gap row that directly preceded the second one.
   In particular: directly adjacent output fragments were directly adjacent in
   the input.

   The third case is add_missing_scaffolds_from_input's branch
   `elif isinstance(between[-1], Gap): new_scffld.add_row(between[-1])`
   ([missing_sep], middle branch).  It needs a contig that a lookup found lying
   between two contigs that no lookup found, inside one input scaffold, which a
   map that tiles every scaffold it shows cannot produce.  Without it the
   statement is false: [neighbour_gaps_original_refuted].  It arises only
   inside a left-over scaffold ([neighbour_gaps_fused]) and disappears when
   every input gap row equals the join gap ([neighbour_gaps_uniform_gaps]). *)
From Tola Require Import Py.Base Model.Fragment Model.Scaffold Model.Lookup
  Model.OverlapResult Model.OvrSpec Model.Namer Model.Remap
  Proofs.BaseLemmas Proofs.Rows Proofs.Lookup Proofs.OverlapResult Proofs.RemapHead Proofs.JoinGaps
  Proofs.GapProvenance Proofs.PipelineInv.
From Tola Require Proofs.RemapTail.
From Coq Require Import Lia ZifyBool String.

(* x, then only the gap rows mid, then y *)
Definition consecutive (rows : list row) (x : frag) (mid : list gap) (y : frag) : Prop :=
  exists pre post, rows = pre ++ RF x :: map RG mid ++ RF y :: post.

(* f is a piece of the input contig o, read in direction sg (1 same, -1 reversed) *)
Definition piece_of (sg : Z) (o f : frag) : Prop :=
  f_name f = f_name o /\ f_start o <= f_start f /\ f_end f <= f_end o
  /\ f_strand f = sg * f_strand o.

(* ox ... oy in one scaffold, NOT neighbours: at least one other contig lies
   between them, and gp is the gap row directly before oy *)
Definition skipped (rows : list row) (ox : frag) (gp : gap) (oy : frag) : Prop :=
  exists pre btw post, rows = pre ++ RF ox :: btw ++ RG gp :: RF oy :: post
                       /\ exists f, In (RF f) btw.

(* x and y are pieces of two contigs that were neighbours in ONE input scaffold,
   with the same gap rows between them (second disjunct: presented reversed) *)
Definition same_neighbours (input : list (str * list row)) (x : frag) (mid : list gap) (y : frag) : Prop :=
  exists isc ox oy, In isc input
    /\ ((consecutive (snd isc) ox mid oy /\ piece_of 1 ox x /\ piece_of 1 oy y)
        \/ (consecutive (snd isc) oy (rev mid) ox /\ piece_of (-1) ox x /\ piece_of (-1) oy y)).

(* x before y in ONE input scaffold, at least one other contig between them,
   and mid is the single input gap row directly before y *)
Definition skipped_neighbours (input : list (str * list row)) (x : frag) (mid : list gap) (y : frag) : Prop :=
  exists isc ox oy gp, In isc input
    /\ mid = [gp] /\ skipped (snd isc) ox gp oy /\ piece_of 1 ox x /\ piece_of 1 oy y.

Definition neighbour_gaps_statement : Prop :=
  forall g prefix bpt input pretext o,
  Forall (fun isc => pos_rows (snd isc)) input ->
  remap repaired g prefix bpt input pretext = Ok o ->
  forall a sc x mid y,
    In a (out_asms o) -> In sc (oa_scaffolds a) -> consecutive (sc_rows sc) x mid y ->
    mid = [g] \/ same_neighbours input x mid y \/ skipped_neighbours input x mid y.

(* the statement first proposed, without the third case: FALSE, see
   [neighbour_gaps_original_refuted] *)
Definition neighbour_gaps_original_statement : Prop :=
  forall g prefix bpt input pretext o,
  Forall (fun isc => pos_rows (snd isc)) input ->
  remap repaired g prefix bpt input pretext = Ok o ->
  forall a sc x mid y,
    In a (out_asms o) -> In sc (oa_scaffolds a) -> consecutive (sc_rows sc) x mid y ->
    mid = [g]
    \/ exists isc ox oy, In isc input
         /\ ((consecutive (snd isc) ox mid oy /\ piece_of 1 ox x /\ piece_of 1 oy y)
             \/ (consecutive (snd isc) oy (rev mid) ox /\ piece_of (-1) ox x /\ piece_of (-1) oy y)).

Lemma piece_of_refl f : piece_of 1 f f.
Proof. unfold piece_of. repeat split; lia. Qed.

Lemma piece_of_trans sg o0 o f : piece_of 1 o0 o -> piece_of sg o f -> piece_of sg o0 f.
Proof.
  intros (N1 & S1 & E1 & T1) (N2 & S2 & E2 & T2). unfold piece_of.
  split; [congruence|]. split; [lia|]. split; [lia|]. rewrite T2, T1. lia.
Qed.

Lemma trimmed_piece_of o f ls le : trimmed o f ls le -> piece_of 1 o f.
Proof.
  intros (N & S & L1 & L2 & _ & C). unfold piece_of. split; [exact N|].
  destruct (f_strand o =? 1); destruct C as [C1 C2]; repeat split; lia.
Qed.

Lemma piece_of_reverse o f : piece_of 1 o f -> piece_of (-1) o (frag_reverse f).
Proof.
  intros (N & S & E & T). unfold piece_of, frag_reverse. cbn [f_name f_start f_end f_strand].
  repeat split; try assumption. lia.
Qed.

Lemma consecutive_cons c rows x mid y : consecutive rows x mid y -> consecutive (c :: rows) x mid y.
Proof. intros (pre & post & ->). exists (c :: pre), post. reflexivity. Qed.

Lemma consecutive_app a rows b x mid y :
  consecutive rows x mid y -> consecutive (a ++ rows ++ b) x mid y.
Proof.
  intros (pre & post & ->). exists (a ++ pre), (post ++ b).
  rewrite <- !app_assoc. cbn [app]. rewrite <- !app_assoc. reflexivity.
Qed.

Lemma gaps_then_frag_inj : forall m1 m2 y1 y2 p1 p2,
  map RG m1 ++ RF y1 :: p1 = map RG m2 ++ RF y2 :: p2 -> m1 = m2 /\ y1 = y2 /\ p1 = p2.
Proof.
  induction m1 as [|a m1 IH]; intros [|b m2] y1 y2 p1 p2 E; cbn [map app] in E.
  - injection E as -> ->. repeat split.
  - discriminate.
  - discriminate.
  - injection E as -> E. destruct (IH _ _ _ _ _ E) as (-> & -> & ->). repeat split.
Qed.

Lemma gap_rows_map : forall sp, forallb is_gap_row sp = true -> exists m, sp = map RG m.
Proof.
  induction sp as [|[f|gp] sp IH]; cbn [forallb is_gap_row andb]; intros H.
  - exists []. reflexivity.
  - discriminate.
  - destruct (IH H) as (m & ->). exists (gp :: m). reflexivity.
Qed.

Lemma consecutive_skip_gaps : forall m rows x mid y,
  consecutive (map RG m ++ rows) x mid y -> consecutive rows x mid y.
Proof.
  induction m as [|a m IH]; intros rows x mid y H; cbn [map app] in H; [exact H|].
  apply IH. destruct H as (pre & post & E). destruct pre as [|c pre]; cbn [app] in E; [discriminate|].
  injection E as _ E. exists pre, post. exact E.
Qed.

Lemma consecutive_head f rows x mid y :
  consecutive (RF f :: rows) x mid y ->
  (x = f /\ exists post, rows = map RG mid ++ RF y :: post) \/ consecutive rows x mid y.
Proof.
  intros (pre & post & E). destruct pre as [|c pre]; cbn [app] in E.
  - injection E as -> ->. left. split; [reflexivity|]. exists post. reflexivity.
  - injection E as _ ->. right. exists pre, post. reflexivity.
Qed.

Lemma gaps_into_join g b y post : head_frag b -> forall mid a,
  a = [] \/ last_frag a ->
  map RG mid ++ RF y :: post = a ++ RG g :: b ->
  (exists post', a = map RG mid ++ RF y :: post') \/ (a = [] /\ mid = [g]).
Proof.
  intros (fb & tb & ->). induction mid as [|m mid IH]; intros a Ha E; cbn [map app] in E.
  - destruct a as [|c a]; cbn [app] in E; [discriminate|]. injection E as <- ->.
    left. exists a. reflexivity.
  - destruct a as [|c a]; cbn [app] in E.
    + injection E as -> E. right. split; [reflexivity|].
      destruct mid as [|m' mid]; cbn [map app] in E; [reflexivity | discriminate].
    + injection E as <- E.
      assert (Ha' : a = [] \/ last_frag a).
      { destruct Ha as [Ha | Ha]; [discriminate | eapply last_frag_tail; exact Ha]. }
      destruct (IH a Ha' E) as [(post' & ->) | [-> _]].
      * left. exists post'. reflexivity.
      * exfalso. destruct Ha as [Ha | (f & t & Ha)]; [discriminate|].
        destruct t as [|c' t]; cbn [app] in Ha; [discriminate|].
        injection Ha as _ Ha. destruct t; discriminate.
Qed.

Lemma consecutive_join g b x mid y : head_frag b -> forall pre post a,
  a = [] \/ last_frag a ->
  pre ++ RF x :: map RG mid ++ RF y :: post = a ++ RG g :: b ->
  consecutive a x mid y \/ consecutive b x mid y \/ mid = [g].
Proof.
  intros Hb. induction pre as [|c pre IH]; intros post a Ha E; cbn [app] in E.
  - destruct a as [|c a]; cbn [app] in E; [discriminate|]. injection E as <- E.
    assert (Ha' : a = [] \/ last_frag a).
    { destruct Ha as [Ha | Ha]; [discriminate | eapply last_frag_tail; exact Ha]. }
    destruct (gaps_into_join g b y post Hb mid a Ha' E) as [(post' & ->) | [_ ->]].
    + left. exists [], post'. reflexivity.
    + right. right. reflexivity.
  - destruct a as [|c' a]; cbn [app] in E.
    + injection E as _ <-. right. left. exists pre, post. reflexivity.
    + injection E as <- E.
      assert (Ha' : a = [] \/ last_frag a).
      { destruct Ha as [Ha | Ha]; [discriminate | eapply last_frag_tail; exact Ha]. }
      destruct (IH post a Ha' E) as [H | H]; [left; apply consecutive_cons; exact H | right; exact H].
Qed.

Definition row_rel (R : frag -> frag -> Prop) (a b : row) : Prop :=
  match a, b with
  | RF f, RF o => R f o
  | RG g1, RG g2 => g1 = g2
  | _, _ => False
  end.

Section Rel.
  Variable R : frag -> frag -> Prop.

  Lemma rel_gaps : forall m l, Forall2 (row_rel R) (map RG m) l -> l = map RG m.
  Proof.
    induction m as [|a m IH]; intros l H; cbn [map] in H; inversion H as [|? b ? l' Hab Hl]; subst.
    - reflexivity.
    - destruct b as [f|g2]; cbn [row_rel] in Hab; [contradiction|]. subst g2.
      cbn [map]. f_equal. apply IH. exact Hl.
  Qed.

  Lemma rel_frag_cons x t l : Forall2 (row_rel R) (RF x :: t) l ->
    exists x' t', l = RF x' :: t' /\ R x x' /\ Forall2 (row_rel R) t t'.
  Proof.
    intros H. inversion H as [|? b ? l' Hab Hl]; subst.
    destruct b as [x'|g2]; cbn [row_rel] in Hab; [|contradiction].
    exists x', l'. repeat split; assumption.
  Qed.

  Lemma rel_gap_cons gp t l : Forall2 (row_rel R) (RG gp :: t) l ->
    exists t', l = RG gp :: t' /\ Forall2 (row_rel R) t t'.
  Proof.
    intros H. inversion H as [|? b ? l' Hab Hl]; subst.
    destruct b as [x'|g2]; cbn [row_rel] in Hab; [contradiction|]. subst g2.
    exists l'. split; [reflexivity | exact Hl].
  Qed.

  Lemma rel_has_frag : forall l l' f, Forall2 (row_rel R) l l' -> In (RF f) l -> exists f', In (RF f') l'.
  Proof.
    intros l l' f H. induction H as [|a b l l' Hab Hl IH]; intros Hin; [destruct Hin|].
    destruct Hin as [-> | Hin].
    - destruct b as [f'|g2]; cbn [row_rel] in Hab; [|contradiction]. exists f'. left. reflexivity.
    - destruct (IH Hin) as (f' & Hf'). exists f'. right. exact Hf'.
  Qed.

  Lemma consecutive_rel rows rows' x mid y :
    Forall2 (row_rel R) rows rows' -> consecutive rows x mid y ->
    exists x' y', consecutive rows' x' mid y' /\ R x x' /\ R y y'.
  Proof.
    intros H (pre & post & ->).
    apply Forall2_app_inv_l in H. destruct H as (pre' & l1 & _ & H & ->).
    apply rel_frag_cons in H. destruct H as (x' & l2 & -> & Hx & H).
    apply Forall2_app_inv_l in H. destruct H as (m' & l3 & Hm & H & ->).
    apply rel_gaps in Hm. subst m'.
    apply rel_frag_cons in H. destruct H as (y' & post' & -> & Hy & _).
    exists x', y'. split; [exists pre', post'; reflexivity | split; assumption].
  Qed.

  Lemma skipped_rel rows rows' x gp y :
    Forall2 (row_rel R) rows rows' -> skipped rows x gp y ->
    exists x' y', skipped rows' x' gp y' /\ R x x' /\ R y y'.
  Proof.
    intros H (pre & btw & post & -> & (f & Hf)).
    apply Forall2_app_inv_l in H. destruct H as (pre' & l1 & _ & H & ->).
    apply rel_frag_cons in H. destruct H as (x' & l2 & -> & Hx & H).
    apply Forall2_app_inv_l in H. destruct H as (btw' & l3 & Hb & H & ->).
    apply rel_gap_cons in H. destruct H as (l4 & -> & H).
    apply rel_frag_cons in H. destruct H as (y' & post' & -> & Hy & _).
    destruct (rel_has_frag _ _ _ Hb Hf) as (f' & Hf').
    exists x', y'. split; [|split; assumption].
    exists pre', btw', post'. split; [reflexivity|]. exists f'. exact Hf'.
  Qed.
End Rel.

Lemma Forall2_row_refl (R : frag -> frag -> Prop) : (forall f, R f f) ->
  forall l, Forall2 (row_rel R) l l.
Proof.
  intros HR. induction l as [|[f|gp] l IH]; constructor; try exact IH; cbn [row_rel]; [apply HR | reflexivity].
Qed.

Lemma rows_reverse_gaps m : rows_reverse (map RG m) = map RG (rev m).
Proof.
  induction m as [|a m IH]; [reflexivity|]. cbn [map rev].
  rewrite rows_reverse_cons, IH, map_app. reflexivity.
Qed.

Lemma consecutive_rows_reverse rows x mid y :
  consecutive rows x mid y ->
  consecutive (rows_reverse rows) (frag_reverse y) (rev mid) (frag_reverse x).
Proof.
  intros (pre & post & ->).
  exists (rows_reverse post), (rows_reverse pre).
  rewrite rows_reverse_app, rows_reverse_cons, rows_reverse_app, rows_reverse_cons, rows_reverse_gaps.
  cbn [row_reverse]. rewrite <- !app_assoc. cbn [app]. reflexivity.
Qed.

Lemma consecutive_in_reversed rows x mid y :
  consecutive (rows_reverse rows) x mid y ->
  exists x' y', x = frag_reverse x' /\ y = frag_reverse y' /\ consecutive rows y' (rev mid) x'.
Proof.
  intros H. apply consecutive_rows_reverse in H. rewrite rows_reverse_involutive in H.
  exists (frag_reverse x), (frag_reverse y). rewrite !frag_reverse_involutive. repeat split. exact H.
Qed.

Definition is_piece (f o : frag) : Prop := piece_of 1 o f.

Lemma rows_rel_pieces slice rows ls le :
  rows_rel slice rows ls le -> Forall2 (row_rel is_piece) rows slice.
Proof.
  intros [(o & f & -> & -> & Ht) | (o1 & f1 & m & o2 & f2 & -> & -> & Ht1 & Ht2)].
  - constructor; [|constructor]. cbn [row_rel]. eapply trimmed_piece_of. exact Ht.
  - constructor; [cbn [row_rel]; eapply trimmed_piece_of; exact Ht1|].
    apply Forall2_app; [apply Forall2_row_refl; intro f; apply piece_of_refl|].
    constructor; [|constructor]. cbn [row_rel]. eapply trimmed_piece_of. exact Ht2.
Qed.

Lemma consecutive_not_nil x mid y : ~ consecutive [] x mid y.
Proof. intros (pre & post & E). destruct pre; discriminate. Qed.

Lemma result_consecutive src r x mid y :
  OvrSpec.Inv src r -> consecutive (o_rows r) x mid y ->
  exists ox oy, consecutive src ox mid oy /\ piece_of 1 ox x /\ piece_of 1 oy y.
Proof.
  intros [E | (i & n & ls & le & _ & _ & Hrel & _)] H.
  - rewrite E in H. exfalso. eapply consecutive_not_nil. exact H.
  - apply rows_rel_pieces in Hrel.
    destruct (consecutive_rel is_piece _ _ _ _ _ Hrel H) as (ox & oy & Hc & Hx & Hy).
    exists ox, oy. split; [|split; assumption].
    rewrite <- (firstn_skipn i src). rewrite <- (firstn_skipn n (skipn i src)).
    apply consecutive_app. exact Hc.
Qed.

Lemma result_piece_neighbours inp name src r x mid y :
  In (name, src) inp -> OvrSpec.Inv src r ->
  consecutive (to_scaffold_rows r) x mid y -> same_neighbours inp x mid y.
Proof.
  intros Hin HI H. unfold to_scaffold_rows in H. destruct (f_strand (o_bait r) =? -1).
  - apply consecutive_in_reversed in H. destruct H as (x' & y' & -> & -> & H).
    destruct (result_consecutive _ _ _ _ _ HI H) as (oy & ox & Hc & Hy & Hx).
    exists (name, src), ox, oy. split; [exact Hin|]. right. cbn [snd].
    split; [exact Hc|]. split; apply piece_of_reverse; assumption.
  - destruct (result_consecutive _ _ _ _ _ HI H) as (ox & oy & Hc & Hx & Hy).
    exists (name, src), ox, oy. split; [exact Hin|]. left. cbn [snd]. split; [exact Hc|]. split; assumption.
Qed.

Section Missing.
  Variable found : list (fkey * (frag * list rid)).
  Variable g : gap.

  Definition is_found (f : frag) : Prop := aget key_eqb found (key_of f) <> None.

  (* [skipped], with what the program knew: x was found by no lookup, and a
     contig that some lookup found lies between x and y *)
  Definition skipped_over (rows : list row) (x : frag) (gp : gap) (y : frag) : Prop :=
    exists pre btw post f, rows = pre ++ RF x :: btw ++ RG gp :: RF y :: post
      /\ In (RF f) btw /\ is_found f /\ ~ is_found x.

  Lemma skipped_over_skipped rows x gp y : skipped_over rows x gp y -> skipped rows x gp y.
  Proof.
    intros (pre & btw & post & f & E & Hf & _). exists pre, btw, post. split; [exact E|]. exists f. exact Hf.
  Qed.

  Lemma skipped_over_cons c rows x gp y : skipped_over rows x gp y -> skipped_over (c :: rows) x gp y.
  Proof.
    intros (pre & btw & post & f & -> & H). exists (c :: pre), btw, post, f. split; [reflexivity | exact H].
  Qed.

  Lemma missing_sep_repaired between :
    missing_sep repaired g between = between /\ forallb is_gap_row between = true
    \/ (exists b' gp f, between = b' ++ [RG gp] /\ In (RF f) b' /\ missing_sep repaired g between = [RG gp])
    \/ missing_sep repaired g between = [RG g].
  Proof.
    unfold missing_sep. cbn [repaired fix_gap_run andb].
    destruct (forallb is_gap_row between) eqn:E; [left; split; reflexivity|]. right.
    destruct (list_snoc_cases between) as [-> | (b' & z & ->)]; [discriminate|].
    rewrite last_last. destruct z as [f|gp]; [right; reflexivity|]. left.
    rewrite forallb_app in E. cbn [forallb is_gap_row andb] in E. rewrite andb_true_r in E.
    assert (Hf : exists f, In (RF f) b').
    { clear - E. induction b' as [|[f|g0] b' IH]; cbn [forallb is_gap_row andb] in E.
      - discriminate.
      - exists f. left. reflexivity.
      - destruct (IH E) as (f & Hf). exists f. right. exact Hf. }
    destruct Hf as (f & Hf). exists b', gp, f. repeat split. exact Hf.
  Qed.

  (* the output of missing_rows after a re-added contig: leading gaps m, then y.
     The three cases are the three branches of [missing_sep]: the join gap; the
     input gap run itself; the last input gap, after a contig that was found *)
  Definition lead_ok (rows : list row) (m : list gap) (y : frag) : Prop :=
    m = [g]
    \/ (exists post, rows = map RG m ++ RF y :: post)
    \/ (exists gp btw post f, m = [gp] /\ rows = btw ++ RG gp :: RF y :: post /\ In (RF f) btw /\ is_found f).

  (* the rows passed over since the last re-added contig hold found contigs only *)
  Lemma missing_rows_lead : forall rows between i j m y post,
    (forall f, In (RF f) between -> is_found f) ->
    j < i -> (j = i - 1 -> between = []) ->
    missing_rows repaired found g rows between i (Some j) = map RG m ++ RF y :: post ->
    lead_ok (between ++ rows) m y.
  Proof.
    induction rows as [|r t IH]; intros between i j m y post Hbf Hj Hb E.
    - destruct m; discriminate.
    - assert (Hrec : (forall f, In (RF f) [r] -> is_found f) ->
                     missing_rows repaired found g t (between ++ [r]) (i + 1) (Some j) = map RG m ++ RF y :: post ->
                     lead_ok (between ++ r :: t) m y).
      { intros Hr E'. apply IH in E'; [|intros f Hf; apply in_app_or in Hf; destruct Hf; auto|lia|intros; lia].
        rewrite <- app_assoc in E'. exact E'. }
      destruct r as [f|gg]; [|apply Hrec; [intros f [Hf|[]]; discriminate | exact E]].
      destruct (aget key_eqb found (key_of f)) as [v|] eqn:Ef.
      { rewrite (missing_rows_found _ _ _ _ _ _ _ _ _ Ef) in E. apply Hrec; [|exact E].
        intros f0 [Hf|[]]. injection Hf as <-. unfold is_found. rewrite Ef. discriminate. }
      rewrite (missing_rows_new _ _ _ _ _ _ _ _ Ef) in E.
      assert (Es : missing_lead repaired g between i (Some j) = missing_sep repaired g between).
      { unfold missing_lead. destruct (negb (j =? i - 1)) eqn:N; [reflexivity|]. rewrite Hb by lia. reflexivity. }
      rewrite Es in E. clear Es.
      destruct (missing_sep_repaired between) as [[Em Hg] | [(b' & gp & f' & Eb & Hf' & Em) | Em]]; rewrite Em in E.
      + destruct (gap_rows_map _ Hg) as (m0 & ->).
        apply gaps_then_frag_inj in E. destruct E as (-> & -> & _).
        right. left. exists t. reflexivity.
      + apply (gaps_then_frag_inj [gp]) in E. destruct E as (<- & <- & _).
        right. right. exists gp, b', t, f'. split; [reflexivity|]. split; [|split; [exact Hf'|]].
        * rewrite Eb, <- app_assoc. reflexivity.
        * apply Hbf. rewrite Eb. apply in_or_app. left. exact Hf'.
      + apply (gaps_then_frag_inj [g]) in E. destruct E as (<- & _ & _). left. reflexivity.
  Qed.

  Lemma missing_rows_consecutive_gen : forall rows between i la x mid y,
    consecutive (missing_rows repaired found g rows between i la) x mid y ->
    mid = [g] \/ consecutive rows x mid y \/ (exists gp, mid = [gp] /\ skipped_over rows x gp y).
  Proof.
    induction rows as [|r t IH]; intros between i la x mid y H.
    - exfalso. eapply consecutive_not_nil. exact H.
    - assert (Hrec : forall between' la',
                consecutive (missing_rows repaired found g t between' (i + 1) la') x mid y ->
                mid = [g] \/ consecutive (r :: t) x mid y \/ (exists gp, mid = [gp] /\ skipped_over (r :: t) x gp y)).
      { intros between' la' H'. destruct (IH _ _ _ _ _ _ H') as [E | [Hc | (gp & E & Hs)]].
        - left. exact E.
        - right. left. apply consecutive_cons. exact Hc.
        - right. right. exists gp. split; [exact E | apply skipped_over_cons; exact Hs]. }
      destruct r as [f|gg]; [|eapply Hrec; exact H].
      destruct (aget key_eqb found (key_of f)) as [v|] eqn:Ef.
      { rewrite (missing_rows_found _ _ _ _ _ _ _ _ _ Ef) in H. eapply Hrec; exact H. }
      rewrite (missing_rows_new _ _ _ _ _ _ _ _ Ef) in H.
      destruct (gap_rows_map _ (missing_lead_gaps repaired g between i la)) as (m0 & Em0).
      rewrite Em0 in H. clear Em0.
      apply consecutive_skip_gaps in H. apply consecutive_head in H.
      destruct H as [[-> (post & E)] | H]; [|eapply Hrec; exact H].
      apply missing_rows_lead in E; [|intros f0 []|lia|reflexivity]. cbn [app] in E.
      destruct E as [E | [(post' & ->) | (gp & btw & post' & f' & -> & -> & Hf' & Hfound)]].
      + left. exact E.
      + right. left. exists [], post'. reflexivity.
      + right. right. exists gp. split; [reflexivity|].
        exists [], btw, post', f'. split; [reflexivity|]. split; [exact Hf'|]. split; [exact Hfound|].
        intros N. apply N. exact Ef.
  Qed.
End Missing.

Theorem missing_rows_consecutive : forall found g rows x mid y,
  consecutive (missing_rows repaired found g rows [] 0 None) x mid y ->
  mid = [g] \/ consecutive rows x mid y \/ (exists gp, mid = [gp] /\ skipped_over found rows x gp y).
Proof. intros found g rows x mid y. apply missing_rows_consecutive_gen. Qed.

Section Fuse.
  Variable g : gap.
  Variable Q : frag -> list gap -> frag -> Prop.

  (* begins and ends with a fragment, and every pair of neighbours is separated
     by the join gap or satisfies Q *)
  Definition good (rows : list row) : Prop :=
    no_terminal_gap rows /\ forall x mid y, consecutive rows x mid y -> mid = [g] \/ Q x mid y.

  Lemma good_append self othr :
    self = [] \/ good self -> good othr -> good (append_rows self othr (Some g)).
  Proof.
    intros [-> | [Hn Hc]] [Hn' Hc']; [exact (conj Hn' Hc')|].
    split.
    - apply append_rows_ntg; [right; exact Hn | exact Hn'].
    - intros x mid y (pre & post & E). unfold append_rows in E.
      destruct self as [|c self]; [destruct Hn as [(? & ? & ?) _]; discriminate|].
      set (a := c :: self) in *. cbn [app] in E. symmetry in E.
      destruct (consecutive_join g othr x mid y (proj1 Hn') pre post a (or_intror (proj2 Hn)) E)
        as [H | [H | H]]; [apply Hc; exact H | apply Hc'; exact H | left; exact H].
  Qed.

  Lemma fuse_all_good rs fused :
    (forall r, In r (b_store (rs_b rs)) -> to_scaffold_rows r = [] \/ good (to_scaffold_rows r)) ->
    (forall sc, In sc (rs_left rs) -> good (sc_rows sc)) ->
    fuse_all repaired g rs = Ok fused -> forall sc, In sc fused -> good (sc_rows sc).
  Proof.
    intros Hs Hl H. refine (fuse_all_preserves repaired g good _ rs fused Hs _ H).
    - intros self othr isr. unfold join_gap. cbn [fix_leftover_gap repaired]. rewrite orb_true_r.
      apply good_append.
    - intros sc Hsc. right. apply Hl. exact Hsc.
  Qed.
End Fuse.

Lemma number_input_rel : forall input n isc,
  In isc (number_input input n) ->
  exists isc0, In isc0 input /\ Forall2 (row_rel is_piece) (snd isc) (snd isc0).
Proof.
  intros input n isc H. destruct (number_input_In _ _ _ H) as (isc0 & H0 & _ & R).
  exists isc0. split; [exact H0|].
  induction R as [|r r' a b Hr _ IH]; constructor; [|exact IH].
  destruct r as [f|gp], r' as [f'|gp']; cbn [renumbered row_rel] in *; try contradiction; [|congruence].
  rewrite Hr. unfold is_piece, piece_of. cbn [f_name f_start f_end f_strand]. repeat split; lia.
Qed.

Lemma same_neighbours_number input n x mid y :
  same_neighbours (number_input input n) x mid y -> same_neighbours input x mid y.
Proof.
  intros (isc & ox & oy & Hin & H).
  destruct (number_input_rel _ _ _ Hin) as (isc0 & Hin0 & Hrel).
  destruct H as [(Hc & Hx & Hy) | (Hc & Hx & Hy)].
  - destruct (consecutive_rel is_piece _ _ _ _ _ Hrel Hc) as (ox0 & oy0 & Hc0 & Hx0 & Hy0).
    exists isc0, ox0, oy0. split; [exact Hin0|]. left.
    split; [exact Hc0|]. split; eapply piece_of_trans; eassumption.
  - destruct (consecutive_rel is_piece _ _ _ _ _ Hrel Hc) as (oy0 & ox0 & Hc0 & Hy0 & Hx0).
    exists isc0, ox0, oy0. split; [exact Hin0|]. right.
    split; [exact Hc0|]. split; eapply piece_of_trans; eassumption.
Qed.

Lemma skipped_neighbours_number input n x mid y :
  skipped_neighbours (number_input input n) x mid y -> skipped_neighbours input x mid y.
Proof.
  intros (isc & ox & oy & gp & Hin & E & Hs & Hx & Hy).
  destruct (number_input_rel _ _ _ Hin) as (isc0 & Hin0 & Hrel).
  destruct (skipped_rel is_piece _ _ _ _ _ Hrel Hs) as (ox0 & oy0 & Hs0 & Hx0 & Hy0).
  exists isc0, ox0, oy0, gp. split; [exact Hin0|].
  split; [exact E|]. split; [exact Hs0|]. split; eapply piece_of_trans; eassumption.
Qed.

(* The fused scaffolds, before naming / grouping / sorting.  This form also
   says WHERE the third case arises: only between two contigs that no lookup
   found, inside one LEFT-OVER scaffold (never inside an overlap result, never
   across a fusion boundary). *)
Definition fused_neighbours (inp : list (str * list row)) (left : list scaffold)
           (x : frag) (mid : list gap) (y : frag) : Prop :=
  same_neighbours inp x mid y
  \/ (skipped_neighbours inp x mid y /\ exists lsc, In lsc left /\ consecutive (sc_rows lsc) x mid y).

Theorem neighbour_gaps_fused : forall g prefix bpt input pretext rs fused,
  Forall (fun isc => pos_rows (snd isc)) input ->
  remap_to_input repaired g prefix bpt input pretext = Ok rs ->
  fuse_all repaired g rs = Ok fused ->
  forall sc, In sc fused -> good g (fused_neighbours (number_input input 0) (rs_left rs)) (sc_rows sc).
Proof.
  intros g prefix bpt input pretext rs fused Hpos Hrs Hf.
  set (inp := number_input input 0).
  apply (fuse_all_good g (fused_neighbours inp (rs_left rs)) rs fused); [| |exact Hf].
  - intros r Hr.
    destruct (pipeline_Inv _ _ _ _ _ _ _ Hpos Hrs r Hr) as (name & src & Hsrc & HI).
    pose proof (results_no_terminal_gap _ _ _ _ _ _ _ Hrs r Hr) as Hnt.
    apply NT_to_scaffold_rows in Hnt. destruct Hnt as [E | Hn]; [left; exact E|]. right.
    split; [exact Hn|]. intros x mid y Hc. right. left.
    eapply result_piece_neighbours; [exact Hsrc | exact HI | exact Hc].
  - intros sc Hsc. split; [apply (leftovers_no_terminal_gap _ _ _ _ _ _ _ Hrs); exact Hsc|].
    destruct (leftovers_from_missing _ _ _ _ _ _ _ Hrs sc Hsc) as (_ & isc & Hin & E).
    intros x mid y Hc0. pose proof Hc0 as Hc. rewrite E in Hc. apply missing_rows_consecutive in Hc.
    destruct Hc as [Hc | [Hc | (gp & Em & Hs)]]; [left; exact Hc | right; left | right; right].
    + exists isc, x, y. split; [exact Hin|]. left. split; [exact Hc|]. split; apply piece_of_refl.
    + split; [|exists sc; split; assumption].
      exists isc, x, y, gp. split; [exact Hin|].
      split; [exact Em|]. split; [eapply skipped_over_skipped; exact Hs|]. split; apply piece_of_refl.
Qed.

Theorem neighbour_gaps_end_to_end : neighbour_gaps_statement.
Proof.
  intros g prefix bpt input pretext o Hpos H a sc x mid y Ha Hsc Hc.
  destruct (RemapTail.remap_stages _ _ _ _ _ _ _ H) as (rs & Hrs & Ho).
  destruct (RemapTail.out_scaffold_rows _ _ _ _ _ _ _ _ Ho Ha Hsc) as (fused0 & sc0 & F & Hsc0 & E). rewrite E in Hc.
  destruct (neighbour_gaps_fused _ _ _ _ _ _ _ Hpos Hrs F sc0 Hsc0) as [_ Hg].
  destruct (Hg x mid y Hc) as [Hm | [Hn | [Hn _]]]; [left; exact Hm | right; left | right; right].
  - eapply same_neighbours_number. exact Hn.
  - eapply skipped_neighbours_number. exact Hn.
Qed.

(* when every input gap row is the join gap itself (e.g. all 200 bp scaffold
   gaps) the third case collapses into the first: the statement first proposed *)
Corollary neighbour_gaps_uniform_gaps : forall g prefix bpt input pretext o,
  Forall (fun isc => pos_rows (snd isc)) input ->
  (forall isc gp, In isc input -> In (RG gp) (snd isc) -> gp = g) ->
  remap repaired g prefix bpt input pretext = Ok o ->
  forall a sc x mid y,
    In a (out_asms o) -> In sc (oa_scaffolds a) -> consecutive (sc_rows sc) x mid y ->
    mid = [g] \/ same_neighbours input x mid y.
Proof.
  intros g prefix bpt input pretext o Hpos Hu H a sc x mid y Ha Hsc Hc.
  destruct (neighbour_gaps_end_to_end _ _ _ _ _ _ Hpos H a sc x mid y Ha Hsc Hc)
    as [E | [Hs | (isc & ox & oy & gp & Hin & -> & (pre & btw & post & E & _) & _)]];
    [left; exact E | right; exact Hs | left].
  f_equal. apply (Hu isc gp Hin). rewrite E.
  apply in_or_app. right. right. apply in_or_app. right. left. reflexivity.
Qed.

(* every (x, mid, y) with [consecutive rows x mid y], so that the neighbours of
   a concrete row list can be found by evaluation *)
Fixpoint scan (cur : option (frag * list gap)) (rows : list row) : list (frag * list gap * frag) :=
  match rows with
  | [] => []
  | RG gp :: t => scan (match cur with Some (x, m) => Some (x, m ++ [gp]) | None => None end) t
  | RF f :: t => (match cur with Some (x, m) => [(x, m, f)] | None => [] end) ++ scan (Some (f, [])) t
  end.

Lemma scan_gaps x y post : forall mid m0,
  In (x, m0 ++ mid, y) (scan (Some (x, m0)) (map RG mid ++ RF y :: post)).
Proof.
  induction mid as [|a mid IH]; intros m0; cbn [map app scan].
  - rewrite app_nil_r. left. reflexivity.
  - specialize (IH (m0 ++ [a])). rewrite <- app_assoc in IH. exact IH.
Qed.

Lemma scan_complete rows x mid y : consecutive rows x mid y -> In (x, mid, y) (scan None rows).
Proof.
  intros (pre & post & ->). generalize (@None (frag * list gap)).
  induction pre as [|[f|gp] pre IH]; intros cur; cbn [app scan].
  - apply in_or_app. right. apply (scan_gaps x y post mid []).
  - apply in_or_app. right. apply IH.
  - apply IH.
Qed.

(* input A -100- B -57/contig- C, and a map whose only bait covers B: A and C
   are left over, B lay between them, and the separator is the input gap that
   preceded C -- neither the join gap nor a gap between two input neighbours *)
Definition cx_g57 : gap := mkGap 57 (s "contig").
Definition cx_input : list (str * list row) :=
  [ (s "scaffold_1", [ex_F "ctgA" 1 1000 1 []; RG (mkGap 100 (s "scaffold")); ex_F "ctgB" 1 1000 1 [];
                      RG cx_g57; ex_F "ctgC" 1 1000 1 []]) ].
Definition cx_ptx : list (str * list row) := [ (s "Scaffold_1", [ex_F "scaffold_1" 1101 2100 1 []]) ].
Definition cx_A : frag := mkFrag 0 (s "ctgA") 1 1000 1 [].
Definition cx_B : frag := mkFrag 2 (s "ctgB") 1 1000 1 [].
Definition cx_C : frag := mkFrag 4 (s "ctgC") 1 1000 1 [].
Definition cx_out : list row := [RF cx_B; RG ex_gap; RF cx_A; RG cx_g57; RF cx_C].

Lemma cx_run : exists o, remap repaired ex_gap (s "SUPER_") (10, 1) cx_input cx_ptx = Ok o
  /\ map sc_rows (flat_map oa_scaffolds (out_asms o)) = [cx_out].
Proof. eexists. split; vm_compute; reflexivity. Qed.

Lemma cx_pos : Forall (fun isc => pos_rows (snd isc)) cx_input.
Proof. repeat constructor; cbn; lia. Qed.

Lemma rows_in_output o rows :
  In rows (map sc_rows (flat_map oa_scaffolds (out_asms o))) ->
  exists a sc, In a (out_asms o) /\ In sc (oa_scaffolds a) /\ sc_rows sc = rows.
Proof.
  intros H. apply in_map_iff in H. destruct H as (sc & E & Hsc).
  apply in_flat_map in Hsc. destruct Hsc as (a & Ha & Hsc). exists a, sc. repeat split; assumption.
Qed.

(* by evaluation of [scan]: the only neighbours of cx_input separated by the
   57 bp gap are B and C *)
Lemma cx_g57_neighbours isc ox oy :
  In isc cx_input -> consecutive (snd isc) ox [cx_g57] oy ->
  f_name ox = s "ctgB" /\ f_name oy = s "ctgC".
Proof.
  intros [<- | []] H. apply scan_complete in H. vm_compute in H.
  destruct H as [E | [E | []]]; [discriminate E|]. injection E as <- <-. split; reflexivity.
Qed.

(* A is neither of them, in either reading direction *)
Lemma cx_not_same : ~ same_neighbours cx_input cx_A [cx_g57] cx_C.
Proof.
  intros (isc & ox & oy & Hin & [(H1 & (Nx & _) & _) | (H1 & (Nx & _) & _)]).
  - destruct (cx_g57_neighbours _ _ _ Hin H1) as [Ex _]. rewrite Ex in Nx. discriminate Nx.
  - destruct (cx_g57_neighbours _ _ _ Hin H1) as [_ Ex]. rewrite Ex in Nx. discriminate Nx.
Qed.

Theorem neighbour_gaps_original_refuted : ~ neighbour_gaps_original_statement.
Proof.
  intros Hst. destruct cx_run as (o & Hrun & Hm).
  destruct (rows_in_output o cx_out) as (a & sc & Ha & Hsc & Esc); [rewrite Hm; left; reflexivity|].
  assert (Hc : consecutive (sc_rows sc) cx_A [cx_g57] cx_C).
  { rewrite Esc. exists [RF cx_B; RG ex_gap], []. reflexivity. }
  destruct (Hst _ _ _ _ _ _ cx_pos Hrun a sc _ _ _ Ha Hsc Hc) as [E | Hs].
  - discriminate E.
  - exact (cx_not_same Hs).
Qed.

(* ... and the corrected statement says what happened: third case *)
Example third_disjunct_needed :
  exists o a sc, remap repaired ex_gap (s "SUPER_") (10, 1) cx_input cx_ptx = Ok o
    /\ In a (out_asms o) /\ In sc (oa_scaffolds a)
    /\ consecutive (sc_rows sc) cx_A [cx_g57] cx_C
    /\ [cx_g57] <> [ex_gap]
    /\ ~ same_neighbours cx_input cx_A [cx_g57] cx_C
    /\ skipped_neighbours cx_input cx_A [cx_g57] cx_C.
Proof.
  destruct cx_run as (o & Hrun & Hm).
  destruct (rows_in_output o cx_out) as (a & sc & Ha & Hsc & Esc); [rewrite Hm; left; reflexivity|].
  exists o, a, sc. split; [exact Hrun|]. split; [exact Ha|]. split; [exact Hsc|].
  split; [rewrite Esc; exists [RF cx_B; RG ex_gap], []; reflexivity|].
  split; [discriminate|]. split.
  - exact cx_not_same.
  - eexists (_, _), _, _, cx_g57. split; [left; reflexivity|]. split; [reflexivity|]. cbn [snd]. split.
    + exists [], [RG (mkGap 100 (s "scaffold")); ex_F "ctgB" 1 1000 1 []], [].
      split; [reflexivity|]. eexists. right. left. reflexivity.
    + unfold piece_of. cbn. split; repeat split; lia.
Qed.

(* GapProvenance's run: scaffold_1 = A -100- B -57/contig- C -8- D.  The map
   cuts B in two, shows [second half of B, gap 57, C] REVERSED, then A, the
   first half of B and D.  Output scaffold_1:
     C(-) -57- B[501..1000](-) -JOIN- A -JOIN- B[1..500] -JOIN- D
   The 57 bp input gap is retained between the two neighbours inside the
   reversed piece (second disjunct of [same_neighbours]); the join gap stands
   between pieces. *)
Definition nx_C : frag := mkFrag 4 (s "ctgC") 1 1000 (-1) [].
Definition nx_B2 : frag := mkFrag (-1) (s "ctgB") 501 1000 (-1) [s "Cut"].
Definition nx_A : frag := mkFrag 0 (s "ctgA") 1 1000 1 [].
Definition nx_B1 : frag := mkFrag (-2) (s "ctgB") 1 500 1 [s "Cut"].
Definition nx_D : frag := mkFrag 6 (s "ctgD") 1 1000 1 [].
Definition nx_out : list row :=
  [RF nx_C; RG cx_g57; RF nx_B2; RG ex_gap; RF nx_A; RG ex_gap; RF nx_B1; RG ex_gap; RF nx_D].

Example neighbour_gaps_instance :
  exists o a sc, remap repaired ex_gap (s "SUPER_") (10, 1) ex_input ex_ptx = Ok o
    /\ In a (out_asms o) /\ In sc (oa_scaffolds a) /\ sc_rows sc = nx_out
    (* an input gap retained inside a reversed piece *)
    /\ consecutive (sc_rows sc) nx_C [cx_g57] nx_B2
    /\ (exists isc ox oy, In isc ex_input /\ consecutive (snd isc) oy (rev [cx_g57]) ox
                          /\ piece_of (-1) ox nx_C /\ piece_of (-1) oy nx_B2)
    (* the join gap between two pieces *)
    /\ consecutive (sc_rows sc) nx_B2 [ex_gap] nx_A
    (* and the theorem, for this run *)
    /\ (forall a sc x mid y,
          In a (out_asms o) -> In sc (oa_scaffolds a) -> consecutive (sc_rows sc) x mid y ->
          mid = [ex_gap] \/ same_neighbours ex_input x mid y \/ skipped_neighbours ex_input x mid y).
Proof.
  assert (Hrun : exists o, remap repaired ex_gap (s "SUPER_") (10, 1) ex_input ex_ptx = Ok o
                           /\ nth 0 (map sc_rows (flat_map oa_scaffolds (out_asms o))) [] = nx_out
                           /\ Datatypes.length (flat_map oa_scaffolds (out_asms o)) = 2%nat).
  { eexists. split; [vm_compute; reflexivity|]. split; vm_compute; reflexivity. }
  destruct Hrun as (o & Hrun & Hm & Hlen).
  assert (Hpos : Forall (fun isc => pos_rows (snd isc)) ex_input) by (repeat constructor; cbn; lia).
  destruct (rows_in_output o nx_out) as (a & sc & Ha & Hsc & Esc).
  { rewrite <- Hm. apply nth_In. rewrite map_length, Hlen. lia. }
  exists o, a, sc. split; [exact Hrun|]. split; [exact Ha|]. split; [exact Hsc|]. split; [exact Esc|].
  split; [rewrite Esc; exists [], [RG ex_gap; RF nx_A; RG ex_gap; RF nx_B1; RG ex_gap; RF nx_D]; reflexivity|].
  split.
  { eexists (_, _), _, _. split; [left; reflexivity|]. cbn [snd rev app]. split.
    - exists [ex_F "ctgA" 1 1000 1 []; RG (mkGap 100 (s "scaffold"))],
             [RG (mkGap 8 (s "short_arm")); ex_F "ctgD" 1 1000 1 []]. reflexivity.
    - unfold piece_of. cbn. split; repeat split; lia. }
  split; [rewrite Esc; exists [RF nx_C; RG cx_g57], [RG ex_gap; RF nx_B1; RG ex_gap; RF nx_D]; reflexivity|].
  exact (neighbour_gaps_end_to_end _ _ _ _ _ _ Hpos Hrun).
Qed.

Print Assumptions missing_rows_consecutive.
Print Assumptions neighbour_gaps_fused.
Print Assumptions neighbour_gaps_uniform_gaps.
Print Assumptions neighbour_gaps_original_refuted.
Print Assumptions third_disjunct_needed.
Print Assumptions neighbour_gaps_instance.
Print Assumptions neighbour_gaps_end_to_end.
