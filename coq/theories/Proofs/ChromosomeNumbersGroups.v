(* C10 numbering, ChrNamer for ONE haplotype key, made explicit: the groups it
   builds are the runs of equal original names in the list of items, in order
   ([chunks]); if the original names of the items come sorted by an injective
   rank, every original name gets ONE group; [name_chromosomes] is the
   renamings of the groups sorted by [group_length], as a list of [apply_rop]. *)
From Tola Require Import Py.Base Py.Dec Py.Sort Model.Scaffold Model.Remap.
From Tola Require Import Proofs.BaseLemmas Proofs.Naming Proofs.UniqueNames.
From Tola Require Proofs.RemapTail.
From Coq Require Import Lia ZifyBool Permutation Sorted.

Definition chunk := (str * list nat)%type.

Definition chunk_step (cs : list chunk) (oi : str * nat) : list chunk :=
  match last_opt cs with
  | Some (o, idxs) => if str_eqb (fst oi) o then removelast cs ++ [(o, idxs ++ [snd oi])]
                      else cs ++ [(fst oi, [snd oi])]
  | None => [(fst oi, [snd oi])]
  end.
Definition chunks (ois : list (str * nat)) : list chunk := fold_left chunk_step ois [].
Definition unchunk (cs : list chunk) : list (str * nat) :=
  flat_map (fun c : chunk => map (pair (fst c)) (snd c)) cs.

Lemma chunk_step_snoc cs o idxs oi :
  chunk_step (cs ++ [(o, idxs)]) oi
  = if str_eqb (fst oi) o then cs ++ [(o, idxs ++ [snd oi])]
    else (cs ++ [(o, idxs)]) ++ [(fst oi, [snd oi])].
Proof. unfold chunk_step. rewrite last_opt_snoc, removelast_last. reflexivity. Qed.

Lemma unchunk_app a b : unchunk (a ++ b) = unchunk a ++ unchunk b.
Proof. unfold unchunk. apply flat_map_app. Qed.

Lemma unchunk_step cs oi : unchunk (chunk_step cs oi) = unchunk cs ++ [oi].
Proof.
  destruct oi as [o' i]. destruct (list_snoc_cases cs) as [->|(cs' & [o idxs] & ->)].
  - reflexivity.
  - rewrite chunk_step_snoc. cbn [fst snd]. destruct (str_eqb o' o) eqn:E.
    + apply str_eqb_eq in E. subst o'. rewrite !unchunk_app. unfold unchunk at 2 4.
      cbn [flat_map fst snd]. rewrite !app_nil_r, map_app, app_assoc. reflexivity.
    + rewrite (unchunk_app (cs' ++ [(o, idxs)])). reflexivity.
Qed.

Lemma unchunk_fold : forall ois cs, unchunk (fold_left chunk_step ois cs) = unchunk cs ++ ois.
Proof.
  induction ois as [|oi ois IH]; intro cs; cbn [fold_left]; [rewrite app_nil_r; reflexivity|].
  rewrite IH, unchunk_step, <- app_assoc. reflexivity.
Qed.

Lemma unchunk_chunks ois : unchunk (chunks ois) = ois.
Proof. unfold chunks. rewrite unchunk_fold. reflexivity. Qed.

Lemma chunk_step_ne cs oi : Forall (fun c : chunk => snd c <> []) cs ->
  Forall (fun c : chunk => snd c <> []) (chunk_step cs oi).
Proof.
  intro F. destruct (list_snoc_cases cs) as [->|(cs' & [o idxs] & ->)].
  - constructor; [discriminate | constructor].
  - rewrite chunk_step_snoc. apply Forall_app in F as [F1 F2]. destruct (str_eqb (fst oi) o).
    + apply Forall_app. split; [exact F1|]. constructor; [|constructor]. cbn [snd].
      intro X. apply app_eq_nil in X as [_ X]. discriminate.
    + apply Forall_app. split; [apply Forall_app; split; assumption|].
      constructor; [discriminate | constructor].
Qed.

Lemma chunks_ne ois : Forall (fun c : chunk => snd c <> []) (chunks ois).
Proof.
  unfold chunks. assert (K : forall ois cs, Forall (fun c : chunk => snd c <> []) cs ->
                            Forall (fun c : chunk => snd c <> []) (fold_left chunk_step ois cs)).
  { clear. induction ois as [|oi ois IH]; intros cs F; cbn [fold_left]; [exact F|].
    apply IH, chunk_step_ne, F. }
  apply K. constructor.
Qed.

Section ChunkSorted.
  Variables (rk : str -> nat) (P : str -> Prop).
  Hypothesis Inj : forall x y, P x -> P y -> rk x = rk y -> x = y.
  Let rkc (c : chunk) : nat := rk (fst c).
  Let rko (oi : str * nat) : nat := rk (fst oi).

  Lemma chunk_fold_sorted : forall ois cs,
    Forall (fun oi => P (fst oi)) ois -> Forall (fun c : chunk => P (fst c)) cs ->
    StronglySorted lt (map rkc cs) -> StronglySorted le (map rko ois) ->
    (forall c oi, last_opt cs = Some c -> In oi ois -> (rkc c <= rko oi)%nat) ->
    StronglySorted lt (map rkc (fold_left chunk_step ois cs)).
  Proof.
    induction ois as [|[o' i] ois IH]; intros cs Po Pc Sc So L; cbn [fold_left]; [exact Sc|].
    inversion Po as [|? ? Po1 Po2]; subst. cbn [fst] in Po1.
    cbn [map] in So. inversion So as [|? ? So1 So2]; subst.
    assert (Hd : forall oi, In oi ois -> (rk o' <= rko oi)%nat).
    { intros oi I. rewrite Forall_forall in So2. apply (So2 (rko oi)). apply in_map. exact I. }
    destruct (list_snoc_cases cs) as [->|(cs' & [o idxs] & ->)].
    - apply IH; [exact Po2 | constructor; [exact Po1 | constructor]
                | constructor; [constructor | constructor] | exact So1|].
      intros c oi Hc I. cbn in Hc. injection Hc as <-. apply Hd, I.
    - rewrite chunk_step_snoc. cbn [fst snd].
      apply Forall_app in Pc as [Pc1 Pc2]. inversion Pc2 as [|? ? Pc3 _]; subst. cbn [fst] in Pc3.
      pose proof (L (o, idxs) (o', i) (last_opt_snoc _ _) (or_introl eq_refl)) as L0.
      unfold rkc, rko in L0. cbn [fst] in L0.
      destruct (str_eqb o' o) eqn:E.
      + apply str_eqb_eq in E. subst o'.
        apply IH; [exact Po2 | apply Forall_app; split; [exact Pc1 | constructor; [exact Pc3 | constructor]]
                  | | exact So1|].
        * rewrite map_app in *. exact Sc.
        * intros c oi Hc I. rewrite last_opt_snoc in Hc. injection Hc as <-. unfold rkc. cbn [fst].
          apply Hd, I.
      + apply str_eqb_neq in E.
        assert (Lt : (rk o < rk o')%nat).
        { apply Nat.le_neq. split; [exact L0|]. intro X. apply E. symmetry. apply Inj; assumption. }
        apply IH; [exact Po2 | | | exact So1|].
        * apply Forall_app. split; [apply Forall_app; split; assumption|]. constructor; [exact Po1 | constructor].
        * rewrite map_app. apply SS_app_intro; [exact Sc | constructor; [constructor | constructor]|].
          intros x y Ix [<-|[]]. unfold rkc at 1. cbn [fst].
          rewrite map_app in Sc, Ix. apply SS_app_inv in Sc as (_ & _ & C).
          apply in_app_or in Ix as [Ix|[<-|[]]].
          -- exact (Nat.lt_trans _ _ _ (C x (rkc (o, idxs)) Ix (or_introl eq_refl)) Lt).
          -- unfold rkc. cbn [fst]. exact Lt.
        * intros c oi Hc I. rewrite last_opt_snoc in Hc. injection Hc as <-. unfold rkc. cbn [fst].
          apply Hd, I.
  Qed.

  Theorem chunk_origs_nodup ois :
    Forall (fun oi => P (fst oi)) ois -> StronglySorted le (map rko ois) ->
    NoDup (map fst (chunks ois)).
  Proof.
    intros Po So. apply (NoDup_map_factor fst rk). apply SS_lt_NoDup.
    apply (chunk_fold_sorted ois []); [exact Po | constructor | constructor | exact So|].
    intros c oi Hc. discriminate.
  Qed.
End ChunkSorted.

Definition G (h : str) (c : chunk) : chr_group := one_group h (fst c) (snd c).
Definition oi_of (fused : list scaffold) (it : str * nat) : str * nat := (orig_of fused (snd it), snd it).

Definition Shape (h : str) (st : cg_state) (cur : list chunk) : Prop :=
  cg_groups st = map (G h) cur /\ exists cs o idxs, cur = cs ++ [(o, idxs)] /\ cg_last_orig st = Some o.

Section OneKey.
  Variable fused : list scaffold.
  Variable h : str.

  Lemma step_shape_first i sc o' : nth_error fused i = Some sc -> sc_orig sc = Some o' -> o' <> [] ->
    exists st', build_groups_step fused [h] false (mkCg [new_group [h]] None None) (h, i) = Ok st'
                /\ Shape h st' (chunk_step [] (o', i)).
  Proof.
    intros Hn Ho Hne.
    (* [build_groups_step_eq] speaks of a state whose groups end in the current one: [init ++ [cur]] *)
    change [new_group [h]] with ([] ++ [[(h, @nil (str * list nat))]]).
    rewrite (build_groups_step_eq _ _ _ _ _ _ _ _ _ _ _ Hn Ho Hne), need_new_single, group_add_single.
    cbn [aget aset app]. eexists. split; [reflexivity|]. split; [reflexivity|].
    exists [], o', [i]. split; reflexivity.
  Qed.

  Lemma step_shape st cur i sc o' : Shape h st cur ->
    nth_error fused i = Some sc -> sc_orig sc = Some o' -> o' <> [] ->
    exists st', build_groups_step fused [h] false st (h, i) = Ok st' /\ Shape h st' (chunk_step cur (o', i)).
  Proof.
    intros (Eg & cs & o & idxs & -> & Elo) Hn Ho Hne.
    destruct st as [groups lh lo]. cbn [cg_groups cg_last_orig] in *. subst groups lo.
    rewrite map_app. cbn [map]. unfold G at 2, one_group. cbn [fst snd].
    rewrite (build_groups_step_eq _ _ _ _ _ _ _ _ _ _ _ Hn Ho Hne), need_new_single, chunk_step_snoc.
    cbn [opt_eqb fst snd]. eexists. split; [reflexivity|]. unfold Shape. cbn [cg_groups cg_last_orig].
    destruct (str_eqb o' o) eqn:E; cbn [negb].
    - apply str_eqb_eq in E. subst o'. rewrite group_add_single. cbn [aget aset]. rewrite str_eqb_refl. split.
      + rewrite map_app. reflexivity.
      + exists cs, o, (idxs ++ [i]). split; reflexivity.
    - cbn [new_group map]. rewrite group_add_single. cbn [aget aset app]. split.
      + rewrite !map_app. reflexivity.
      + exists (cs ++ [(o, idxs)]), o', [i]. split; reflexivity.
  Qed.

  Lemma has_orig_oi it : has_orig fused it ->
    exists sc o, nth_error fused (snd it) = Some sc /\ sc_orig sc = Some o /\ o <> [] /\ oi_of fused it = (o, snd it).
  Proof.
    intros (sc & o & Hn & Ho & Hne). exists sc, o. repeat split; auto.
    unfold oi_of, orig_of. rewrite Hn, Ho. reflexivity.
  Qed.

  Lemma fold_shape : forall items st cur, Shape h st cur ->
    Forall (fun it => fst it = h) items -> Forall (has_orig fused) items ->
    exists st', foldM (build_groups_step fused [h] false) items st = Ok st'
                /\ Shape h st' (fold_left chunk_step (map (oi_of fused) items) cur).
  Proof.
    induction items as [|[h' i] items IH]; intros st cur Sh Hh Ho.
    - exists st. split; [reflexivity | exact Sh].
    - pose proof (Forall_inv Hh) as Hh1. pose proof (Forall_inv_tail Hh) as Hh2.
      pose proof (Forall_inv Ho) as Ho1. pose proof (Forall_inv_tail Ho) as Ho2.
      cbn [fst] in Hh1. subst h'. destruct (has_orig_oi _ Ho1) as (sc & o & Hn & Hor & Hne & Eoi).
      cbn [snd] in Hn, Eoi.
      destruct (step_shape st cur i sc o Sh Hn Hor Hne) as (st1 & E1 & Sh1).
      destruct (IH st1 _ Sh1 Hh2 Ho2) as (st2 & E2 & Sh2).
      exists st2. cbn [foldM map fold_left]. rewrite E1. cbn [bind]. rewrite Eoi. split; [exact E2 | exact Sh2].
  Qed.

  Theorem groups_are_chunks : forall items, items <> [] ->
    Forall (fun it => fst it = h) items -> Forall (has_orig fused) items ->
    exists st, foldM (build_groups_step fused [h] false) items (mkCg [new_group [h]] None None) = Ok st
               /\ cg_groups st = map (G h) (chunks (map (oi_of fused) items)).
  Proof.
    intros [|[h' i] items] Hne Hh Ho; [congruence|].
    pose proof (Forall_inv Hh) as Hh1. pose proof (Forall_inv_tail Hh) as Hh2.
    pose proof (Forall_inv Ho) as Ho1. pose proof (Forall_inv_tail Ho) as Ho2.
    cbn [fst] in Hh1. subst h'. destruct (has_orig_oi _ Ho1) as (sc & o & Hn & Hor & Hne' & Eoi).
    cbn [snd] in Hn, Eoi.
    destruct (step_shape_first i sc o Hn Hor Hne') as (st1 & E1 & Sh1).
    destruct (fold_shape items st1 _ Sh1 Hh2 Ho2) as (st2 & E2 & Sh2).
    exists st2. cbn [foldM]. rewrite E1. cbn [bind]. split; [exact E2|].
    unfold chunks. cbn [map fold_left]. rewrite Eoi. exact (proj1 Sh2).
  Qed.

  Lemma chunk_groups_not_bad : forall cs, existsb (group_bad [h]) (map (G h) cs) = false.
  Proof.
    induction cs as [|c cs IH]; cbn [map existsb]; [reflexivity|]. rewrite IH.
    unfold group_bad, G, one_group. rewrite group_hap_single. reflexivity.
  Qed.

  Lemma group_length_G c :
    group_length fused [h] (G h c)
    = sumZ (map (fun i => match nth_error fused i with
                          | Some sc => frags_length (sc_rows sc) | None => 0 end) (snd c)).
  Proof. unfold group_length, G, one_group. rewrite group_hap_single. reflexivity. Qed.

  Lemma slots_chunks : forall cs,
    slots (map (G h) cs) = map (fun oi : str * nat => (h, fst oi, snd oi)) (unchunk cs).
  Proof.
    induction cs as [|[o idxs] cs IH]; [reflexivity|].
    unfold slots, unchunk in *. cbn [map flat_map]. rewrite IH, map_app. f_equal.
    unfold slots_g, G, one_group. cbn [flat_map fst snd slots_d]. rewrite !app_nil_r, map_map. reflexivity.
  Qed.
End OneKey.

Theorem name_chromosomes_chunks prefix fused1 h items :
  Forall (fun it => fst it = h) items -> Forall (has_orig fused1) items ->
  let cs := chunks (map (oi_of fused1) items) in
  let sorted := sort_by_Z_desc (group_length fused1 [h]) (map (G h) cs) in
  name_chromosomes prefix fused1 items = Ok (fold_left apply_rop (all_ops prefix sorted) fused1)
  /\ Permutation (slots sorted) (map (slot_of fused1) items).
Proof.
  intros Hh Ho cs sorted. split.
  - destruct items as [|it items'].
    + reflexivity.
    + assert (Hne : it :: items' <> []) by discriminate.
      set (items := it :: items') in *. clearbody items.
      unfold name_chromosomes.
      assert (D : dedup str_eqb (map fst items) = [h]).
      { apply dedup_all_same; [destruct items; [congruence | discriminate]|].
        apply Forall_map. exact Hh. }
      rewrite D. change (1 <? zlen [h]) with false.
      destruct (groups_are_chunks fused1 h items Hne Hh Ho) as (st & E & Eg).
      rewrite E. cbn [bind]. rewrite Eg, chunk_groups_not_bad.
      fold cs. fold sorted. rewrite name_groups_as_ops. reflexivity.
  - eapply perm_trans; [apply RemapTail.flat_map_perm, sort_desc_perm|].
    fold (slots (map (G h) cs)). rewrite slots_chunks. unfold cs. rewrite unchunk_chunks, map_map.
    erewrite map_ext_in; [apply Permutation_refl|].
    intros it I. rewrite Forall_forall in Hh. unfold slot_of, oi_of. cbn [fst snd]. rewrite (Hh it I). reflexivity.
Qed.

Print Assumptions name_chromosomes_chunks.
Print Assumptions chunk_origs_nodup.
