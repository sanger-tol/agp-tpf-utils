(* C15 -- the FastaIndex cache protocol (Model/CacheFS.v): safety of the
   repaired (write-temporary-then-rename) protocol for any number of
   processes, any interleaving, any crashes, and refutation of the in-place
   protocol. *)
From Tola Require Import Py.Base Model.CacheFS Proofs.BaseLemmas.
From Coq Require Import Lia ZifyBool.

Lemma cfs_set_nth_same {A} (l : list A) n x :
  (n < length l)%nat -> nth_error (set_nth l n x) n = Some x.
Proof. apply set_nth_same. Qed.

Lemma cfs_set_nth_other {A} (l : list A) n m x :
  n <> m -> nth_error (set_nth l n x) m = nth_error l m.
Proof. apply set_nth_other. Qed.

Lemma cfs_set_nth_In {A} (l : list A) n x y : In y (set_nth l n x) -> y = x \/ In y l.
Proof. apply set_nth_In. Qed.

Lemma cfs_nth_error_lt {A} (l : list A) n x : nth_error l n = Some x -> (n < length l)%nat.
Proof. intro H. apply nth_error_Some. congruence. Qed.

(* file [f] is visible and was derived from the FASTA's current content *)
Definition cur (s : fs) (f : cfile) : Prop :=
  exists pl, get_file s f = Some pl /\ p_content pl = fasta_content s.

(* the process has indexed the FASTA's current content *)
Definition built (s : fs) (p : proc) : Prop :=
  pr_content p = fasta_content s /\ pr_index p = HGood (fasta_content s)
  /\ pr_asm p = HGood (fasta_content s).

(* while working on the .agp, the .fai has already been accepted / installed *)
Definition fai_ready (s : fs) (f : cfile) : Prop :=
  match f with Fai => True | Agp => cur s Fai end.

Definition load_inv (s : fs) (p : proc) (f : cfile) : Prop :=
  match f with
  | Fai => cur s Fai /\ cur s Agp
  | Agp => cur s Agp /\ pr_index p = HGood (fasta_content s)
  end.

Definition proc_inv (s : fs) (p : proc) : Prop :=
  match pr_pc p with
  | PStart | PStatFasta | PIndexRead | PDone | PFailed => True
  | PCheck f _ => pr_fasta_stamp p = fasta_stamp s /\ fai_ready s f
  | PLoadOpen f | PLoadRead f => load_inv s p f
  | PWarnExists f | PWriteOpen f => built s p /\ fai_ready s f
  | PWriteBlocks f | PReplace f => built s p /\ fai_ready s f /\ pr_tmp p <= clock s
  end.

(* every stamp (the FASTA's, a cache file's and, in proc_inv, a temporary's) is bounded by the
   clock: a rewrite of the FASTA takes the clock as its stamp, even without a tick, so no
   cache file or temporary written before it is strictly newer *)
Definition fs_inv (s : fs) : Prop :=
  fasta_stamp s <= clock s /\
  forall f pl, get_file s f = Some pl ->
    p_complete pl = true
    /\ (p_stamp pl > fasta_stamp s -> p_content pl = fasta_content s)
    /\ p_stamp pl <= clock s.

Definition Inv (w : world) : Prop :=
  fs_inv (w_fs w) /\ forall p, In p (w_procs w) -> proc_inv (w_fs w) p.

(* what a live process may rely on while other processes and the clock move *)
Definition fs_le (s s' : fs) : Prop :=
  fasta_content s' = fasta_content s /\ fasta_stamp s' = fasta_stamp s /\ clock s <= clock s'
  /\ forall f, cur s f -> cur s' f.

Lemma fs_le_refl s : fs_le s s.
Proof. unfold fs_le. repeat split; auto; lia. Qed.

Lemma proc_inv_mono s s' p : fs_le s s' -> proc_inv s p -> proc_inv s' p.
Proof.
  intros (Hc & Hs & Hk & Hf). unfold proc_inv, built, fai_ready, load_inv.
  destruct (pr_pc p); try (intros; exact Logic.I); try destruct f; rewrite ?Hc, ?Hs;
    intuition (auto; try lia).
Qed.

Lemma not_live_inv s p : live p = false -> proc_inv s p.
Proof. unfold live, proc_inv. destruct (pr_pc p); try discriminate; intros; exact Logic.I. Qed.

Lemma no_live_inv s l : existsb live l = false -> forall p, In p l -> proc_inv s p.
Proof.
  intros H p Hin. apply not_live_inv. destruct (live p) eqn:E; [| reflexivity].
  assert (existsb live l = true) by (apply existsb_exists; exists p; auto). congruence.
Qed.

Ltac inv H := injection H; clear H; intros; subst.

Ltac brk H :=
  repeat match type of H with
  | context [match ?x with _ => _ end] => destruct x eqn:?; try discriminate H
  end.

Lemma get_set_file s f g x :
  get_file (set_file s f x) g = if cfile_eqb f g then x else get_file s g.
Proof. destruct f, g; reflexivity. Qed.

Lemma set_file_fields s f x :
  fasta_content (set_file s f x) = fasta_content s /\ fasta_stamp (set_file s f x) = fasta_stamp s
  /\ clock (set_file s f x) = clock s.
Proof. destruct f; repeat split. Qed.

Lemma cfile_eqb_eq f g : cfile_eqb f g = true <-> f = g.
Proof. destruct f, g; cbn; split; congruence. Qed.

Lemma cfile_eqb_refl f : cfile_eqb f f = true.
Proof. destruct f; reflexivity. Qed.

(* a file accepted by the freshness check has the current content *)
Lemma accept_cur s f pl st :
  fs_inv s -> get_file s f = Some pl -> (p_stamp pl >? st) = true -> st = fasta_stamp s -> cur s f.
Proof.
  intros [_ G] Hg Hgt ->. exists pl. split; [exact Hg |]. apply (G _ _ Hg). lia.
Qed.

Lemma held_cur s f pl :
  fs_inv s -> cur s f -> get_file s f = Some pl -> held_of pl = HGood (fasta_content s).
Proof.
  intros [_ G] (pl' & Hg' & Hc) Hg. rewrite Hg in Hg'. inv Hg'.
  unfold held_of, complete. destruct (G _ _ Hg) as (-> & _). rewrite Hc. reflexivity.
Qed.

(* os.replace of a finished temporary holding the current content *)
Lemma install_inv s f c t :
  fs_inv s -> c = fasta_content s -> t <= clock s ->
  let s' := set_file s f (Some (mkPayload c 0 true t)) in
  fs_inv s' /\ fs_le s s' /\ cur s' f.
Proof.
  intros [Gc G] -> Ht s'. subst s'.
  destruct (set_file_fields s f (Some (mkPayload (fasta_content s) 0 true t))) as (Ec & Es & Ek).
  split; [| split].
  - split; [rewrite Es, Ek; exact Gc |]. intros g pl. rewrite get_set_file, Ec, Es, Ek.
    destruct (cfile_eqb f g).
    + intro H; inv H. cbn. repeat split; auto.
    + apply G.
  - unfold fs_le. rewrite Ec, Es, Ek. repeat split; try lia.
    intros g (pl & Hg & Hc). unfold cur. rewrite get_set_file, Ec.
    destruct (cfile_eqb f g); [eexists; split; [reflexivity | reflexivity] | exists pl; auto].
  - unfold cur. rewrite get_set_file, Ec, cfile_eqb_refl.
    eexists; split; reflexivity.
Qed.

(* one operation of one process; if it completes auto_load, what the process
   holds is current *)
Lemma step_inv_done s p o s' p' :
  fs_inv s -> proc_inv s p -> step true s p o = Some (s', p') ->
  fs_inv s' /\ proc_inv s' p' /\ fs_le s s' /\ (pr_pc p' = PDone -> proc_ok s' p' = true).
Proof.
  intros G Hp H. unfold proc_inv in Hp. unfold step in H.
  destruct (pr_pc p); destruct o; cbn beta iota in H; try discriminate H;
  repeat match goal with f : cfile |- _ => destruct f end;
  cbn [cfile_eqb] in H; try discriminate H.
  all: brk H; inv H.
  all: cbn [with_pc pr_pc next_check after_write].
  all: try (split; [exact G | split; [exact Logic.I | split; [apply fs_le_refl | intro Hd; discriminate Hd]]]).
  all: try (split; [exact G | split; [| split; [apply fs_le_refl |]]]).
  all: try (intro Hd; discriminate Hd).
  all: unfold proc_inv, proc_ok, with_pc;
       cbn [pr_pc pr_fasta_stamp pr_index pr_asm pr_content pr_tmp load_inv fai_ready] in *.
  all: unfold built in *; cbn [pr_pc pr_fasta_stamp pr_index pr_asm pr_content pr_tmp] in *.
  (* the invariant of the process after its step follows from the one before;
     the completed load and the two installs are done by hand below *)
  all: try solve [lazymatch goal with
                  | |- _ /\ _ /\ _ /\ _ => fail
                  | |- _ -> _ => fail
                  | |- _ => intuition (eauto using accept_cur, held_cur; try lia)
                  end].
  - intros _. destruct Hp as [Hc Hi].
    rewrite Hi, (held_cur _ _ _ G Hc Heqo), Z.eqb_refl. reflexivity.
  - destruct Hp as ((Hc & Hi & Ha) & _ & Ht).
    destruct (install_inv s Fai _ _ G Hc Ht) as (A & B & C).
    split; [exact A | split; [| split; [exact B | discriminate]]].
    cbn [fasta_content]. split; [auto | exact C].
  - destruct Hp as ((Hc & Hi & Ha) & _ & Ht).
    destruct (install_inv s Agp _ _ G Hc Ht) as (A & B & C).
    split; [exact A | split; [exact Logic.I | split; [exact B | intros _]]].
    cbn [fasta_content]. rewrite Hi, Ha, Z.eqb_refl. reflexivity.
Qed.

Lemma step_inv s p o s' p' :
  fs_inv s -> proc_inv s p -> step true s p o = Some (s', p') ->
  fs_inv s' /\ proc_inv s' p' /\ fs_le s s'.
Proof.
  intros G Hp H. destruct (step_inv_done _ _ _ _ _ G Hp H) as (A & B & C & _). auto.
Qed.

Lemma get_file_mkFs c st a b k f : get_file (mkFs c st a b k) f = match f with Fai => a | Agp => b end.
Proof. destruct f; reflexivity. Qed.

Lemma get_file_same_files s c st k f : get_file (mkFs c st (fai s) (agp s) k) f = get_file s f.
Proof. destruct f; reflexivity. Qed.

Lemma env_step_inv w h w' : Inv w -> env_step true w h = Some w' -> Inv w'.
Proof.
  intros [G P] H. destruct w as [s ps]. cbn [w_fs w_procs] in *.
  destruct h; cbn [env_step w_fs w_procs] in H.
  - (* HRewrite *)
    destruct (existsb live ps) eqn:E; [discriminate |]. inv H. split; cbn [w_fs w_procs].
    + destruct G as [Gc G]. split; [cbn; lia |]. intros f pl. rewrite get_file_same_files. intro Hg.
      destruct (G _ _ Hg) as (A & B & C). cbn [fasta_stamp fasta_content clock].
      destruct tick; repeat split; auto; try lia.
    + apply no_live_inv. exact E.
  - (* HDelete *)
    destruct (existsb live ps) eqn:E; [discriminate |]. inv H. split; cbn [w_fs w_procs].
    + destruct G as [Gc G]. destruct (set_file_fields s f None) as (Ec & Es & Ek).
      split; [rewrite Es, Ek; exact Gc |]. intros g pl. rewrite get_set_file, Ec, Es, Ek.
      destruct (cfile_eqb f g); [discriminate | apply G].
    + apply no_live_inv. exact E.
  - (* HTick *)
    inv H. split; cbn [w_fs w_procs].
    + destruct G as [Gc G]. split; [cbn; lia |]. intros f pl. rewrite get_file_same_files. intro Hg.
      destruct (G _ _ Hg) as (A & B & C). cbn [fasta_stamp fasta_content clock]. repeat split; auto; lia.
    + intros p Hin. apply (proc_inv_mono s); [| apply P; exact Hin].
      unfold fs_le. cbn [fasta_stamp fasta_content clock]. repeat split; try lia.
      intros f (pl & Hg & Hc). exists pl. rewrite get_file_same_files. auto.
  - (* HSpawn *)
    inv H. split; cbn [w_fs w_procs]; [exact G |].
    intros p Hin. apply in_app_or in Hin. destruct Hin as [Hin | [<- | []]]; [apply P; exact Hin | exact Logic.I].
  - (* HOp *)
    destruct (nth_error ps pid) as [p |] eqn:En; [| discriminate].
    destruct (live p); [| discriminate].
    destruct (step true s p o) as [[s' p'] |] eqn:Es; [| discriminate]. inv H. cbn [w_fs w_procs].
    destruct (step_inv _ _ _ _ _ G (P _ (nth_error_In _ _ En)) Es) as (G' & P' & L).
    split; [exact G' |]. intros q Hin. apply cfs_set_nth_In in Hin. destruct Hin as [-> | Hin]; [exact P' |].
    apply (proc_inv_mono s); [exact L | apply P; exact Hin].
Qed.

Lemma init_inv : Inv init_world.
Proof.
  split; cbn.
  - split; [cbn; lia |]. intros [|] pl H; discriminate H.
  - intros p [].
Qed.

Lemma run_inv : forall h w w', Inv w -> run true w h = Some w' -> Inv w'.
Proof.
  induction h as [| x t IH]; intros w w' HI H; cbn [run] in H.
  - inv H. exact HI.
  - destruct (env_step true w x) as [w1 |] eqn:E; [| discriminate]. exact (IH _ _ (env_step_inv _ _ _ HI E) H).
Qed.

Definition reachable (w : world) : Prop := exists h, run true init_world h = Some w.

Lemma reachable_inv w : reachable w -> Inv w.
Proof. intros [h H]. exact (run_inv _ _ _ init_inv H). Qed.

Lemma step_done s p o s' p' :
  fs_inv s -> proc_inv s p -> step true s p o = Some (s', p') -> pr_pc p' = PDone ->
  proc_ok s' p' = true.
Proof. intros G Hp H. apply (step_inv_done _ _ _ _ _ G Hp H). Qed.

Lemma completion_ok w pid o w' p' :
  Inv w -> env_step true w (HOp pid o) = Some w' ->
  nth_error (w_procs w') pid = Some p' -> pr_pc p' = PDone ->
  proc_ok (w_fs w') p' = true.
Proof.
  intros [G P] Hs Hn Hd.
  destruct w as [s ps]. cbn [env_step w_fs w_procs] in *.
  destruct (nth_error ps pid) as [p |] eqn:En; [| discriminate].
  destruct (live p); [| discriminate].
  destruct (step true s p o) as [[s1 p1] |] eqn:Es; [| discriminate]. inv Hs. cbn [w_fs w_procs] in *.
  rewrite (cfs_set_nth_same _ _ _ (cfs_nth_error_lt _ _ _ En)) in Hn. inv Hn.
  exact (step_done _ _ _ _ _ G (P _ (nth_error_In _ _ En)) Es Hd).
Qed.

(* SAFETY: whenever an operation makes a process complete auto_load, what
   it holds is the index and the assembly of the FASTA's current content *)
Theorem safety_at_completion : forall w pid o w' p',
  reachable w -> env_step true w (HOp pid o) = Some w' ->
  nth_error (w_procs w') pid = Some p' -> pr_pc p' = PDone ->
  (match nth_error (w_procs w) pid with Some p => pr_pc p <> PDone | None => True end) ->
  proc_ok (w_fs w') p' = true.
Proof.
  intros w pid o w' p' Hr Hs Hn Hd _. exact (completion_ok w pid o w' p' (reachable_inv _ Hr) Hs Hn Hd).
Qed.

(* a visible cache file is always complete, and if it is strictly newer
   than the FASTA it was derived from the FASTA's current content *)
Theorem visible_files_complete : forall w f pl, reachable w -> get_file (w_fs w) f = Some pl ->
  p_complete pl = true /\ (p_stamp pl > fasta_stamp (w_fs w) -> p_content pl = fasta_content (w_fs w)).
Proof.
  intros w f pl Hr Hg. destruct (reachable_inv _ Hr) as [[_ G] _].
  destruct (G _ _ Hg) as (A & B & _). split; assumption.
Qed.

(* stale or missing cache files are rebuilt, both together *)
Theorem check_rejects_stale : forall s p f pl s' p',
  pr_pc p = PCheck f true -> get_file s f = Some pl -> p_stamp pl <= pr_fasta_stamp p ->
  step true s p (OStat f) = Some (s', p') -> pr_pc p' = PIndexRead.
Proof.
  intros s p f pl s' p' Hpc Hg Hle H. unfold step in H. rewrite Hpc in H.
  rewrite cfile_eqb_refl, Hg in H.
  replace (p_stamp pl >? pr_fasta_stamp p) with false in H by lia. inv H. reflexivity.
Qed.

Theorem check_rejects_missing : forall s p f s' p',
  pr_pc p = PCheck f false -> get_file s f = None ->
  step true s p (OExists f) = Some (s', p') -> pr_pc p' = PIndexRead.
Proof.
  intros s p f s' p' Hpc Hg H. unfold step in H. rewrite Hpc in H.
  rewrite cfile_eqb_refl, Hg in H.
  inv H. reflexivity.
Qed.

Theorem indexing_installs_both : forall w pid w' p p',
  reachable w -> nth_error (w_procs w) pid = Some p -> pr_pc p = PReplace Agp ->
  env_step true w (HOp pid (OReplace Agp)) = Some w' -> nth_error (w_procs w') pid = Some p' ->
  pr_pc p' = PDone
  /\ (exists a b, fai (w_fs w') = Some a /\ agp (w_fs w') = Some b /\ p_complete a = true /\ p_complete b = true
        /\ p_content a = fasta_content (w_fs w') /\ p_content b = fasta_content (w_fs w')).
Proof.
  intros w pid w' p p' Hr En Hpc Hs Hn. destruct (reachable_inv _ Hr) as [G P].
  destruct w as [s ps]. cbn [env_step w_fs w_procs] in *. rewrite En in Hs.
  pose proof (P _ (nth_error_In _ _ En)) as Hp. unfold proc_inv in Hp. rewrite Hpc in Hp.
  destruct Hp as ((Hc & Hi & Ha) & (a & Hfa & Hca) & Ht).
  unfold live, step in Hs. rewrite Hpc in Hs. cbn [cfile_eqb after_write] in Hs. inv Hs.
  cbn [w_fs w_procs] in *.
  rewrite (cfs_set_nth_same _ _ _ (cfs_nth_error_lt _ _ _ En)) in Hn. inv Hn.
  split; [reflexivity |]. cbn [set_file fai agp fasta_content].
  exists a. eexists. split; [exact Hfa |]. split; [reflexivity |]. cbn [p_complete p_content].
  destruct G as [_ G]. destruct (G Fai a Hfa) as (A & _). repeat split; auto.
Qed.

(* the in-place protocol *)
(* process 0 indexes, crashes after opening (truncating) the .agp in place;
   time passes; a fresh process accepts both files and loads the empty .agp *)
Definition legacy_crash_history : list hop :=
  [HTick; HSpawn;
   HOp 0 OExistsFasta; HOp 0 OStatFasta; HOp 0 (OExists Fai); HOp 0 OReadFasta;
   HOp 0 (OExists Fai); HOp 0 (OOpenWrite Fai); HOp 0 (OWriteBlock Fai); HOp 0 (OClose Fai);
   HOp 0 (OExists Agp); HOp 0 (OOpenWrite Agp); HOp 0 OCrash;
   HTick; HSpawn;
   HOp 1 OExistsFasta; HOp 1 OStatFasta; HOp 1 (OExists Fai); HOp 1 (OStat Fai);
   HOp 1 (OExists Agp); HOp 1 (OStat Agp);
   HOp 1 (OOpenRead Fai); HOp 1 (ORead Fai); HOp 1 (OOpenRead Agp); HOp 1 (ORead Agp)].

(* process 1 checks and loads while process 0 is between opening the .agp and
   writing it; nobody crashes, process 0 then finishes normally *)
Definition legacy_race_history : list hop :=
  [HTick; HSpawn; HSpawn;
   HOp 0 OExistsFasta; HOp 0 OStatFasta; HOp 0 (OExists Fai); HOp 0 OReadFasta;
   HOp 0 (OExists Fai); HOp 0 (OOpenWrite Fai); HOp 0 (OWriteBlock Fai); HOp 0 (OClose Fai);
   HOp 0 (OExists Agp); HOp 0 (OOpenWrite Agp);
   HOp 1 OExistsFasta; HOp 1 OStatFasta; HOp 1 (OExists Fai); HOp 1 (OStat Fai);
   HOp 1 (OExists Agp); HOp 1 (OStat Agp);
   HOp 1 (OOpenRead Fai); HOp 1 (ORead Fai); HOp 1 (OOpenRead Agp); HOp 1 (ORead Agp);
   HOp 0 (OWriteBlock Agp); HOp 0 (OClose Agp)].

Theorem legacy_crash_refuted : exists h w, run false init_world h = Some w /\ world_ok w = false.
Proof. exists legacy_crash_history. eexists. split; vm_compute; reflexivity. Qed.

Theorem legacy_race_refuted : exists h w, run false init_world h = Some w /\ world_ok w = false.
Proof. exists legacy_race_history. eexists. split; vm_compute; reflexivity. Qed.

(* in both, it is process 1 that completes (PDone) holding a partial assembly *)
Lemma legacy_crash_outcome :
  option_map (fun w => map (fun p => (pr_pc p, pr_index p, pr_asm p)) (w_procs w))
             (run false init_world legacy_crash_history)
  = Some [(PFailed, HGood 1, HGood 1); (PDone, HGood 1, HPartial 1)].
Proof. vm_compute. reflexivity. Qed.

Lemma legacy_race_outcome :
  option_map (fun w => map (fun p => (pr_pc p, pr_index p, pr_asm p)) (w_procs w))
             (run false init_world legacy_race_history)
  = Some [(PDone, HGood 1, HGood 1); (PDone, HGood 1, HPartial 1)].
Proof. vm_compute. reflexivity. Qed.

(* the repaired protocol performs different operations (os.replace after
   close), so the two histories above are not histories of it *)
Lemma legacy_histories_rejected :
  run true init_world legacy_crash_history = None /\ run true init_world legacy_race_history = None.
Proof. split; vm_compute; reflexivity. Qed.

(* the same scenarios under the repaired protocol: the crash leaves no .agp,
   so process 1 rebuilds both files *)
Definition atomic_crash_history : list hop :=
  [HTick; HSpawn;
   HOp 0 OExistsFasta; HOp 0 OStatFasta; HOp 0 (OExists Fai); HOp 0 OReadFasta;
   HOp 0 (OExists Fai); HOp 0 (OOpenWrite Fai); HOp 0 (OWriteBlock Fai); HOp 0 (OClose Fai);
   HOp 0 (OReplace Fai);
   HOp 0 (OExists Agp); HOp 0 (OOpenWrite Agp); HOp 0 OCrash;
   HTick; HSpawn;
   HOp 1 OExistsFasta; HOp 1 OStatFasta; HOp 1 (OExists Fai); HOp 1 (OStat Fai);
   HOp 1 (OExists Agp); HOp 1 OReadFasta;
   HOp 1 (OExists Fai); HOp 1 (OOpenWrite Fai); HOp 1 (OWriteBlock Fai); HOp 1 (OClose Fai);
   HOp 1 (OReplace Fai);
   HOp 1 (OExists Agp); HOp 1 (OOpenWrite Agp); HOp 1 (OWriteBlock Agp); HOp 1 (OClose Agp);
   HOp 1 (OReplace Agp)].

(* two racing processes, both indexing: process 1 accepts the .fai process 0
   installed, finds no .agp (it is still a private temporary of process 0),
   rebuilds; both install their files, both complete *)
Definition atomic_race_history : list hop :=
  [HTick; HSpawn; HSpawn;
   HOp 0 OExistsFasta; HOp 0 OStatFasta; HOp 0 (OExists Fai); HOp 0 OReadFasta;
   HOp 0 (OExists Fai); HOp 0 (OOpenWrite Fai); HOp 0 (OWriteBlock Fai); HOp 0 (OClose Fai);
   HOp 0 (OReplace Fai);
   HOp 0 (OExists Agp); HOp 0 (OOpenWrite Agp);
   HOp 1 OExistsFasta; HOp 1 OStatFasta; HOp 1 (OExists Fai); HOp 1 (OStat Fai);
   HOp 1 (OExists Agp); HOp 1 OReadFasta;
   HOp 1 (OExists Fai); HOp 1 (OOpenWrite Fai);
   HOp 0 (OWriteBlock Agp);
   HOp 1 (OWriteBlock Fai); HOp 1 (OClose Fai);
   HOp 0 (OClose Agp);
   HOp 1 (OReplace Fai);
   HOp 0 (OReplace Agp);
   HOp 1 (OExists Agp); HOp 1 (OOpenWrite Agp); HOp 1 (OWriteBlock Agp); HOp 1 (OClose Agp);
   HOp 1 (OReplace Agp)].

(* two racing processes, one indexing and one loading: process 1 checks the
   .fai, process 0 installs the .agp, process 1 checks the .agp and loads both *)
Definition atomic_race_load_history : list hop :=
  [HTick; HSpawn; HSpawn;
   HOp 0 OExistsFasta; HOp 0 OStatFasta; HOp 0 (OExists Fai); HOp 0 OReadFasta;
   HOp 0 (OExists Fai); HOp 0 (OOpenWrite Fai); HOp 0 (OWriteBlock Fai); HOp 0 (OClose Fai);
   HOp 0 (OReplace Fai);
   HOp 1 OExistsFasta; HOp 1 OStatFasta; HOp 1 (OExists Fai);
   HOp 0 (OExists Agp); HOp 0 (OOpenWrite Agp); HOp 0 (OWriteBlock Agp);
   HOp 1 (OStat Fai);
   HOp 0 (OClose Agp); HOp 0 (OReplace Agp);
   HOp 1 (OExists Agp); HOp 1 (OStat Agp);
   HOp 1 (OOpenRead Fai); HOp 1 (ORead Fai); HOp 1 (OOpenRead Agp); HOp 1 (ORead Agp)].

Definition outcome (w : world) := map (fun p => (pr_pc p, pr_index p, pr_asm p)) (w_procs w).

Theorem atomic_crash_safe : exists w,
  run true init_world atomic_crash_history = Some w /\ world_ok w = true
  /\ outcome w = [(PFailed, HGood 1, HGood 1); (PDone, HGood 1, HGood 1)].
Proof. eexists. split; [vm_compute; reflexivity |]. split; vm_compute; reflexivity. Qed.

Theorem atomic_race_safe : exists w,
  run true init_world atomic_race_history = Some w /\ world_ok w = true
  /\ outcome w = [(PDone, HGood 1, HGood 1); (PDone, HGood 1, HGood 1)].
Proof. eexists. split; [vm_compute; reflexivity |]. split; vm_compute; reflexivity. Qed.

Theorem atomic_race_load_safe : exists w,
  run true init_world atomic_race_load_history = Some w /\ world_ok w = true
  /\ outcome w = [(PDone, HGood 1, HGood 1); (PDone, HGood 1, HGood 1)].
Proof. eexists. split; [vm_compute; reflexivity |]. split; vm_compute; reflexivity. Qed.

(* the hypotheses of the safety theorem are met by these histories: their
   final worlds are reachable *)
Lemma atomic_race_reachable : exists w, reachable w /\ outcome w = [(PDone, HGood 1, HGood 1); (PDone, HGood 1, HGood 1)].
Proof.
  destruct atomic_race_safe as (w & H & _ & O). exists w. split; [exists atomic_race_history; exact H | exact O].
Qed.

Print Assumptions safety_at_completion.
Print Assumptions visible_files_complete.
Print Assumptions check_rejects_stale.
Print Assumptions check_rejects_missing.
Print Assumptions indexing_installs_both.
Print Assumptions legacy_crash_refuted.
Print Assumptions legacy_race_refuted.
Print Assumptions legacy_histories_rejected.
Print Assumptions atomic_crash_safe.
Print Assumptions atomic_race_safe.
Print Assumptions atomic_race_load_safe.
