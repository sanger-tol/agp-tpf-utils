(* Deep cuts: the predicate KK carried to the cuts, the cut stage, and the
   theorem [deep_cut_exact].

   Two abutting baits b1 | b2 (f_end b1 + 1 = f_start b2) of the same input
   scaffold, both overlapping the span of source fragment f in at least three
   error lengths.  Then the completed run stores a result for b1 that ends
   exactly at f_end b1 with a shortened copy of f as its last row, and a
   result for b2 that begins exactly at f_start b2 with a shortened copy of f
   as its first row: f is cut exactly at the bait boundary.  Needs the C02
   repair (fix_swap_keep) so that the keep flags follow the contig strand. *)
From Tola Require Import Py.Base Py.Sort Model.Fragment Model.Scaffold Model.Lookup
  Model.OverlapResult Model.OvrSpec Model.Namer Model.Remap Model.RemapSpec
  Proofs.BaseLemmas Proofs.Rows Proofs.Lookup Proofs.OverlapResult Proofs.RemapHead Proofs.PipelineInv
  Proofs.CoreKeptGood Proofs.CoreKeptResolver Proofs.CoreKeptLookup Proofs.CoreKeptHeld
  Proofs.CoreKeptDeepK Proofs.CoreKept.
From Tola Require Import Proofs.NaturalKey.
From Tola Require Proofs.RemapTail.
From Coq Require Import Lia ZifyBool Permutation Sorted.

#[local] Hint Rewrite rows_len_app rows_len_cons rows_len_nil rows_len_rev : rl.
Lemma bait_index_unique l i j b :
  ForallOrdPairs Rdisj l -> f_start b <= f_end b ->
  nth_error l i = Some b -> nth_error l j = Some b -> i = j.
Proof.
  intros HF Hb Hi Hj. destruct (Nat.eq_dec i j) as [E|N]; [exact E|]. exfalso.
  pose proof (FOP_Rdisj_nth l i j b b HF N Hi Hj eq_refl). lia.
Qed.

Lemma span_unique src a o c a0 f c0 x :
  pos_rows src -> src = a ++ RF o :: c -> src = a0 ++ RF f :: c0 ->
  rows_len a + 1 <= x <= rows_len a + f_len o ->
  rows_len a0 + 1 <= x <= rows_len a0 + f_len f ->
  a = a0 /\ o = f.
Proof.
  intros Hp E1 E2 X1 X2. rewrite E1 in E2.
  destruct (app_eq_app _ _ _ _ E2) as (l & [[Ea Ec] | [Ea Ec]]).
  - destruct l as [|y l'].
    + rewrite app_nil_r in Ea. cbn [app] in Ec. injection Ec as Ec _. split; congruence.
    + exfalso. cbn [app] in Ec. injection Ec as <- _.
      assert (Hl : pos_rows l').
      { rewrite E1, Ea in Hp. apply pos_rows_app in Hp. destruct Hp as [Hp _].
        apply pos_rows_app in Hp. destruct Hp as [_ Hp]. inversion Hp; assumption. }
      pose proof (pos_rows_len_nonneg _ Hl). rewrite Ea in X1. autorewrite with rl in X1.
      cbn [row_len] in X1. lia.
  - destruct l as [|y l'].
    + rewrite app_nil_r in Ea. cbn [app] in Ec. injection Ec as Ec _. split; congruence.
    + exfalso. cbn [app] in Ec. injection Ec as Ey Ec'. subst y.
      assert (Hl : pos_rows l').
      { rewrite E1, Ec' in Hp. apply pos_rows_app in Hp. destruct Hp as [_ Hp].
        inversion Hp as [|? ? _ Hp']; subst.
        apply pos_rows_app in Hp'. destruct Hp' as [Hp' _]. exact Hp'. }
      pose proof (pos_rows_len_nonneg _ Hl). rewrite Ea in X2. autorewrite with rl in X2.
      cbn [row_len] in X2. lia.
Qed.

(* what the C18 invariant says about the last / first row *)
Lemma Inv'_last src r : Inv' src r -> o_rows r <> [] ->
  exists a o c t f1 ls le,
    src = a ++ RF o :: c /\ o_rows r = t ++ [RF f1] /\ trimmed o f1 ls le
    /\ o_end r = rows_len a + f_len o - le.
Proof.
  intros [E | (pre & slice & post & ls & le & Hsrc & Hrel & Hs & He)] Hne; [contradiction|].
  destruct Hrel as [(o & f1 & Esl & Er & Ht) | (o1 & f1 & mid & o2 & f2 & Esl & Er & Ht1 & Ht2 & _)].
  - exists pre, o, post, [], f1, ls, le. subst slice. split; [exact Hsrc|]. split; [exact Er|].
    split; [exact Ht|]. rewrite He, rows_len_single. reflexivity.
  - exists (pre ++ RF o1 :: mid), o2, post, (RF f1 :: mid), f2, 0, le. subst slice. split.
    + rewrite Hsrc. repeat (cbn [app]; rewrite <- app_assoc). reflexivity.
    + split; [exact Er|]. split; [exact Ht2|]. rewrite He. autorewrite with rl. cbn [row_len]. lia.
Qed.

Lemma Inv'_first src r : Inv' src r -> o_rows r <> [] ->
  exists a o c t f1 ls le,
    src = a ++ RF o :: c /\ o_rows r = RF f1 :: t /\ trimmed o f1 ls le
    /\ o_start r = 1 + rows_len a + ls.
Proof.
  intros [E | (pre & slice & post & ls & le & Hsrc & Hrel & Hs & He)] Hne; [contradiction|].
  destruct Hrel as [(o & f1 & Esl & Er & Ht) | (o1 & f1 & mid & o2 & f2 & Esl & Er & Ht1 & Ht2 & _)].
  - exists pre, o, post, [], f1, ls, le. subst slice. split; [exact Hsrc|]. split; [exact Er|].
    split; [exact Ht | exact Hs].
  - exists pre, o1, (mid ++ [RF o2] ++ post), (mid ++ [RF f2]), f1, ls, 0. subst slice. split.
    + rewrite Hsrc. repeat (cbn [app]; rewrite <- app_assoc). reflexivity.
    + split; [exact Er|]. split; [exact Ht1 | exact Hs].
Qed.

(* ... when that row is cut from source row f: how much of f is left *)
Lemma Inv'_last_at src r a0 f c0 :
  pos_rows src -> Inv' src r -> o_rows r <> [] -> src = a0 ++ RF f :: c0 ->
  rows_len a0 + 1 <= o_end r <= rows_len a0 + f_len f ->
  exists t f1 ls, o_rows r = t ++ [RF f1] /\ trimmed f f1 ls (rows_len a0 + f_len f - o_end r).
Proof.
  intros Hp HI Hne E Hx.
  destruct (Inv'_last _ _ HI Hne) as (a & o & c & t & f1 & ls & le & E1 & Er & Tr & Ee).
  pose proof (trimmed_len _ _ _ _ Tr) as [L L']. pose proof Tr as (_ & _ & Z1 & Z2 & _).
  destruct (span_unique src a o c a0 f c0 (o_end r) Hp E1 E ltac:(lia) Hx) as [-> ->].
  exists t, f1, ls. split; [exact Er|].
  replace (rows_len a0 + f_len f - o_end r) with le by lia. exact Tr.
Qed.

Lemma Inv'_first_at src r a0 f c0 :
  pos_rows src -> Inv' src r -> o_rows r <> [] -> src = a0 ++ RF f :: c0 ->
  rows_len a0 + 1 <= o_start r <= rows_len a0 + f_len f ->
  exists t f1 le, o_rows r = RF f1 :: t /\ trimmed f f1 (o_start r - (rows_len a0 + 1)) le.
Proof.
  intros Hp HI Hne E Hx.
  destruct (Inv'_first _ _ HI Hne) as (a & o & c & t & f1 & ls & le & E1 & Er & Tr & Es).
  pose proof (trimmed_len _ _ _ _ Tr) as [L L']. pose proof Tr as (_ & _ & Z1 & Z2 & _).
  destruct (span_unique src a o c a0 f c0 (o_start r) Hp E1 E ltac:(lia) Hx) as [-> ->].
  exists t, f1, le. split; [exact Er|].
  replace (o_start r - (rows_len a0 + 1)) with ls by lia. exact Tr.
Qed.

Lemma first_row_inj r x t y : o_rows r = x :: t -> first_row r = Ok y -> y = x.
Proof. intros E H. rewrite (first_row_cons _ _ _ E) in H. injection H as <-. reflexivity. Qed.

Lemma last_row_inj r t x y : o_rows r = t ++ [x] -> last_row r = Ok y -> y = x.
Proof. intros E H. rewrite (last_row_snoc _ _ _ E) in H. injection H as <-. reflexivity. Qed.

Lemma trim_all_other c t : forall ids st i last st' subs id,
  ~ In id ids -> 0 <= id -> Forall (fun a => 0 <= a) ids ->
  trim_all c st t ids i last = Ok (st', subs) -> get_ovr st' id = get_ovr st id.
Proof.
  induction ids as [|id0 ids IH]; intros st i last st' subs id Hn H0 Hp H; cbn [trim_all] in H.
  - injection H as <- _. reflexivity.
  - cbv zeta in H. bind_inv H r Hr. bind_inv H fr Hfr. destruct fr as [new r'].
    bind_inv H rest Hrest. destruct rest as [st2 subs2]. cbn [fst snd] in H. injection H as <- _.
    inversion Hp as [|? ? Hp0 Hp']; subst.
    rewrite (IH _ _ _ _ _ id) with (1 := fun X => Hn (or_intror X)) (4 := Hrest); [|exact H0 | exact Hp'].
    apply get_put_other; [exact Hp0 | exact H0|]. intros ->. apply Hn. left. reflexivity.
Qed.

Lemma trim_all_at c t : forall ids st i last st' subs j id r,
  NoDup ids -> Forall (fun a => 0 <= a) ids ->
  nth_error ids j = Some id -> get_ovr st id = Ok r ->
  trim_all c st t ids i last = Ok (st', subs) ->
  let i' := i + Z.of_nat j in
  let ks := i' =? 0 in
  let ke := i' =? last in
  let swap := fix_swap_keep c && negb (f_strand t =? 1) in
  exists new r', trim_fragment r t (if swap then ke else ks) (if swap then ks else ke) = Ok (new, r')
                 /\ get_ovr st' id = Ok r'.
Proof.
  induction ids as [|id0 ids IH]; intros st i last st' subs j id r Hnd Hp Hj Hg H; [destruct j; discriminate|].
  cbn [trim_all] in H. cbv zeta in H. bind_inv H r0 Hr0. bind_inv H fr Hfr. destruct fr as [new r'].
  bind_inv H rest Hrest. destruct rest as [st2 subs2]. cbn [fst snd] in H. injection H as <- _.
  inversion Hnd as [|? ? Hn Hnd']; subst. inversion Hp as [|? ? Hp0 Hp']; subst.
  destruct j as [|j]; cbn [nth_error] in Hj.
  - injection Hj as ->. rewrite Hg in Hr0. injection Hr0 as <-. cbv zeta.
    replace (i + Z.of_nat 0) with i by lia. exists new, r'. split; [exact Hfr|].
    rewrite (trim_all_other _ _ _ _ _ _ _ _ id Hn Hp0 Hp' Hrest). eapply get_put_same. exact Hg.
  - assert (Hne : id0 <> id).
    { intros ->. apply Hn. eapply nth_error_In. exact Hj. }
    assert (H0 : 0 <= id).
    { rewrite Forall_forall in Hp'. apply Hp'. eapply nth_error_In. exact Hj. }
    assert (Hg' : get_ovr (put_ovr st id0 r') id = Ok r).
    { rewrite get_put_other by assumption. exact Hg. }
    pose proof (IH _ (i + 1) last _ _ j id r Hnd' Hp' Hj Hg' Hrest) as G. cbv zeta in G.
    cbv zeta. replace (i + Z.of_nat (S j)) with (i + 1 + Z.of_nat j) by lia. exact G.
Qed.

Lemma mapM_keyed_snd {B} (g : rid -> res (B * rid)) :
  (forall id y, g id = Ok y -> snd y = id) ->
  forall ids keyed, mapM g ids = Ok keyed -> map snd keyed = ids.
Proof.
  intros Hg. induction ids as [|id ids IH]; intros keyed H; cbn [mapM] in H.
  - injection H as <-. reflexivity.
  - bind_inv H y Hy. bind_inv H ys Hys. injection H as <-.
    cbn [map]. f_equal; [apply Hg; exact Hy | apply IH; exact Hys].
Qed.

Section DeepCut.
  Variable inp : list (str * list row).
  Variable err : Z.
  Variable all : list frag.
  Hypothesis Hids : NoDup (map f_id (in_frags inp)).
  Hypothesis Hidpos : Forall (fun f => 0 <= f_id f) (in_frags inp).
  Hypothesis Hkeys : NoDup (map key_of (in_frags inp)).
  Hypothesis Hnames : NoDup (map fst inp).
  Hypothesis Hposr : forall name src, In (name, src) inp -> pos_rows src.
  Hypothesis Herr : 1 <= err.
  Hypothesis Hall : Forall (fun b => 1 <= f_start b <= f_end b) all.

  Variables b1 b2 : frag.
  Variable src a0 c0 : list row.
  Variable f : frag.
  Hypothesis Hb1 : In b1 all.
  Hypothesis Hb2 : In b2 all.
  Hypothesis Hname : f_name b1 = f_name b2.
  Hypothesis Habut : f_end b1 + 1 = f_start b2.
  Hypothesis Hsrc : In (f_name b1, src) inp.
  Hypothesis Esrc : src = a0 ++ RF f :: c0.
  Let lo := rows_len a0 + 1.
  Let hi := rows_len a0 + f_len f.
  Hypothesis Hd1 : deep err lo hi b1.
  Hypothesis Hd2 : deep err lo hi b2.

  Definition K1 (r : ovr) : Prop := o_bait r = b1 -> ends_f f lo hi r.
  Definition K2 (r : ovr) : Prop := o_bait r = b2 -> starts_f f lo hi r.
  Definition KK (r : ovr) : Prop := K1 r /\ K2 r.

  Lemma dfacts : lo <= f_end b1 /\ f_start b2 <= hi /\ lo <= hi.
  Proof. destruct Hd1 as (_ & D2 & _ & D4). destruct Hd2 as (_ & _ & D3 & _). lia. Qed.

  Lemma dv1 : 1 <= f_start b1 <= f_end b1.
  Proof. rewrite Forall_forall in Hall. apply Hall. exact Hb1. Qed.

  Lemma dv2 : 1 <= f_start b2 <= f_end b2.
  Proof. rewrite Forall_forall in Hall. apply Hall. exact Hb2. Qed.

  Lemma Hsrc2 : In (f_name b2, src) inp.
  Proof. rewrite <- Hname. exact Hsrc. Qed.

  Lemma src_pos : pos_rows src.
  Proof. eapply Hposr. exact Hsrc. Qed.

  Lemma lo_hi : hi = lo + f_len f - 1.
  Proof. unfold lo, hi. lia. Qed.

  Lemma src_nodup_ids : NoDup (map f_id (frags_of src)).
  Proof. apply (src_nodup_g f_id inp _ _ Hids Hsrc). Qed.

  (* the boundary between the baits lies inside f *)
  Lemma cut_in_f1 : rows_len a0 + 1 <= f_end b1 <= rows_len a0 + f_len f.
  Proof. pose proof dfacts. pose proof dv2. unfold lo, hi in *. lia. Qed.

  Lemma cut_in_f2 : rows_len a0 + 1 <= f_start b2 <= rows_len a0 + f_len f.
  Proof. pose proof dfacts. pose proof dv1. unfold lo, hi in *. lia. Qed.

  Lemma b1_ne_b2 : b1 <> b2.
  Proof. intros E. pose proof dv1. rewrite E in *. lia. Qed.

  Lemma f_in_inp : In f (in_frags inp).
  Proof.
    unfold in_frags. apply in_flat_map. exists (f_name b1, src). split; [exact Hsrc|]. cbn [snd].
    apply In_frags_of_iff. rewrite Esrc. apply in_or_app. right. left. reflexivity.
  Qed.

  Lemma dfid : 0 <= f_id f.
  Proof. rewrite Forall_forall in Hidpos. apply Hidpos. exact f_in_inp. Qed.

  Lemma KK_ext r r' :
    o_bait r' = o_bait r -> o_rows r' = o_rows r -> o_start r' = o_start r -> o_end r' = o_end r ->
    KK r -> KK r'.
  Proof. intros E0 E1 E2 E3. unfold KK, K1, K2, ends_f, starts_f. rewrite E0, E1, E2, E3. tauto. Qed.

  Lemma K1_init fo :
    lookup_spec src (f_start b1) (f_end b1) (Some fo) -> K1 (ovr_of_found b1 fo).
  Proof.
    intros Hl _. pose proof dfacts as (F1 & F2 & _). pose proof dv1 as V1.
    apply (lookup_ends_f src b1 fo a0 f c0 src_pos src_nodup_ids Esrc); [lia | unfold lo, hi in *; lia | exact Hl].
  Qed.

  Lemma K2_init fo :
    lookup_spec src (f_start b2) (f_end b2) (Some fo) -> K2 (ovr_of_found b2 fo).
  Proof.
    intros Hl _. pose proof dfacts as (F1 & F2 & _). pose proof dv2 as V2.
    apply (lookup_starts_f src b2 fo a0 f c0 src_pos src_nodup_ids Esrc); [lia | unfold lo, hi in *; lia | exact Hl].
  Qed.

  Lemma KK_init bait rows fo :
    In bait all -> In (f_name bait, rows) inp ->
    lookup_spec rows (f_start bait) (f_end bait) (Some fo) -> KK (ovr_of_found bait fo).
  Proof.
    intros Hb Hin Hl. split.
    - intros E. cbn [ovr_of_found o_bait] in E. subst bait.
      rewrite (NoDup_fst_inj inp _ _ _ Hnames Hin Hsrc) in Hl. apply K1_init; [exact Hl | reflexivity].
    - intros E. cbn [ovr_of_found o_bait] in E. subst bait.
      rewrite (NoDup_fst_inj inp _ _ _ Hnames Hin Hsrc2) in Hl. apply K2_init; [exact Hl | reflexivity].
  Qed.

  Lemma same_name_src src' r :
    (o_bait r = b1 \/ o_bait r = b2) -> In (f_name (o_bait r), src') inp -> src' = src.
  Proof.
    intros [E | E] Hin; rewrite E in Hin.
    - apply (NoDup_fst_inj inp _ _ _ Hnames Hin Hsrc).
    - apply (NoDup_fst_inj inp _ _ _ Hnames Hin Hsrc2).
  Qed.

  (* b1's result may lose its start side but never its last row f; b2's
     result may lose its end side but never its first row f *)
  Lemma KK_ds src' r r' :
    In (o_bait r) all -> In (f_name (o_bait r), src') inp -> GoodU err src' r -> KK r ->
    just_start err r -> discard_start r = Ok r' -> KK r'.
  Proof.
    intros _ Hin HG [H1 H2] Hj Hd. destruct (discard_start_bait _ _ Hd) as [B _].
    split; intros Eb; rewrite B in Eb.
    - rewrite (same_name_src src' r (or_introl Eb) Hin) in HG.
      refine (ends_f_ds err src f lo hi Herr src_pos src_nodup_ids lo_hi r r' HG _ (H1 Eb) Hj Hd).
      rewrite Eb. exact Hd1.
    - rewrite (same_name_src src' r (or_intror Eb) Hin) in HG. exfalso.
      refine (starts_f_no_ds err src f lo hi Herr src_pos src_nodup_ids lo_hi r HG _ (H2 Eb) Hj).
      rewrite Eb. exact Hd2.
  Qed.

  Lemma KK_de src' r r' :
    In (o_bait r) all -> In (f_name (o_bait r), src') inp -> GoodU err src' r -> KK r ->
    just_end err r -> discard_end r = Ok r' -> KK r'.
  Proof.
    intros _ Hin HG [H1 H2] Hj Hd. destruct (discard_end_bait _ _ Hd) as [B _].
    split; intros Eb; rewrite B in Eb.
    - rewrite (same_name_src src' r (or_introl Eb) Hin) in HG. exfalso.
      refine (ends_f_no_de err src f lo hi Herr src_pos src_nodup_ids lo_hi r HG _ (H1 Eb) Hj).
      rewrite Eb. exact Hd1.
    - rewrite (same_name_src src' r (or_intror Eb) Hin) in HG.
      refine (starts_f_de err src f lo hi Herr src_pos src_nodup_ids lo_hi r r' HG _ (H2 Eb) Hj Hd).
      rewrite Eb. exact Hd2.
  Qed.

  (* both baits meet the row of f, so both get a stored result *)
  Lemma must_b1 : must inp b1.
  Proof.
    destruct (split_span _ _ _ _ Esrc) as (Hk & Hks & Hke). cbn [row_len] in Hke.
    pose proof dfacts as (F1 & F2 & F3). pose proof dv1. pose proof dv2.
    exists src, (length a0). split; [exact Hsrc|]. split; [exists f; exact Hk|].
    unfold meets, lo, hi in *. lia.
  Qed.

  Lemma must_b2 : must inp b2.
  Proof.
    destruct (split_span _ _ _ _ Esrc) as (Hk & Hks & Hke). cbn [row_len] in Hke.
    pose proof dfacts as (F1 & F2 & F3). pose proof dv1. pose proof dv2.
    exists src, (length a0). split; [exact Hsrc2|]. split; [exists f; exact Hk|].
    unfold meets, lo, hi in *. lia.
  Qed.

  Lemma K1_tf_other r t ks ke new r' :
    f_id t <> f_id f -> K1 r -> trim_fragment r t ks ke = Ok (new, r') -> K1 r'.
  Proof.
    intros Hne HK H Eb.
    destruct (trim_fragment_inv2 _ _ _ _ _ _ H) as (r0 & rl & Hr0 & Hrl & Hor & Hneg & Erows & B & Es & Ee).
    rewrite B in Eb. destruct (HK Eb) as (He & Hshape). pose proof dfid as Hfid.
    assert (Hrf : row_is (RF f) t = false) by (cbn [row_is]; lia).
    destruct Hshape as [[Er Est] | (g & t' & Er & Hg)].
    - exfalso. rewrite (first_row_inj _ _ _ _ Er Hr0) in Hor.
      rewrite (last_row_inj r [] _ _ Er Hrl) in Hor. rewrite Hrf in Hor. discriminate.
    - change (RF g :: t' ++ [RF f]) with ((RF g :: t') ++ [RF f]) in Er.
      pose proof (last_row_inj _ _ _ _ Er Hrl) as El. subst rl. rewrite Hrf in *. cbn [andb] in Ee.
      split; [rewrite Ee; exact He|]. right. exists new, t'. rewrite Erows, Er. cbn [app set_nth].
      split; [reflexivity | lia].
  Qed.

  Lemma K2_tf_other r t ks ke new r' :
    f_id t <> f_id f -> K2 r -> trim_fragment r t ks ke = Ok (new, r') -> K2 r'.
  Proof.
    intros Hne HK H Eb.
    destruct (trim_fragment_inv2 _ _ _ _ _ _ H) as (r0 & rl & Hr0 & Hrl & Hor & Hneg & Erows & B & Es & Ee).
    rewrite B in Eb. destruct (HK Eb) as (Hs & Hshape). pose proof dfid as Hfid.
    assert (Hrf : row_is (RF f) t = false) by (cbn [row_is]; lia).
    destruct Hshape as [[Er Een] | (t' & g & Er & Hg)].
    - exfalso. rewrite (first_row_inj _ _ _ _ Er Hr0) in Hor.
      rewrite (last_row_inj r [] _ _ Er Hrl) in Hor. rewrite Hrf in Hor. discriminate.
    - pose proof (first_row_inj _ _ _ _ Er Hr0) as E0. subst r0. rewrite Hrf in *. cbn [andb orb] in Es, Hor.
      split; [rewrite Es; exact Hs|]. right. exists t', new. rewrite Erows, Hor, Er.
      change (RF f :: t' ++ [RF g]) with ((RF f :: t') ++ [RF g]). rewrite set_last_snoc.
      split; [reflexivity | lia].
  Qed.

  Lemma KK_tf_other r t ks ke new r' :
    f_id t <> f_id f -> KK r -> trim_fragment r t ks ke = Ok (new, r') -> KK r'.
  Proof. intros Hne [H1 H2] H. split; [eapply K1_tf_other | eapply K2_tf_other]; eassumption. Qed.

  Lemma K1_tf_f r ks new r' :
    o_bait r = b1 -> K1 r -> trim_fragment r f ks false = Ok (new, r') ->
    o_bait r' = b1 /\ o_rows r' <> [] /\ o_end r' = f_end b1.
  Proof.
    intros Eb HK H.
    destruct (trim_fragment_inv2 _ _ _ _ _ _ H) as (r0 & rl & Hr0 & Hrl & Hor & Hneg & Erows & B & Es & Ee).
    destruct (trim_fragment_facts _ _ _ _ _ _ H) as (_ & Hne & _).
    destruct (HK Eb) as (He & Hshape). pose proof dfacts as (F1 & F2 & F3). pose proof dv2. unfold lo, hi in *.
    destruct (ends_f_last _ _ _ _ (HK Eb)) as (t & Er). pose proof (last_row_inj _ _ _ _ Er Hrl) as El. subst rl.
    split; [congruence|]. split; [exact Hne|].
    rewrite Ee, Eb, He. cbn [row_is]. rewrite Z.eqb_refl. cbn [andb negb].
    replace (rows_len a0 + f_len f - f_end b1 >? 0) with true by lia. cbn [andb]. lia.
  Qed.

  Lemma K2_tf_f r ke new r' :
    o_bait r = b2 -> K2 r -> trim_fragment r f false ke = Ok (new, r') ->
    o_bait r' = b2 /\ o_rows r' <> [] /\ o_start r' = f_start b2.
  Proof.
    intros Eb HK H.
    destruct (trim_fragment_inv2 _ _ _ _ _ _ H) as (r0 & rl & Hr0 & Hrl & Hor & Hneg & Erows & B & Es & Ee).
    destruct (trim_fragment_facts _ _ _ _ _ _ H) as (_ & Hne & _).
    destruct (HK Eb) as (Hs & Hshape). pose proof dfacts as (F1 & F2 & F3). pose proof dv1. unfold lo, hi in *.
    destruct (starts_f_first _ _ _ _ (HK Eb)) as (t & Er). pose proof (first_row_inj _ _ _ _ Er Hr0) as E0. subst r0.
    split; [congruence|]. split; [exact Hne|].
    rewrite Es. unfold start_overhang. rewrite Eb, Hs. cbn [row_is]. rewrite Z.eqb_refl. cbn [andb negb].
    replace (f_start b2 - (rows_len a0 + 1) >? 0) with true by lia. cbn [andb]. lia.
  Qed.

  (* the sort keys put b1's result on the side of f that faces the scaffold
     start *)
  Lemma keys_order r1 r2 kk1 kk2 :
    o_bait r1 = b1 -> K1 r1 -> o_bait r2 = b2 -> K2 r2 ->
    fragment_start_if_trimmed r1 f = Ok kk1 -> fragment_start_if_trimmed r2 f = Ok kk2 ->
    if f_strand f =? 1 then kk1 < kk2 else kk2 < kk1.
  Proof.
    intros E1 HK1 E2 HK2 Hk1 Hk2.
    destruct (HK1 E1) as (He1 & Sh1). destruct (HK2 E2) as (Hs2 & Sh2).
    pose proof dfacts as (F1 & F2 & F3). pose proof dv1. pose proof dv2. unfold lo, hi in *.
    unfold fragment_start_if_trimmed in Hk1, Hk2. destruct (f_strand f =? 1).
    - bind_inv Hk1 x1 Hx1. bind_inv Hk2 x2 Hx2. injection Hk1 as <-. injection Hk2 as <-.
      destruct (starts_f_first _ _ _ _ (HK2 E2)) as (t2 & Er2).
      pose proof (first_row_inj _ _ _ _ Er2 Hx2) as X2. subst x2. cbn [row_is]. rewrite Z.eqb_refl. unfold start_overhang. rewrite E2, Hs2.
      destruct Sh1 as [[Er Es] | (g & t' & Er & Hg)].
      + pose proof (first_row_inj _ _ _ _ Er Hx1) as X1. subst x1. cbn [row_is]. rewrite Z.eqb_refl.
        rewrite E1, Es. lia.
      + pose proof (first_row_inj _ _ _ _ Er Hx1) as X1. subst x1. cbn [row_is].
        replace (f_id g =? f_id f) with false by lia. lia.
    - bind_inv Hk1 x1 Hx1. bind_inv Hk2 x2 Hx2. injection Hk1 as <-. injection Hk2 as <-.
      destruct (ends_f_last _ _ _ _ (HK1 E1)) as (t1 & Er1).
      pose proof (last_row_inj _ _ _ _ Er1 Hx1) as X1. subst x1. cbn [row_is]. rewrite Z.eqb_refl. unfold end_overhang. rewrite E1, He1.
      destruct Sh2 as [[Er Ee] | (t' & g & Er & Hg)].
      + pose proof (last_row_inj r2 [] _ _ Er Hx2) as X2. subst x2. cbn [row_is]. rewrite Z.eqb_refl.
        rewrite E2, Ee. lia.
      + pose proof (last_row_inj r2 (RF f :: t') _ _ Er Hx2) as X2. subst x2. cbn [row_is].
        replace (f_id g =? f_id f) with false by lia. lia.
  Qed.

  Lemma cut_f c b b' ids id1 id2 r1 r2 :
    fix_swap_keep c = true ->
    aget key_eqb (b_found b) (key_of f) = Some (f, ids) ->
    NoDup ids -> Forall (fun a => 0 <= a) ids -> In id1 ids -> In id2 ids -> id1 <> id2 ->
    get_ovr (b_store b) id1 = Ok r1 -> o_bait r1 = b1 -> K1 r1 ->
    get_ovr (b_store b) id2 = Ok r2 -> o_bait r2 = b2 -> K2 r2 ->
    cut_fragments c b (key_of f) = Ok b' ->
    exists r1' r2',
      get_ovr (b_store b') id1 = Ok r1' /\ o_bait r1' = b1 /\ o_rows r1' <> [] /\ o_end r1' = f_end b1
      /\ get_ovr (b_store b') id2 = Ok r2' /\ o_bait r2' = b2 /\ o_rows r2' <> [] /\ o_start r2' = f_start b2.
  Proof.
    intros Hfix Hag Hnd Hp Hi1 Hi2 Hne Hg1 E1 HK1 Hg2 E2 HK2 H.
    unfold cut_fragments in H. rewrite Hag in H.
    bind_inv H keyed Hkeyed. bind_inv H r Hr. destruct r as [st subs]. bind_inv H u Hu.
    injection H as <-. cbn [b_store].
    set (sorted := sort_by_Z fst keyed) in *. set (ordered := map snd sorted) in *.
    assert (Hsnd : map snd keyed = ids).
    { eapply mapM_keyed_snd; [|exact Hkeyed]. intros id y Hy. cbv beta in Hy.
      bind_inv Hy r' Hr'. bind_inv Hy s0 Hs0. injection Hy as <-. reflexivity. }
    assert (Hperm : Permutation ordered ids).
    { unfold ordered, sorted. rewrite <- Hsnd. apply Permutation_map. apply RemapTail.ssort_perm. }
    assert (Hnd' : NoDup ordered) by (eapply Permutation_NoDup; [apply Permutation_sym; exact Hperm | exact Hnd]).
    assert (Hp' : Forall (fun a => 0 <= a) ordered).
    { eapply Permutation_Forall; [apply Permutation_sym; exact Hperm | exact Hp]. }
    assert (Ho1 : In id1 ordered) by (eapply Permutation_in; [apply Permutation_sym; exact Hperm | exact Hi1]).
    assert (Ho2 : In id2 ordered) by (eapply Permutation_in; [apply Permutation_sym; exact Hperm | exact Hi2]).
    apply In_nth_error in Ho1. destruct Ho1 as (j1 & Hj1).
    apply In_nth_error in Ho2. destruct Ho2 as (j2 & Hj2).
    assert (Hkey : forall j id r0, nth_error ordered j = Some id -> get_ovr (b_store b) id = Ok r0 ->
              exists kk, nth_error sorted j = Some (kk, id) /\ fragment_start_if_trimmed r0 f = Ok kk).
    { intros j id r0 Hj Hg. unfold ordered in Hj. rewrite nth_error_map in Hj.
      destruct (nth_error sorted j) as [[kk id']|] eqn:En; [|discriminate]. cbn [option_map snd] in Hj.
      injection Hj as ->. exists kk. split; [reflexivity|].
      assert (Hin : In (kk, id) keyed).
      { apply (In_stable_sort (fun x y => fst x <=? fst y)). eapply nth_error_In. exact En. }
      destruct (mapM_In _ _ _ Hkeyed _ Hin) as (id0 & _ & Hf0).
      bind_inv Hf0 r' Hr'. bind_inv Hf0 s0 Hs0. injection Hf0 as <- <-.
      rewrite Hg in Hr'. injection Hr' as <-. exact Hs0. }
    destruct (Hkey _ _ _ Hj1 Hg1) as (kk1 & Hs1 & Hk1).
    destruct (Hkey _ _ _ Hj2 Hg2) as (kk2 & Hs2 & Hk2).
    pose proof (keys_order _ _ _ _ E1 HK1 E2 HK2 Hk1 Hk2) as Hord.
    assert (Hss : StronglySorted (fun a b : Z * rid => (fst a <=? fst b) = true) sorted).
    { unfold sorted, sort_by_Z.
      apply (stable_sort_sorted (@fst Z rid) Z.leb); intros; lia. }
    assert (Hj12 : j1 <> j2).
    { intros ->. rewrite Hj1 in Hj2. injection Hj2 as Hj2. contradiction. }
    assert (Hlen1 : (j1 < length ordered)%nat) by (apply nth_error_Some; congruence).
    assert (Hlen2 : (j2 < length ordered)%nat) by (apply nth_error_Some; congruence).
    destruct (trim_all_at c f _ _ 0 _ _ _ j1 id1 r1 Hnd' Hp' Hj1 Hg1 Hr) as (new1 & r1' & Ht1 & Hg1').
    destruct (trim_all_at c f _ _ 0 _ _ _ j2 id2 r2 Hnd' Hp' Hj2 Hg2 Hr) as (new2 & r2' & Ht2 & Hg2').
    cbv zeta in Ht1, Ht2. rewrite Hfix in Ht1, Ht2. cbn [andb] in Ht1, Ht2.
    exists r1', r2'.
    destruct (f_strand f =? 1) eqn:Estr; cbn [negb] in Ht1, Ht2.
    - (* forward: b1's piece comes first *)
      assert (Hlt : (j1 < j2)%nat).
      { destruct (lt_dec j1 j2) as [L|L]; [exact L|]. exfalso.
        pose proof (SS_nth _ _ Hss j2 j1 _ _ ltac:(lia) Hs2 Hs1) as X. cbn [fst] in X. lia. }
      replace (0 + Z.of_nat j1 =? zlen ordered - 1) with false in Ht1 by (unfold zlen; lia).
      replace (0 + Z.of_nat j2 =? 0) with false in Ht2 by lia.
      destruct (K1_tf_f _ _ _ _ E1 HK1 Ht1) as (A1 & A2 & A3).
      destruct (K2_tf_f _ _ _ _ E2 HK2 Ht2) as (B1 & B2 & B3).
      repeat split; assumption.
    - (* reverse: b2's piece comes first, and the flags are swapped *)
      assert (Hlt : (j2 < j1)%nat).
      { destruct (lt_dec j2 j1) as [L|L]; [exact L|]. exfalso.
        pose proof (SS_nth _ _ Hss j1 j2 _ _ ltac:(lia) Hs1 Hs2) as X. cbn [fst] in X. lia. }
      replace (0 + Z.of_nat j1 =? 0) with false in Ht1 by lia.
      replace (0 + Z.of_nat j2 =? zlen ordered - 1) with false in Ht2 by (unfold zlen; lia).
      destruct (K1_tf_f _ _ _ _ E1 HK1 Ht1) as (A1 & A2 & A3).
      destruct (K2_tf_f _ _ _ _ E2 HK2 Ht2) as (B1 & B2 & B3).
      repeat split; assumption.
  Qed.

  Definition found_ok (found : list (fkey * (frag * list rid))) : Prop :=
    forall k t ids, aget key_eqb found k = Some (t, ids) -> key_of t = k /\ In t (in_frags inp).

  Lemma Inv_found_ok b : RemapHead.Inv inp b -> found_ok (b_found b).
  Proof.
    intros (_ & _ & (_ & _ & HF & _) & _) k t ids E.
    apply (aget_In key_eqb key_eqb_eq) in E. rewrite Forall_forall in HF.
    destruct (HF _ E) as (K1 & K2 & _). split; [exact K1 | exact K2].
  Qed.

  Lemma cut_other c b k b' :
    k <> key_of f -> found_ok (b_found b) -> PS KK (b_store b) ->
    cut_fragments c b k = Ok b' -> PS KK (b_store b') /\ b_found b' = b_found b.
  Proof.
    intros Hk Hfo HS H. unfold cut_fragments in H.
    destruct (aget key_eqb (b_found b) k) as [[t ids]|] eqn:E; [|discriminate].
    bind_inv H keyed Hkeyed. bind_inv H r Hr. destruct r as [st subs].
    bind_inv H u Hu. injection H as <-. cbn [b_store b_found]. split; [|reflexivity].
    destruct (Hfo _ _ _ E) as [Ekt Hin].
    assert (Hne : f_id t <> f_id f).
    { intros Eid. apply Hk. rewrite <- Ekt. f_equal. apply (id_inj inp Hids); [exact Hin | exact f_in_inp | exact Eid]. }
    eapply (trim_all_PS KK c t); [|exact HS | exact Hr].
    intros r0 ks ke new r'. apply KK_tf_other. exact Hne.
  Qed.

  Lemma phase1 c : forall ks b b',
    (forall k, In k ks -> k <> key_of f) -> found_ok (b_found b) -> PS KK (b_store b) ->
    foldM (cut_fragments c) ks b = Ok b' ->
    PS KK (b_store b') /\ b_found b' = b_found b
    /\ map o_bait (b_store b') = map o_bait (b_store b).
  Proof.
    induction ks as [|k ks IH]; intros b b' Hks Hfo HS H; cbn [foldM] in H.
    - injection H as <-. split; [exact HS|]. split; reflexivity.
    - bind_inv H s1 Hs1.
      destruct (cut_other c b k s1 (Hks k (or_introl eq_refl)) Hfo HS Hs1) as [HS1 Ef1].
      pose proof (cut_fragments_baits _ _ _ _ Hs1) as Eb1.
      destruct (IH s1 b') as (G1 & G2 & G3); [intros k' Hk'; apply Hks; right; exact Hk' | rewrite Ef1; exact Hfo | exact HS1 | exact H|].
      split; [exact G1|]. split; congruence.
  Qed.

  Definition Post1 (r : ovr) : Prop := o_bait r = b1 -> o_rows r <> [] /\ o_end r = f_end b1.
  Definition Post2 (r : ovr) : Prop := o_bait r = b2 -> o_rows r <> [] /\ o_start r = f_start b2.
  Definition PostK (r : ovr) : Prop := Post1 r /\ Post2 r.

  Lemma PostK_tf r t ks ke new r' :
    PostK r -> trim_fragment r t ks ke = Ok (new, r') -> PostK r'.
  Proof.
    intros [H1 H2] H. destruct (trim_fragment_facts _ _ _ _ _ _ H) as (B & Hne & Hs & He). split.
    - intros Eb. rewrite B in Eb. destruct (H1 Eb) as [_ E]. split; [exact Hne|]. rewrite Eb in He. lia.
    - intros Eb. rewrite B in Eb. destruct (H2 Eb) as [_ E]. split; [exact Hne|]. rewrite Eb in Hs. lia.
  Qed.

  Lemma phase3 c : forall ks b b',
    PS PostK (b_store b) -> foldM (cut_fragments c) ks b = Ok b' -> PS PostK (b_store b').
  Proof.
    induction ks as [|k ks IH]; intros b b' HS H; cbn [foldM] in H.
    - injection H as <-. exact HS.
    - bind_inv H s1 Hs1. eapply IH; [|exact H]. unfold cut_fragments in Hs1.
      destruct (aget key_eqb (b_found b) k) as [[t ids]|] eqn:E; [|discriminate].
      bind_inv Hs1 keyed Hkeyed. bind_inv Hs1 r Hr. destruct r as [st subs].
      bind_inv Hs1 u Hu. injection Hs1 as <-. cbn [b_store].
      eapply (trim_all_PS PostK c t); [|exact HS | exact Hr].
      intros r0 ks0 ke new r'. apply PostK_tf.
  Qed.

  Lemma two_in_length {A} (l : list A) x y : In x l -> In y l -> x <> y -> (2 <= length l)%nat.
  Proof.
    intros Hx Hy Hne. destruct l as [|a [|b l]]; cbn [length]; [destruct Hx | | lia].
    destruct Hx as [<- | []]. destruct Hy as [<- | []]. contradiction.
  Qed.

  Lemma nth_map_bait st n b : nth_error (map o_bait st) n = Some b ->
    exists r, nth_error st n = Some r /\ o_bait r = b /\ get_ovr st (Z.of_nat n) = Ok r.
  Proof.
    rewrite nth_error_map. destruct (nth_error st n) as [r|] eqn:E; [|discriminate].
    cbn [option_map]. intros H. injection H as <-. exists r. split; [reflexivity|]. split; [reflexivity|].
    unfold get_ovr. rewrite Nat2Z.id, E. reflexivity.
  Qed.

  (* b1's and b2's results both hold f, so f's key is in b_multi: the fold
     keeps KK up to that key, cuts f there, and keeps PostK from then on *)
  Lemma cuts_post c b b' n1 n2 :
    fix_swap_keep c = true ->
    RemapHead.Inv inp b -> NDI (b_found b) -> Held (b_store b) (b_found b) ->
    PS KK (b_store b) -> ForallOrdPairs Rdisj (map o_bait (b_store b)) ->
    nth_error (map o_bait (b_store b)) n1 = Some b1 ->
    nth_error (map o_bait (b_store b)) n2 = Some b2 ->
    foldM (cut_fragments c) (b_multi b) b = Ok b' ->
    PS PostK (b_store b').
  Proof.
    intros Hfix HI Hnd HH HK HF Hn1 Hn2 Hfold.
    pose proof dv1 as V1. pose proof dv2 as V2.
    assert (Hn12 : n1 <> n2).
    { intros ->. rewrite Hn1 in Hn2. injection Hn2 as E. exact (b1_ne_b2 E). }
    set (id1 := Z.of_nat n1). set (id2 := Z.of_nat n2).
    assert (Hidne : id1 <> id2) by (unfold id1, id2; lia).
    assert (P1 : 0 <= id1) by (unfold id1; lia). assert (P2 : 0 <= id2) by (unfold id2; lia).
    destruct (nth_map_bait _ _ _ Hn1) as (q1 & Hq1 & Eq1 & Gq1).
    destruct (nth_map_bait _ _ _ Hn2) as (q2 & Hq2 & Eq2 & Gq2).
    pose proof (HK q1 (nth_error_In _ _ Hq1)) as [KQ1 _].
    pose proof (HK q2 (nth_error_In _ _ Hq2)) as [_ KQ2].
    assert (Hf1 : In (RF f) (o_rows q1)).
    { destruct (ends_f_last _ _ _ _ (KQ1 Eq1)) as (t & ->). apply in_or_app. right. left. reflexivity. }
    assert (Hf2 : In (RF f) (o_rows q2)).
    { destruct (starts_f_first _ _ _ _ (KQ2 Eq2)) as (t & ->). left. reflexivity. }
    destruct (HH id1 q1 f P1 Gq1 Hf1) as (f0 & ids & Hag & Hi1).
    destruct (HH id2 q2 f P2 Gq2 Hf2) as (f0' & ids' & Hag' & Hi2).
    rewrite Hag in Hag'. injection Hag' as <- <-.
    pose proof HI as (_ & IA & (_ & FM & F3 & _) & _).
    pose proof (aget_In key_eqb key_eqb_eq _ _ _ Hag) as Hent.
    rewrite Forall_forall in F3. destruct (F3 _ Hent) as (K1e & K2e & K3e & _ & K5e).
    cbn [fst snd] in K1e, K2e, K3e, K5e.
    assert (Ef0 : f0 = f) by (eapply (NoDup_map_inj key_of); [exact Hkeys | exact K2e | exact f_in_inp | exact K1e]).
    subst f0.
    assert (Hkm : In (key_of f) (b_multi b)).
    { apply K5e. eapply two_in_length; [exact Hi1 | exact Hi2 | exact Hidne]. }
    assert (Hpos : Forall (fun a => 0 <= a) ids).
    { apply Forall_forall. intros a Ha. apply K3e in Ha. pose proof (AddedOk_pos _ _ IA) as Hp.
      rewrite Forall_forall in Hp. apply Hp. exact Ha. }
    assert (Hndids : NoDup ids).
    { unfold NDI in Hnd. rewrite Forall_forall in Hnd. apply (Hnd _ Hent). }
    apply in_split in Hkm. destruct Hkm as (ks1 & ks2 & Em).
    rewrite Em in FM, Hfold.
    assert (Hk1 : forall k, In k ks1 -> k <> key_of f).
    { intros k Hk ->. apply NoDup_remove_2 in FM. apply FM. apply in_or_app. left. exact Hk. }
    rewrite foldM_app in Hfold. bind_inv Hfold s1 Hs1. rename Hfold into Hrest. cbn [foldM] in Hrest.
    bind_inv Hrest s2 Hs2.
    destruct (phase1 c ks1 b s1 Hk1 (Inv_found_ok _ HI) HK Hs1) as (PK1 & Ef1 & Eb1).
    rewrite <- Eb1 in Hn1, Hn2, HF.
    destruct (nth_map_bait _ _ _ Hn1) as (r1 & Hr1 & Er1 & Gr1).
    destruct (nth_map_bait _ _ _ Hn2) as (r2 & Hr2 & Er2 & Gr2).
    pose proof (PK1 r1 (nth_error_In _ _ Hr1)) as [KR1 _].
    pose proof (PK1 r2 (nth_error_In _ _ Hr2)) as [_ KR2].
    rewrite <- Ef1 in Hag.
    destruct (cut_f c s1 s2 ids id1 id2 r1 r2 Hfix Hag Hndids Hpos Hi1 Hi2 Hidne Gr1 Er1 KR1 Gr2 Er2 KR2 Hs2)
      as (r1' & r2' & G1 & A1 & A2 & A3 & G2 & B1 & B2 & B3).
    rewrite <- (cut_fragments_baits _ _ _ _ Hs2) in Hn1, Hn2, HF.
    apply (phase3 c ks2 s2 b'); [|exact Hrest].
    intros r Hr. apply In_nth_error in Hr. destruct Hr as (n & Hn).
    assert (Hnb : nth_error (map o_bait (b_store s2)) n = Some (o_bait r)).
    { rewrite nth_error_map, Hn. reflexivity. }
    split; intros Eb; rewrite Eb in Hnb.
    - assert (n = n1) by (eapply (bait_index_unique _ n n1 b1 HF); [exact (proj2 V1) | exact Hnb | exact Hn1]).
      subst n. unfold get_ovr, id1 in G1. rewrite Nat2Z.id, Hn in G1. injection G1 as <-.
      split; assumption.
    - assert (n = n2) by (eapply (bait_index_unique _ n n2 b2 HF); [exact (proj2 V2) | exact Hnb | exact Hn2]).
      subst n. unfold get_ovr, id2 in G2. rewrite Nat2Z.id, Hn in G2. injection G2 as <-.
      split; assumption.
  Qed.

  (* what the C18 invariant then says of the row cut from f *)
  Lemma cut_row_b1 x :
    PC inp err all x -> PostK x -> o_bait x = b1 ->
    exists t1 f1 ls, o_rows x = t1 ++ [RF f1] /\ o_end x = f_end b1 /\ trimmed f f1 ls (hi - f_end b1).
  Proof.
    intros (_ & s' & Hs' & (HIv & _) & _) (PO & _) Ex. destruct (PO Ex) as (Ne & Ee).
    rewrite Ex in Hs'. rewrite (NoDup_fst_inj inp _ _ _ Hnames Hs' Hsrc) in HIv.
    destruct (Inv'_last_at src x a0 f c0 (Hposr _ _ Hsrc) HIv Ne Esrc) as (t1 & f1 & ls & Er & Tr).
    { rewrite Ee. exact cut_in_f1. }
    rewrite Ee in Tr. exists t1, f1, ls. split; [exact Er|]. split; [exact Ee | exact Tr].
  Qed.

  Lemma cut_row_b2 x :
    PC inp err all x -> PostK x -> o_bait x = b2 ->
    exists t2 f2 le, o_rows x = RF f2 :: t2 /\ o_start x = f_start b2 /\ trimmed f f2 (f_start b2 - lo) le.
  Proof.
    intros (_ & s' & Hs' & (HIv & _) & _) (_ & PO) Ex. destruct (PO Ex) as (Ne & Es).
    rewrite Ex, <- Hname in Hs'. rewrite (NoDup_fst_inj inp _ _ _ Hnames Hs' Hsrc) in HIv.
    destruct (Inv'_first_at src x a0 f c0 (Hposr _ _ Hsrc) HIv Ne Esrc) as (t2 & f2 & le & Er & Tr).
    { rewrite Es. exact cut_in_f2. }
    rewrite Es in Tr. exists t2, f2, le. split; [exact Er|]. split; [exact Es | exact Tr].
  Qed.

  Lemma deep_cut_stages c fuel pretext nm b1s b2s b3s idsr st :
    fix_swap_keep c = true ->
    LInv inp err all KK (mkB [] [] [] [] nm 0) (baits pretext) ->
    foldM (one_pretext_scaffold inp err) pretext (mkB [] [] [] [] nm 0) = Ok b1s ->
    discard_loop fuel err b1s = Ok b2s ->
    cut_remaining_overhangs c b2s = Ok b3s ->
    rename_results (b_store b3s) idsr = Ok st ->
    exists r1 r2 t1 f1 f2 t2 ls le,
      In r1 st /\ In r2 st /\ o_bait r1 = b1 /\ o_bait r2 = b2
      /\ o_rows r1 = t1 ++ [RF f1] /\ o_rows r2 = RF f2 :: t2
      /\ o_end r1 = f_end b1 /\ o_start r2 = f_start b2
      /\ trimmed f f1 ls (hi - f_end b1) /\ trimmed f f2 (f_start b2 - lo) le.
  Proof.
    intros Hfix HL0 Hs1 Hd Hc Hrn.
    pose proof (pretext_LInv inp err all Hkeys Hnames Hposr Herr Hall KK KK_ext KK_ds KK_de KK_init
                  _ _ _ HL0 Hs1) as (HI1 & HS1 & HF1 & _ & Hnd1 & _ & HK1 & Ht1).
    pose proof (pretext_Held _ _ _ (mkB [] [] [] [] nm 0) _ (Held_nil _) Hs1) as HH1.
    rewrite app_nil_r in HF1. unfold SB in HF1.
    destruct (discard_loop_plus inp err all Hids Hkeys Hposr Herr Hall KK KK_ds KK_de _ _ _
                HI1 HS1 HF1 Hnd1 HK1 HH1 Hd) as (HI2 & HS2 & HB2 & HK2 & HH2 & Hnd2).
    rewrite <- HB2 in HF1.
    (* both baits meet f, so both have a result *)
    assert (Hin1 : In b1 (map o_bait (b_store b2s))).
    { rewrite HB2. destruct (Ht1 b1 Hb1) as [[] | X]; [|exact X].
      exact must_b1. }
    assert (Hin2 : In b2 (map o_bait (b_store b2s))).
    { rewrite HB2. destruct (Ht1 b2 Hb2) as [[] | X]; [|exact X].
      exact must_b2. }
    destruct (later_stages_PC inp err all Hids Hidpos Hposr Herr c b2s b3s _ st HI2 HS2 Hc Hrn)
      as (QPC & EB).
    pose proof Hin1 as Hst1. pose proof Hin2 as Hst2. rewrite <- EB in Hst1, Hst2.
    apply In_nth_error in Hin1. destruct Hin1 as (n1 & Hn1).
    apply In_nth_error in Hin2. destruct Hin2 as (n2 & Hn2).
    unfold cut_remaining_overhangs in Hc. bind_inv Hc b3' Hb3'. injection Hc as <-.
    cbn [b_store] in Hrn.
    pose proof (cuts_post c b2s b3' n1 n2 Hfix HI2 Hnd2 HH2 HK2 HF1 Hn1 Hn2 Hb3') as P3.
    assert (Q : forall x, In x st -> PostK x).
    { intros x Hx. destruct (rename_results_In _ _ _ Hrn x Hx) as (r & Hr & [-> | (n & ->)]); exact (P3 r Hr). }
    apply in_map_iff in Hst1. destruct Hst1 as (x1 & Ex1 & Hx1).
    apply in_map_iff in Hst2. destruct Hst2 as (x2 & Ex2 & Hx2).
    destruct (cut_row_b1 x1 (QPC x1 Hx1) (Q x1 Hx1) Ex1) as (t1 & f1 & ls & Er1 & Ee1 & Tr1).
    destruct (cut_row_b2 x2 (QPC x2 Hx2) (Q x2 Hx2) Ex2) as (t2 & f2 & le & Er2 & Es2 & Tr2).
    exists x1, x2, t1, f1, f2, t2, ls, le.
    split; [exact Hx1|]. split; [exact Hx2|]. split; [exact Ex1|]. split; [exact Ex2|].
    split; [exact Er1|]. split; [exact Er2|]. split; [exact Ee1|]. split; [exact Es2|].
    split; [exact Tr1 | exact Tr2].
  Qed.
End DeepCut.

Definition deep_cut_exact_statement : Prop :=
  forall c g prefix bpt input pretext rs b1 b2 src k f,
  fix_swap_keep c = true ->
  0 <= fst bpt -> 0 < snd bpt ->
  Forall (fun isc => pos_rows (snd isc)) input ->
  NoDup (map key_of (in_frags input)) ->
  Forall (fun b => 1 <= f_start b <= f_end b) (baits_of pretext) ->
  disjoint_baits (baits_of pretext) ->
  remap_to_input c g prefix bpt input pretext = Ok rs ->
  let err := error_length bpt in
  (* two abutting baits of the same input scaffold *)
  In b1 (baits_of pretext) -> In b2 (baits_of pretext) ->
  f_name b1 = f_name b2 -> f_end b1 + 1 = f_start b2 ->
  In (f_name b1, src) (number_input input 0) ->
  (* source row k is a fragment overlapping each bait in >= 3 error lengths *)
  nth_error src k = Some (RF f) ->
  3 * err <= Z.min (f_end b1) (span_end src k) - Z.max (f_start b1) (span_start src k) + 1 ->
  3 * err <= Z.min (f_end b2) (span_end src k) - Z.max (f_start b2) (span_start src k) + 1 ->
  (* f is cut exactly at the boundary *)
  exists r1 r2 t1 f1 f2 t2 ls le,
    In r1 (b_store (rs_b rs)) /\ In r2 (b_store (rs_b rs))
    /\ o_bait r1 = b1 /\ o_bait r2 = b2
    /\ o_rows r1 = t1 ++ [RF f1] /\ o_rows r2 = RF f2 :: t2
    /\ o_end r1 = f_end b1 /\ o_start r2 = f_start b2
    /\ trimmed f f1 ls (span_end src k - f_end b1)
    /\ trimmed f f2 (f_start b2 - span_start src k) le.

Theorem deep_cut_exact : deep_cut_exact_statement.
Proof.
  intros c g prefix bpt input pretext rs b1 b2 src k f Hfix Hbp1 Hbp2 Hpos Hkeys0 Hvalid Hdisj H err
         Hb1 Hb2 Hname Habut Hsrc Hk Hov1 Hov2.
  destruct (number_input_spec input 0) as (Ek & Hidpos & Hids).
  pose proof (number_input_pos input 0 Hpos) as Hposr.
  set (inp := number_input input 0) in *.
  set (all := baits_of pretext) in *.
  assert (Hkeys : NoDup (map key_of (in_frags inp))) by (rewrite Ek; exact Hkeys0).
  assert (Herr : 1 <= err).
  { unfold err, error_length. pose proof (Z.div_pos (fst bpt) (snd bpt) Hbp1 Hbp2). lia. }
  destruct (remap_to_input_stages _ _ _ _ _ _ _ H)
    as (Edup & s1 & s2 & s3 & st & nl & Hs1 & Hs2 & Hs3 & Hst & _ & ->).
  fold inp err in Hs1, Hs2. cbn [rs_b with_namer with_store b_store].
  assert (Hnames : NoDup (map fst inp)).
  { unfold inp. rewrite RemapTail.number_input_names. apply RemapTail.has_dup_names_false. exact Edup. }
  destruct (nth_error_split src k Hk) as (a0 & c0 & Esrc & Lk). subst k.
  destruct (split_span _ _ _ _ Esrc) as (_ & Ess & Ese). cbn [row_len] in Ese.
  rewrite Ess, Ese in Hov1, Hov2. rewrite Ess, Ese.
  replace (1 + rows_len a0) with (rows_len a0 + 1) in * by lia.
  assert (D1 : deep err (rows_len a0 + 1) (rows_len a0 + f_len f) b1) by (unfold deep; lia).
  assert (D2 : deep err (rows_len a0 + 1) (rows_len a0 + f_len f) b2) by (unfold deep; lia).
  exact (deep_cut_stages inp err all Hids Hidpos Hkeys Hnames Hposr Herr Hvalid b1 b2 src a0 c0 f
           Hb1 Hb2 Hname Habut Hsrc Esrc D1 D2 c _ pretext _ s1 s2 s3 _ st Hfix
           ltac:(apply LInv_init; exact Hdisj) Hs1 Hs2 Hs3 Hst).
Qed.

Corollary deep_cut_exact_repaired : forall g prefix bpt input pretext rs b1 b2 src k f,
  0 <= fst bpt -> 0 < snd bpt ->
  Forall (fun isc => pos_rows (snd isc)) input ->
  NoDup (map key_of (in_frags input)) ->
  Forall (fun b => 1 <= f_start b <= f_end b) (baits_of pretext) ->
  disjoint_baits (baits_of pretext) ->
  remap_to_input repaired g prefix bpt input pretext = Ok rs ->
  let err := error_length bpt in
  In b1 (baits_of pretext) -> In b2 (baits_of pretext) ->
  f_name b1 = f_name b2 -> f_end b1 + 1 = f_start b2 ->
  In (f_name b1, src) (number_input input 0) ->
  nth_error src k = Some (RF f) ->
  3 * err <= Z.min (f_end b1) (span_end src k) - Z.max (f_start b1) (span_start src k) + 1 ->
  3 * err <= Z.min (f_end b2) (span_end src k) - Z.max (f_start b2) (span_start src k) + 1 ->
  exists r1 r2 t1 f1 f2 t2 ls le,
    In r1 (b_store (rs_b rs)) /\ In r2 (b_store (rs_b rs))
    /\ o_bait r1 = b1 /\ o_bait r2 = b2
    /\ o_rows r1 = t1 ++ [RF f1] /\ o_rows r2 = RF f2 :: t2
    /\ o_end r1 = f_end b1 /\ o_start r2 = f_start b2
    /\ trimmed f f1 ls (span_end src k - f_end b1)
    /\ trimmed f f2 (f_start b2 - span_start src k) le.
Proof. intros g prefix bpt input pretext rs b1 b2 src k f. apply (deep_cut_exact repaired). reflexivity. Qed.

Print Assumptions deep_cut_exact.
Print Assumptions deep_cut_exact_repaired.
(* one input scaffold  A(100) gap(10) B(200, minus strand) gap(10) C(100),
   cut by the map into 1..200 | 201..420: B spans 111..310 and is cut at 200 *)
Module DeepCutExample.
  Definition A := mkFrag 0 (s "cA") 1 100 1 [].
  Definition B := mkFrag 0 (s "cB") 1 200 (-1) [].
  Definition C := mkFrag 0 (s "cC") 1 100 1 [].
  Definition g10 := mkGap 10 (s "scaffold").
  Definition input := [(s "scaf1", [RF A; RG g10; RF B; RG g10; RF C])].
  Definition bt1 := mkFrag 0 (s "scaf1") 1 200 1 [].
  Definition bt2 := mkFrag 0 (s "scaf1") 201 420 1 [].
  Definition pretext := [(s "scaf1", [RF bt1; RF bt2])].
  (* [src] is [number_input input 0] written out (ids are global row positions),
     [Bn] its row 2 *)
  Definition Bn := mkFrag 2 (s "cB") 1 200 (-1) [].
  Definition src := [RF (mkFrag 0 (s "cA") 1 100 1 []); RG g10; RF Bn; RG g10;
                     RF (mkFrag 4 (s "cC") 1 100 1 [])].

  Lemma hyps :
    Forall (fun isc => pos_rows (snd isc)) input
    /\ NoDup (map key_of (in_frags input))
    /\ Forall (fun b => 1 <= f_start b <= f_end b) (baits_of pretext)
    /\ disjoint_baits (baits_of pretext)
    /\ exists rs, remap_to_input repaired g10 (s "SUPER_") (1, 1) input pretext = Ok rs.
  Proof.
    split. { repeat constructor; cbn; lia. }
    split. { cbn. repeat constructor; cbn; intuition discriminate. }
    split. { repeat constructor; cbn; lia. }
    split.
    { unfold disjoint_baits. cbn [baits_of pretext flat_map snd frags_of app].
      apply FOP_cons; [|apply FOP_cons; [constructor | apply FOP_nil]].
      constructor; [|constructor]. intros _. left. cbn. lia. }
    eexists. vm_compute. reflexivity.
  Qed.

  Example deep_cut_nonvacuous : exists rs,
    remap_to_input repaired g10 (s "SUPER_") (1, 1) input pretext = Ok rs
    /\ exists r1 r2 t1 f1 f2 t2 ls le,
      In r1 (b_store (rs_b rs)) /\ In r2 (b_store (rs_b rs))
      /\ o_bait r1 = bt1 /\ o_bait r2 = bt2
      /\ o_rows r1 = t1 ++ [RF f1] /\ o_rows r2 = RF f2 :: t2
      /\ o_end r1 = 200 /\ o_start r2 = 201
      /\ trimmed Bn f1 ls 110 /\ trimmed Bn f2 90 le.
  Proof.
    destruct hyps as (H1 & H2 & H3 & H4 & rs & Hrs). exists rs. split; [exact Hrs|].
    apply (deep_cut_exact_repaired g10 (s "SUPER_") (1, 1) input pretext rs bt1 bt2 src 2%nat Bn
             ltac:(cbn; lia) ltac:(cbn; lia) H1 H2 H3 H4 Hrs).
    - cbn. tauto.
    - cbn. tauto.
    - reflexivity.
    - reflexivity.
    - vm_compute. left. reflexivity.
    - reflexivity.
    - vm_compute. discriminate.
    - vm_compute. discriminate.
  Qed.
End DeepCutExample.
