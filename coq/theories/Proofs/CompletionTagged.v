(* C02, first clause, for TAGGED maps: the first half of the pipeline
   ([remap_to_input]: lookups, overhang resolution, cuts, haplotig renaming,
   left-over scaffolds) completes on every tiling Pretext map whose scaffolds
   are CONSISTENTLY tagged.

   The geometric part never looks at tags ([Completion.completion_core_gen]);
   tags matter where the namer is called in the lookup fold:
     make_scaffold_name   once per Pretext scaffold, on the set of its tags
     label_scaffold       once per found result, on the bait's own tags
   and both can raise.  Reading Model/Namer.v, the failure conditions are

     (N) two DIFFERENT chromosome-name tags in one scaffold      TaggingError
     (H) two DIFFERENT haplotype tags in one scaffold            TaggingError
     (P) "Primary" with no haplotype (no haplotype tag, no haplotype prefix in
         the first bait's name) while no Primary was seen before TaggingError
     (U) "Unloc" on a piece (not also FalseDuplicate / Haplotig, which are
         looked at first) of a scaffold with no "Painted" bait   ValueError

   [scaffold_tags_consistent] excludes exactly these, as a decidable condition
   on the tag lists alone.  (P) is admitted in the form "Primary needs a
   haplotype TAG in the same scaffold": the two other ways out -- a haplotype
   prefix in the first bait's name, a Primary already seen -- depend on names /
   on the namer state, not on the tags.  With a haplotype tag present, Primary
   succeeds in every namer state whose haplotype dictionary has no empty
   spelling ([lc_ok]; true of the initial state and preserved by every namer
   call), which is the only place where a state invariant is needed: for
   Primary-free scaffolds the guarantee holds whatever the state is.

   Each clause is shown necessary by a computed run. *)
From Tola Require Import Py.Base Model.Fragment Model.Scaffold
  Model.OverlapResult Model.Namer Model.Remap Model.RemapSpec
  Proofs.BaseLemmas Proofs.Routing Proofs.CoreKept
  Proofs.Junctions Proofs.CompletionLookup Proofs.Completion.
From Coq Require Import Lia ZifyBool Bool.

(* the classification of scan_tag, as state-independent predicates *)
Definition reserved_tag (t : str) : bool :=
  str_eqb t (s "Painted") || str_eqb t (s "Target") || str_eqb t (s "Primary").

(* a chromosome name: "X", "W", "12", "2A", "IV", ... *)
Definition is_name_tag (t : str) : bool :=
  match t with
  | [] => false
  | _ :: _ => negb (reserved_tag t) && looks_like_chr_name t
  end.

(* a haplotype: any other tag that is not one of the known piece tags *)
Definition is_hap_tag (t : str) : bool :=
  match t with
  | [] => false
  | _ :: _ => negb (reserved_tag t) && negb (looks_like_chr_name t)
              && negb (mem_str t other_known_tags)
  end.

(* a piece that label_scaffold treats as unlocalised *)
Definition unloc_piece (l : list str) : bool :=
  mem_str (s "Unloc") l && negb (mem_str (s "FalseDuplicate") l) && negb (mem_str (s "Haplotig") l).

Definition one_name_tag (L : list str) : Prop :=
  forall t1 t2, In t1 L -> In t2 L -> is_name_tag t1 = true -> is_name_tag t2 = true -> t1 = t2.
Definition one_hap_tag (L : list str) : Prop :=
  forall t1 t2, In t1 L -> In t2 L -> is_hap_tag t1 = true -> is_hap_tag t2 = true -> t1 = t2.
Definition primary_has_hap (L : list str) : Prop :=
  In (s "Primary") L -> exists t, In t L /\ is_hap_tag t = true.
Definition unloc_is_painted (ls : list (list str)) : Prop :=
  forall l, In l ls -> unloc_piece l = true -> In (s "Painted") (concat ls).

(* [ls]: the tag lists of the baits of one Pretext scaffold, in row order *)
Definition scaffold_tags_consistent (ls : list (list str)) : Prop :=
  one_name_tag (concat ls) /\ one_hap_tag (concat ls) /\ primary_has_hap (concat ls)
  /\ unloc_is_painted ls.

Definition all_same (l : list str) : bool :=
  match l with [] => true | x :: r => forallb (str_eqb x) r end.

Definition one_name_tagb (L : list str) : bool := all_same (filter is_name_tag L).
Definition one_hap_tagb (L : list str) : bool := all_same (filter is_hap_tag L).
Definition primary_has_hapb (L : list str) : bool :=
  negb (mem_str (s "Primary") L) || existsb is_hap_tag L.
Definition unloc_is_paintedb (ls : list (list str)) : bool :=
  negb (existsb unloc_piece ls) || mem_str (s "Painted") (concat ls).

Definition scaffold_tags_consistentb (ls : list (list str)) : bool :=
  one_name_tagb (concat ls) && one_hap_tagb (concat ls) && primary_has_hapb (concat ls)
  && unloc_is_paintedb ls.

Lemma all_same_iff l : all_same l = true <-> (forall x y, In x l -> In y l -> x = y).
Proof.
  destruct l as [|a r]; cbn [all_same].
  - split; [intros _ x y []|reflexivity].
  - rewrite forallb_forall. split.
    + intros H x y Hx Hy.
      assert (G : forall z, In z (a :: r) -> a = z).
      { intros z [<-|Hz]; [reflexivity | apply str_eqb_eq, H, Hz]. }
      rewrite <- (G x Hx), <- (G y Hy). reflexivity.
    + intros H x Hx. apply str_eqb_eq. apply H; [left; reflexivity | right; exact Hx].
Qed.

Lemma all_same_filter (p : str -> bool) L :
  all_same (filter p L) = true
  <-> (forall t1 t2, In t1 L -> In t2 L -> p t1 = true -> p t2 = true -> t1 = t2).
Proof.
  rewrite all_same_iff. split.
  - intros H t1 t2 H1 H2 P1 P2. apply H; apply filter_In; split; assumption.
  - intros H x y Hx Hy. apply filter_In in Hx, Hy. destruct Hx, Hy. apply H; assumption.
Qed.

Lemma one_name_tagb_iff L : one_name_tagb L = true <-> one_name_tag L.
Proof. apply all_same_filter. Qed.

Lemma one_hap_tagb_iff L : one_hap_tagb L = true <-> one_hap_tag L.
Proof. apply all_same_filter. Qed.

Lemma primary_has_hapb_iff L : primary_has_hapb L = true <-> primary_has_hap L.
Proof.
  unfold primary_has_hapb, primary_has_hap. rewrite orb_true_iff, negb_true_iff, existsb_exists.
  split.
  - intros [H|H] Hin; [|exact H]. apply mem_str_in in Hin. congruence.
  - intro H. destruct (mem_str (s "Primary") L) eqn:E; [right|left; reflexivity].
    apply H, mem_str_in, E.
Qed.

Lemma unloc_is_paintedb_iff ls : unloc_is_paintedb ls = true <-> unloc_is_painted ls.
Proof.
  unfold unloc_is_paintedb, unloc_is_painted. rewrite orb_true_iff, negb_true_iff, mem_str_in.
  split.
  - intros [H|H] l Hl Hu; [|exact H].
    assert (X : existsb unloc_piece ls = true) by (apply existsb_exists; exists l; split; assumption).
    congruence.
  - intro H. destruct (existsb unloc_piece ls) eqn:E; [right|left; reflexivity].
    apply existsb_exists in E. destruct E as (l & Hl & Hu). exact (H l Hl Hu).
Qed.

Lemma scaffold_tags_consistentb_iff ls :
  scaffold_tags_consistentb ls = true <-> scaffold_tags_consistent ls.
Proof.
  unfold scaffold_tags_consistentb, scaffold_tags_consistent.
  rewrite !andb_true_iff, one_name_tagb_iff, one_hap_tagb_iff, primary_has_hapb_iff,
    unloc_is_paintedb_iff. tauto.
Qed.

Lemma scaffold_tags_consistentb_sound ls :
  scaffold_tags_consistentb ls = true -> scaffold_tags_consistent ls.
Proof. apply scaffold_tags_consistentb_iff. Qed.

Lemma scaffold_tags_consistent_dec ls :
  {scaffold_tags_consistent ls} + {~ scaffold_tags_consistent ls}.
Proof.
  destruct (scaffold_tags_consistentb ls) eqn:E.
  - left. apply scaffold_tags_consistentb_iff, E.
  - right. intro H. apply scaffold_tags_consistentb_iff in H. congruence.
Qed.

Example consistent_untagged : scaffold_tags_consistent [[]; []].
Proof. apply scaffold_tags_consistentb_sound. vm_compute. reflexivity. Qed.
Example consistent_painted : scaffold_tags_consistent [[s "Painted"]; []; [s "Painted"]].
Proof. apply scaffold_tags_consistentb_sound. vm_compute. reflexivity. Qed.
Example consistent_painted_hap :
  scaffold_tags_consistent [[s "Painted"; s "HAP1"]; [s "Painted"; s "HAP1"]]
  /\ scaffold_tags_consistent [[s "Painted"; s "Hap2"]; []].
Proof. split; apply scaffold_tags_consistentb_sound; vm_compute; reflexivity. Qed.
Example consistent_painted_name :
  scaffold_tags_consistent [[s "Painted"; s "X"]; [s "Painted"]; [s "X"]].
Proof. apply scaffold_tags_consistentb_sound. vm_compute. reflexivity. Qed.
Example consistent_piece_tags :
  scaffold_tags_consistent
    [[s "Haplotig"]; [s "Contaminant"]; [s "FalseDuplicate"]; [s "Target"]; [s "Singleton"]; [s "Cut"]].
Proof. apply scaffold_tags_consistentb_sound. vm_compute. reflexivity. Qed.
Example consistent_unloc_painted :
  scaffold_tags_consistent [[s "Painted"; s "HAP1"; s "X"]; [s "Unloc"]; [s "Unloc"; s "Contaminant"]].
Proof. apply scaffold_tags_consistentb_sound. vm_compute. reflexivity. Qed.
Example consistent_primary_with_hap :
  scaffold_tags_consistent [[s "Painted"; s "HAP1"; s "Primary"]; [s "Painted"]].
Proof. apply scaffold_tags_consistentb_sound. vm_compute. reflexivity. Qed.
(* ... and what it refuses *)
Example inconsistent_examples :
  ~ scaffold_tags_consistent [[s "X"]; [s "Y"]]
  /\ ~ scaffold_tags_consistent [[s "HAP1"]; [s "HAP2"]]
  /\ ~ scaffold_tags_consistent [[s "Painted"; s "Primary"]]
  /\ ~ scaffold_tags_consistent [[s "Unloc"]; []].
Proof.
  repeat split; intro H; apply scaffold_tags_consistentb_iff in H; vm_compute in H; discriminate.
Qed.

Lemma name_not_hap t : is_name_tag t = true -> is_hap_tag t = false.
Proof.
  destruct t as [|c t]; [discriminate|]. unfold is_name_tag, is_hap_tag.
  destruct (reserved_tag (c :: t)); [discriminate|].
  destruct (looks_like_chr_name (c :: t)); [reflexivity|discriminate].
Qed.

Lemma hap_tag_nonempty t : is_hap_tag t = true -> t <> [].
Proof. destruct t; [discriminate|discriminate]. Qed.

Lemma hap_tag_cls t : is_hap_tag t = true -> cls t = CHap.
Proof.
  destruct t as [|c t]; [discriminate|]. unfold is_hap_tag, reserved_tag, cls.
  destruct (str_eqb (c :: t) (s "Painted")); [discriminate|].
  destruct (str_eqb (c :: t) (s "Target")); [discriminate|].
  destruct (str_eqb (c :: t) (s "Primary")); [discriminate|]. cbn [orb negb andb].
  destruct (looks_like_chr_name (c :: t)); [discriminate|]. cbn [negb andb].
  destruct (mem_str (c :: t) other_known_tags); [discriminate | reflexivity].
Qed.

Lemma scan_tag_cases st t :
  (is_name_tag t = true
   /\ scan_tag st t
      = match ts_name st with
        | Some n => if negb (str_eqb t n) then Err TaggingError
                    else Ok (mkScan (Some t) (ts_hap st) (ts_painted st) (Some 2) (ts_primary st) (ts_target st) (ts_lc st))
        | None => Ok (mkScan (Some t) (ts_hap st) (ts_painted st) (Some 2) (ts_primary st) (ts_target st) (ts_lc st))
        end)
  \/ (is_hap_tag t = true
      /\ scan_tag st t
         = if truthy (ts_hap st) then Err TaggingError
           else let '(h, lc) := get_set_haplotype (ts_lc st) t in
                Ok (mkScan (ts_name st) (Some h) (ts_painted st) (ts_rank st) (ts_primary st) (ts_target st) lc))
  \/ (is_name_tag t = false /\ is_hap_tag t = false
      /\ exists st', scan_tag st t = Ok st'
           /\ ts_name st' = ts_name st /\ ts_hap st' = ts_hap st /\ ts_lc st' = ts_lc st
           /\ (ts_primary st' = true -> ts_primary st = true \/ t = s "Primary")).
Proof.
  destruct t as [|c t'].
  - right; right. split; [reflexivity|]. split; [reflexivity|]. exists st.
    split; [reflexivity|]. auto.
  - unfold scan_tag, is_name_tag, is_hap_tag, reserved_tag.
    remember (c :: t') as t eqn:Et.
    destruct (str_eqb t (s "Painted")) eqn:EP.
    { right; right. cbn [orb negb andb]. split; [reflexivity|]. split; [reflexivity|].
      eexists. split; [reflexivity|]. cbn [ts_name ts_hap ts_lc ts_primary]. auto. }
    destruct (str_eqb t (s "Target")) eqn:ET.
    { right; right. cbn [orb negb andb]. split; [reflexivity|]. split; [reflexivity|].
      eexists. split; [reflexivity|]. cbn [ts_name ts_hap ts_lc ts_primary]. auto. }
    destruct (str_eqb t (s "Primary")) eqn:EPr.
    { right; right. cbn [orb negb andb]. split; [reflexivity|]. split; [reflexivity|].
      eexists. split; [reflexivity|]. cbn [ts_name ts_hap ts_lc ts_primary].
      apply str_eqb_eq in EPr. auto. }
    cbn [orb negb andb].
    destruct (looks_like_chr_name t) eqn:EN.
    { left. split; reflexivity. }
    cbn [negb andb].
    destruct (mem_str t other_known_tags) eqn:EK; cbn [negb].
    { right; right. split; [reflexivity|]. split; [reflexivity|]. exists st.
      split; [reflexivity|]. auto. }
    right; left. split; reflexivity.
Qed.

Lemma truthy_nonempty v : v <> [] -> truthy (Some v) = true.
Proof. destruct v; [congruence|reflexivity]. Qed.

(* what the scan of the remaining tags [T] needs of the scan state *)
Definition scan_pre (T : list str) (st : tagscan) : Prop :=
  NoDup T /\ one_name_tag T /\ one_hap_tag T
  /\ (forall n t, ts_name st = Some n -> In t T -> is_name_tag t = true -> t = n)
  /\ (ts_hap st = None
      \/ (truthy (ts_hap st) = true /\ forall t, In t T -> is_hap_tag t = false))
  /\ lc_ok (ts_lc st).

Lemma scan_step t T st : scan_pre (t :: T) st ->
  exists st1, scan_tag st t = Ok st1 /\ scan_pre T st1
    /\ (ts_primary st1 = true -> ts_primary st = true \/ t = s "Primary")
    /\ (truthy (ts_hap st) = true \/ is_hap_tag t = true -> truthy (ts_hap st1) = true).
Proof.
  intros (Hnd & Hpn & Hph & Hcn & Hch & Hlc).
  inversion Hnd as [|x l Hnin Hnd']; subst.
  assert (Hpn' : one_name_tag T) by (intros t1 t2 H1 H2; apply Hpn; right; assumption).
  assert (Hph' : one_hap_tag T) by (intros t1 t2 H1 H2; apply Hph; right; assumption).
  assert (Hcn' : forall n t0, ts_name st = Some n -> In t0 T -> is_name_tag t0 = true -> t0 = n)
    by (intros n t0 En Hin; exact (Hcn n t0 En (or_intror Hin))).
  assert (Hch' : ts_hap st = None
                 \/ (truthy (ts_hap st) = true /\ forall t0, In t0 T -> is_hap_tag t0 = false)).
  { destruct Hch as [Hc | (Hc1 & Hc2)]; [left; exact Hc|].
    right. split; [exact Hc1|]. intros t0 Hin. apply Hc2. right. exact Hin. }
  destruct (scan_tag_cases st t) as [(Hn & E) | [(Hh & E) | (Hn & Hh & st' & E & E1 & E2 & E3 & E4)]].
  - (* a chromosome name *)
    assert (E' : scan_tag st t = Ok (mkScan (Some t) (ts_hap st) (ts_painted st) (Some 2)
                                           (ts_primary st) (ts_target st) (ts_lc st))).
    { rewrite E. destruct (ts_name st) as [n|] eqn:En; [|reflexivity].
      assert (X : t = n) by exact (Hcn n t eq_refl (or_introl eq_refl) Hn).
      subst n. rewrite str_eqb_refl. reflexivity. }
    eexists. split; [exact E'|]. split; [|split].
    + unfold scan_pre. cbn [ts_name ts_hap ts_lc].
      split; [exact Hnd'|]. split; [exact Hpn'|]. split; [exact Hph'|]. split; [|split; [|exact Hlc]].
      * intros n t0 En Hin Hn0. injection En as <-.
        apply Hpn; [right; exact Hin | left; reflexivity | exact Hn0 | exact Hn].
      * exact Hch'.
    + cbn [ts_primary]. intro X. left. exact X.
    + cbn [ts_hap]. intros [X | X]; [exact X|]. rewrite (name_not_hap t Hn) in X. discriminate.
  - (* a haplotype *)
    assert (Hnone : ts_hap st = None).
    { destruct Hch as [Hc | (_ & Hc2)]; [exact Hc|].
      rewrite (Hc2 t (or_introl eq_refl)) in Hh. discriminate. }
    rewrite Hnone in E. cbn [truthy] in E.
    revert E. destruct (get_set_haplotype (ts_lc st) t) as [h lc] eqn:Eg. intro E.
    destruct (get_set_haplotype_ok _ _ _ _ Hlc (hap_tag_nonempty t Hh) Eg) as (Hh1 & Hlc1).
    eexists. split; [exact E|]. split; [|split].
    + unfold scan_pre. cbn [ts_name ts_hap ts_lc].
      split; [exact Hnd'|]. split; [exact Hpn'|]. split; [exact Hph'|]. split; [exact Hcn'|split; [|exact Hlc1]].
      right. split; [apply truthy_nonempty; exact Hh1|].
      intros t0 Hin. destruct (is_hap_tag t0) eqn:E0; [|reflexivity]. exfalso. apply Hnin.
      assert (X : t0 = t) by (apply Hph; [right; exact Hin | left; reflexivity | exact E0 | exact Hh]).
      subst t0. exact Hin.
    + cbn [ts_primary]. intro X. left. exact X.
    + cbn [ts_hap]. intros _. apply truthy_nonempty. exact Hh1.
  - (* anything else *)
    exists st'. split; [exact E|]. split; [|split].
    + unfold scan_pre. rewrite E1, E2, E3.
      split; [exact Hnd'|]. split; [exact Hpn'|]. split; [exact Hph'|].
      split; [exact Hcn'|]. split; [exact Hch' | exact Hlc].
    + exact E4.
    + rewrite E2. intros [X | X]; [exact X|]. rewrite Hh in X. discriminate.
Qed.

Lemma scan_fold_ok : forall T st, scan_pre T st ->
  exists sc, foldM scan_tag T st = Ok sc /\ lc_ok (ts_lc sc)
    /\ (ts_primary sc = true -> ts_primary st = true \/ In (s "Primary") T)
    /\ (truthy (ts_hap st) = true \/ (exists t, In t T /\ is_hap_tag t = true)
        -> truthy (ts_hap sc) = true).
Proof.
  induction T as [|t T IH]; intros st Hpre; cbn [foldM].
  - exists st. split; [reflexivity|]. destruct Hpre as (_ & _ & _ & _ & _ & Hlc).
    split; [exact Hlc|]. split; [auto|]. intros [X | (t & [] & _)]. exact X.
  - destruct (scan_step t T st Hpre) as (st1 & E & Hpre1 & Hp & Hh). rewrite E. cbn [bind].
    destruct (IH st1 Hpre1) as (sc & Ef & Hlc & Hp2 & Hh2). exists sc.
    split; [exact Ef|]. split; [exact Hlc|]. split.
    + intro X. destruct (Hp2 X) as [Y|Y].
      * destruct (Hp Y) as [Z|Z]; [left; exact Z | right; left; exact Z].
      * right; right; exact Y.
    + intros [X | (t0 & [<-|Hin] & Ht0)]; apply Hh2.
      * left. apply Hh. left. exact X.
      * left. apply Hh. right. exact Ht0.
      * right. exists t0. split; assumption.
Qed.

(* after the scan and the haplotype, the rest of make_scaffold_name fails only on
   a Primary tag without a haplotype to be primary of *)
Lemma finish_ok nm name rows f t sc hap lc1 :
  rows = RF f :: t -> fin_hap rows sc = Ok (hap, lc1) ->
  (ts_primary sc = true -> exists c h', hap = Some (c :: h')) ->
  exists nm', finish nm name rows sc = Ok nm'.
Proof.
  intros Hrows Eh Hprim. unfold finish. rewrite Eh. cbn [bind]. unfold fin_prim, fin_name. subst rows.
  destruct (ts_primary sc && negb (truthy (nm_primary nm))) eqn:Ep.
  - apply andb_true_iff in Ep. destruct (Hprim (proj1 Ep)) as (c & h' & ->).
    destruct (get_set_haplotype lc1 (c :: h')) as [p lc2]. cbn [bind].
    destruct (ts_name sc) as [n|]; [|destruct (ts_painted sc)]; cbn [first_row_name bind]; eauto.
  - cbn [bind].
    destruct (ts_name sc) as [n|]; [|destruct (ts_painted sc)]; cbn [first_row_name bind]; eauto.
Qed.

Lemma make_scaffold_name_tagged nm name rows f t :
  rows = RF f :: t -> lc_ok (nm_hap_lc nm) ->
  one_name_tag (flat_map f_tags (frags_of rows)) ->
  one_hap_tag (flat_map f_tags (frags_of rows)) ->
  primary_has_hap (flat_map f_tags (frags_of rows)) ->
  exists nm', make_scaffold_name nm name rows (fragment_tags rows) = Ok nm'.
Proof.
  intros Hrows Hlc Hpn Hph Hprim. rewrite make_scaffold_name_eq.
  (* make_scaffold_name falls back to fragment_tags rows when handed no tags: the same list here *)
  assert (ET : eff_tags rows (fragment_tags rows) = fragment_tags rows)
    by (unfold eff_tags; destruct (fragment_tags rows); reflexivity).
  rewrite ET. clear ET. unfold scan0.
  assert (Hin : forall x, In x (fragment_tags rows) <-> In x (flat_map f_tags (frags_of rows))).
  { intro x. unfold fragment_tags. apply (dedup_in str_eqb str_eqb_eq). }
  assert (Hpre : scan_pre (fragment_tags rows)
                          (mkScan None None false None false (nm_target nm) (nm_hap_lc nm))).
  { unfold scan_pre. cbn [ts_name ts_hap ts_lc].
    split; [apply (dedup_nodup str_eqb str_eqb_eq)|].
    split; [intros t1 t2 H1 H2; apply Hpn; apply Hin; assumption|].
    split; [intros t1 t2 H1 H2; apply Hph; apply Hin; assumption|].
    split; [intros n t0 En; discriminate|]. split; [left; reflexivity | exact Hlc]. }
  destruct (scan_fold_ok _ _ Hpre) as (sc & Ef & Hlc1 & Hp & Hh). rewrite Ef. cbn [bind].
  cbn [ts_primary ts_hap truthy] in Hp, Hh.
  destruct (truthy (ts_hap sc)) eqn:Et.
  - apply (finish_ok nm name rows f t sc (ts_hap sc) (ts_lc sc)); [exact Hrows | unfold fin_hap; rewrite Et; reflexivity|].
    intros _. destruct (ts_hap sc) as [[|c h']|]; try discriminate Et. eexists _, _. reflexivity.
  - subst rows.
    destruct (haplotype_prefix_of_name (f_name f)) as [p|] eqn:Ehp.
    + destruct (get_set_haplotype (ts_lc sc) p) as [h lc] eqn:Eg.
      destruct (get_set_haplotype_ok _ _ _ _ Hlc1 (haplotype_prefix_nonempty _ _ Ehp) Eg) as (Hh1 & _).
      apply (finish_ok nm name (RF f :: t) f t sc (Some h) lc); [reflexivity | |].
      { unfold fin_hap. rewrite Et. cbn [first_row_name bind]. rewrite Ehp, Eg. reflexivity. }
      intros _. destruct h as [|c h']; [congruence|]. eexists _, _. reflexivity.
    + apply (finish_ok nm name (RF f :: t) f t sc None (ts_lc sc)); [reflexivity | |].
      { unfold fin_hap. rewrite Et. cbn [first_row_name bind]. rewrite Ehp. reflexivity. }
      intros Hpr. exfalso. destruct (Hp Hpr) as [X|X]; [discriminate X|].
      apply Hin in X. destruct (Hprim X) as (t0 & Ht0 & Hhap).
      (* what is left of Hh once truthy (ts_hap sc) has been destructed to false *)
      assert (Y : true = true -> false = true).
      { intros _. apply Hh. right. exists t0. split; [apply Hin; exact Ht0 | exact Hhap]. }
      specialize (Y eq_refl). discriminate.
Qed.

(* what the lookup fold (CompletionLookup.pretext_progress) asks of the namer calls *)
Lemma consistent_msn_ok p :
  (exists b t, snd p = RF b :: t) -> scaffold_tags_consistent (map f_tags (frags_of (snd p))) -> msn_ok p.
Proof.
  intros (f & t & Hrows) (C1 & C2 & C3 & _) nm Hlc. rewrite <- flat_map_concat_map in C1, C2, C3.
  exact (make_scaffold_name_tagged nm (fst p) (snd p) f t Hrows Hlc C1 C2 C3).
Qed.

Lemma consistent_label_ok rows bt :
  unloc_is_painted (map f_tags (frags_of rows)) -> In bt (frags_of rows) ->
  label_ok (f_tags bt) (fragment_tags rows).
Proof.
  intros C4 Hbt E1 E2 E3. apply mem_str_in. unfold fragment_tags.
  apply (dedup_in str_eqb str_eqb_eq). rewrite flat_map_concat_map.
  apply (C4 (f_tags bt)); [apply in_map; exact Hbt|].
  unfold unloc_piece. rewrite E1, E2, E3. reflexivity.
Qed.

Theorem completion_of_tagged_tiling_maps : forall g prefix n d input pretext,
  0 < d -> d <= n ->
  Forall input_ok input -> NoDup (map fst input) ->
  NoDup (map key_of (in_frags input)) ->
  Forall (fun f => f_tags f = []) (in_frags input) ->
  Forall (fun p => exists b t, snd p = RF b :: t) pretext ->
  Forall (fun b => (f_strand b = 1 \/ f_strand b = -1) /\ In (f_name b) (map fst input)) (baits_of pretext) ->
  Forall (fun p => scaffold_tags_consistent (map f_tags (frags_of (snd p)))) pretext ->
  Forall (scaffold_tiled n d (baits_of pretext)) input ->
  exists rs, remap_to_input repaired g prefix (n, d) input pretext = Ok rs.
Proof.
  intros g prefix n d input pretext Hd Hdn Hin Hnm Hkeys Hunt Hpre Hb Hc Htile.
  apply completion_core_gen; try assumption.
  - eapply Forall_impl; [|exact Hb]. intros b (_ & H). exact H.
  - intros Hne Hvalid.
    destruct (pretext_progress (number_input input 0) (error_length (n, d)) pretext Hne
                (mkB [] [] [] [] (new_namer prefix) 0)) as (b1 & Hs1 & _ & Hids).
    + rewrite Forall_forall in *. intros p Hp. exact (consistent_msn_ok p (Hpre p Hp) (Hc p Hp)).
    + rewrite Forall_forall in *. intros p Hp. apply Forall_forall. intros bt Hbt. split.
      * assert (Hin' : In bt (baits_of pretext)) by (apply in_flat_map; exists p; split; assumption).
        split; [exact (Hvalid bt Hin')|].
        rewrite RemapTail.number_input_names. exact (proj2 (Hb bt Hin')).
      * destruct (Hc p Hp) as (_ & _ & _ & C4). exact (consistent_label_ok _ _ C4 Hbt).
    + split; [apply lc_ok_new_namer | constructor].
    + exists b1. split; [exact Hs1 | exact Hids].
Qed.

Corollary completion_of_painted_tiling_maps_again : forall g prefix n d input pretext,
  0 < d -> d <= n ->
  Forall input_ok input -> NoDup (map fst input) ->
  NoDup (map key_of (in_frags input)) ->
  Forall (fun f => f_tags f = []) (in_frags input) ->
  Forall (fun p => exists b t, snd p = RF b :: t) pretext ->
  Forall (fun b => (f_tags b = [] \/ f_tags b = [s "Painted"]) /\ (f_strand b = 1 \/ f_strand b = -1)
                   /\ In (f_name b) (map fst input)) (baits_of pretext) ->
  Forall (scaffold_tiled n d (baits_of pretext)) input ->
  exists rs, remap_to_input repaired g prefix (n, d) input pretext = Ok rs.
Proof.
  exact completion_core.
Qed.

(* Four input scaffolds; texel 3.5 bp.  The curator painted three chromosomes,
   two of haplotype HAP1 (one of them named X) and one of HAP2, cut scaffold 1
   in three and scaffold 2 in two, marked one piece Unloc, one Haplotig (shown
   reversed) and one Contaminant, and left scaffold 4 alone. *)
Module TwoHaps.
  Definition g10 := mkGap 10 (s "scaffold").
  Definition cA := mkFrag 0 (s "cA") 1 600 1 [].
  Definition cA2 := mkFrag 0 (s "cA2") 1 390 (-1) [].
  Definition cB := mkFrag 0 (s "cB") 1 1000 1 [].
  Definition cC := mkFrag 0 (s "cC") 1 500 (-1) [].
  Definition cD := mkFrag 0 (s "cD") 1 300 1 [].
  Definition input :=
    [(s "scaf1", [RF cA; RG g10; RF cA2]); (s "scaf2", [RF cB]);
     (s "scaf3", [RF cC]); (s "scaf4", [RF cD])].
  Definition a1 := mkFrag 0 (s "scaf1") 1 600 1 [s "Painted"; s "HAP1"; s "X"].
  Definition a2 := mkFrag 0 (s "scaf1") 601 800 1 [s "Unloc"].
  Definition a3 := mkFrag 0 (s "scaf1") 801 1000 (-1) [s "Haplotig"].
  Definition b1 := mkFrag 0 (s "scaf2") 1 700 1 [s "Painted"; s "HAP2"].
  Definition b2 := mkFrag 0 (s "scaf2") 701 1000 1 [s "Contaminant"].
  Definition c1 := mkFrag 0 (s "scaf3") 1 500 (-1) [s "Painted"; s "HAP1"].
  Definition d1 := mkFrag 0 (s "scaf4") 1 300 1 [].
  Definition pretext :=
    [(s "Scaffold_1", [RF a1; RF a2; RF a3]); (s "Scaffold_2", [RF b1; RF b2]);
     (s "Scaffold_3", [RF c1]); (s "Scaffold_4", [RF d1])].
End TwoHaps.

Example two_haplotype_map_completes :
  exists rs, remap_to_input repaired TwoHaps.g10 (s "SUPER_") (7, 2)
                            TwoHaps.input TwoHaps.pretext = Ok rs.
Proof.
  destruct (tiling_map_okb_sound 7 2 TwoHaps.input TwoHaps.pretext)
    as (H1 & H2 & H3 & H4 & H5 & H7 & H8 & H9); [vm_compute; reflexivity|].
  apply completion_of_tagged_tiling_maps; try assumption.
  - repeat constructor.
  - repeat (apply Forall_cons; [apply scaffold_tags_consistentb_sound; vm_compute; reflexivity|]).
    apply Forall_nil.
Qed.

Definition two_hap_labels (rs : run_state) :=
  map (fun r => (o_name r, o_tag r, o_hap r, o_rank r)) (b_store (rs_b rs)).

(* the same run, by computation: two cuts (cA2 at 800, cB at 700), nothing left
   over; names, tags, haplotypes and ranks of the seven results *)
Example two_haplotype_map_by_computation :
  exists rs, remap_to_input repaired TwoHaps.g10 (s "SUPER_") (7, 2)
                            TwoHaps.input TwoHaps.pretext = Ok rs
             /\ b_cuts (rs_b rs) = 2 /\ rs_left rs = []
             /\ two_hap_labels rs
                = [(s "X", None, Some (s "HAP1"), 2);
                   (s "X_unloc_1", None, Some (s "HAP1"), 2);
                   (s "H_1", Some (s "Haplotig"), Some (s "HAP1"), 3);
                   (s "Scaffold_2", None, Some (s "HAP2"), 1);
                   (s "Scaffold_2", Some (s "Contaminant"), Some (s "HAP2"), 3);
                   (s "Scaffold_3", None, Some (s "HAP1"), 1);
                   (s "scaf4", None, None, 3)].
Proof. eexists. split; [vm_compute; reflexivity|]. repeat split; vm_compute; reflexivity. Qed.

(* the theorem, with the condition on the tags of a Pretext scaffold as a parameter *)
Definition tagged_statement (C : list (list str) -> Prop) : Prop :=
  forall g prefix n d input pretext,
  0 < d -> d <= n ->
  Forall input_ok input -> NoDup (map fst input) ->
  NoDup (map key_of (in_frags input)) ->
  Forall (fun f => f_tags f = []) (in_frags input) ->
  Forall (fun p => exists b t, snd p = RF b :: t) pretext ->
  Forall (fun b => (f_strand b = 1 \/ f_strand b = -1) /\ In (f_name b) (map fst input)) (baits_of pretext) ->
  Forall (fun p => C (map f_tags (frags_of (snd p)))) pretext ->
  Forall (scaffold_tiled n d (baits_of pretext)) input ->
  exists rs, remap_to_input repaired g prefix (n, d) input pretext = Ok rs.

Lemma tagged_statement_holds : tagged_statement scaffold_tags_consistent.
Proof. exact completion_of_tagged_tiling_maps. Qed.

(* one 100 bp contig, one bait that shows all of it, carrying [tags] *)
Module Needs.
  Definition g10 := mkGap 10 (s "scaffold").
  Definition A := mkFrag 0 (s "cA") 1 100 1 [].
  Definition input := [(s "scaf1", [RF A])].
  Definition bt (tags : list str) := mkFrag 0 (s "scaf1") 1 100 1 tags.
  Definition pretext (tags : list str) := [(s "P1", [RF (bt tags)])].

  Lemma run_of (C : list (list str) -> Prop) tags : C [tags] -> tagged_statement C ->
    exists rs, remap_to_input repaired g10 (s "SUPER_") (2, 1) input (pretext tags) = Ok rs.
  Proof.
    intros HC H.
    destruct (tiling_map_okb_sound 2 1 input (pretext tags))
      as (H1 & H2 & H3 & H4 & H5 & H7 & H8 & H9); [vm_compute; reflexivity|].
    apply H; try assumption.
    - repeat constructor.
    - constructor; [exact HC|constructor].
  Qed.

  Lemma run_two_names :
    remap_to_input repaired g10 (s "SUPER_") (2, 1) input (pretext [s "Painted"; s "X"; s "Y"])
    = Err TaggingError.
  Proof. vm_compute. reflexivity. Qed.
  Lemma run_two_haps :
    remap_to_input repaired g10 (s "SUPER_") (2, 1) input (pretext [s "Painted"; s "HAP1"; s "HAP2"])
    = Err TaggingError.
  Proof. vm_compute. reflexivity. Qed.
  Lemma run_primary :
    remap_to_input repaired g10 (s "SUPER_") (2, 1) input (pretext [s "Painted"; s "Primary"])
    = Err TaggingError.
  Proof. vm_compute. reflexivity. Qed.
  Lemma run_unloc :
    remap_to_input repaired g10 (s "SUPER_") (2, 1) input (pretext [s "Unloc"])
    = Err ValueError.
  Proof. vm_compute. reflexivity. Qed.
End Needs.

(* without [one_name_tag]: two chromosome names in one scaffold *)
Theorem completion_tagged_needs_one_name_tag :
  ~ tagged_statement (fun ls => one_hap_tag (concat ls) /\ primary_has_hap (concat ls)
                                /\ unloc_is_painted ls).
Proof.
  intro H. pose proof (fun HC => Needs.run_of _ [s "Painted"; s "X"; s "Y"] HC H) as R. cbv beta in R.
  destruct R as (rs & Hrs).
  - split; [apply one_hap_tagb_iff|split; [apply primary_has_hapb_iff|apply unloc_is_paintedb_iff]];
      vm_compute; reflexivity.
  - rewrite Needs.run_two_names in Hrs. discriminate.
Qed.

(* without [one_hap_tag]: two haplotypes in one scaffold *)
Theorem completion_tagged_needs_one_hap_tag :
  ~ tagged_statement (fun ls => one_name_tag (concat ls) /\ primary_has_hap (concat ls)
                                /\ unloc_is_painted ls).
Proof.
  intro H. pose proof (fun HC => Needs.run_of _ [s "Painted"; s "HAP1"; s "HAP2"] HC H) as R. cbv beta in R.
  destruct R as (rs & Hrs).
  - split; [apply one_name_tagb_iff|split; [apply primary_has_hapb_iff|apply unloc_is_paintedb_iff]];
      vm_compute; reflexivity.
  - rewrite Needs.run_two_haps in Hrs. discriminate.
Qed.

(* without [primary_has_hap]: Primary on a scaffold with no haplotype *)
Theorem completion_tagged_needs_primary_has_hap :
  ~ tagged_statement (fun ls => one_name_tag (concat ls) /\ one_hap_tag (concat ls)
                                /\ unloc_is_painted ls).
Proof.
  intro H. pose proof (fun HC => Needs.run_of _ [s "Painted"; s "Primary"] HC H) as R. cbv beta in R.
  destruct R as (rs & Hrs).
  - split; [apply one_name_tagb_iff|split; [apply one_hap_tagb_iff|apply unloc_is_paintedb_iff]];
      vm_compute; reflexivity.
  - rewrite Needs.run_primary in Hrs. discriminate.
Qed.

(* without [unloc_is_painted]: Unloc in an unpainted scaffold *)
Theorem completion_tagged_needs_unloc_is_painted :
  ~ tagged_statement (fun ls => one_name_tag (concat ls) /\ one_hap_tag (concat ls)
                                /\ primary_has_hap (concat ls)).
Proof.
  intro H. pose proof (fun HC => Needs.run_of _ [s "Unloc"] HC H) as R. cbv beta in R.
  destruct R as (rs & Hrs).
  - split; [apply one_name_tagb_iff|split; [apply one_hap_tagb_iff|apply primary_has_hapb_iff]];
      vm_compute; reflexivity.
  - rewrite Needs.run_unloc in Hrs. discriminate.
Qed.

Print Assumptions scaffold_tags_consistentb_iff.
Print Assumptions make_scaffold_name_tagged.
Print Assumptions completion_of_tagged_tiling_maps.
Print Assumptions completion_of_painted_tiling_maps_again.
Print Assumptions two_haplotype_map_completes.
Print Assumptions two_haplotype_map_by_computation.
Print Assumptions completion_tagged_needs_one_name_tag.
Print Assumptions completion_tagged_needs_one_hap_tag.
Print Assumptions completion_tagged_needs_primary_has_hap.
Print Assumptions completion_tagged_needs_unloc_is_painted.
