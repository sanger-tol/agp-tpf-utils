(* C07, second sentence, for PAINTED maps: the gap theorem of
   Proofs.PretextViewGaps for maps whose baits are untagged OR tagged Painted
   (the maps covered by Proofs.CompletionPainted).

   Proofs.PretextViewGaps.tiling_map_gaps holds whatever the tags
   (pretextview_gaps_any_tags); the painted statement and the untagged one are
   both corollaries. *)
From Tola Require Import Py.Base Model.Fragment Model.Scaffold Model.Remap Model.RemapSpec
  Proofs.NeighbourGaps Proofs.CoreKept Proofs.Completion Proofs.PretextViewGaps.
From Tola Require Proofs.CompletionPainted.
From Coq Require Import Lia ZifyBool.

Theorem pretextview_gaps_any_tags : forall g prefix n d input pretext o,
  0 < d -> d <= n ->
  Forall input_ok input ->
  NoDup (map fst input) ->
  NoDup (map key_of (in_frags input)) ->
  Forall (scaffold_tiled n d (baits_of pretext)) input ->
  remap repaired g prefix (n, d) input pretext = Ok o ->
  forall a sc x mid y,
    In a (out_asms o) -> In sc (oa_scaffolds a) -> consecutive (sc_rows sc) x mid y ->
    mid = [g] \/ same_neighbours input x mid y.
Proof. exact tiling_map_gaps. Qed.

Theorem pretextview_gaps_painted : forall g prefix n d input pretext o,
  0 < d -> d <= n ->
  Forall Proofs.Completion.input_ok input ->
  NoDup (map fst input) ->
  NoDup (map key_of (Model.RemapSpec.in_frags input)) ->
  Forall (fun f => f_tags f = []) (Model.RemapSpec.in_frags input) ->
  Forall (fun p => exists b t, snd p = RF b :: t) pretext ->
  Forall (fun b => (f_tags b = [] \/ f_tags b = [s "Painted"]) /\ (f_strand b = 1 \/ f_strand b = -1)
                   /\ In (f_name b) (map fst input)) (Proofs.CoreKept.baits_of pretext) ->
  Forall (Proofs.Completion.scaffold_tiled n d (Proofs.CoreKept.baits_of pretext)) input ->
  remap repaired g prefix (n, d) input pretext = Ok o ->
  forall a sc x mid y,
    In a (out_asms o) -> In sc (oa_scaffolds a) ->
    Proofs.NeighbourGaps.consecutive (sc_rows sc) x mid y ->
    mid = [g] \/ Proofs.NeighbourGaps.same_neighbours input x mid y.
Proof.
  intros g prefix n d input pretext o Hd Hdn Hin Hnm Hkeys0 _ _ _ Htile H.
  exact (pretextview_gaps_any_tags g prefix n d input pretext o Hd Hdn Hin Hnm Hkeys0 Htile H).
Qed.

Corollary pretextview_gaps_from_any_tags : pretextview_gaps_statement.
Proof.
  intros g prefix n d input pretext o Hd Hdn Hin Hnm Hkeys0 _ _ _ Htile H.
  exact (pretextview_gaps_any_tags g prefix n d input pretext o Hd Hdn Hin Hnm Hkeys0 Htile H).
Qed.

(* Proofs.PretextViewGaps.Beyond (A B C and two contigs D E beyond the last
   texel) under the map of Proofs.CompletionPainted.PaintedThreePieces: the
   Painted piece p1 and p2 make chromosome SUPER_1, the unpainted p3 keeps the
   scaffold name; D and E, found by no bait, are re-added as a left-over
   scaffold and fused after p3's rows with the join gap. *)
Module PaintedBeyond.
  Import ThreePieces Beyond CompletionPainted.PaintedThreePieces.
  Definition B1 := mkFrag (-1) (s "cB") 1 60 1 [s "Cut"].
  Definition out1 : list row :=
    [RF (mkFrag (-2) (s "cB") 61 210 (-1) [s "Cut"]); RG g10;
     RF (mkFrag (-2) (s "cB") 211 300 1 [s "Cut"]); RG g10; RF A'].
  Definition out2 : list row :=
    [RF (mkFrag 4 (s "cC") 1 100 (-1) []); RG g10; RF B1; RG g10; RF D'; RF E'].
End PaintedBeyond.

Example pretextview_gaps_painted_instance :
  exists o, remap repaired ThreePieces.g10 (s "SUPER_") (7, 2) Beyond.input
                  CompletionPainted.PaintedThreePieces.pretext = Ok o
    /\ (exists a sc, In a (out_asms o) /\ In sc (oa_scaffolds a) /\ sc_rows sc = PaintedBeyond.out2
          (* the join gap before the left-over contigs *)
          /\ consecutive (sc_rows sc) PaintedBeyond.B1 [ThreePieces.g10] Beyond.D'
          (* two left-over contigs, directly adjacent as in the input *)
          /\ consecutive (sc_rows sc) Beyond.D' [] Beyond.E')
    (* and the theorem, for this run *)
    /\ (forall a sc x mid y,
          In a (out_asms o) -> In sc (oa_scaffolds a) -> consecutive (sc_rows sc) x mid y ->
          mid = [ThreePieces.g10] \/ same_neighbours Beyond.input x mid y).
Proof.
  assert (Hrun : exists o, remap repaired ThreePieces.g10 (s "SUPER_") (7, 2) Beyond.input
                                 CompletionPainted.PaintedThreePieces.pretext = Ok o
                           /\ map sc_rows (flat_map oa_scaffolds (out_asms o))
                              = [PaintedBeyond.out1; PaintedBeyond.out2]).
  { eexists. split; vm_compute; reflexivity. }
  destruct Hrun as (o & Hrun & Hm). exists o. split; [exact Hrun|]. split.
  - destruct (rows_in_output o PaintedBeyond.out2) as (a & sc & Ha & Hsc & Esc);
      [rewrite Hm; right; left; reflexivity|].
    exists a, sc. split; [exact Ha|]. split; [exact Hsc|]. split; [exact Esc|]. rewrite Esc. split.
    + exists (firstn 2 PaintedBeyond.out2), [RF Beyond.E']. reflexivity.
    + exists (firstn 4 PaintedBeyond.out2), []. reflexivity.
  - destruct (tiling_map_okb_sound 7 2 Beyond.input CompletionPainted.PaintedThreePieces.pretext)
      as (H1 & H2 & H3 & H4 & H5 & H7 & _ & H9); [vm_compute; reflexivity|].
    apply (pretextview_gaps_painted ThreePieces.g10 (s "SUPER_") 7 2 Beyond.input
             CompletionPainted.PaintedThreePieces.pretext o H1 H2 H3 H4 H5);
      [repeat constructor | exact H7 | | exact H9 | exact Hrun].
    cbn. apply Forall_cons; [split; [left; reflexivity | split; [cbn; lia | cbn; auto]]|].
    apply Forall_cons; [split; [left; reflexivity | split; [cbn; lia | cbn; auto]]|].
    apply Forall_cons; [split; [right; reflexivity | split; [cbn; lia | cbn; auto]]|]. apply Forall_nil.
Qed.

Print Assumptions pretextview_gaps_any_tags.
Print Assumptions pretextview_gaps_painted_instance.
Print Assumptions pretextview_gaps_painted.
