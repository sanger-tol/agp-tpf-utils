(* C18 / C07 / C11 through the whole pipeline.

   1. [pipeline_Inv]: after ANY completed run of [remap_to_input] (every cfg,
      join gap, prefix, texel size, every Pretext map; input rows >= 1 bp)
      every stored overlap result satisfies the C18 invariant [OvrSpec.Inv]
      against the (numbered) input scaffold it was looked up in; hence
      [pipeline_consistent].
   2. [output_scaffolds_well_formed]: every output scaffold of every completed
      run of [remap] has rows, begins with a fragment and ends with a
      fragment.  NO hypothesis at all is needed for this one (not even
      positive row lengths): it is proved from a weaker invariant ("rows are
      empty, or begin and end with a fragment") carried through the same
      stages.
   3. [haplotig_count]: the haplotig-removal count is the number of scaffolds
      of the assembly keyed "Haplotig", each of which is written with rows.

   Both invariants go through ONE generic theorem, [StoreInv.store_invariant]: a
   predicate on results that survives the lookup, discard_start, discard_end,
   trim_fragment (with an input fragment as argument) and is blind to labels
   holds of every stored result after remap_to_input.  That theorem is the
   formal content of "every modification the pipeline makes to a stored result
   is one of the four C18 operations or a relabelling". *)
From Tola Require Import Py.Base Model.Fragment Model.Scaffold Model.Lookup
  Model.OverlapResult Model.OvrSpec Model.NaturalKey Model.Namer Model.Remap Model.RemapSpec
  Proofs.BaseLemmas Proofs.Lookup Proofs.OverlapResult Proofs.RemapHead Proofs.JoinGaps
  Proofs.GapProvenance.
From Tola Require Export Proofs.StoreInv.
From Tola Require Proofs.RemapTail.
From Coq Require Import Lia ZifyBool.

Lemma trim_fragment_inv r t ks ke new r' :
  trim_fragment r t ks ke = Ok (new, r') ->
  exists r0 rl, first_row r = Ok r0 /\ last_row r = Ok rl
    /\ row_is r0 t || row_is rl t = true
    /\ f_id new < 0
    /\ o_rows r' = (if row_is rl t then set_last (o_rows r) (RF new)
                    else set_nth (o_rows r) 0 (RF new)).
Proof.
  intros H. destruct (trim_fragment_spec _ _ _ _ _ _ H)
    as (x0 & xl & ds & de & E0 & El & Eat & _ & _ & _ & _ & -> & _ & ->).
  exists x0, xl. cbn [f_id set_span_rows o_rows]. repeat split; try assumption.
  destruct (row_is xl t); lia.
Qed.

(* the predicates of Proofs.StoreInv under the names used here *)
Section StoreInv.
  Variable inp : list (str * list row).
  Variable P : ovr -> Prop.

  Definition PS (st : list ovr) : Prop := forall r, In r st -> P r.

  Definition found_in (found : list (fkey * (frag * list rid))) : Prop :=
    forall k f ids, aget key_eqb found k = Some (f, ids) -> In f (in_frags inp).
End StoreInv.

Section C18.
  Variable inp : list (str * list row).
  Hypothesis Hids : NoDup (map f_id (in_frags inp)).
  Hypothesis Hidpos : Forall (fun f => 0 <= f_id f) (in_frags inp).
  Hypothesis Hposr : forall name src, In (name, src) inp -> pos_rows src.

  Lemma src_frag_in name src f : In (name, src) inp -> In (RF f) src -> In f (in_frags inp).
  Proof.
    intros Hsrc Hf. unfold in_frags. apply in_flat_map. exists (name, src).
    split; [exact Hsrc|]. cbn [snd]. apply In_frags_of_iff. exact Hf.
  Qed.

  Lemma src_ids_distinct name src : In (name, src) inp -> ids_distinct src.
  Proof.
    intros Hsrc. split.
    - apply in_split in Hsrc. destruct Hsrc as (l1 & l2 & E).
      unfold in_frags in Hids. rewrite E, flat_map_app in Hids. cbn [flat_map snd] in Hids.
      rewrite !map_app in Hids. apply NoDup_app_r in Hids. apply NoDup_app_l in Hids. exact Hids.
    - apply Forall_forall. intros f Hf. apply (in_frags_id_pos inp Hidpos).
      eapply src_frag_in; [exact Hsrc|]. apply In_frags_of_iff. exact Hf.
  Qed.

  (* provenance of fragment rows: a row of the source itself, or a copy made
     by trim_fragment (negative id) *)
  Definition prov (src rows : list row) : Prop :=
    forall f, In (RF f) rows -> In (RF f) src \/ f_id f < 0.
  Definition SInv (src : list row) (r : ovr) : Prop := Inv' src r /\ prov src (o_rows r).
  Definition RI (r : ovr) : Prop := exists name src, In (name, src) inp /\ SInv src r.

  Lemma RI_ext r r' :
    o_rows r' = o_rows r -> o_start r' = o_start r -> o_end r' = o_end r -> RI r -> RI r'.
  Proof.
    intros E1 E2 E3 (name & src & Hsrc & HI & HP). exists name, src. split; [exact Hsrc|].
    unfold SInv, Inv'. rewrite E1, E2, E3. split; [exact HI | exact HP].
  Qed.

  Lemma RI_init name rows bait fo :
    In (name, rows) inp ->
    find_overlaps rows (f_start bait) (f_end bait) = Ok (Some fo) -> RI (ovr_of_found bait fo).
  Proof.
    intros Hin Hfo. exists name, rows. split; [exact Hin|]. split.
    - apply Inv'_init_shape; [eapply Hposr; exact Hin | eapply find_overlaps_shape; exact Hfo].
    - intros f Hf. left. cbn [ovr_of_found o_rows] in Hf. eapply find_overlaps_rows; eassumption.
  Qed.

  Lemma RI_ds r r' : RI r -> discard_start r = Ok r' -> RI r'.
  Proof.
    intros (name & src & Hsrc & HI & HP) H. exists name, src. split; [exact Hsrc|]. split.
    - eapply discard_start_pres; [eapply Hposr; exact Hsrc | exact HI | exact H].
    - intros f Hf. apply HP. eapply discard_start_incl; eassumption.
  Qed.

  Lemma RI_de r r' : RI r -> discard_end r = Ok r' -> RI r'.
  Proof.
    intros (name & src & Hsrc & HI & HP) H. exists name, src. split; [exact Hsrc|]. split.
    - eapply discard_end_pres; [eapply Hposr; exact Hsrc | exact HI | exact H].
    - intros f Hf. apply HP. eapply discard_end_incl; eassumption.
  Qed.

  (* the cut: the fragment to trim is an input fragment [t]; a row of the
     result that passes the identity test against [t] IS [t] (distinct ids,
     copies have negative ids), so this call of trim_fragment is the C18
     operation TrimFrag at the first or at the last row *)
  Lemma trim_fragment_is_op name src r t ks ke new r' :
    In (name, src) inp -> In t (in_frags inp) -> prov src (o_rows r) ->
    trim_fragment r t ks ke = Ok (new, r') ->
    exists last, apply_op r (TrimFrag last ks ke) = Ok r'.
  Proof.
    intros Hsrc Ht HP H.
    destruct (trim_fragment_spec _ _ _ _ _ _ H) as (r0 & rl & ds & de & Hr0 & Hrl & Hor & _).
    assert (Hrow : forall x, In x (o_rows r) -> row_is x t = true -> x = RF t).
    { intros x Hx Hxt. apply row_is_true in Hxt. destruct Hxt as (g0 & -> & Eg).
      destruct (HP g0 Hx) as [Hin | Hlt].
      - f_equal. eapply (id_inj inp Hids); [|exact Ht | exact Eg].
        eapply src_frag_in; eassumption.
      - pose proof (in_frags_id_pos inp Hidpos t Ht). lia. }
    destruct (row_is rl t) eqn:El.
    - exists true. cbn [apply_op]. rewrite Hrl. cbn [bind].
      assert (E : rl = RF t).
      { apply Hrow; [|exact El]. unfold last_row in Hrl. apply py_nth_m1_inv in Hrl.
        destruct Hrl as (tl & ->). apply in_or_app. right. left. reflexivity. }
      rewrite E, H. reflexivity.
    - rewrite orb_false_r in Hor. exists false. cbn [apply_op]. rewrite Hr0. cbn [bind].
      assert (E : r0 = RF t).
      { apply Hrow; [|exact Hor]. unfold first_row in Hr0. apply py_nth_0_inv in Hr0.
        destruct Hr0 as (t0 & ->). left. reflexivity. }
      rewrite E, H. reflexivity.
  Qed.

  Lemma RI_tf r t ks ke new r' :
    In t (in_frags inp) -> RI r -> trim_fragment r t ks ke = Ok (new, r') -> RI r'.
  Proof.
    intros Ht (name & src & Hsrc & HI & HP) H. exists name, src. split; [exact Hsrc|]. split.
    - destruct (trim_fragment_is_op _ _ _ _ _ _ _ _ Hsrc Ht HP H) as (last & Hop).
      eapply apply_op_pres; [eapply Hposr; exact Hsrc | eapply src_ids_distinct; exact Hsrc
                            | exact HI | exact Hop].
    - intros f Hf.
      destruct (trim_fragment_rows _ _ _ _ _ _ H) as [(tl & g & E & _ & E' & Hid) | (g & tl & E & _ & E' & Hid)];
        rewrite E' in Hf.
      + apply in_app_or in Hf. destruct Hf as [Hf | [Hf | []]].
        * apply HP. rewrite E. apply in_or_app. left. exact Hf.
        * injection Hf as <-. right. lia.
      + destruct Hf as [Hf | Hf]; [injection Hf as <-; right; lia|].
        apply HP. rewrite E. right. exact Hf.
  Qed.
End C18.

Lemma number_input_pos : forall input n,
  Forall (fun isc => pos_rows (snd isc)) input ->
  forall name src, In (name, src) (number_input input n) -> pos_rows src.
Proof.
  intros input n H name src Hin. destruct (number_input_In _ _ _ Hin) as (isc0 & H0 & _ & R).
  rewrite Forall_forall in H. specialize (H isc0 H0). cbn [snd] in R.
  unfold pos_rows in *. rewrite <- (Forall_map row_len (fun z => 1 <= z)) in *.
  rewrite (renumbered_lens _ _ R). exact H.
Qed.

Theorem pipeline_Inv : forall c g prefix bpt input pretext rs,
  Forall (fun isc => pos_rows (snd isc)) input ->
  remap_to_input c g prefix bpt input pretext = Ok rs ->
  forall r, In r (b_store (rs_b rs)) ->
    exists name src, In (name, src) (number_input input 0) /\ OvrSpec.Inv src r.
Proof.
  intros c g prefix bpt input pretext rs Hpos H r Hr.
  destruct (number_input_spec input 0) as (_ & Hidpos & Hids).
  pose proof (number_input_pos input 0 Hpos) as Hposr.
  set (inp := number_input input 0) in *.
  assert (HRI : RI inp r).
  { refine (store_invariant (RI inp) c g prefix bpt input pretext rs _ _ _ _ _ H r Hr).
    - apply RI_ext.
    - apply RI_init. exact Hposr.
    - apply RI_ds. exact Hposr.
    - apply RI_de. exact Hposr.
    - apply RI_tf; assumption. }
  destruct HRI as (name & src & Hsrc & HI & _). exists name, src.
  split; [exact Hsrc | apply Inv'_Inv; exact HI].
Qed.

Corollary pipeline_consistent : forall c g prefix bpt input pretext rs,
  Forall (fun isc => pos_rows (snd isc)) input ->
  remap_to_input c g prefix bpt input pretext = Ok rs ->
  forall r, In r (b_store (rs_b rs)) -> consistent r.
Proof.
  intros c g prefix bpt input pretext rs Hpos H r Hr.
  destruct (pipeline_Inv _ _ _ _ _ _ _ Hpos H r Hr) as (name & src & Hsrc & HI).
  eapply Inv_consistent; [|exact HI]. eapply number_input_pos; eassumption.
Qed.

(* the per-stage forms, for a caller that holds an intermediate state *)
Section Stages.
  Variable inp : list (str * list row).
  Hypothesis Hids : NoDup (map f_id (in_frags inp)).
  Hypothesis Hidpos : Forall (fun f => 0 <= f_id f) (in_frags inp).
  Hypothesis Hposr : forall name src, In (name, src) inp -> pos_rows src.
  Let PSI := PS (RI inp).

  Theorem Inv_after_lookups err pretext b0 b1 :
    PSI (b_store b0) -> foldM (one_pretext_scaffold inp err) pretext b0 = Ok b1 -> PSI (b_store b1).
  Proof.
    apply pretext_PS; [apply RI_ext | apply RI_init; exact Hposr
                      | apply RI_ds; exact Hposr | apply RI_de; exact Hposr].
  Qed.

  Theorem Inv_after_resolver err fuel b b' :
    PSI (b_store b) -> discard_loop fuel err b = Ok b' -> PSI (b_store b').
  Proof. apply discard_loop_PS; [apply RI_ds; exact Hposr | apply RI_de; exact Hposr]. Qed.

  Theorem Inv_after_cuts c b b' :
    found_in inp (b_found b) -> PSI (b_store b) -> cut_remaining_overhangs c b = Ok b' ->
    PSI (b_store b').
  Proof. apply cut_remaining_PS. apply RI_tf; assumption. Qed.
End Stages.

Definition head_frag (rows : list row) : Prop := exists f t, rows = RF f :: t.
Definition last_frag (rows : list row) : Prop := exists f t, rows = t ++ [RF f].
Definition NT (rows : list row) : Prop := rows = [] \/ no_terminal_gap rows.

Lemma last_frag_app_r a b : b <> [] -> last_frag (a ++ b) -> last_frag b.
Proof.
  intros Hb (f & t & E). destruct (list_snoc_cases b) as [-> | (b' & x & ->)]; [congruence|].
  rewrite app_assoc in E. apply app_inj_tail in E. destruct E as [_ ->]. exists f, b'. reflexivity.
Qed.

Lemma last_frag_tail c a : last_frag (c :: a) -> a = [] \/ last_frag a.
Proof.
  intros (f & t & E). destruct t as [|c' t]; cbn [app] in E.
  - injection E as _ ->. left. reflexivity.
  - injection E as _ ->. right. exists f, t. reflexivity.
Qed.

Lemma last_frag_app_l a b : last_frag b -> last_frag (a ++ b).
Proof. intros (f & t & ->). exists f, (a ++ t). rewrite app_assoc. reflexivity. Qed.

Lemma head_frag_app_l a b : a <> [] -> head_frag (a ++ b) -> head_frag a.
Proof.
  intros Ha (f & t & E). destruct a as [|x a]; [congruence|]. cbn [app] in E. injection E as -> _.
  exists f, a. reflexivity.
Qed.

Lemma NT_discard_start r r' : NT (o_rows r) -> discard_start r = Ok r' -> NT (o_rows r').
Proof.
  intros Hn H. destruct (discard_start_spec _ _ H) as (d & gaps & E & _ & Hh & _).
  destruct Hh as [-> | Hh]; [left; reflexivity|]. right. split; [exact Hh|].
  destruct Hn as [Hn | [_ Hl]]; [rewrite Hn in E; discriminate|].
  rewrite E in Hl. apply (last_frag_app_r (d :: gaps)); [|exact Hl].
  destruct Hh as (f & t' & ->). discriminate.
Qed.

Lemma NT_discard_end r r' : NT (o_rows r) -> discard_end r = Ok r' -> NT (o_rows r').
Proof.
  intros Hn H. destruct (discard_end_spec _ _ H) as (d & gaps & E & _ & Hl & _).
  destruct Hl as [-> | (t' & f & Er')]; [left; reflexivity|]. right. split; [|exists f, t'; exact Er'].
  destruct Hn as [Hn | [Hf _]]; [rewrite Hn, Er' in E; destruct t'; discriminate|].
  rewrite E in Hf. apply (head_frag_app_l _ (gaps ++ [d])); [|exact Hf].
  rewrite Er'. destruct t'; discriminate.
Qed.

Lemma NT_trim_fragment r t ks ke new r' :
  NT (o_rows r) -> trim_fragment r t ks ke = Ok (new, r') -> NT (o_rows r').
Proof.
  intros Hn H. right.
  destruct (trim_fragment_rows _ _ _ _ _ _ H) as [(tl & g & E & _ & -> & _) | (g & tl & E & _ & -> & _)];
    (destruct Hn as [Hn | [Hh Hl]]; [rewrite Hn in E; destruct tl; discriminate|]); rewrite E in Hh, Hl.
  - split; [|exists new, tl; reflexivity].
    destruct tl as [|x tl]; [exists new, []; reflexivity|].
    destruct Hh as (f & t' & Eh). injection Eh as -> _. exists f, (tl ++ [RF new]). reflexivity.
  - split; [exists new, tl; reflexivity|].
    destruct (list_snoc_cases tl) as [-> | (t0 & x & ->)]; [exists new, []; reflexivity|].
    destruct Hl as (f & t' & El). change (RF g :: t0 ++ [x]) with ((RF g :: t0) ++ [x]) in El.
    apply app_inj_tail in El. destruct El as [_ ->]. exists f, (RF new :: t0). reflexivity.
Qed.

Lemma NT_init rows bs be fo : find_overlaps rows bs be = Ok (Some fo) -> NT (fo_rows fo).
Proof.
  intros H. apply find_overlaps_shape in H.
  destruct H as (i & j & Hij & -> & _ & _ & (o1 & Ho1) & (o2 & Ho2)).
  right. destruct (slice_shape rows i j o1 o2 ltac:(lia) Ho1 Ho2) as [[E _] | E]; rewrite E.
  - split; [exists o1, [] | exists o1, []]; reflexivity.
  - split; [eexists o1, _; reflexivity|].
    exists o2, (RF o1 :: firstn (j - i - 1) (skipn (S i) rows)). reflexivity.
Qed.

(* the results of every completed run: no hypothesis on input or map *)
Theorem results_no_terminal_gap : forall c g prefix bpt input pretext rs,
  remap_to_input c g prefix bpt input pretext = Ok rs ->
  forall r, In r (b_store (rs_b rs)) -> NT (o_rows r).
Proof.
  intros c g prefix bpt input pretext rs H.
  refine (store_invariant (fun r => NT (o_rows r)) c g prefix bpt input pretext rs _ _ _ _ _ H).
  - intros r r' E _ _ Hn. rewrite E. exact Hn.
  - intros name rows bait fo _ Hfo. cbn [ovr_of_found o_rows]. eapply NT_init. exact Hfo.
  - apply NT_discard_start.
  - apply NT_discard_end.
  - intros r t ks ke new r' _. apply NT_trim_fragment.
Qed.

Definition NL (l : list scaffold) : Prop := forall sc, In sc l -> no_terminal_gap (sc_rows sc).

Theorem leftovers_no_terminal_gap : forall c g prefix bpt input pretext rs,
  remap_to_input c g prefix bpt input pretext = Ok rs -> NL (rs_left rs).
Proof.
  intros c g prefix bpt input pretext rs H sc Hsc.
  destruct (leftovers_from_missing _ _ _ _ _ _ _ H sc Hsc) as (Hne & isc & _ & E).
  destruct (missing_rows_no_terminal_gap c (b_found (rs_b rs)) g (snd isc)) as [E0 | Hn].
  - rewrite <- E in E0. contradiction.
  - rewrite E. exact Hn.
Qed.

Lemma append_rows_ntg self othr og :
  NT self -> no_terminal_gap othr -> no_terminal_gap (append_rows self othr og).
Proof.
  intros [-> | [Hh Hl]] Ho; [rewrite append_rows_nil; exact Ho|].
  assert (G : forall mid, no_terminal_gap (self ++ mid ++ othr)).
  { intros mid. destruct Hh as (f & t & ->). split.
    - exists f, (t ++ mid ++ othr). reflexivity.
    - rewrite app_assoc. apply last_frag_app_l. apply Ho. }
  destruct og as [g'|]; [|apply (G [])].
  rewrite append_rows_some; [apply (G [RG g'])|]. destruct Hh as (f & t & ->). discriminate.
Qed.

Lemma NT_to_scaffold_rows r : NT (o_rows r) -> NT (to_scaffold_rows r).
Proof.
  intros [E | Hn]; [left; apply to_scaffold_rows_nil_iff; exact E|]. right.
  unfold to_scaffold_rows. destruct (f_strand (o_bait r) =? -1); [|exact Hn].
  apply rows_reverse_no_terminal_gap. exact Hn.
Qed.

(* for every cfg (JoinGaps.fused_no_terminal_gap is the [repaired] case) *)
Theorem fused_no_terminal_gap_any_cfg : forall c g rs fused,
  (forall r, In r (b_store (rs_b rs)) -> NT (o_rows r)) -> NL (rs_left rs) ->
  fuse_all c g rs = Ok fused -> NL fused.
Proof.
  intros c g rs fused Hs Hl H. refine (fuse_all_preserves c g no_terminal_gap _ rs fused _ _ H).
  - intros self othr isr Hself Ho. apply append_rows_ntg; assumption.
  - intros r Hr. apply NT_to_scaffold_rows. apply Hs. exact Hr.
  - intros sc Hsc. right. apply Hl. exact Hsc.
Qed.

Theorem output_scaffolds_well_formed : forall c g prefix bpt input pretext o,
  remap c g prefix bpt input pretext = Ok o ->
  forall a sc, In a (out_asms o) -> In sc (oa_scaffolds a) ->
    sc_rows sc <> [] /\ (exists f t, sc_rows sc = RF f :: t) /\ (exists f t, sc_rows sc = t ++ [RF f]).
Proof.
  intros c g prefix bpt input pretext o H a sc Ha Hsc.
  destruct (RemapTail.remap_stages _ _ _ _ _ _ _ H) as (rs & Hrs & Ho).
  destruct (RemapTail.out_scaffold_rows _ _ _ _ _ _ _ _ Ho Ha Hsc) as (fused0 & sc0 & F & Hsc0 & E). rewrite E.
  pose proof (fused_no_terminal_gap_any_cfg c g rs fused0
                (results_no_terminal_gap _ _ _ _ _ _ _ Hrs)
                (leftovers_no_terminal_gap _ _ _ _ _ _ _ Hrs) F sc0 Hsc0) as [Hh Hl].
  split; [|split; assumption]. destruct Hh as (f & t & ->). discriminate.
Qed.

(* out_asms is a Python dict keyed by assembly key: one entry per key *)
Lemma group_step_keys acc sc :
  NoDup (map fst acc) -> NoDup (map fst (RemapTail.group_step acc sc)).
Proof.
  intros Hnd. unfold RemapTail.group_step. destruct (asm_key_of sc) as [k curated].
  destruct (aget (opt_eqb str_eqb) acc k) as [[cur scs]|] eqn:G.
  - destruct (RemapTail.aset_found (opt_eqb str_eqb) acc k (cur, scs) (cur, scs ++ [sc]) G)
      as (l1 & k' & l2 & E1 & E2).
    rewrite E2. rewrite E1 in Hnd. rewrite map_app in *. exact Hnd.
  - rewrite map_app. cbn [map fst]. apply NoDup_snoc; [exact Hnd|].
    apply (aget_None (opt_eqb str_eqb) opt_str_eqb_eq). exact G.
Qed.

Lemma sort_groups_keys : forall (asms0 : list (option str * (bool * list scaffold))) asms,
  mapM (fun '(k, (curated, scs)) =>
          do sorted <- smart_sort sc_rank sc_name scs; Ok (mkOutAsm k curated sorted)) asms0 = Ok asms ->
  map oa_key asms = map fst asms0.
Proof.
  induction asms0 as [|[k [curated scs]] asms0 IH]; intros asms H; cbn [mapM] in H.
  - injection H as <-. reflexivity.
  - bind_inv H a Ha. bind_inv H asms' Hasms'. injection H as <-.
    bind_inv Ha sorted Hsorted. injection Ha as <-. cbn [map oa_key fst]. f_equal. apply IH. exact Hasms'.
Qed.

Theorem out_asm_keys_distinct : forall c g prefix bpt input pretext o,
  remap c g prefix bpt input pretext = Ok o -> NoDup (map oa_key (out_asms o)).
Proof.
  intros c g prefix bpt input pretext o H0. destruct (RemapTail.remap_stages _ _ _ _ _ _ _ H0) as (rs & _ & H).
  destruct (RemapTail.assemblies_stages _ _ _ _ _ _ H) as (fused0 & fused & asms & stt & _ & _ & MM & _ & ->).
  cbn [out_asms]. rewrite (sort_groups_keys _ _ MM).
  change (NoDup (map fst (fold_left RemapTail.group_step fused []))).
  apply (fold_left_inv_In _ (fun acc => NoDup (map fst acc))); [|constructor].
  intros acc sc _ Ha. apply group_step_keys. exact Ha.
Qed.

(* write_info_yaml: manual_haplotig_removals = len(assemblies["Haplotig"].scaffolds),
   0 when there is no such assembly *)
Definition is_haplotig_asm (a : out_asm) : bool := opt_eqb str_eqb (oa_key a) (Some (s "Haplotig")).
Definition haplotig_scaffolds (o : outputs) : list scaffold :=
  match find is_haplotig_asm (out_asms o) with Some a => oa_scaffolds a | None => [] end.
Definition haplotig_removals (o : outputs) : Z := zlen (haplotig_scaffolds o).
Definition has_rows (sc : scaffold) : bool := match sc_rows sc with [] => false | _ => true end.

Lemma haplotig_scaffolds_cases o :
  (exists a, In a (out_asms o) /\ oa_key a = Some (s "Haplotig") /\ haplotig_scaffolds o = oa_scaffolds a)
  \/ ((forall a, In a (out_asms o) -> oa_key a <> Some (s "Haplotig")) /\ haplotig_scaffolds o = []).
Proof.
  unfold haplotig_scaffolds. destruct (find is_haplotig_asm (out_asms o)) as [a|] eqn:E.
  - apply find_some in E. destruct E as [Ha Hk]. apply opt_str_eqb_eq in Hk. left. exists a. auto.
  - right. split; [|reflexivity]. intros a Ha Hk.
    pose proof (find_none _ _ E a Ha) as Hn. unfold is_haplotig_asm in Hn.
    rewrite Hk, (proj2 (opt_str_eqb_eq _ _) eq_refl) in Hn. discriminate.
Qed.

(* every scaffold that is counted is written with rows (none is empty, each
   begins and ends with a fragment), so the count reported equals the number
   of haplotig scaffolds that appear in the output files *)
Corollary haplotig_count : forall c g prefix bpt input pretext o,
  remap c g prefix bpt input pretext = Ok o ->
  (forall sc, In sc (haplotig_scaffolds o) ->
     sc_rows sc <> [] /\ (exists f t, sc_rows sc = RF f :: t) /\ (exists f t, sc_rows sc = t ++ [RF f]))
  /\ haplotig_removals o = zlen (filter has_rows (haplotig_scaffolds o))
  /\ ((forall a, In a (out_asms o) -> oa_key a <> Some (s "Haplotig")) -> haplotig_removals o = 0)
  /\ (forall a, In a (out_asms o) -> oa_key a = Some (s "Haplotig") ->
        haplotig_scaffolds o = oa_scaffolds a).
Proof.
  intros c g prefix bpt input pretext o H.
  assert (Hall : forall sc, In sc (haplotig_scaffolds o) ->
     sc_rows sc <> [] /\ (exists f t, sc_rows sc = RF f :: t) /\ (exists f t, sc_rows sc = t ++ [RF f])).
  { intros sc Hsc. destruct (haplotig_scaffolds_cases o) as [(a & Ha & _ & E) | [_ E]]; rewrite E in Hsc.
    - eapply output_scaffolds_well_formed; eassumption.
    - destruct Hsc. }
  split; [exact Hall|]. split; [|split].
  - unfold haplotig_removals. f_equal.
    induction (haplotig_scaffolds o) as [|sc l IH]; [reflexivity|]. cbn [filter].
    destruct (Hall sc (or_introl eq_refl)) as [Hne _]. unfold has_rows at 1.
    destruct (sc_rows sc); [congruence|]. f_equal. apply IH. intros sc' Hsc'. apply Hall. right. exact Hsc'.
  - intros Hno. unfold haplotig_removals.
    destruct (haplotig_scaffolds_cases o) as [(a & Ha & Hk & _) | [_ ->]]; [|reflexivity].
    exfalso. exact (Hno a Ha Hk).
  - intros a Ha Hk. destruct (haplotig_scaffolds_cases o) as [(a0 & Ha0 & Hk0 & ->) | [Hno _]].
    + f_equal. eapply (NoDup_map_inj oa_key); [eapply out_asm_keys_distinct; exact H | exact Ha0 | exact Ha | congruence].
    + exfalso. exact (Hno a Ha Hk).
Qed.

(* One input scaffold  A -5- B -100- C(minus strand)  and a second one
   E -33- G that the map does not mention.  Texel size 10 bp (error length 11).
   Three baits on scaffold_1:
     1..1025     meets A, the 5 bp gap and 20 bp of B: B is found twice, the
                 overhang resolver DISCARDS B (and the gap) from this result;
     1026..2505  meets B, the 100 bp gap and 400 bp of C;
     2506..3105  (tagged Haplotig) meets the other 600 bp of C: C is found
                 twice and is CUT at 2505/2506 (trim_fragment on both copies);
   scaffold_2 is LEFT OVER. *)
Definition pi_gap : gap := mkGap 200 (s "scaffold").
Definition pi_input : list (str * list row) :=
  [ (s "scaffold_1", [ex_F "ctgA" 1 1000 1 []; RG (mkGap 5 (s "scaffold")); ex_F "ctgB" 1 1000 1 [];
                      RG (mkGap 100 (s "scaffold")); ex_F "ctgC" 1 1000 (-1) []]);
    (s "scaffold_2", [ex_F "ctgE" 1 500 1 []; RG (mkGap 33 (s "centromere")); ex_F "ctgG" 1 500 (-1) []]) ].
Definition pi_ptx : list (str * list row) :=
  [ (s "Scaffold_1", [ex_F "scaffold_1" 1 1025 1 []]);
    (s "Scaffold_2", [ex_F "scaffold_1" 1026 2505 1 []]);
    (s "Scaffold_3", [ex_F "scaffold_1" 2506 3105 1 [s "Haplotig"]]) ].

(* the numbered rows of scaffold_1 (ids 0..4) and the store after the run *)
Definition pi_src : list row :=
  Eval vm_compute in match number_input pi_input 0 with (_, rows) :: _ => rows | [] => [] end.
Definition pi_store : list ovr :=
  Eval vm_compute in
    match remap_to_input repaired pi_gap (s "SUPER_") (10, 1) pi_input pi_ptx with
    | Ok rs => b_store (rs_b rs) | Err _ => [] end.
Definition pi_show (r : ovr) := (o_start r, o_end r, map ex_erase (o_rows r)).

Example pipeline_run :
  exists rs, remap_to_input repaired pi_gap (s "SUPER_") (10, 1) pi_input pi_ptx = Ok rs
    /\ In (s "scaffold_1", pi_src) (number_input pi_input 0)
    /\ b_store (rs_b rs) = pi_store
    /\ map pi_show pi_store
       = [ (1, 1000, [ex_F "ctgA" 1 1000 1 []]);                                    (* B discarded *)
           (1006, 2505, [ex_F "ctgB" 1 1000 1 []; RG (mkGap 100 (s "scaffold"));
                         ex_F "ctgC" 601 1000 (-1) [s "Cut"]]);                     (* C cut: 600 bp off its end *)
           (2506, 3105, [ex_F "ctgC" 1 600 (-1) [s "Cut"; s "Haplotig"]]) ]         (* C cut: 400 bp off its start *)
    /\ b_cuts (rs_b rs) = 1
    /\ map (fun sc => (sc_name sc, map ex_erase (sc_rows sc))) (rs_left rs)
       = [ (s "scaffold_2", [ex_F "ctgE" 1 500 1 []; RG (mkGap 33 (s "centromere")); ex_F "ctgG" 1 500 (-1) []]) ].
Proof.
  eexists. split; [vm_compute; reflexivity|]. split; [left; vm_compute; reflexivity|].
  vm_compute. repeat split.
Qed.

(* the first bait alone keeps A, the gap and B: the discard above is the
   overhang resolver's, not trim_large_overhangs' *)
Example pipeline_run_no_resolver :
  exists rs, remap_to_input repaired pi_gap (s "SUPER_") (10, 1) pi_input (firstn 1 pi_ptx) = Ok rs
    /\ map pi_show (b_store (rs_b rs))
       = [ (1, 2005, [ex_F "ctgA" 1 1000 1 []; RG (mkGap 5 (s "scaffold")); ex_F "ctgB" 1 1000 1 []]) ].
Proof. eexists. split; vm_compute; reflexivity. Qed.

Definition Inv_with (src : list row) (r : ovr) (i n : nat) (ls le : Z) : Prop :=
  (1 <= n)%nat /\ (i + n <= length src)%nat
  /\ rows_rel (firstn n (skipn i src)) (o_rows r) ls le
  /\ o_start r = 1 + rows_len (firstn i src) + ls
  /\ o_end r = rows_len (firstn (i + n) src) - le.

Lemma Inv_with_Inv src r i n ls le : Inv_with src r i n ls le -> OvrSpec.Inv src r.
Proof. intros H. right. exists i, n, ls, le. exact H. Qed.

Definition pi_dummy : ovr := mkOvr (mkFrag 0 [] 0 0 0 []) 0 0 [] [] None None 0 None [].

(* result 0 = src[0..1), untrimmed; result 1 = src[2..5) with 600 bp off the
   scaffold-end side of its last fragment; result 2 = src[4..5) with 400 bp
   off the scaffold-start side *)
Example pipeline_Inv_witnesses :
  Inv_with pi_src (nth 0 pi_store pi_dummy) 0 1 0 0
  /\ Inv_with pi_src (nth 1 pi_store pi_dummy) 2 3 0 600
  /\ Inv_with pi_src (nth 2 pi_store pi_dummy) 4 1 400 0.
Proof.
  unfold Inv_with. cbn [pi_src pi_store nth firstn skipn o_rows o_start o_end length Nat.add].
  repeat match goal with |- _ /\ _ => split end.
  all: try lia.
  all: try (vm_compute; reflexivity).
  - left. eexists _, _. split; [reflexivity|]. split; [reflexivity|].
    unfold trimmed. cbn. repeat split; lia.
  - right. eexists _, _, [_], _, _. split; [reflexivity|]. split; [reflexivity|].
    unfold trimmed. cbn. repeat split; lia.
  - left. eexists _, _. split; [reflexivity|]. split; [reflexivity|].
    unfold trimmed. cbn. repeat split; lia.
Qed.

Example pipeline_Inv_applies :
  forall r, In r pi_store ->
    exists name src, In (name, src) (number_input pi_input 0) /\ OvrSpec.Inv src r.
Proof.
  assert (Hpos : Forall (fun isc => pos_rows (snd isc)) pi_input).
  { repeat constructor; cbn; lia. }
  destruct pipeline_run as (rs & Hrs & _ & <- & _). exact (pipeline_Inv _ _ _ _ _ _ _ Hpos Hrs).
Qed.

(* the whole run: the two results named scaffold_1 are fused with the join
   gap, the cut-off half of C is the one haplotig scaffold, and the
   haplotig-removal count is 1 *)
Example pipeline_output :
  exists o, remap repaired pi_gap (s "SUPER_") (10, 1) pi_input pi_ptx = Ok o
    /\ map (fun a => (oa_key a, map (fun sc => (sc_name sc, map ex_erase (sc_rows sc))) (oa_scaffolds a)))
           (out_asms o)
       = [ (None,
            [ (s "scaffold_1", [ex_F "ctgA" 1 1000 1 []; RG pi_gap; ex_F "ctgB" 1 1000 1 [];
                                RG (mkGap 100 (s "scaffold")); ex_F "ctgC" 601 1000 (-1) [s "Cut"]]);
              (s "scaffold_2", [ex_F "ctgE" 1 500 1 []; RG (mkGap 33 (s "centromere"));
                                ex_F "ctgG" 1 500 (-1) []]) ]);
           (Some (s "Haplotig"),
            [ (s "H_1", [ex_F "ctgC" 1 600 (-1) [s "Cut"; s "Haplotig"]]) ]) ]
    /\ out_cuts o = 1 /\ haplotig_removals o = 1.
Proof. eexists. split; [vm_compute; reflexivity|]. vm_compute. repeat split. Qed.

(* [pipeline_Inv] needs "every input row is at least 1 bp long".  An input scaffold A, Z
   with Z a fragment of length 0 (start 5, end 4: Python's Fragment refuses it,
   the row type of the model does not) and a bait that overshoots the scaffold
   end by one base: the result holds [A; Z], it ends with a row of 0 bp, and no
   source whatever makes it satisfy Inv *)
Definition zl_input : list (str * list row) :=
  [ (s "scaffold_1", [ex_F "ctgA" 1 1000 1 []; ex_F "ctgZ" 5 4 1 []]) ].
Definition zl_ptx : list (str * list row) := [ (s "Scaffold_1", [ex_F "scaffold_1" 1 1001 1 []]) ].

Example pos_rows_needed_for_Inv :
  exists rs r, remap_to_input repaired pi_gap (s "SUPER_") (10, 1) zl_input zl_ptx = Ok rs
    /\ In r (b_store (rs_b rs))
    /\ pi_show r = (1, 1000, [ex_F "ctgA" 1 1000 1 []; ex_F "ctgZ" 5 4 1 []])
    /\ ~ consistent r /\ forall src, ~ OvrSpec.Inv src r.
Proof.
  eexists. eexists. split; [vm_compute; reflexivity|]. split; [left; reflexivity|].
  split; [vm_compute; reflexivity|]. split.
  - intros [E | (_ & _ & _ & HF)]; [discriminate E|]. cbn [o_rows] in HF.
    apply Forall_inv_tail, Forall_inv in HF. cbn in HF. lia.
  - intros src [E | (i & n & ls & le & _ & _ & Hrel & _)]; [discriminate E|]. cbn [o_rows] in Hrel.
    destruct Hrel as [(o & f & _ & E & _) | (o1 & f1 & mid & o2 & f2 & _ & E & _ & Ht)].
    + discriminate E.
    + destruct mid as [|x [|y mid]]; cbn [app] in E; try discriminate E.
      injection E as _ <-. destruct Ht as (_ & _ & _ & _ & Hse & _). cbn in Hse. lia.
Qed.

(* [output_scaffolds_well_formed] needs nothing.  The same run: the output scaffold [A; Z] begins and ends
   with a fragment (of 0 bp, but a fragment) *)
Example zero_length_fragment_output :
  exists o, remap repaired pi_gap (s "SUPER_") (10, 1) zl_input zl_ptx = Ok o
    /\ map (fun sc => map ex_erase (sc_rows sc)) (flat_map oa_scaffolds (out_asms o))
       = [ [ex_F "ctgA" 1 1000 1 []; ex_F "ctgZ" 5 4 1 []] ].
Proof. eexists. split; vm_compute; reflexivity. Qed.

(* an input scaffold that is one gap and nothing else, absent from the map:
   missing_rows emits a row only for a fragment, so it gives [] and
   add_missing_one adds no scaffold: the gap-only scaffold vanishes from the
   output instead of becoming a scaffold that begins with a gap.  A join gap
   of 0 bp changes nothing either. *)
Definition go_input : list (str * list row) :=
  [ (s "scaffold_1", [ex_F "ctgA" 1 1000 1 []]); (s "scaffold_2", [RG (mkGap 100 (s "scaffold"))]);
    (s "scaffold_3", [RG (mkGap 7 (s "scaffold")); ex_F "ctgB" 1 10 1 []; RG (mkGap 7 (s "scaffold"))]) ].
Definition go_ptx : list (str * list row) := [ (s "Scaffold_1", [ex_F "scaffold_1" 1 1000 1 []]) ].

Example gap_only_scaffold_vanishes :
  missing_rows repaired [] pi_gap [RG (mkGap 100 (s "scaffold"))] [] 0 None = []
  /\ exists o, remap repaired (mkGap 0 (s "scaffold")) (s "SUPER_") (10, 1) go_input go_ptx = Ok o
    /\ map (fun sc => (sc_name sc, map ex_erase (sc_rows sc))) (flat_map oa_scaffolds (out_asms o))
       = [ (s "scaffold_1", [ex_F "ctgA" 1 1000 1 []]);
           (s "scaffold_3", [ex_F "ctgB" 1 10 1 []]) ].   (* terminal gaps of a left-over scaffold are dropped *)
Proof. split; [reflexivity|]. eexists. split; vm_compute; reflexivity. Qed.

(* distinct input names need not be assumed: a duplicate makes the run fail *)
Example duplicate_names_fail :
  remap_to_input repaired pi_gap (s "SUPER_") (10, 1) (pi_input ++ pi_input) pi_ptx = Err ValueError.
Proof. vm_compute. reflexivity. Qed.

Print Assumptions find_overlaps_shape.
Print Assumptions pipeline_Inv.
Print Assumptions pipeline_consistent.
Print Assumptions Inv_after_lookups.
Print Assumptions Inv_after_resolver.
Print Assumptions Inv_after_cuts.
Print Assumptions results_no_terminal_gap.
Print Assumptions leftovers_no_terminal_gap.
Print Assumptions fused_no_terminal_gap_any_cfg.
Print Assumptions output_scaffolds_well_formed.
Print Assumptions out_asm_keys_distinct.
Print Assumptions haplotig_count.
Print Assumptions pipeline_run.
Print Assumptions pipeline_run_no_resolver.
Print Assumptions pipeline_Inv_witnesses.
Print Assumptions pipeline_Inv_applies.
Print Assumptions pipeline_output.
Print Assumptions pos_rows_needed_for_Inv.
Print Assumptions zero_length_fragment_output.
Print Assumptions gap_only_scaffold_vanishes.
Print Assumptions duplicate_names_fail.
