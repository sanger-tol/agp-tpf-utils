(* C11, END TO END through [remap]: the reported number of manual breaks is the
   number of DISTINCT input adjacencies (canonical junctions between consecutive
   contigs of an input scaffold) that occur in no output scaffold of any output
   assembly; the reported number of manual joins is the number of distinct
   output adjacencies that occur in no input scaffold. *)
From Tola Require Import Py.Base Model.Fragment Model.Scaffold Model.Remap
  Proofs.BaseLemmas Proofs.Rows Proofs.Junctions Proofs.RemapTail.
From Coq Require Import Lia ZifyBool Permutation.

(* j is an adjacency of the input / of the output *)
Definition input_adjacency (input : list (str * list row)) (j : junction) : Prop :=
  exists isc js, In isc input /\ junction_set repaired (snd isc) = Ok js /\ In j js.
Definition output_adjacency (o : outputs) (j : junction) : Prop :=
  exists a sc js, In a (out_asms o) /\ In sc (oa_scaffolds a)
                  /\ junction_set repaired (sc_rows sc) = Ok js /\ In j js.

Definition breaks_joins_statement : Prop :=
  forall g prefix bpt input pretext o,
  remap repaired g prefix bpt input pretext = Ok o ->
  exists broken joined : list junction,
    NoDup broken /\ NoDup joined
    /\ (forall j, In j broken <-> input_adjacency input j /\ ~ output_adjacency o j)
    /\ (forall j, In j joined <-> output_adjacency o j /\ ~ input_adjacency input j)
    /\ out_breaks o = zlen broken /\ out_joins o = zlen joined.

(* The junctions of a scaffold, none when [junction_set] fails.  With it the
   adjacencies of a list of scaffolds are a [flat_map], and the accumulating
   folds of [make_stats] are read off by rewriting with [in_app_iff]. *)
Definition js_of (c : cfg) (rows : list row) : list junction :=
  match junction_set c rows with Ok js => js | Err _ => [] end.
Definition input_js (c : cfg) (input : list (str * list row)) : list junction :=
  flat_map (fun isc => js_of c (snd isc)) input.
Definition asm_js (c : cfg) (scs : list scaffold) : list junction :=
  flat_map (fun sc => js_of c (sc_rows sc)) scs.
Definition output_js (c : cfg) (asms : list out_asm) : list junction :=
  flat_map (fun a => asm_js c (oa_scaffolds a)) asms.

Lemma in_js_of c rows j : In j (js_of c rows) <-> exists js, junction_set c rows = Ok js /\ In j js.
Proof.
  unfold js_of. destruct (junction_set c rows) as [js|e].
  - split; [intro H; exists js; auto | intros (js' & E & H); injection E as <-; exact H].
  - split; [intros [] | intros (js' & E & _); discriminate].
Qed.

Lemma input_adjacency_js input j : input_adjacency input j <-> In j (input_js repaired input).
Proof.
  unfold input_adjacency, input_js. rewrite in_flat_map. split.
  - intros (isc & js & I & J & H). exists isc. split; [exact I|]. apply in_js_of. exists js. auto.
  - intros (isc & I & H). apply in_js_of in H as (js & J & H). exists isc, js. auto.
Qed.

Lemma output_adjacency_js o j : output_adjacency o j <-> In j (output_js repaired (out_asms o)).
Proof.
  unfold output_adjacency, output_js, asm_js. rewrite in_flat_map. split.
  - intros (a & sc & js & Ia & Is & J & H). exists a. split; [exact Ia|]. apply in_flat_map.
    exists sc. split; [exact Is|]. apply in_js_of. exists js. auto.
  - intros (a & Ia & H). apply in_flat_map in H as (sc & Is & H). apply in_js_of in H as (js & J & H).
    exists a, sc, js. auto.
Qed.

Lemma or_False_r (A : Prop) : A \/ False <-> A.
Proof. split; [intros [H|[]]; exact H | intro H; left; exact H]. Qed.

Lemma or_False_l (A : Prop) : False \/ A <-> A.
Proof. split; [intros [[]|H]; exact H | intro H; right; exact H]. Qed.

(* a fold that only ever adds the contribution of each element to what it has collected *)
Lemma foldM_collect {X S} (step : S -> X -> res S) (view : S -> list junction)
      (contrib : X -> list junction) (ok : S -> Prop) :
  (forall s x s', step s x = Ok s' -> ok s ->
     ok s' /\ forall j, In j (view s') <-> In j (view s) \/ In j (contrib x)) ->
  forall l s s', foldM step l s = Ok s' -> ok s ->
    ok s' /\ forall j, In j (view s') <-> In j (view s) \/ In j (flat_map contrib l).
Proof.
  intro Hstep. induction l as [|x l IH]; intros s s' H Hs; cbn [foldM flat_map] in *.
  - injection H as <-. split; [exact Hs|]. intro j. symmetry. apply or_False_r.
  - destruct (step s x) as [s1|e] eqn:E; cbn [bind] in H; [|discriminate].
    destruct (Hstep _ _ _ E Hs) as [Hs1 I1]. destruct (IH _ _ H Hs1) as [Hs' I].
    split; [exact Hs'|]. intro j. rewrite I, I1, in_app_iff. apply or_assoc.
Qed.

Definition values_nodup {K} (l : list (K * list junction)) : Prop := Forall (fun p => NoDup (snd p)) l.

Lemma fold_union_spec {K} : forall (l : list (K * list junction)) acc,
  NoDup acc -> values_nodup l ->
  NoDup (fold_left (fun acc p => union_j acc (snd p)) l acc)
  /\ forall j, In j (fold_left (fun acc p => union_j acc (snd p)) l acc) <-> In j acc \/ In j (flat_map snd l).
Proof.
  induction l as [|p l IH]; intros acc Na Nl; cbn [fold_left flat_map].
  - split; [exact Na|]. intro j. symmetry. apply or_False_r.
  - inversion Nl as [|? ? Np Nl']; subst.
    destruct (IH (union_j acc (snd p)) (union_j_nodup _ _ Na Np) Nl') as [N I].
    split; [exact N|]. intro j. rewrite I, union_j_in, in_app_iff. apply or_assoc.
Qed.

Lemma fold_union_nil {K} (l : list (K * list junction)) : values_nodup l ->
  NoDup (fold_left (fun acc p => union_j acc (snd p)) l [])
  /\ forall j, In j (fold_left (fun acc p => union_j acc (snd p)) l []) <-> In j (flat_map snd l).
Proof.
  intro N. destruct (fold_union_spec l [] (NoDup_nil _) N) as [Nd I]. split; [exact Nd|].
  intro j. exact (iff_trans (I j) (or_False_l _)).
Qed.

Lemma diff_j_spec (a b : list junction) (P Q : junction -> Prop) :
  (forall j, In j a <-> P j) -> (forall j, In j b <-> Q j) ->
  forall j, In j (diff_j a b) <-> P j /\ ~ Q j.
Proof. intros Ha Hb j. rewrite diff_j_in, Ha, Hb. reflexivity. Qed.

Lemma junction_set_short c rows : (length (frags_of rows) <= 1)%nat -> junction_set c rows = Ok [].
Proof.
  intro H. unfold junction_set, scaffold_junctions.
  destruct (frags_of rows) as [|f [|g t]]; cbn [junctions_of_frags bind].
  - destruct (fix_canon_junction c); reflexivity.
  - destruct (fix_canon_junction c); reflexivity.
  - cbn [length] in H. lia.
Qed.

(* the step of the fold in [input_junctions_by_prefix] *)
Definition ijp_step (c : cfg) (acc : list (option str * list junction)) (isc : str * list row)
  : res (list (option str * list junction)) :=
  let '(_, rows) := isc in
  match frags_of rows with
  | [] => Ok acc
  | f :: _ =>
      let k := asm_prefix_of (f_name f) in
      do js <- junction_set c rows;
      let old := match aget (opt_eqb str_eqb) acc k with Some l => l | None => [] end in
      Ok (aset (opt_eqb str_eqb) acc k (union_j old js))
  end.

Lemma in_flat_snd_mid {K} (l1 l2 : list (K * list junction)) k v j :
  In j (flat_map snd (l1 ++ (k, v) :: l2)) <-> In j v \/ In j (flat_map snd (l1 ++ l2)).
Proof. rewrite !flat_map_app, !in_app_iff. cbn [flat_map snd]. rewrite in_app_iff. tauto. Qed.

Lemma ijp_step_spec c acc isc acc' :
  ijp_step c acc isc = Ok acc' -> values_nodup acc ->
  values_nodup acc'
  /\ forall j, In j (flat_map snd acc') <-> In j (flat_map snd acc) \/ In j (js_of c (snd isc)).
Proof.
  destruct isc as [name rows]. cbn [ijp_step snd]. intros H Nd. unfold js_of.
  destruct (frags_of rows) as [|f t] eqn:F.
  - injection H as <-. rewrite (junction_set_short c rows) by (rewrite F; apply Nat.le_0_l).
    split; [exact Nd|]. intro j. symmetry. apply or_False_r.
  - destruct (junction_set c rows) as [js|e] eqn:J; cbn [bind] in H; [|discriminate].
    injection H as <-. pose proof (junction_set_nodup _ _ _ J) as Njs.
    set (k := asm_prefix_of (f_name f)).
    destruct (aget (opt_eqb str_eqb) acc k) as [old|] eqn:G.
    + (* the key is there: its value grows in place *)
      destruct (aget_split _ opt_str_eqb_eq _ _ _ G) as (l1 & l2 & -> & _ & Hs). rewrite Hs.
      apply Forall_app in Nd as [N1 N2]. inversion N2 as [|? ? No N2']; subst. split.
      * apply Forall_app. split; [exact N1|]. constructor; [apply union_j_nodup; assumption | exact N2'].
      * intro j. rewrite !in_flat_snd_mid, union_j_in. clear. tauto.
    + rewrite (aset_new _ opt_str_eqb_eq) by (apply (aget_None _ opt_str_eqb_eq); exact G).
      split.
      * apply Forall_app. split; [exact Nd|]. constructor; [|constructor].
        apply union_j_nodup; [constructor | exact Njs].
      * intro j. rewrite flat_map_app, in_app_iff. cbn [flat_map snd].
        rewrite app_nil_r, union_j_in, or_False_l. reflexivity.
Qed.

Theorem input_junctions_spec c input ijs :
  input_junctions_by_prefix c input = Ok ijs ->
  values_nodup ijs /\ forall j, In j (flat_map snd ijs) <-> In j (input_js c input).
Proof.
  intro H. change (foldM (ijp_step c) input [] = Ok ijs) in H.
  destruct (foldM_collect (ijp_step c) (flat_map snd) (fun isc => js_of c (snd isc)) values_nodup
              (ijp_step_spec c) input [] ijs H (Forall_nil _)) as [N I].
  split; [exact N|]. intro j. rewrite I. apply or_False_l.
Qed.

Lemma asm_step_spec c acc sc acc' :
  (do js <- junction_set c (sc_rows sc); Ok (union_j acc js)) = Ok acc' -> NoDup acc ->
  NoDup acc' /\ forall j, In j acc' <-> In j acc \/ In j (js_of c (sc_rows sc)).
Proof.
  unfold js_of. destruct (junction_set c (sc_rows sc)) as [js|e] eqn:J; cbn [bind]; [|discriminate].
  intros H Na. injection H as <-.
  split; [apply union_j_nodup; [exact Na | exact (junction_set_nodup _ _ _ J)]|].
  intro j. apply union_j_in.
Qed.

Lemma asm_junctions_spec c scs r :
  asm_junctions c scs = Ok r -> NoDup r /\ forall j, In j r <-> In j (asm_js c scs).
Proof.
  intro H.
  destruct (foldM_collect _ (fun acc => acc) (fun sc => js_of c (sc_rows sc)) (@NoDup junction)
              (asm_step_spec c) scs [] r H (NoDup_nil _)) as [N I].
  split; [exact N|]. intro j. rewrite I. apply or_False_l.
Qed.

Lemma output_junctions_spec c : forall asms ojs,
  mapM (fun a => do js <- asm_junctions c (oa_scaffolds a); Ok (oa_key a, js)) asms = Ok ojs ->
  values_nodup ojs /\ forall j, In j (flat_map snd ojs) <-> In j (output_js c asms).
Proof.
  induction asms as [|a asms IH]; intros ojs H; cbn [mapM] in H.
  - injection H as <-. split; [constructor|]. intro j. reflexivity.
  - destruct (asm_junctions c (oa_scaffolds a)) as [js|e] eqn:A; cbn [bind] in H; [|discriminate].
    match type of H with context [mapM ?f asms] => destruct (mapM f asms) as [rest|e] eqn:M end;
      cbn [bind] in H; [|discriminate].
    injection H as <-. destruct (IH rest eq_refl) as [Nr Ir].
    destruct (asm_junctions_spec _ _ _ A) as [Njs Ijs]. split.
    + constructor; [exact Njs | exact Nr].
    + intro j. unfold output_js. cbn [flat_map snd]. fold (output_js c asms).
      rewrite !in_app_iff, Ir, Ijs. reflexivity.
Qed.

Theorem make_stats_breaks_joins c input asms breaks joins per :
  make_stats c input asms = Ok (breaks, joins, per) ->
  exists broken joined : list junction,
    NoDup broken /\ NoDup joined
    /\ (forall j, In j broken <-> In j (input_js c input) /\ ~ In j (output_js c asms))
    /\ (forall j, In j joined <-> In j (output_js c asms) /\ ~ In j (input_js c input))
    /\ breaks = zlen broken /\ joins = zlen joined.
Proof.
  intro H. unfold make_stats in H.
  destruct (input_junctions_by_prefix c input) as [ijs|e] eqn:I; cbn [bind] in H; [|discriminate].
  match type of H with context [mapM ?f asms] => destruct (mapM f asms) as [ojs|e] eqn:M end;
    cbn [bind] in H; [|discriminate].
  destruct (input_junctions_spec _ _ _ I) as [Ni Ii].
  destruct (output_junctions_spec _ _ _ M) as [No Io].
  destruct (fold_union_nil ijs Ni) as [Nin Iin]. destruct (fold_union_nil ojs No) as [Nout Iout].
  assert (Pin := fun j => iff_trans (Iin j) (Ii j)). assert (Pout := fun j => iff_trans (Iout j) (Io j)).
  set (input_set := fold_left (fun acc p => union_j acc (snd p)) ijs []) in *.
  set (output_set := fold_left (fun acc p => union_j acc (snd p)) ojs []) in *.
  injection H as Hb Hj _.
  exists (diff_j input_set output_set), (diff_j output_set input_set).
  split; [apply diff_j_nodup, Nin|]. split; [apply diff_j_nodup, Nout|].
  split; [exact (diff_j_spec _ _ _ _ Pin Pout)|]. split; [exact (diff_j_spec _ _ _ _ Pout Pin)|].
  split; symmetry; assumption.
Qed.

(* object ids do not matter to junctions *)
Definition noid (f : frag) : frag :=
  mkFrag 0 (f_name f) (f_start f) (f_end f) (f_strand f) (f_tags f).

Lemma junction_tuple_noid a b : junction_tuple (noid a) (noid b) = junction_tuple a b.
Proof. reflexivity. Qed.

Lemma junction_tuple_same a a' b b' :
  noid a = noid a' -> noid b = noid b' -> junction_tuple a b = junction_tuple a' b'.
Proof.
  intros Ha Hb. rewrite <- (junction_tuple_noid a b), <- (junction_tuple_noid a' b'), Ha, Hb.
  reflexivity.
Qed.

Lemma cons_inj {A} (a b : A) l l' : a :: l = b :: l' -> a = b /\ l = l'.
Proof. intro H. injection H as H1 H2. split; assumption. Qed.

Lemma junctions_of_frags_same : forall t t' f f',
  noid f = noid f' -> map noid t = map noid t' ->
  junctions_of_frags f t = junctions_of_frags f' t'.
Proof.
  induction t as [|g t IH]; intros t' f f' Hf Ht; destruct t' as [|g' t']; cbn [map] in Ht;
    try discriminate; [reflexivity|].
  apply cons_inj in Ht. destruct Ht as [Hg Ht]. cbn [junctions_of_frags].
  rewrite (junction_tuple_same f f' g g' Hf Hg), (IH t' g g' Hg Ht). reflexivity.
Qed.

Lemma junction_set_same c rows rows' :
  map noid (frags_of rows) = map noid (frags_of rows') ->
  junction_set c rows = junction_set c rows'.
Proof.
  intro H. unfold junction_set, scaffold_junctions.
  destruct (frags_of rows) as [|f t]; destruct (frags_of rows') as [|f' t']; cbn [map] in H;
    try discriminate; [reflexivity|].
  apply cons_inj in H. destruct H as [Hf Ht]. rewrite (junctions_of_frags_same t t' f f' Hf Ht). reflexivity.
Qed.

Lemma number_rows_noid : forall rows n,
  map noid (frags_of (fst (number_rows rows n))) = map noid (frags_of rows).
Proof.
  induction rows as [|r rows IH]; intro n; [reflexivity|].
  cbn [number_rows]. specialize (IH (n + 1)).
  destruct r as [f|gp]; destruct (number_rows rows (n + 1)) as [t' n']; cbn [fst] in *.
  - change (frags_of (RF ?x :: ?t)) with (x :: frags_of t). cbn [map]. rewrite IH. reflexivity.
  - change (frags_of (RG gp :: ?t)) with (frags_of t). exact IH.
Qed.

Lemma junction_set_number_rows c rows n :
  junction_set c (fst (number_rows rows n)) = junction_set c rows.
Proof. apply junction_set_same, number_rows_noid. Qed.

Lemma input_js_number_input c : forall input n, input_js c (number_input input n) = input_js c input.
Proof.
  induction input as [|[name rows] input IH]; intro n; [reflexivity|].
  cbn [number_input]. pose proof (junction_set_number_rows c rows n) as K.
  destruct (number_rows rows n) as [rows' n']. cbn [fst] in K.
  unfold input_js, js_of in *. cbn [flat_map snd]. rewrite K, IH. reflexivity.
Qed.

Lemma assemblies_stats : forall c g prefix input rs o,
  assemblies_with_scaffolds_fused c g prefix input rs = Ok o ->
  make_stats c (number_input input 0) (out_asms o) = Ok (out_breaks o, out_joins o, out_per_asm o).
Proof.
  intros c g prefix input rs o H.
  destruct (assemblies_stages _ _ _ _ _ _ H) as (fused0 & fused & asms & [[br jo] per] & _ & _ & _ & MS & ->).
  exact MS.
Qed.

Lemma remap_stats : forall c g prefix bpt input pretext o,
  remap c g prefix bpt input pretext = Ok o ->
  make_stats c (number_input input 0) (out_asms o) = Ok (out_breaks o, out_joins o, out_per_asm o).
Proof.
  intros c g prefix bpt input pretext o H. destruct (remap_stages _ _ _ _ _ _ _ H) as (rs & _ & H').
  exact (assemblies_stats _ _ _ _ _ _ H').
Qed.

(* for every configuration of the model, not only the repaired one *)
Theorem breaks_joins_any_cfg : forall c g prefix bpt input pretext o,
  remap c g prefix bpt input pretext = Ok o ->
  exists broken joined : list junction,
    NoDup broken /\ NoDup joined
    /\ (forall j, In j broken <-> In j (input_js c input) /\ ~ In j (output_js c (out_asms o)))
    /\ (forall j, In j joined <-> In j (output_js c (out_asms o)) /\ ~ In j (input_js c input))
    /\ out_breaks o = zlen broken /\ out_joins o = zlen joined.
Proof.
  intros c g prefix bpt input pretext o H. rewrite <- (input_js_number_input c input 0).
  exact (make_stats_breaks_joins _ _ _ _ _ _ (remap_stats _ _ _ _ _ _ _ H)).
Qed.

Theorem breaks_joins_end_to_end : breaks_joins_statement.
Proof.
  intros g prefix bpt input pretext o H.
  destruct (breaks_joins_any_cfg repaired g prefix bpt input pretext o H)
    as (broken & joined & Nb & Nj & Ib & Ij & E).
  exists broken, joined. split; [exact Nb|]. split; [exact Nj|].
  split; [intro j; rewrite Ib, input_adjacency_js, output_adjacency_js; reflexivity|].
  split; [intro j; rewrite Ij, input_adjacency_js, output_adjacency_js; reflexivity | exact E].
Qed.

Lemma neighbour_exists {A} (l : list A) x : (2 <= length l)%nat -> In x l ->
  exists y, adjacent l x y \/ adjacent l y x.
Proof.
  intros Hlen Hx. apply in_split in Hx. destruct Hx as (l1 & l2 & ->).
  destruct l2 as [|y l2].
  - destruct (exists_last (l := l1)) as (l1' & y & ->).
    + intros ->. cbn [app length] in Hlen. lia.
    + exists y. right. exists l1', []. rewrite <- app_assoc. reflexivity.
  - exists y. left. exists l1, l2. reflexivity.
Qed.

(* [pm]: the strand is +1 or -1 *)
Lemma junction_set_ok_pm c rows js : (2 <= length (frags_of rows))%nat ->
  junction_set c rows = Ok js -> Forall pm (frags_of rows).
Proof.
  intros Hlen J. destruct (junction_set_in _ _ _ J) as (l & S & _).
  unfold scaffold_junctions in S. apply Forall_forall. intros x Hx.
  destruct (neighbour_exists _ x Hlen Hx) as (y & Hadj).
  destruct (frags_of rows) as [|f t]; [destruct Hx|].
  destruct Hadj as [Hadj|Hadj].
  - exact (proj1 (junctions_of_frags_ok_inv t f l S x y Hadj)).
  - exact (proj2 (junctions_of_frags_ok_inv t f l S y x Hadj)).
Qed.

(* no hypothesis on the strands: whenever the junction set of a scaffold
   exists, so does that of the reversed scaffold, with the same members *)
Theorem junction_set_reverse_total : forall rows js,
  junction_set repaired rows = Ok js ->
  exists jr, junction_set repaired (rows_reverse rows) = Ok jr /\ forall j, In j js <-> In j jr.
Proof.
  intros rows js J. destruct (Nat.le_gt_cases (length (frags_of rows)) 1) as [Hs|Hl].
  - exists []. rewrite (junction_set_short repaired rows Hs) in J. injection J as <-. split.
    + apply junction_set_short. rewrite frags_of_reverse, map_length, rev_length. exact Hs.
    + intro j. reflexivity.
  - assert (Hpm : Forall pm (frags_of rows)) by (apply (junction_set_ok_pm repaired rows js); [lia|exact J]).
    destruct (junction_set_ok repaired (rows_reverse rows) (Forall_pm_reverse rows Hpm)) as (jr & Jr).
    exists jr. split; [exact Jr|]. exact (junction_set_reverse rows js jr Hpm J Jr).
Qed.

Lemma js_of_reverse_incl rows j : In j (js_of repaired rows) -> In j (js_of repaired (rows_reverse rows)).
Proof.
  rewrite !in_js_of. intros (js & J & H).
  destruct (junction_set_reverse_total rows js J) as (jr & Jr & E).
  exists jr. split; [exact Jr | apply E, H].
Qed.

Lemma js_of_reverse rows j : In j (js_of repaired (rows_reverse rows)) <-> In j (js_of repaired rows).
Proof.
  split; [|apply js_of_reverse_incl]. intro H. apply js_of_reverse_incl in H.
  rewrite rows_reverse_involutive in H. exact H.
Qed.

(* the input scaffold [rows] presented in the other direction (possibly under
   another name): the same input adjacencies *)
Theorem input_adjacency_reverse : forall l1 l2 name name' rows j,
  input_adjacency (l1 ++ (name, rows) :: l2) j <->
  input_adjacency (l1 ++ (name', rows_reverse rows) :: l2) j.
Proof.
  intros l1 l2 name name' rows j. rewrite !input_adjacency_js. unfold input_js.
  rewrite !flat_map_app, !in_app_iff. cbn [flat_map snd]. rewrite !in_app_iff, js_of_reverse. reflexivity.
Qed.

(* hence the breaks and joins reported for a run are just as well the breaks and
   joins against the input with one scaffold read in the other direction *)
Corollary breaks_joins_reversal_invariant : forall g prefix bpt l1 name rows l2 pretext o,
  remap repaired g prefix bpt (l1 ++ (name, rows) :: l2) pretext = Ok o ->
  exists broken joined : list junction,
    NoDup broken /\ NoDup joined
    /\ (forall j, In j broken <->
          input_adjacency (l1 ++ (name, rows_reverse rows) :: l2) j /\ ~ output_adjacency o j)
    /\ (forall j, In j joined <->
          output_adjacency o j /\ ~ input_adjacency (l1 ++ (name, rows_reverse rows) :: l2) j)
    /\ out_breaks o = zlen broken /\ out_joins o = zlen joined.
Proof.
  intros g prefix bpt l1 name rows l2 pretext o H.
  destruct (breaks_joins_end_to_end g prefix bpt _ pretext o H)
    as (broken & joined & Nb & Nj & Ib & Ij & Eb & Ej).
  exists broken, joined. split; [exact Nb|]. split; [exact Nj|].
  split; [intro j; rewrite Ib, (input_adjacency_reverse l1 l2 name name rows j); reflexivity|].
  split; [intro j; rewrite Ij, (input_adjacency_reverse l1 l2 name name rows j); reflexivity|].
  split; assumption.
Qed.

(* input scaffold_1 = A -100- B, scaffold_2 = C; the map puts C between A and
   B: the adjacency A|B is broken, A|C and C|B are made *)
Definition bj_F (nm : string) (a b st : Z) : row :=
  RF (mkFrag (-1) (list_ascii_of_string nm) a b st []).
Arguments bj_F nm%string_scope a b st.
Definition bj_gap : gap := mkGap 200 (s "scaffold").
Definition bj_input : list (str * list row) :=
  [ (s "scaffold_1", [bj_F "ctgA" 1 1000 1; RG (mkGap 100 (s "scaffold")); bj_F "ctgB" 1 1000 1]);
    (s "scaffold_2", [bj_F "ctgC" 1 1000 1]) ].
Definition bj_ptx : list (str * list row) :=
  [ (s "Scaffold_1", [bj_F "scaffold_1" 1 1000 1; RG bj_gap; bj_F "scaffold_2" 1 1000 1; RG bj_gap;
                      bj_F "scaffold_1" 1101 2100 1]) ].
Definition bj_o : outputs :=
  Eval vm_compute in
    match remap repaired bj_gap (s "SUPER_") (10, 1) bj_input bj_ptx with
    | Ok o => o
    | Err _ => mkOut [] 0 0 0 []
    end.
Definition bj_AB : junction := JSISI (s "ctgA") 1000 (s "ctgB") 1.
Definition bj_AC : junction := JSISI (s "ctgA") 1000 (s "ctgC") 1.
Definition bj_CB : junction := JSISI (s "ctgC") 1000 (s "ctgB") 1.

Lemma bj_run : remap repaired bj_gap (s "SUPER_") (10, 1) bj_input bj_ptx = Ok bj_o.
Proof. vm_compute. reflexivity. Qed.

Lemma bj_input_js : input_js repaired bj_input = [bj_AB].
Proof. vm_compute. reflexivity. Qed.

Lemma bj_output_js : output_js repaired (out_asms bj_o) = [bj_AC; bj_CB].
Proof. vm_compute. reflexivity. Qed.

Example breaks_joins_instance :
  remap repaired bj_gap (s "SUPER_") (10, 1) bj_input bj_ptx = Ok bj_o
  /\ out_breaks bj_o = 1 /\ out_joins bj_o = 2
  /\ exists broken joined : list junction,
       NoDup broken /\ NoDup joined
       /\ (forall j, In j broken <-> j = bj_AB)
       /\ (forall j, In j joined <-> j = bj_AC \/ j = bj_CB)
       /\ zlen broken = 1 /\ zlen joined = 2.
Proof.
  split; [exact bj_run|]. split; [reflexivity|]. split; [reflexivity|].
  destruct (breaks_joins_end_to_end _ _ _ _ _ _ bj_run)
    as (broken & joined & Nb & Nj & Ib & Ij & Eb & Ej).
  exists broken, joined. split; [exact Nb|]. split; [exact Nj|]. split; [|split; [|split]].
  - intro j. rewrite Ib, input_adjacency_js, output_adjacency_js, bj_input_js, bj_output_js. cbn [In]. split.
    + intros [[<-|[]] _]. reflexivity.
    + intros ->. split; [left; reflexivity|]. intros [H|[H|[]]]; discriminate H.
  - intro j. rewrite Ij, input_adjacency_js, output_adjacency_js, bj_input_js, bj_output_js. cbn [In]. split.
    + intros [[<-|[<-|[]]] _]; [left | right]; reflexivity.
    + intro H. split; [destruct H as [->| ->]; [left | right; left]; reflexivity|].
      intros [<-|[]]. destruct H as [H|H]; discriminate H.
  - rewrite <- Eb. reflexivity.
  - rewrite <- Ej. reflexivity.
Qed.

Print Assumptions breaks_joins_reversal_invariant.
Print Assumptions breaks_joins_instance.
Print Assumptions breaks_joins_end_to_end.
