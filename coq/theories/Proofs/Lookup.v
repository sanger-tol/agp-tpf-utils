(* C12: find_overlaps (cumulative index + binary search + extension + gap
   stripping) meets the brute-force relational specification.

   Plan: [lookup_spec] has at most one answer ([lookup_spec_unique]);
   [find_overlaps] returns one ([find_overlaps_spec]: the binary search finds a
   meeting row, the two extensions reach the ends of the interval of meeting
   rows, the two strips move to its first and last fragment) and so does
   [brute_force] ([brute_force_spec]: the scan keeps the rows of that interval,
   written as a [seq] of indices, and [drop_gaps] removes the gaps at both
   ends); hence they agree. *)
From Tola Require Import Py.Base Model.Fragment Model.Lookup Proofs.BaseLemmas Proofs.Rows.
From Coq Require Import Lia ZifyBool.

Lemma pos_rows_app a b : pos_rows (a ++ b) <-> pos_rows a /\ pos_rows b.
Proof. unfold pos_rows. apply Forall_app. Qed.

(* prefix sum of the row lengths: row k occupies pre k + 1 .. pre (S k) *)
Definition pre (rows : list row) (k : nat) : Z := rows_len (firstn k rows).

Lemma span_start_pre rows k : span_start rows k = 1 + pre rows k.
Proof. reflexivity. Qed.
Lemma span_end_pre rows k : span_end rows k = pre rows (S k).
Proof. reflexivity. Qed.

Lemma pre_0 rows : pre rows 0 = 0.
Proof. reflexivity. Qed.

Lemma pre_step rows : pos_rows rows ->
  forall k, (k < length rows)%nat -> pre rows k < pre rows (S k).
Proof.
  unfold pre. induction 1 as [|r t Hr Ht IH]; intros k Hk; cbn [length] in Hk; [lia|].
  destruct k as [|k].
  - cbn [firstn]. rewrite rows_len_cons, !rows_len_nil. lia.
  - cbn [firstn]. rewrite !rows_len_cons.
    assert (G := IH k ltac:(lia)). cbn [firstn] in G. lia.
Qed.

Lemma pre_mono rows : pos_rows rows ->
  forall a b, (a < b <= length rows)%nat -> pre rows a < pre rows b.
Proof.
  intros H a b. induction b as [|b IH]; intro L; [lia|].
  assert (G := pre_step rows H b ltac:(lia)).
  destruct (Nat.eq_dec a b) as [->|N]; [assumption|].
  assert (G2 := IH ltac:(lia)). lia.
Qed.

Lemma pre_mono_le rows : pos_rows rows ->
  forall a b, (a <= b <= length rows)%nat -> pre rows a <= pre rows b.
Proof.
  intros H a b L. destruct (Nat.eq_dec a b) as [->|N]; [lia|].
  assert (G := pre_mono rows H a b ltac:(lia)). lia.
Qed.

Lemma cum_index_length rows : forall acc, length (cum_index rows acc) = length rows.
Proof. induction rows as [|r t IH]; intro acc; cbn [cum_index length]; [reflexivity|]. rewrite IH. reflexivity. Qed.

Lemma make_index_length rows : length (make_index rows) = length rows.
Proof. apply cum_index_length. Qed.

Lemma cum_index_nth rows : forall acc k, (k < length rows)%nat ->
  nth k (cum_index rows acc) 0 = acc + pre rows (S k).
Proof.
  unfold pre. induction rows as [|r t IH]; intros acc k Hk; cbn [length] in Hk; [lia|].
  cbn [cum_index]. destruct k as [|k].
  - cbn [nth firstn]. rewrite rows_len_cons, rows_len_nil. lia.
  - cbn [nth]. rewrite IH by lia.
    change (firstn (S (S k)) (r :: t)) with (r :: firstn (S k) t).
    rewrite rows_len_cons. lia.
Qed.

Lemma idx_at_pre rows m : 0 <= m < Z.of_nat (length rows) ->
  idx_at (make_index rows) m = pre rows (S (Z.to_nat m)).
Proof.
  intro H. unfold idx_at, make_index. rewrite cum_index_nth by lia. lia.
Qed.

Lemma row_start_pre rows m : 0 <= m <= Z.of_nat (length rows) ->
  row_start (make_index rows) m = 1 + pre rows (Z.to_nat m).
Proof.
  intro H. unfold row_start. destruct (m =? 0) eqn:E.
  - assert (m = 0) as -> by lia. reflexivity.
  - rewrite idx_at_pre by lia. replace (S (Z.to_nat (m - 1))) with (Z.to_nat m) by lia. reflexivity.
Qed.

Lemma idx_at_span_end rows k : (k < length rows)%nat ->
  idx_at (make_index rows) (Z.of_nat k) = span_end rows k.
Proof. intro H. rewrite idx_at_pre by lia. rewrite Nat2Z.id. reflexivity. Qed.

Lemma row_start_span_start rows k : (k <= length rows)%nat ->
  row_start (make_index rows) (Z.of_nat k) = span_start rows k.
Proof. intro H. rewrite row_start_pre by lia. rewrite Nat2Z.id. reflexivity. Qed.

Lemma span_start_S rows k : span_start rows (S k) = span_end rows k + 1.
Proof. rewrite span_start_pre, span_end_pre. lia. Qed.

Lemma span_end_mono rows a b : pos_rows rows -> (a < b < length rows)%nat ->
  span_end rows a < span_end rows b.
Proof. intros H L. rewrite !span_end_pre. apply pre_mono; [assumption|lia]. Qed.

Definition gap_at (rows : list row) (k : nat) : Prop :=
  exists g, nth_error rows k = Some (RG g).

Lemma frag_or_gap rows k : (k < length rows)%nat -> frag_at rows k \/ gap_at rows k.
Proof.
  intro H. unfold frag_at, gap_at. destruct (nth_error rows k) as [[f|g]|] eqn:E.
  - left. exists f. reflexivity.
  - right. exists g. reflexivity.
  - apply nth_error_None in E. lia.
Qed.

Lemma frag_not_gap rows k : frag_at rows k -> gap_at rows k -> False.
Proof. intros [f Hf] [g Hg]. congruence. Qed.

Lemma frag_at_lt rows k : frag_at rows k -> (k < length rows)%nat.
Proof. intros [f Hf]. apply nth_error_Some. congruence. Qed.

Lemma py_nth_ok {A} (l : list A) i x : nth_error l i = Some x -> py_nth l (Z.of_nat i) = Ok x.
Proof.
  intro H. assert (L : (i < length l)%nat) by (apply nth_error_Some; congruence).
  unfold py_nth, zlen. cbv zeta.
  assert (E1 : (Z.of_nat i <? 0) = false) by lia.
  assert (E2 : (Z.of_nat (length l) <=? Z.of_nat i) = false) by lia.
  rewrite E1. cbv iota. rewrite E1, E2. cbn [orb].
  rewrite Nat2Z.id, H. reflexivity.
Qed.

(* loop invariant: every meeting row lies in [a, z); the fuel bounds z - a *)
Lemma bsearch_spec rows bs be : pos_rows rows ->
  forall fuel a z, 0 <= a -> z <= Z.of_nat (length rows) ->
    Z.max 0 (z - a) < Z.of_nat fuel ->
    (forall k, (k < length rows)%nat -> meets rows bs be k -> a <= Z.of_nat k < z) ->
    exists r, bsearch (make_index rows) bs be fuel a z = Ok r /\
      match r with
      | Some m => exists k, m = Z.of_nat k /\ (k < length rows)%nat /\ meets rows bs be k
      | None => forall k, (k < length rows)%nat -> ~ meets rows bs be k
      end.
Proof.
  intros Hp. induction fuel as [|fuel IH]; intros a z Ha Hz Hf Inv; [lia|].
  cbn [bsearch]. destruct (a <? z) eqn:Eaz.
  - set (m := a + (z - a) / 2).
    assert (Hm : a <= m < z) by (subst m; Z.div_mod_to_equations; lia).
    rewrite idx_at_pre by lia. rewrite row_start_pre by lia.
    destruct (pre rows (S (Z.to_nat m)) <? bs) eqn:E1.
    + apply IH; try lia. intros k Hk Mk. specialize (Inv k Hk Mk).
      destruct Mk as [M1 M2]. rewrite span_end_pre in M2.
      destruct (Z_le_gt_dec (Z.of_nat k) m) as [Le|Gt]; [|lia].
      assert (G := pre_mono_le rows Hp (S k) (S (Z.to_nat m)) ltac:(lia)). lia.
    + destruct (1 + pre rows (Z.to_nat m) >? be) eqn:E2.
      * apply IH; try lia. intros k Hk Mk. specialize (Inv k Hk Mk).
        destruct Mk as [M1 M2]. rewrite span_start_pre in M1.
        destruct (Z_lt_ge_dec (Z.of_nat k) m) as [Lt|Ge]; [lia|].
        assert (G := pre_mono_le rows Hp (Z.to_nat m) k ltac:(lia)). lia.
      * exists (Some m). split; [reflexivity|]. exists (Z.to_nat m).
        unfold meets. rewrite span_start_pre, span_end_pre. lia.
  - exists None. split; [reflexivity|]. intros k Hk Mk. specialize (Inv k Hk Mk). lia.
Qed.

Lemma extend_left_spec rows bs : forall c, (c < length rows)%nat -> bs <= pre rows (S c) ->
  exists i, extend_left (make_index rows) bs c (Z.of_nat c) = Z.of_nat i /\ (i <= c)%nat
    /\ bs <= pre rows (S i) /\ (i = 0%nat \/ pre rows i < bs).
Proof.
  induction c as [|c IH]; intros Hc Hb.
  - exists 0%nat. cbn [extend_left]. split; [reflexivity|]. split; [lia|]. split; [assumption|]. left; reflexivity.
  - cbn [extend_left]. rewrite idx_at_pre by lia. rewrite Nat2Z.id.
    destruct (pre rows (S c) <? bs) eqn:E.
    + exists (S c). split; [reflexivity|]. split; [lia|]. split; [assumption|]. right; lia.
    + destruct (IH ltac:(lia) ltac:(lia)) as (i & E1 & E2 & E3 & E4).
      exists i. split; [assumption|]. split; [lia|]. split; assumption.
Qed.

Lemma extend_right_spec rows be : forall cnt c,
  (c + 1 + cnt = length rows)%nat -> 1 + pre rows c <= be ->
  exists j, extend_right (make_index rows) be cnt (Z.of_nat c + 1) (Z.of_nat c) = Z.of_nat j
    /\ (c <= j < length rows)%nat /\ 1 + pre rows j <= be
    /\ (S j = length rows \/ be < 1 + pre rows (S j)).
Proof.
  induction cnt as [|cnt IH]; intros c Hc Hb.
  - exists c. cbn [extend_right]. split; [reflexivity|]. split; [lia|]. split; [assumption|]. left; lia.
  - cbn [extend_right]. rewrite row_start_pre by lia.
    replace (Z.to_nat (Z.of_nat c + 1)) with (S c) by lia.
    destruct (1 + pre rows (S c) >? be) eqn:E.
    + exists c. split; [reflexivity|]. split; [lia|]. split; [assumption|]. right; lia.
    + replace (Z.of_nat c + 1) with (Z.of_nat (S c)) by lia.
      destruct (IH (S c) ltac:(lia) ltac:(lia)) as (j & E1 & E2 & E3 & E4).
      exists j. split; [assumption|]. split; [lia|]. split; assumption.
Qed.

(* the rows meeting the query are exactly an interval of indices *)
Lemma meets_interval rows bs be i0 j0 : pos_rows rows ->
  (i0 < length rows)%nat -> (j0 < length rows)%nat ->
  bs <= pre rows (S i0) -> (i0 = 0%nat \/ pre rows i0 < bs) ->
  1 + pre rows j0 <= be -> (S j0 = length rows \/ be < 1 + pre rows (S j0)) ->
  forall k, (k < length rows)%nat -> (meets rows bs be k <-> (i0 <= k < S j0)%nat).
Proof.
  intros Hp Li Lj I1 I2 J1 J2 k Hk. unfold meets. rewrite span_start_pre, span_end_pre. split.
  - intros [M1 M2]. split.
    + destruct (le_lt_dec i0 k) as [L|L]; [assumption|]. exfalso.
      destruct I2 as [->|I2]; [lia|].
      assert (G := pre_mono_le rows Hp (S k) i0 ltac:(lia)). lia.
    + destruct (le_lt_dec k j0) as [L|L]; [lia|]. exfalso.
      destruct J2 as [J2|J2]; [lia|].
      assert (G := pre_mono_le rows Hp (S j0) k ltac:(lia)). lia.
  - intros [L1 L2].
    assert (G1 := pre_mono_le rows Hp (S i0) (S k) ltac:(lia)).
    assert (G2 := pre_mono_le rows Hp k j0 ltac:(lia)). lia.
Qed.

Lemma strip_left_spec rows : forall fuel i j,
  (i <= S j)%nat -> (j < length rows)%nat -> (S j - i < fuel)%nat ->
  exists i', strip_left true rows fuel (Z.of_nat i) (Z.of_nat j) = Ok (Z.of_nat i')
    /\ (i <= i' <= S j)%nat
    /\ (forall k, (i <= k < i')%nat -> gap_at rows k)
    /\ ((i' <= j)%nat -> frag_at rows i').
Proof.
  induction fuel as [|fuel IH]; intros i j H1 H2 H3; [lia|].
  cbn [strip_left].
  destruct (Z.of_nat i <=? Z.of_nat j) eqn:E; cbn [andb negb].
  - destruct (frag_or_gap rows i ltac:(lia)) as [[f Hf]|[g Hg]].
    + rewrite (py_nth_ok _ _ _ Hf). cbn [bind is_gap]. exists i.
      split; [reflexivity|]. split; [lia|]. split; [intros k Hk; lia|].
      intros _. exists f. assumption.
    + rewrite (py_nth_ok _ _ _ Hg). cbn [bind is_gap].
      replace (Z.of_nat i + 1) with (Z.of_nat (S i)) by lia.
      destruct (IH (S i) j ltac:(lia) ltac:(lia) ltac:(lia)) as (i' & G1 & G2 & G3 & G4).
      exists i'. split; [assumption|]. split; [lia|]. split; [|assumption].
      intros k Hk. destruct (Nat.eq_dec k i) as [->|N]; [exists g; assumption|apply G3; lia].
  - exists i. split; [reflexivity|]. split; [lia|]. split; intros; lia.
Qed.

Lemma strip_right_spec rows i : frag_at rows i -> forall fuel j,
  (i <= j < length rows)%nat -> (j - i < fuel)%nat ->
  exists j', strip_right true rows fuel (Z.of_nat i) (Z.of_nat j) = Ok (Z.of_nat j')
    /\ (i <= j' <= j)%nat /\ frag_at rows j'
    /\ (forall k, (j' < k <= j)%nat -> gap_at rows k).
Proof.
  intros Fi. induction fuel as [|fuel IH]; intros j H1 H2; [lia|].
  cbn [strip_right].
  replace (Z.of_nat i <=? Z.of_nat j) with true by lia. cbn [andb negb].
  destruct (frag_or_gap rows j ltac:(lia)) as [[f Hf]|[g Hg]].
  - rewrite (py_nth_ok _ _ _ Hf). cbn [bind is_gap]. exists j.
    split; [reflexivity|]. split; [lia|]. split; [exists f; assumption|]. intros k Hk; lia.
  - rewrite (py_nth_ok _ _ _ Hg). cbn [bind is_gap].
    assert (N : i <> j). { intros ->. eapply frag_not_gap; [exact Fi|exists g; exact Hg]. }
    replace (Z.of_nat j - 1) with (Z.of_nat (j - 1)) by lia.
    destruct (IH (j - 1)%nat ltac:(lia) ltac:(lia)) as (j' & G1 & G2 & G3 & G4).
    exists j'. split; [assumption|]. split; [lia|]. split; [assumption|].
    intros k Hk. destruct (Nat.eq_dec k j) as [->|N']; [exists g; assumption|apply G4; lia].
Qed.

(* the two stripping loops on the rows [i0 .. j0], and the answer built from
   what they return *)
Lemma strip_both rows i0 j0 : (i0 <= j0 < length rows)%nat ->
  exists r,
    (do i1 <- strip_left true rows (S (S (length rows))) (Z.of_nat i0) (Z.of_nat j0);
     do j1 <- strip_right true rows (S (S (length rows + length rows))) i1 (Z.of_nat j0);
     if negb (i1 <=? j1) then Ok None
     else Ok (Some (mkFound (row_start (make_index rows) i1) (idx_at (make_index rows) j1)
                            (py_slice rows i1 (j1 + 1))))) = Ok r
    /\ match r with
       | None => forall k, (i0 <= k < S j0)%nat -> gap_at rows k
       | Some fo => exists i1 j1, (i0 <= i1 <= j1)%nat /\ (j1 <= j0)%nat
           /\ fo_rows fo = firstn (S j1 - i1) (skipn i1 rows)
           /\ fo_start fo = span_start rows i1 /\ fo_end fo = span_end rows j1
           /\ frag_at rows i1 /\ frag_at rows j1
           /\ (forall k, (i0 <= k < i1)%nat -> gap_at rows k)
           /\ (forall k, (j1 < k < S j0)%nat -> gap_at rows k)
       end.
Proof.
  intros L. set (n := length rows) in *.
  destruct (strip_left_spec rows (S (S n)) i0 j0 ltac:(lia) ltac:(lia) ltac:(lia))
    as (i1 & Ei1 & Li1 & G1 & F1).
  rewrite Ei1. cbn [bind].
  destruct (le_lt_dec i1 j0) as [Le|Gt].
  - destruct (strip_right_spec rows i1 (F1 Le) (S (S (n + n))) j0 ltac:(lia) ltac:(lia))
      as (j1 & Ej1 & Lj1 & F2 & G2).
    rewrite Ej1. cbn [bind].
    replace (Z.of_nat i1 <=? Z.of_nat j1) with true by lia. cbn [negb].
    eexists. split; [reflexivity|]. exists i1, j1. cbn [fo_rows fo_start fo_end].
    split; [lia|]. split; [lia|]. split.
    { unfold py_slice. rewrite Nat2Z.id. f_equal. lia. }
    split. { rewrite row_start_pre by lia. rewrite Nat2Z.id. reflexivity. }
    split. { rewrite idx_at_pre by lia. rewrite Nat2Z.id. reflexivity. }
    split; [apply F1; exact Le|]. split; [exact F2|]. split; [exact G1|].
    intros k Hk. apply G2. lia.
  - assert (i1 = S j0) by lia. subst i1.
    cbn [strip_right].
    replace (Z.of_nat (S j0) <=? Z.of_nat j0) with false by lia. cbn [andb negb bind].
    replace (Z.of_nat (S j0) <=? Z.of_nat j0) with false by lia. cbn [negb].
    exists None. split; [reflexivity | exact G1].
Qed.

(* the answer, given the interval [a, b) of the rows that meet the query and
   that only gap rows lie in it outside [i, j] *)
Lemma core_some rows bs be a b i j :
  (forall k, (k < length rows)%nat -> (meets rows bs be k <-> (a <= k < b)%nat)) ->
  (a <= i)%nat -> (i <= j < b)%nat -> (b <= length rows)%nat ->
  (forall k, (a <= k < i)%nat -> gap_at rows k) ->
  (forall k, (j < k < b)%nat -> gap_at rows k) ->
  meets rows bs be i /\ meets rows bs be j
  /\ forall k, frag_at rows k -> meets rows bs be k -> (i <= k <= j)%nat.
Proof.
  intros Int Hi Hj Hb G1 G2. split; [apply Int; lia|]. split; [apply Int; lia|].
  intros k Fk Mk. assert (Lk := frag_at_lt rows k Fk). apply Int in Mk; [|assumption]. split.
  - destruct (le_lt_dec i k) as [L|L]; [assumption|]. exfalso.
    eapply frag_not_gap; [exact Fk|apply G1; lia].
  - destruct (le_lt_dec k j) as [L|L]; [assumption|]. exfalso.
    eapply frag_not_gap; [exact Fk|apply G2; lia].
Qed.

Lemma core_none rows bs be a b :
  (forall k, (k < length rows)%nat -> (meets rows bs be k <-> (a <= k < b)%nat)) ->
  (forall k, (a <= k < b)%nat -> gap_at rows k) ->
  forall k, frag_at rows k -> ~ meets rows bs be k.
Proof.
  intros Int G k Fk Mk. assert (Lk := frag_at_lt rows k Fk). apply Int in Mk; [|assumption].
  eapply frag_not_gap; [exact Fk | apply G, Mk].
Qed.

Lemma find_overlaps_unfold b rows bs be : rows <> [] ->
  find_overlaps_gen b rows bs be =
    let idx := make_index rows in
    let n := length idx in
    do ovr <- bsearch idx bs be (S n) 0 (Z.of_nat n);
    match ovr with
    | None => Ok None
    | Some m =>
        let i0 := extend_left idx bs (Z.to_nat m) m in
        let j0 := extend_right idx be (n - S (Z.to_nat m)) (m + 1) m in
        do i1 <- strip_left b rows (S (S n)) i0 j0;
        do j1 <- strip_right b rows (S (S (n + n))) i1 j0;
        if negb (i1 <=? j1) then Ok None
        else Ok (Some (mkFound (row_start idx i1) (idx_at idx j1)
                               (py_slice rows i1 (j1 + 1))))
    end.
Proof. intro H. destruct rows; [congruence|reflexivity]. Qed.

Theorem find_overlaps_spec : forall rows bs be,
  rows <> [] -> pos_rows rows -> 1 <= bs <= be ->
  exists r, find_overlaps rows bs be = Ok r /\ lookup_spec rows bs be r.
Proof.
  intros rows bs be Hne Hp Hb. unfold find_overlaps.
  rewrite find_overlaps_unfold by assumption. cbv zeta.
  rewrite make_index_length. set (n := length rows).
  destruct (bsearch_spec rows bs be Hp (S n) 0 (Z.of_nat n) ltac:(lia) ltac:(lia) ltac:(lia))
    as (r & Er & Hr).
  { intros k Hk _. lia. }
  rewrite Er. cbn [bind]. destruct r as [m|].
  2: { exists None. split; [reflexivity|]. cbn [lookup_spec]. intros k Fk Mk.
       apply (Hr k); [apply frag_at_lt; assumption|assumption]. }
  destruct Hr as (mm & -> & Hmm & [M1 M2]).
  rewrite span_start_pre in M1. rewrite span_end_pre in M2. rewrite Nat2Z.id.
  destruct (extend_left_spec rows bs mm Hmm M2) as (i0 & Ei & Li & I1 & I2). rewrite Ei.
  destruct (extend_right_spec rows be (n - S mm) mm ltac:(lia) M1) as (j0 & Ej & Lj & J1 & J2).
  rewrite Ej.
  assert (Int := meets_interval rows bs be i0 j0 Hp ltac:(lia) ltac:(lia) I1 I2 J1 J2).
  destruct (strip_both rows i0 j0 ltac:(lia)) as (r' & Er' & Hr'). fold n in Er'.
  rewrite Er'. exists r'. split; [reflexivity|]. destruct r' as [fo|]; cbn [lookup_spec].
  - destruct Hr' as (i1 & j1 & L1 & L2 & R & S1 & E1 & F1 & F2 & G1 & G2).
    exists i1, j1. split; [lia|]. split; [exact R|]. split; [exact S1|]. split; [exact E1|].
    split; [exact F1|]. split; [exact F2|].
    apply (core_some rows bs be i0 (S j0) i1 j1 Int); try lia; assumption.
  - exact (core_none rows bs be i0 (S j0) Int Hr').
Qed.

Theorem lookup_spec_unique : forall rows bs be r1 r2,
  pos_rows rows -> lookup_spec rows bs be r1 -> lookup_spec rows bs be r2 -> r1 = r2.
Proof.
  intros rows bs be [fo1|] [fo2|] _ H1 H2; cbn [lookup_spec] in H1, H2.
  - destruct H1 as (i1 & j1 & L1 & R1 & S1 & E1 & Fi1 & Fj1 & Mi1 & Mj1 & U1).
    destruct H2 as (i2 & j2 & L2 & R2 & S2 & E2 & Fi2 & Fj2 & Mi2 & Mj2 & U2).
    assert (A1 := U1 i2 Fi2 Mi2). assert (A2 := U2 i1 Fi1 Mi1).
    assert (A3 := U1 j2 Fj2 Mj2). assert (A4 := U2 j1 Fj1 Mj1).
    assert (i1 = i2) by lia. assert (j1 = j2) by lia. subst i2 j2.
    destruct fo1 as [s1 e1 r1], fo2 as [s2 e2 r2]. cbn [fo_start fo_end fo_rows] in *.
    congruence.
  - exfalso. destruct H1 as (i1 & j1 & L1 & R1 & S1 & E1 & Fi1 & Fj1 & Mi1 & Mj1 & U1).
    exact (H2 i1 Fi1 Mi1).
  - exfalso. destruct H2 as (i2 & j2 & L2 & R2 & S2 & E2 & Fi2 & Fj2 & Mi2 & Mj2 & U2).
    exact (H1 i2 Fi2 Mi2).
  - reflexivity.
Qed.

Theorem lookup_spec_convex : forall rows bs be fo,
  pos_rows rows -> lookup_spec rows bs be (Some fo) ->
  exists i j, (i <= j < length rows)%nat /\ fo_rows fo = firstn (S j - i) (skipn i rows)
    /\ forall k, (i <= k <= j)%nat -> meets rows bs be k.
Proof.
  intros rows bs be fo Hp H. cbn [lookup_spec] in H.
  destruct H as (i & j & L & R & S1 & E1 & Fi & Fj & [Mi1 Mi2] & [Mj1 Mj2] & U).
  exists i, j. split; [assumption|]. split; [assumption|].
  intros k Hk. unfold meets in *. rewrite span_start_pre, span_end_pre in *.
  assert (G1 := pre_mono_le rows Hp (S i) (S k) ltac:(lia)).
  assert (G2 := pre_mono_le rows Hp k j ltac:(lia)). lia.
Qed.

Definition dflt : row := RG (mkGap 0 []).
Definition tri (rows : list row) (k : nat) : Z * Z * row :=
  (span_start rows k, span_end rows k, nth k rows dflt).
Definition meetsb (rows : list row) (bs be : Z) (k : nat) : bool :=
  (span_start rows k <=? be) && (bs <=? span_end rows k).

Lemma meetsb_iff rows bs be k : meetsb rows bs be k = true <-> meets rows bs be k.
Proof. unfold meetsb, meets. lia. Qed.

Lemma pre_app_l l t k : (k <= length l)%nat -> pre (l ++ t) k = pre l k.
Proof.
  intro H. unfold pre. rewrite firstn_app.
  replace (k - length l)%nat with 0%nat by lia. cbn [firstn]. rewrite app_nil_r. reflexivity.
Qed.

Lemma pre_all l : pre l (length l) = rows_len l.
Proof. unfold pre. rewrite firstn_all. reflexivity. Qed.

Lemma scan_rows_app bs be : forall l1 l2 pos,
  scan_rows (l1 ++ l2) pos bs be = scan_rows l1 pos bs be ++ scan_rows l2 (pos + rows_len l1) bs be.
Proof.
  induction l1 as [|r t IH]; intros l2 pos.
  - cbn [app scan_rows]. rewrite rows_len_nil. f_equal. f_equal. lia.
  - cbn [app scan_rows]. rewrite IH, rows_len_cons, <- app_assoc.
    replace (pos + (row_len r + rows_len t)) with (pos + row_len r + rows_len t) by lia.
    reflexivity.
Qed.

Lemma scan_rows_seq bs be : forall rows,
  scan_rows rows 0 bs be =
  map (tri rows) (filter (meetsb rows bs be) (seq 0 (length rows))).
Proof.
  induction rows as [|r l IH] using rev_ind; [reflexivity|].
  rewrite scan_rows_app, app_length. cbn [length]. rewrite Nat.add_1_r, seq_S, filter_app, map_app.
  f_equal.
  - rewrite IH.
    rewrite (filter_ext_in (meetsb (l ++ [r]) bs be) (meetsb l bs be)).
    + apply map_ext_in. intros k Hk. apply filter_In in Hk as [Hk _]. apply in_seq in Hk.
      unfold tri. rewrite !span_start_pre, !span_end_pre.
      rewrite !pre_app_l by lia. rewrite app_nth1 by lia. reflexivity.
    + intros k Hk. apply in_seq in Hk. unfold meetsb.
      rewrite !span_start_pre, !span_end_pre. rewrite !pre_app_l by lia. reflexivity.
  - cbn [scan_rows filter Nat.add]. rewrite app_nil_r.
    assert (P1 : pre (l ++ [r]) (length l) = rows_len l).
    { rewrite pre_app_l by lia. apply pre_all. }
    assert (P2 : pre (l ++ [r]) (S (length l)) = rows_len l + row_len r).
    { replace (S (length l)) with (length (l ++ [r])) by (rewrite app_length; cbn [length]; lia).
      rewrite pre_all, rows_len_app, rows_len_cons, rows_len_nil. lia. }
    assert (T : tri (l ++ [r]) (length l) = (0 + rows_len l + 1, 0 + rows_len l + row_len r, r)).
    { unfold tri. rewrite span_start_pre, span_end_pre, P1, P2, nth_middle.
      f_equal. f_equal; lia. }
    assert (M : meetsb (l ++ [r]) bs be (length l) =
                (0 + rows_len l + 1 <=? be) && (bs <=? 0 + rows_len l + row_len r)).
    { unfold meetsb. rewrite span_start_pre, span_end_pre, P1, P2.
      f_equal; f_equal; lia. }
    rewrite M. destruct ((0 + rows_len l + 1 <=? be) && (bs <=? 0 + rows_len l + row_len r)).
    + cbn [map]. rewrite T. reflexivity.
    + reflexivity.
Qed.

Lemma downclosed_cut (Q : nat -> bool) : forall n,
  (forall k k', (k <= k' < n)%nat -> Q k' = true -> Q k = true) ->
  exists c, (c <= n)%nat /\ forall k, (k < n)%nat -> (Q k = true <-> (k < c)%nat).
Proof.
  induction n as [|n IH]; intro H.
  - exists 0%nat. split; [lia|]. intros k Hk. lia.
  - destruct IH as (c & Lc & Hc). { intros k k' L. apply H. lia. }
    destruct (Q n) eqn:E.
    + exists (S n). split; [lia|]. intros k Hk. split; [lia|]. intros _.
      apply (H k n); [lia|assumption].
    + exists c. split; [lia|]. intros k Hk.
      destruct (Nat.eq_dec k n) as [->|N].
      * rewrite E. split; [discriminate|lia].
      * apply Hc. lia.
Qed.

Lemma meets_cut rows bs be : pos_rows rows ->
  exists a b, (a <= length rows)%nat /\ (b <= length rows)%nat /\
    forall k, (k < length rows)%nat -> (meetsb rows bs be k = true <-> (a <= k < b)%nat).
Proof.
  intro Hp.
  destruct (downclosed_cut (fun k => pre rows (S k) <? bs) (length rows)) as (a & La & Ha).
  { intros k k' L H. assert (G := pre_mono_le rows Hp (S k) (S k') ltac:(lia)). lia. }
  destruct (downclosed_cut (fun k => 1 + pre rows k <=? be) (length rows)) as (b & Lb & Hb).
  { intros k k' L H. assert (G := pre_mono_le rows Hp k k' ltac:(lia)). lia. }
  exists a, b. split; [assumption|]. split; [assumption|]. intros k Hk.
  specialize (Ha k Hk). specialize (Hb k Hk). cbv beta in Ha, Hb.
  unfold meetsb. rewrite span_start_pre, span_end_pre. lia.
Qed.

Lemma filter_seq_interval (P : nat -> bool) a : forall n b, (b <= n)%nat ->
  (forall k, (k < n)%nat -> (P k = true <-> (a <= k < b)%nat)) ->
  filter P (seq 0 n) = seq a (b - a).
Proof.
  induction n as [|n IH]; intros b Lb H.
  - replace (b - a)%nat with 0%nat by lia. reflexivity.
  - rewrite seq_S, filter_app. cbn [filter Nat.add].
    assert (Hn := H n ltac:(lia)).
    destruct (P n) eqn:E.
    + assert (b = S n) by lia. subst b.
      rewrite (IH n) by (try lia; intros k Hk; specialize (H k ltac:(lia)); lia).
      replace (S n - a)%nat with (S (n - a)) by lia. rewrite seq_S.
      replace (a + (n - a))%nat with n by lia. reflexivity.
    + rewrite app_nil_r. destruct (le_lt_dec b n) as [L|L].
      * apply IH; [assumption|]. intros k Hk. apply H. lia.
      * rewrite (IH n) by (try lia; intros k Hk; specialize (H k ltac:(lia)); lia).
        replace (n - a)%nat with 0%nat by lia. replace (b - a)%nat with 0%nat by lia. reflexivity.
Qed.

Lemma nth_frag_or_gap rows k : (k < length rows)%nat ->
  (exists f, nth k rows dflt = RF f /\ frag_at rows k) \/
  (exists g, nth k rows dflt = RG g /\ gap_at rows k).
Proof.
  intro H. assert (E := nth_error_nth' rows dflt H).
  destruct (nth k rows dflt) as [f|g].
  - left. exists f. split; [reflexivity|]. exists f. assumption.
  - right. exists g. split; [reflexivity|]. exists g. assumption.
Qed.

Lemma drop_gaps_seq rows : forall len a, (a + len <= length rows)%nat ->
  exists g, (g <= len)%nat
    /\ drop_gaps (map (tri rows) (seq a len)) = map (tri rows) (seq (a + g) (len - g))
    /\ (forall k, (a <= k < a + g)%nat -> gap_at rows k)
    /\ ((g < len)%nat -> frag_at rows (a + g)).
Proof.
  induction len as [|len IH]; intros a L.
  - exists 0%nat. split; [lia|]. split; [reflexivity|]. split; intros; lia.
  - cbn [seq map]. unfold tri at 1.
    destruct (nth_frag_or_gap rows a ltac:(lia)) as [(f & E & F)|(g0 & E & G)]; rewrite E.
    + exists 0%nat. split; [lia|]. split.
      { cbn [drop_gaps]. rewrite Nat.add_0_r, Nat.sub_0_r. cbn [seq map]. unfold tri at 2.
        rewrite E. reflexivity. }
      split; [intros; lia|]. intros _. rewrite Nat.add_0_r. assumption.
    + cbn [drop_gaps]. destruct (IH (S a) ltac:(lia)) as (g & Lg & Eg & Gg & Fg).
      exists (S g). split; [lia|]. split.
      { rewrite Eg. replace (a + S g)%nat with (S a + g)%nat by lia.
        replace (S len - S g)%nat with (len - g)%nat by lia. reflexivity. }
      split.
      * intros k Hk. destruct (Nat.eq_dec k a) as [->|N]; [assumption|apply Gg; lia].
      * intros Hl. replace (a + S g)%nat with (S a + g)%nat by lia. apply Fg. lia.
Qed.

Lemma drop_gaps_rev_seq rows a : forall len, (a + len <= length rows)%nat ->
  exists g, (g <= len)%nat
    /\ rev (drop_gaps (rev (map (tri rows) (seq a len)))) = map (tri rows) (seq a (len - g))
    /\ (forall k, (a + len - g <= k < a + len)%nat -> gap_at rows k)
    /\ ((g < len)%nat -> frag_at rows (a + len - g - 1)).
Proof.
  induction len as [|len IH]; intros L.
  - exists 0%nat. split; [lia|]. split; [reflexivity|]. split; intros; lia.
  - rewrite seq_S, map_app, rev_app_distr. cbn [map rev app]. unfold tri at 1.
    destruct (nth_frag_or_gap rows (a + len) ltac:(lia)) as [(f & E & F)|(g0 & E & G)]; rewrite E.
    + exists 0%nat. split; [lia|]. split.
      { cbn [drop_gaps rev]. rewrite rev_involutive, Nat.sub_0_r, seq_S, map_app.
        cbn [map]. unfold tri at 3. rewrite E. reflexivity. }
      split; [intros; lia|]. intros _.
      replace (a + S len - 0 - 1)%nat with (a + len)%nat by lia. assumption.
    + cbn [drop_gaps]. destruct (IH ltac:(lia)) as (g & Lg & Eg & Gg & Fg).
      exists (S g). split; [lia|]. split.
      { rewrite Eg. replace (S len - S g)%nat with (len - g)%nat by lia. reflexivity. }
      split.
      * intros k Hk. destruct (Nat.eq_dec k (a + len)) as [->|N]; [assumption|apply Gg; lia].
      * intros Hl. replace (a + S len - S g - 1)%nat with (a + len - g - 1)%nat by lia.
        apply Fg. lia.
Qed.

Lemma skipn_nth_dflt {A} (d : A) : forall l i, (i < length l)%nat ->
  skipn i l = nth i l d :: skipn (S i) l.
Proof.
  induction l as [|x l IH]; intros i H; cbn [length] in H; [lia|].
  destruct i as [|i]; [reflexivity|].
  cbn [skipn nth]. rewrite (IH i) by lia. reflexivity.
Qed.

Lemma map_nth_seq {A} (d : A) l : forall len i, (i + len <= length l)%nat ->
  map (fun k => nth k l d) (seq i len) = firstn len (skipn i l).
Proof.
  induction len as [|len IH]; intros i H; [reflexivity|].
  cbn [seq map]. rewrite IH by lia. rewrite (skipn_nth_dflt d l i) by lia. reflexivity.
Qed.

Lemma core_match (core : list (Z * Z * row)) st e1 r1 t s2 en r2 :
  core = (st, e1, r1) :: t -> last_opt core = Some (s2, en, r2) ->
  match core, last_opt core with
  | (st, _, _) :: _, Some (_, en, _) => Some (mkFound st en (map snd core))
  | _, _ => None
  end = Some (mkFound st en (map snd core)).
Proof. intros H1 H2. subst core. cbv iota beta. rewrite H2. reflexivity. Qed.

(* what is left of the scan after the gaps at both ends are dropped: the rows
   [i, i + c) of the interval [a, b) of meeting rows *)
Lemma brute_core rows bs be : pos_rows rows ->
  exists a b i c,
    (forall k, (k < length rows)%nat -> (meets rows bs be k <-> (a <= k < b)%nat))
    /\ (b <= length rows)%nat /\ (a <= i)%nat
    /\ rev (drop_gaps (rev (drop_gaps (scan_rows rows 0 bs be)))) = map (tri rows) (seq i c)
    /\ (forall k, (a <= k < i)%nat -> gap_at rows k)
    /\ (forall k, (i + c <= k < b)%nat -> gap_at rows k)
    /\ ((0 < c)%nat -> (i + c <= b)%nat /\ frag_at rows i /\ frag_at rows (i + c - 1)).
Proof.
  intros Hp.
  destruct (meets_cut rows bs be Hp) as (a & b & La & Lb & Hab).
  rewrite scan_rows_seq, (filter_seq_interval _ a (length rows) b Lb Hab).
  destruct (drop_gaps_seq rows (b - a) a ltac:(lia)) as (g1 & Lg1 & E1 & G1 & F1).
  rewrite E1.
  destruct (drop_gaps_rev_seq rows (a + g1) (b - a - g1) ltac:(lia)) as (g2 & Lg2 & E2 & G2 & F2).
  rewrite E2.
  exists a, b, (a + g1)%nat, (b - a - g1 - g2)%nat.
  split. { intros k Hk. rewrite <- meetsb_iff. apply Hab, Hk. }
  split; [exact Lb|]. split; [lia|]. split; [reflexivity|].
  split; [exact G1|]. split. { intros k Hk. apply G2. lia. }
  intros Hc. split; [lia|]. split; [apply F1; lia|].
  replace (a + g1 + (b - a - g1 - g2) - 1)%nat with (a + g1 + (b - a - g1) - g2 - 1)%nat by lia.
  apply F2. lia.
Qed.

Theorem brute_force_spec : forall rows bs be,
  pos_rows rows -> lookup_spec rows bs be (brute_force rows bs be).
Proof.
  intros rows bs be Hp. unfold brute_force. cbv zeta.
  destruct (brute_core rows bs be Hp) as (a & b & i & c & Int & Lb & Li & E & G1 & G2 & F).
  rewrite E. destruct c as [|c].
  - cbn [seq map lookup_spec]. apply (core_none rows bs be a b Int). intros k Hk.
    destruct (le_lt_dec i k) as [L|L]; [apply G2; lia | apply G1; lia].
  - rewrite (core_match _ (span_start rows i) (span_end rows i) (nth i rows dflt)
               (map (tri rows) (seq (S i) c))
               (span_start rows (i + c)) (span_end rows (i + c)) (nth (i + c) rows dflt)).
    2: reflexivity.
    2: { rewrite seq_S, map_app. apply last_opt_snoc. }
    destruct (F ltac:(lia)) as (Lc & F1 & F2). replace (i + S c - 1)%nat with (i + c)%nat in F2 by lia.
    cbn [lookup_spec fo_rows fo_start fo_end].
    exists i, (i + c)%nat. split; [lia|]. split.
    { rewrite map_map. unfold tri. cbn [snd]. rewrite (map_nth_seq dflt rows) by lia.
      f_equal. lia. }
    split; [reflexivity|]. split; [reflexivity|]. split; [exact F1|]. split; [exact F2|].
    apply (core_some rows bs be a b i (i + c)%nat Int); try lia; [exact G1|].
    intros k Hk. apply G2. lia.
Qed.


Corollary find_overlaps_eq_brute_force : forall rows bs be,
  rows <> [] -> pos_rows rows -> 1 <= bs <= be ->
  find_overlaps rows bs be = Ok (brute_force rows bs be).
Proof.
  intros rows bs be Hne Hp Hb.
  destruct (find_overlaps_spec rows bs be Hne Hp Hb) as (r & Er & Hr).
  rewrite Er. f_equal.
  exact (lookup_spec_unique rows bs be _ _ Hp Hr (brute_force_spec rows bs be Hp)).
Qed.

Lemma find_overlaps_legacy_refuted :
  exists rows bs be, rows <> [] /\ pos_rows rows /\ 1 <= bs <= be /\
    find_overlaps_legacy rows bs be = Err IndexError.
Proof.
  exists [RF (mkFrag 0 (s "c") 1 10 1 []); RG (mkGap 10 (s "scaffold"))], 11, 20.
  split; [discriminate|]. split.
  { repeat constructor; cbn; lia. }
  split; [lia|]. vm_compute. reflexivity.
Qed.

Lemma bsearch_range idx bs be : forall fuel a z m,
  bsearch idx bs be fuel a z = Ok (Some m) -> a <= m < z.
Proof.
  induction fuel as [|fuel IH]; intros a z m H; [discriminate|].
  cbn [bsearch] in H. destruct (a <? z) eqn:E; [|discriminate].
  set (m0 := a + (z - a) / 2) in H.
  assert (Hm : a <= m0 < z) by (subst m0; Z.div_mod_to_equations; lia).
  destruct (idx_at idx m0 <? bs); [apply IH in H; lia|].
  destruct (row_start idx m0 >? be); [apply IH in H; lia|].
  injection H as <-. exact Hm.
Qed.

Lemma extend_left_range idx bs : forall n cur, Z.of_nat n <= cur ->
  0 <= extend_left idx bs n cur <= cur.
Proof.
  induction n as [|n IH]; intros cur H; cbn [extend_left]; [lia|].
  destruct (idx_at idx (Z.of_nat n) <? bs); [lia|].
  specialize (IH (Z.of_nat n) ltac:(lia)). lia.
Qed.

Lemma extend_right_range idx be : forall n j cur, cur < j ->
  cur <= extend_right idx be n j cur < j + Z.of_nat n.
Proof.
  induction n as [|n IH]; intros j cur H; cbn [extend_right]; [lia|].
  destruct (row_start idx j >? be); [lia|].
  specialize (IH (j + 1) j ltac:(lia)). lia.
Qed.

(* What find_overlaps returns when it returns something, for any bait
   coordinates (also start > end, also outside the scaffold) and any rows (also
   rows of length <= 0): a slice rows[i .. j] whose first and last rows are
   fragments, with the matching scaffold coordinates. *)
Definition lookup_shape (rows : list row) (fo : found) : Prop :=
  exists i j, (i <= j < length rows)%nat
    /\ fo_rows fo = firstn (S j - i) (skipn i rows)
    /\ fo_start fo = span_start rows i /\ fo_end fo = span_end rows j
    /\ frag_at rows i /\ frag_at rows j.

Lemma lookup_spec_shape rows bs be fo : lookup_spec rows bs be (Some fo) -> lookup_shape rows fo.
Proof.
  intros (i & j & L & R & S1 & E1 & Fi & Fj & _). exists i, j. auto 7.
Qed.

Theorem find_overlaps_shape : forall rows bs be fo,
  find_overlaps rows bs be = Ok (Some fo) -> lookup_shape rows fo.
Proof.
  intros rows bs be fo H. unfold find_overlaps in H.
  assert (Hne : rows <> []) by (intros ->; discriminate).
  rewrite find_overlaps_unfold in H by exact Hne. cbv zeta in H.
  rewrite make_index_length in H. set (n := length rows) in *.
  destruct (bsearch _ _ _ _ _ _) as [[m|]|] eqn:Hov; cbn [bind] in H; try discriminate.
  apply bsearch_range in Hov.
  pose proof (extend_left_range (make_index rows) bs (Z.to_nat m) m ltac:(lia)) as Li0.
  pose proof (extend_right_range (make_index rows) be (n - S (Z.to_nat m)) (m + 1) m ltac:(lia)) as Lj0.
  set (i0 := extend_left _ _ _ _) in *. set (j0 := extend_right _ _ _ _ _) in *.
  replace i0 with (Z.of_nat (Z.to_nat i0)) in H by lia.
  replace j0 with (Z.of_nat (Z.to_nat j0)) in H by lia.
  destruct (strip_both rows (Z.to_nat i0) (Z.to_nat j0) ltac:(lia)) as (r & Er & Hr). fold n in Er.
  rewrite Er in H. injection H as ->.
  destruct Hr as (i1 & j1 & L1 & L2 & R & S1 & E1 & F1 & F2 & _).
  exists i1, j1. split; [lia|]. auto 6.
Qed.

Print Assumptions find_overlaps_spec.
Print Assumptions lookup_spec_unique.
Print Assumptions lookup_spec_convex.
Print Assumptions brute_force_spec.
Print Assumptions find_overlaps_eq_brute_force.
Print Assumptions find_overlaps_legacy_refuted.
