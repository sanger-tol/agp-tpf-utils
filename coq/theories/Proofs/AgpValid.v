(* C06: the lines format_agp writes are valid AGP: coordinates tile each object,
   part numbers count from 1, gap / sequence columns are the ones the AGP
   specification asks for, and the writer is total on valid strands. *)
From Tola Require Import Py.Base Py.Dec Model.Fragment Model.AgpTpf Model.AgpTpfSpec.
From Tola Require Import Proofs.BaseLemmas Proofs.Rows.
From Coq Require Import Lia ZifyBool.

Theorem agp_rows_render : forall name rows p i,
  agp_rows name rows p i = mapM (render_num name) (agp_nums rows p i).
Proof.
  intros name rows; induction rows as [|r t IH]; intros p i; [reflexivity|].
  cbn [agp_rows agp_nums mapM]. rewrite IH.
  unfold render_num. cbn [an_beg an_end an_part an_row].
  destruct r; reflexivity.
Qed.

Theorem agp_nums_tiles : forall rows p i, tiles (agp_nums rows p i) (p + 1) (i + 1).
Proof.
  induction rows as [|r t IH]; intros p i; [exact I|].
  cbn [agp_nums tiles an_beg an_end an_part an_row].
  repeat split.
  - destruct r as [f|g]; cbn [row_len]; unfold f_len; lia.
  - apply IH.
Qed.

Lemma last_opt_cons {A} (x : A) l :
  last_opt (x :: l) = match last_opt l with Some y => Some y | None => Some x end.
Proof.
  unfold last_opt. cbn [rev]. destruct (rev l); reflexivity.
Qed.

Lemma last_end_cons x l d : last_end (x :: l) d = last_end l (an_end x).
Proof.
  unfold last_end. rewrite last_opt_cons. destruct (last_opt l); reflexivity.
Qed.

Theorem agp_nums_last_end : forall rows p i, last_end (agp_nums rows p i) p = p + rows_len rows.
Proof.
  induction rows as [|r t IH]; intros p i.
  - unfold rows_len, last_end; cbn. lia.
  - cbn [agp_nums]. rewrite last_end_cons. cbn [an_end].
    rewrite IH, rows_len_cons. lia.
Qed.

Theorem agp_nums_rows : forall rows p i, map an_row (agp_nums rows p i) = rows.
Proof.
  induction rows as [|r t IH]; intros p i; [reflexivity|].
  cbn [agp_nums map an_row]. rewrite IH. reflexivity.
Qed.

Theorem render_num_gap : forall name l g cols, an_row l = RG g -> render_num name l = Ok cols ->
  nth_error cols 4 = Some (s "U") /\ nth_error cols 5 = Some (str_of_Z (g_len g)) /\ nth_error cols 6 = Some (g_type g)
  /\ nth_error cols 7 = Some (s "yes") /\ length cols = 9%nat.
Proof.
  intros name l g cols Hr H. unfold render_num in H. rewrite Hr in H.
  injection H as <-. repeat split.
Qed.

Theorem render_num_frag : forall name l f cols, an_row l = RF f -> render_num name l = Ok cols ->
  nth_error cols 4 = Some (s "W") /\ nth_error cols 5 = Some (f_name f)
  /\ nth_error cols 6 = Some (str_of_Z (f_start f)) /\ nth_error cols 7 = Some (str_of_Z (f_end f)).
Proof.
  intros name l f cols Hr H. unfold render_num in H. rewrite Hr in H.
  destruct (strand_str_agp (f_strand f)); cbn [bind] in H; [|discriminate].
  injection H as <-. repeat split.
Qed.

Definition strands_ok (rows : list row) : Prop :=
  Forall (fun r => match r with RF f => f_strand f = 0 \/ f_strand f = 1 \/ f_strand f = -1 | RG _ => True end) rows.

Lemma strand_str_agp_ok st : (exists x, strand_str_agp st = Ok x) <-> st = 0 \/ st = 1 \/ st = -1.
Proof.
  split; [|intros [->|[->| ->]]; eexists; reflexivity].
  intros [x H]. unfold strand_str_agp in H.
  destruct (st =? 0) eqn:E0; [lia|]. destruct (st =? 1) eqn:E1; [lia|].
  destruct (st =? -1) eqn:E2; [lia|discriminate].
Qed.

Lemma agp_rows_ok name rows : forall p i,
  (exists ls, agp_rows name rows p i = Ok ls) <-> strands_ok rows.
Proof.
  unfold strands_ok. induction rows as [|r t IH]; intros p i; cbn [agp_rows].
  - split; [constructor | eexists; reflexivity].
  - rewrite Forall_cons_iff, <- (IH (p + row_len r) (i + 1)).
    destruct r as [f|g].
    + rewrite <- strand_str_agp_ok. split.
      * intros [ls H]. destruct (strand_str_agp (f_strand f)) as [sd|]; cbn [bind] in H; [|discriminate].
        destruct (agp_rows name t _ _) as [rest|]; [eauto | discriminate].
      * intros [[sd ->] [rest ->]]. eexists; reflexivity.
    + split.
      * intros [ls H]. cbn [bind] in H. destruct (agp_rows name t _ _) as [rest|]; [eauto | discriminate].
      * intros [_ [rest ->]]. eexists; reflexivity.
Qed.

(* format_agp succeeds when every fragment strand is 0, 1 or -1, and only then
   (format_agp_ok_strands) *)
Theorem format_agp_total : forall a,
  Forall (fun sc => Forall (fun r => match r with RF f => f_strand f = 0 \/ f_strand f = 1 \/ f_strand f = -1 | RG _ => True end) (snd sc)) (a_scaffolds a) ->
  exists t, format_agp a = Ok t.
Proof.
  intros a H. unfold format_agp, agp_lines.
  destruct (mapM_total (fun '(n, rows) => agp_rows n rows 0 0) (a_scaffolds a)) as [ls ->].
  - intros [n rows] Hin. rewrite Forall_forall in H. apply agp_rows_ok, (H _ Hin).
  - eexists; reflexivity.
Qed.

Theorem format_agp_ok_strands : forall a t, format_agp a = Ok t ->
  Forall (fun sc => strands_ok (snd sc)) (a_scaffolds a).
Proof.
  intros a t. unfold format_agp, agp_lines.
  destruct (mapM _ (a_scaffolds a)) as [ls|] eqn:E; [intros _|discriminate].
  apply Forall_forall. intros [n rows] Hin.
  apply (agp_rows_ok n rows 0 0), (mapM_ok_each _ _ _ E _ Hin).
Qed.

Print Assumptions agp_rows_render.
Print Assumptions agp_nums_tiles.
Print Assumptions agp_nums_last_end.
Print Assumptions agp_nums_rows.
Print Assumptions render_num_gap.
Print Assumptions render_num_frag.
Print Assumptions format_agp_total.
Print Assumptions format_agp_ok_strands.
