(* C07, provenance of gap rows: every GAP row of every output scaffold of
   [remap] is either the configured join gap (the [default_gap] argument) or a
   gap row -- same length, same type -- of the input assembly.  The program
   never invents, resizes or retypes a gap.  Holds for every input, every
   Pretext map, every texel size and every [cfg] (no flag matters: with
   [fix_leftover_gap = false] a left-over piece is appended with no gap at
   all, with [fix_gap_run = false] one gap of a run is kept instead of all).

   The proof carries one invariant, parametric in a predicate [Q] on gaps:
   "every gap row satisfies Q" ([GR] for a row list, [GS] for the store of
   overlap results).  The store keeps it by Proofs.StoreInv.store_invariant;
   a left-over scaffold is [missing_rows] of an input scaffold
   ([leftovers_from_missing]); fuse_step adds only the default gap
   ([fuse_all_preserves]); naming, grouping and sorting leave rows unchanged
   (Proofs.RemapTail.out_scaffold_rows). *)
From Tola Require Import Py.Base Model.Fragment Model.Scaffold Model.Lookup
  Model.OverlapResult Model.Namer Model.Remap
  Proofs.BaseLemmas Proofs.OverlapResult Proofs.RemapHead Proofs.StoreInv Proofs.JoinGaps.
From Tola Require Proofs.RemapTail.
From Coq Require Import String.

(* every left-over scaffold has rows, and they are [missing_rows] of one
   (numbered) input scaffold against the final found table *)
Definition from_missing (c : cfg) (inp : list (str * list row)) (found : list (fkey * (frag * list rid)))
           (g : gap) (sc : scaffold) : Prop :=
  sc_rows sc <> []
  /\ exists isc, In isc inp /\ sc_rows sc = missing_rows c found g (snd isc) [] 0 None.

Lemma add_missing_one_from c inp g found acc isc acc' :
  In isc inp -> (forall sc, In sc (snd acc) -> from_missing c inp found g sc) ->
  add_missing_one c g found acc isc = Ok acc' ->
  forall sc, In sc (snd acc') -> from_missing c inp found g sc.
Proof.
  intros Hin Ha H. destruct acc as [nm leftovers]. destruct isc as [name rows].
  destruct (add_missing_one_spec _ _ _ _ _ _ _ _ H) as [[_ ->] | (nm' & Hne & _ & ->)]; [exact Ha|].
  cbn [snd] in *. intros sc Hsc. apply in_app_or in Hsc. destruct Hsc as [Hsc | [<- | []]]; [apply Ha; exact Hsc|].
  split; [exact Hne|]. exists (name, rows). split; [exact Hin | reflexivity].
Qed.

Theorem leftovers_from_missing c g prefix bpt input pretext rs :
  remap_to_input c g prefix bpt input pretext = Ok rs ->
  forall sc, In sc (rs_left rs) -> from_missing c (number_input input 0) (b_found (rs_b rs)) g sc.
Proof.
  intros H. destruct (remap_to_input_stages _ _ _ _ _ _ _ H) as (_ & b1 & b2 & b3 & st & nl & _ & _ & _ & _ & Hnl & ->).
  clear H. cbn [rs_left rs_b with_namer with_store b_found].
  refine (foldM_inv_In _ (fun acc => forall sc, In sc (snd acc) ->
            from_missing c (number_input input 0) (b_found b3) g sc) _ _ _ _ _ Hnl).
  - intros acc isc acc' Hisc Ha Hacc. eapply add_missing_one_from; eassumption.
  - intros sc [].
Qed.

Lemma fuse_all_preserves c g (R : list row -> Prop) :
  (forall self othr isr, self = [] \/ R self -> R othr -> R (append_rows self othr (join_gap c g isr))) ->
  forall rs fused,
  (forall r, In r (b_store (rs_b rs)) -> to_scaffold_rows r = [] \/ R (to_scaffold_rows r)) ->
  (forall sc, In sc (rs_left rs) -> sc_rows sc = [] \/ R (sc_rows sc)) ->
  fuse_all c g rs = Ok fused -> forall sc, In sc fused -> R (sc_rows sc).
Proof.
  intros HR rs fused Hs Hl H. unfold fuse_all in H. bind_inv H results Hres. injection H as <-.
  intros sc Hsc. apply in_map_iff in Hsc. destruct Hsc as (e & <- & He).
  revert e He. apply (fuse_fold_preserves c g R HR); [intros e []|].
  intros p Hp. apply in_app_or in Hp. destruct Hp as [Hp | Hp]; apply in_map_iff in Hp.
  - destruct Hp as (r & <- & Hr). cbn [piece_of_result fst sc_rows].
    destruct (mapM_In _ _ _ Hres _ Hr) as (id & _ & Hget). apply Hs. eapply get_ovr_In. exact Hget.
  - destruct Hp as (sc0 & <- & Hsc0). cbn [fst]. apply Hl. exact Hsc0.
Qed.

Section GapInv.
  Variable Q : gap -> Prop.

  (* every gap row of [rows] satisfies Q *)
  Definition GR (rows : list row) : Prop := forall gp, In (RG gp) rows -> Q gp.
  Definition GS (st : list ovr) : Prop := forall r, In r st -> GR (o_rows r).
  Definition GI (inp : list (str * list row)) : Prop := forall isc, In isc inp -> GR (snd isc).
  Definition GL (l : list scaffold) : Prop := forall sc, In sc l -> GR (sc_rows sc).

  Lemma GR_nil : GR [].
  Proof. intros gp []. Qed.

  Lemma GR_incl rows rows' : (forall x, In x rows' -> In x rows) -> GR rows -> GR rows'.
  Proof. intros Hi H gp Hg. apply H. apply Hi. exact Hg. Qed.

  Lemma GR_app a b : GR a -> GR b -> GR (a ++ b).
  Proof. intros Ha Hb gp Hg. apply in_app_or in Hg. destruct Hg; [apply Ha | apply Hb]; assumption. Qed.

  Lemma GR_app_l a b : GR (a ++ b) -> GR a.
  Proof. apply GR_incl. intros x Hx. apply in_or_app. left. exact Hx. Qed.

  Lemma GR_app_r a b : GR (a ++ b) -> GR b.
  Proof. apply GR_incl. intros x Hx. apply in_or_app. right. exact Hx. Qed.

  Lemma GR_RF f rows : GR rows -> GR (RF f :: rows).
  Proof. intros H gp [Hg | Hg]; [discriminate | apply H; exact Hg]. Qed.

  Lemma GR_RG gp rows : Q gp -> GR rows -> GR (RG gp :: rows).
  Proof. intros Hq H gp' [Hg | Hg]; [injection Hg as <-; exact Hq | apply H; exact Hg]. Qed.

  Lemma GR_cons_inv x rows : GR (x :: rows) -> GR rows.
  Proof. apply GR_incl. intros y Hy. right. exact Hy. Qed.

  Lemma GR_single x rows : GR rows -> In x rows -> GR [x].
  Proof. intros H Hx. eapply GR_incl; [|exact H]. intros y [<- | []]. exact Hx. Qed.

  Lemma In_RG_rows_reverse gp rows : In (RG gp) (rows_reverse rows) <-> In (RG gp) rows.
  Proof.
    unfold rows_reverse. rewrite in_map_iff. split.
    - intros (x & E & Hx). apply in_rev in Hx. destruct x as [f|g0]; cbn [row_reverse] in E; [discriminate|].
      rewrite <- E. exact Hx.
    - intros H. exists (RG gp). split; [reflexivity|]. apply in_rev in H. exact H.
  Qed.

  Lemma GR_rows_reverse rows : GR rows -> GR (rows_reverse rows).
  Proof. intros H gp Hg. apply H. apply In_RG_rows_reverse. exact Hg. Qed.

  Lemma GR_to_scaffold_rows r : GR (o_rows r) -> GR (to_scaffold_rows r).
  Proof.
    unfold to_scaffold_rows. destruct (f_strand (o_bait r) =? -1); [apply GR_rows_reverse | auto].
  Qed.

  Lemma discard_start_GR r r' : discard_start r = Ok r' -> GR (o_rows r) -> GR (o_rows r').
  Proof. intros H. apply GR_incl. intros x. eapply discard_start_incl. exact H. Qed.

  Lemma discard_end_GR r r' : discard_end r = Ok r' -> GR (o_rows r) -> GR (o_rows r').
  Proof. intros H. apply GR_incl. intros x. eapply discard_end_incl. exact H. Qed.

  (* trim_fragment replaces one FRAGMENT row by a FRAGMENT row *)
  Lemma trim_fragment_GR r f ks ke new r' :
    trim_fragment r f ks ke = Ok (new, r') -> GR (o_rows r) -> GR (o_rows r').
  Proof.
    intros H Hc.
    destruct (trim_fragment_rows _ _ _ _ _ _ H) as [(tl & g0 & E & _ & -> & _) | (g0 & tl & E & _ & -> & _)];
      rewrite E in Hc.
    - apply GR_app; [eapply GR_app_l; exact Hc|]. intros gp [Hg | []]. discriminate.
    - apply GR_RF. eapply GR_cons_inv. exact Hc.
  Qed.

  Variable c : cfg.
  Variable g : gap.
  Hypothesis Hg : Q g.

  Lemma missing_sep_GR between : GR between -> GR (missing_sep c g between).
  Proof.
    intros Hb. unfold missing_sep. destruct (fix_gap_run c && forallb is_gap_row between); [exact Hb|].
    destruct (list_snoc_cases between) as [-> | (l' & x & ->)].
    - cbn [last]. apply GR_RG; [exact Hg | apply GR_nil].
    - rewrite last_last. destruct x as [f|gp].
      + apply GR_RG; [exact Hg | apply GR_nil].
      + eapply GR_app_r. exact Hb.
  Qed.

  Lemma missing_rows_GR found : forall rows between i la,
    GR rows -> GR between -> GR (missing_rows c found g rows between i la).
  Proof.
    induction rows as [|r rows IH]; intros between i la Hr Hb; cbn [missing_rows]; [apply GR_nil|].
    assert (Hb' : GR (between ++ [r])).
    { apply GR_app; [exact Hb|]. eapply GR_single; [exact Hr | left; reflexivity]. }
    pose proof (GR_cons_inv _ _ Hr) as Hr'.
    destruct r as [f|gp]; [|apply IH; assumption].
    destruct (aget key_eqb found (key_of f)); [apply IH; assumption|].
    apply GR_app.
    - destruct la as [la|]; [|apply GR_nil].
      destruct (negb (la =? i - 1)); [apply missing_sep_GR; exact Hb | apply GR_nil].
    - apply GR_RF. apply IH; [exact Hr' | apply GR_nil].
  Qed.

  Lemma append_rows_GR self othr og :
    GR self -> GR othr -> match og with Some g' => Q g' | None => True end ->
    GR (append_rows self othr og).
  Proof.
    intros Hs Ho Hq. unfold append_rows. destruct og as [g'|]; [|apply GR_app; assumption].
    destruct self as [|x self]; [apply GR_app; assumption|].
    apply GR_app; [exact Hs|]. cbn [app]. apply GR_RG; assumption.
  Qed.

  Lemma fuse_all_GL rs fused :
    GS (b_store (rs_b rs)) -> GL (rs_left rs) -> fuse_all c g rs = Ok fused -> GL fused.
  Proof.
    intros Hs Hl H. refine (fuse_all_preserves c g GR _ rs fused _ _ H).
    - intros self othr isr Hself Ho. apply append_rows_GR; [|exact Ho|].
      + destruct Hself as [-> | Hself]; [apply GR_nil | exact Hself].
      + unfold join_gap. destruct (isr || fix_leftover_gap c); [exact Hg | exact I].
    - intros r Hr. right. apply GR_to_scaffold_rows. apply Hs. exact Hr.
    - intros sc Hsc. right. apply Hl. exact Hsc.
  Qed.

  Lemma head_GS prefix bpt input pretext rs :
    GI (number_input input 0) -> remap_to_input c g prefix bpt input pretext = Ok rs ->
    GS (b_store (rs_b rs)) /\ GL (rs_left rs).
  Proof.
    intros Hinp H. split.
    - refine (store_invariant (fun r => GR (o_rows r)) c g prefix bpt input pretext rs _ _ _ _ _ H).
      + intros r r' E _ _ Hr. rewrite E. exact Hr.
      + intros name rows bait fo Hin Hfo. cbn [ovr_of_found o_rows].
        eapply GR_incl; [|exact (Hinp _ Hin)]. intros x Hx. eapply find_overlaps_rows; eassumption.
      + intros r r' Hr Hd. eapply discard_start_GR; eassumption.
      + intros r r' Hr Hd. eapply discard_end_GR; eassumption.
      + intros r t ks ke new r' _ Hr Ht. eapply trim_fragment_GR; eassumption.
    - intros sc Hsc. destruct (leftovers_from_missing _ _ _ _ _ _ _ H sc Hsc) as (_ & isc & Hisc & ->).
      apply missing_rows_GR; [exact (Hinp _ Hisc) | apply GR_nil].
  Qed.
End GapInv.

Lemma number_input_In input n isc : In isc (number_input input n) ->
  exists isc0, In isc0 input /\ fst isc = fst isc0 /\ Forall2 renumbered (snd isc0) (snd isc).
Proof.
  intros H. destruct (Forall2_In_r _ _ _ (number_input_Forall2 input n) isc H) as (isc0 & H0 & E & R).
  exists isc0. auto.
Qed.

Lemma renumbered_lens a b : Forall2 renumbered a b -> map row_len b = map row_len a.
Proof.
  induction 1 as [|r r' a b Hr _ IH]; [reflexivity|]. cbn [map]. rewrite IH. f_equal.
  destruct r as [f|gp], r' as [f'|gp']; cbn [renumbered] in Hr; try contradiction;
    [rewrite Hr | subst]; reflexivity.
Qed.

Lemma number_input_gaps gp : forall input n isc,
  In isc (number_input input n) -> In (RG gp) (snd isc) ->
  exists isc0, In isc0 input /\ In (RG gp) (snd isc0).
Proof.
  intros input n isc H Hg. destruct (number_input_In _ _ _ H) as (isc0 & H0 & _ & R).
  exists isc0. split; [exact H0|].
  destruct (Forall2_In_r _ _ _ R _ Hg) as ([f|gp'] & Hx & Hr); cbn [renumbered] in Hr; [destruct Hr|].
  subst gp'. exact Hx.
Qed.

Definition gap_from (input : list (str * list row)) (g gp : gap) : Prop :=
  gp = g \/ exists isc, In isc input /\ In (RG gp) (snd isc).

Definition gap_ok (input : list (str * list row)) (g : gap) (r : row) : Prop :=
  match r with RF _ => True | RG gp => gap_from input g gp end.
Definition rows_gap_ok input g (rows : list row) : Prop := Forall (gap_ok input g) rows.

Lemma rows_gap_ok_GR input g rows : rows_gap_ok input g rows <-> GR (gap_from input g) rows.
Proof.
  unfold rows_gap_ok, GR. rewrite Forall_forall. split.
  - intros H gp Hg. exact (H _ Hg).
  - intros H [f|gp] Hx; cbn [gap_ok]; [exact I | apply H; exact Hx].
Qed.

(* the state after remap_to_input: every result in the store and every
   left-over scaffold holds only input gaps or the default gap.  (The results
   in fact hold input gaps only: see [gap_provenance_results].) *)
Theorem gap_provenance_head : forall c g prefix bpt input pretext rs,
  remap_to_input c g prefix bpt input pretext = Ok rs ->
  (forall r, In r (b_store (rs_b rs)) -> rows_gap_ok input g (o_rows r))
  /\ (forall sc, In sc (rs_left rs) -> rows_gap_ok input g (sc_rows sc)).
Proof.
  intros c g prefix bpt input pretext rs H.
  destruct (head_GS (gap_from input g) c g (or_introl eq_refl) prefix bpt input pretext rs) as [Hs Hl];
    [|exact H|].
  { intros isc Hisc gp Hg. right. eapply number_input_gaps; eassumption. }
  split.
  - intros r Hr. apply rows_gap_ok_GR. apply Hs. exact Hr.
  - intros sc Hsc. apply rows_gap_ok_GR. apply Hl. exact Hsc.
Qed.

(* the overlap results never contain the default gap as such: all their gap
   rows are input gap rows *)
Theorem gap_provenance_results : forall c g prefix bpt input pretext rs,
  remap_to_input c g prefix bpt input pretext = Ok rs ->
  forall r gp, In r (b_store (rs_b rs)) -> In (RG gp) (o_rows r) ->
    exists isc, In isc input /\ In (RG gp) (snd isc).
Proof.
  intros c g prefix bpt input pretext rs H r gp Hr Hg.
  refine (store_invariant (fun r => GR (fun gp => exists isc, In isc input /\ In (RG gp) (snd isc)) (o_rows r))
            c g prefix bpt input pretext rs _ _ _ _ _ H r Hr gp Hg).
  - intros r0 r' E _ _ Hr0. rewrite E. exact Hr0.
  - intros name rows bait fo Hin Hfo gp' Hg'. cbn [ovr_of_found o_rows] in Hg'.
    apply (number_input_gaps gp' input 0 (name, rows) Hin). eapply find_overlaps_rows; eassumption.
  - intros r0 r' Hr0 Hd. eapply discard_start_GR; eassumption.
  - intros r0 r' Hr0 Hd. eapply discard_end_GR; eassumption.
  - intros r0 t ks ke new r' _ Hr0 Ht. eapply trim_fragment_GR; eassumption.
Qed.

(* fusing adds only the join gap, for any predicate on gaps that the join gap
   satisfies *)
Theorem gap_provenance_fuse : forall (Q : gap -> Prop) c g rs fused,
  Q g ->
  (forall r gp, In r (b_store (rs_b rs)) -> In (RG gp) (o_rows r) -> Q gp) ->
  (forall sc gp, In sc (rs_left rs) -> In (RG gp) (sc_rows sc) -> Q gp) ->
  fuse_all c g rs = Ok fused ->
  forall sc gp, In sc fused -> In (RG gp) (sc_rows sc) -> Q gp.
Proof.
  intros Q c g rs fused Hg Hs Hl H sc gp Hsc Hgp.
  refine (fuse_all_GL Q c g Hg rs fused _ _ H sc Hsc gp Hgp).
  - intros r Hr gp' Hg'. exact (Hs r gp' Hr Hg').
  - intros sc' Hsc' gp' Hg'. exact (Hl sc' gp' Hsc' Hg').
Qed.

Theorem gap_provenance_tail : forall (Q : gap -> Prop) c g prefix input rs o,
  Q g ->
  (forall r gp, In r (b_store (rs_b rs)) -> In (RG gp) (o_rows r) -> Q gp) ->
  (forall sc gp, In sc (rs_left rs) -> In (RG gp) (sc_rows sc) -> Q gp) ->
  assemblies_with_scaffolds_fused c g prefix input rs = Ok o ->
  forall a sc gp, In a (out_asms o) -> In sc (oa_scaffolds a) -> In (RG gp) (sc_rows sc) -> Q gp.
Proof.
  intros Q c g prefix input rs o Hg Hs Hl H a sc gp Ha Hsc Hgp.
  destruct (RemapTail.out_scaffold_rows _ _ _ _ _ _ _ _ H Ha Hsc) as (fused0 & sc0 & F & Hsc0 & E).
  rewrite E in Hgp.
  exact (gap_provenance_fuse Q c g rs fused0 Hg Hs Hl F sc0 gp Hsc0 Hgp).
Qed.

(* C07: every gap row of every output scaffold is the configured join gap or a
   gap row (same length and type) of the input assembly *)
Theorem gap_provenance : forall c g prefix bpt input pretext o,
  remap c g prefix bpt input pretext = Ok o ->
  forall a sc gp, In a (out_asms o) -> In sc (oa_scaffolds a) -> In (RG gp) (sc_rows sc) ->
    gp = g \/ exists isc, In isc input /\ In (RG gp) (snd isc).
Proof.
  intros c g prefix bpt input pretext o H. destruct (RemapTail.remap_stages _ _ _ _ _ _ _ H) as (rs & Hrs & Ho).
  destruct (gap_provenance_head _ _ _ _ _ _ _ Hrs) as (Hs & Hl).
  apply (gap_provenance_tail (gap_from input g) c g prefix input rs o).
  - left. reflexivity.
  - intros r gp Hr Hg. apply (proj1 (rows_gap_ok_GR _ _ _) (Hs r Hr)). exact Hg.
  - intros sc gp Hsc Hg. apply (proj1 (rows_gap_ok_GR _ _ _) (Hl sc Hsc)). exact Hg.
  - exact Ho.
Qed.

Corollary gap_provenance_rows : forall c g prefix bpt input pretext o,
  remap c g prefix bpt input pretext = Ok o ->
  forall a sc, In a (out_asms o) -> In sc (oa_scaffolds a) -> rows_gap_ok input g (sc_rows sc).
Proof.
  intros c g prefix bpt input pretext o H a sc Ha Hsc. apply rows_gap_ok_GR.
  intros gp Hg. eapply gap_provenance; eassumption.
Qed.

(* One input scaffold A -100- B -57- C -8- D (three gaps of different lengths
   and types) and a second one E -33- G.  The map cuts B in two, reverses the
   piece [second half of B, gap 57, C], and reorders: so the 57 bp gap is kept
   (inside a reversed result), the 100 bp and 8 bp gaps are dropped, the 33 bp
   gap of the untouched scaffold is kept, and the join gap (200 bp) is
   inserted three times.  No other gap row exists in the output. *)
Definition ex_F (nm : string) (a b st : Z) (tags : list str) : row :=
  RF (mkFrag (-1) (list_ascii_of_string nm) a b st tags).
Arguments ex_F nm%string_scope a b st tags.
Definition ex_gap : gap := mkGap 200 (s "scaffold").
Definition ex_input : list (str * list row) :=
  [ (s "scaffold_1", [ex_F "ctgA" 1 1000 1 []; RG (mkGap 100 (s "scaffold")); ex_F "ctgB" 1 1000 1 [];
                      RG (mkGap 57 (s "contig")); ex_F "ctgC" 1 1000 1 [];
                      RG (mkGap 8 (s "short_arm")); ex_F "ctgD" 1 1000 1 []]);
    (s "scaffold_2", [ex_F "ctgE" 1 500 1 []; RG (mkGap 33 (s "centromere")); ex_F "ctgG" 1 500 (-1) []]) ].
Definition ex_ptx : list (str * list row) :=
  [ (s "Scaffold_1", [ex_F "scaffold_1" 1601 3157 (-1) []; RG ex_gap; ex_F "scaffold_1" 1 1000 1 []]);
    (s "Scaffold_2", [ex_F "scaffold_1" 1101 1600 1 []; RG ex_gap; ex_F "scaffold_1" 3166 4165 1 []]) ].
Definition ex_erase (r : row) : row :=
  match r with
  | RF f => RF (mkFrag (-1) (f_name f) (f_start f) (f_end f) (f_strand f) (f_tags f))
  | RG gp => RG gp
  end.
Definition gaps_of (rows : list row) : list gap :=
  flat_map (fun r => match r with RG gp => [gp] | RF _ => [] end) rows.

Example gap_provenance_instance :
  exists o, remap repaired ex_gap (s "SUPER_") (10, 1) ex_input ex_ptx = Ok o
    /\ out_cuts o = 1
    /\ map (fun sc => (sc_name sc, map ex_erase (sc_rows sc))) (flat_map oa_scaffolds (out_asms o))
       = [ (s "scaffold_1",
            [ex_F "ctgC" 1 1000 (-1) []; RG (mkGap 57 (s "contig")); ex_F "ctgB" 501 1000 (-1) [s "Cut"];
             RG ex_gap; ex_F "ctgA" 1 1000 1 [];
             RG ex_gap; ex_F "ctgB" 1 500 1 [s "Cut"];
             RG ex_gap; ex_F "ctgD" 1 1000 1 []]);
           (s "scaffold_2",
            [ex_F "ctgE" 1 500 1 []; RG (mkGap 33 (s "centromere")); ex_F "ctgG" 1 500 (-1) []]) ]
    /\ map (fun sc => gaps_of (sc_rows sc)) (flat_map oa_scaffolds (out_asms o))
       = [ [mkGap 57 (s "contig"); ex_gap; ex_gap; ex_gap]; [mkGap 33 (s "centromere")] ].
Proof.
  eexists. split; [vm_compute; reflexivity|]. vm_compute. repeat split.
Qed.

Print Assumptions gap_provenance_head.
Print Assumptions gap_provenance_results.
Print Assumptions gap_provenance_fuse.
Print Assumptions gap_provenance_tail.
Print Assumptions gap_provenance_rows.
Print Assumptions gap_provenance_instance.
Print Assumptions gap_provenance.
