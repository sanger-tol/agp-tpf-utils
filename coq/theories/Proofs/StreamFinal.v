(* Composition: the streaming theorems of Proofs/Stream.v (stated under the
   chunk-iterator facts as premises) instantiated with the proofs of those
   facts from Proofs/Chunks.v. *)
From Tola Require Import Py.Base Model.Fragment Model.Scaffold Model.Fasta Model.Stream Model.FastaSpec.
From Tola Require Proofs.Chunks Proofs.Stream.

Lemma fwd_ok : Proofs.Stream.fwd_chunks_ok.
Proof. exact Proofs.Chunks.fwd_chunks_spec. Qed.
Lemma rev_ok : Proofs.Stream.rev_chunks_ok.
Proof. exact Proofs.Chunks.rev_chunks_spec. Qed.
Lemma gap_ok : Proofs.Stream.gap_chunks_ok.
Proof. exact Proofs.Chunks.gap_chunks_spec. Qed.

Definition gaps_nonneg (rows : list row) : Prop :=
  Forall (fun r => match r with RG g => 0 <= g_len g | RF _ => True end) rows.

Theorem write_scaffold_final : forall file idx seqs buf L gap_char name rows body,
  1 <= buf -> (1 <= L)%nat ->
  Proofs.Stream.seqs_accessible file idx seqs ->
  gaps_nonneg rows ->
  rows_bytes seqs gap_char rows = Some body ->
  write_scaffold file idx buf (Z.of_nat L) gap_char name rows
  = Ok (GT :: name ++ LF :: wrap_body L body).
Proof. exact (Proofs.Stream.write_scaffold_spec fwd_ok rev_ok gap_ok). Qed.

Theorem write_scaffold_buffer_independent_final :
  forall file idx seqs b1 b2 L gap_char name rows body,
  1 <= b1 -> 1 <= b2 -> (1 <= L)%nat ->
  Proofs.Stream.seqs_accessible file idx seqs ->
  gaps_nonneg rows ->
  rows_bytes seqs gap_char rows = Some body ->
  write_scaffold file idx b1 (Z.of_nat L) gap_char name rows
  = write_scaffold file idx b2 (Z.of_nat L) gap_char name rows.
Proof. exact (Proofs.Stream.write_scaffold_buffer_independent fwd_ok rev_ok gap_ok). Qed.

Theorem write_assembly_final : forall file idx seqs buf L gap_char scs out,
  1 <= buf -> (1 <= L)%nat ->
  Proofs.Stream.seqs_accessible file idx seqs ->
  Forall (fun sc => gaps_nonneg (snd sc)) scs ->
  Proofs.Stream.expected_assembly seqs gap_char L scs = Some out ->
  write_assembly file idx buf (Z.of_nat L) gap_char scs = Ok out.
Proof. exact (Proofs.Stream.write_assembly_spec fwd_ok rev_ok gap_ok). Qed.

Lemma reverse_complement_repeat c n :
  complement c = c -> reverse_complement (repeat c n) = repeat c n.
Proof.
  intro Hc. induction n as [|n IH]; [reflexivity|].
  change (repeat c (S n)) with ([c] ++ repeat c n) at 1.
  rewrite Proofs.Chunks.reverse_complement_app, IH.
  unfold reverse_complement. cbn [rev map app]. rewrite Hc. symmetry. apply repeat_cons.
Qed.

Lemma row_bytes_reverse seqs gap_char r b :
  complement gap_char = gap_char ->
  match r with RF f => f_strand f = 1 \/ f_strand f = -1 | RG _ => True end ->
  row_bytes seqs gap_char r = Some b ->
  row_bytes seqs gap_char (row_reverse r) = Some (reverse_complement b).
Proof.
  intros Hg Hs H. destruct r as [f|g]; cbn [row_reverse row_bytes] in *.
  - cbn [frag_reverse f_name f_start f_end f_strand].
    destruct (aget str_eqb seqs (f_name f)) as [x|]; [|discriminate].
    destruct ((1 <=? f_start f) && (f_start f <=? f_end f) && (f_end f <=? zlen x)); [|discriminate].
    injection H as <-. destruct Hs as [E|E]; rewrite E.
    + change (- (1) =? -1) with true. change (1 =? -1) with false. cbv iota. reflexivity.
    + change (- (-1) =? -1) with false. change (-1 =? -1) with true. cbv iota.
      rewrite Proofs.Chunks.reverse_complement_involutive. reflexivity.
  - injection H as <-. rewrite (reverse_complement_repeat _ _ Hg). reflexivity.
Qed.

Lemma rows_bytes_app seqs gap_char a b x y :
  rows_bytes seqs gap_char a = Some x -> rows_bytes seqs gap_char b = Some y ->
  rows_bytes seqs gap_char (a ++ b) = Some (x ++ y).
Proof.
  revert x. induction a as [|r a IH]; intros x Ha Hb; cbn [app rows_bytes] in *.
  - injection Ha as <-. exact Hb.
  - destruct (row_bytes seqs gap_char r) as [p|]; [|discriminate].
    destruct (rows_bytes seqs gap_char a) as [q|] eqn:Q; [|discriminate].
    injection Ha as <-. rewrite (IH q eq_refl Hb). rewrite app_assoc. reflexivity.
Qed.

Theorem rows_bytes_reverse : forall seqs gap_char rows body,
  complement gap_char = gap_char ->
  Forall (fun r => match r with RF f => f_strand f = 1 \/ f_strand f = -1 | RG _ => True end) rows ->
  rows_bytes seqs gap_char rows = Some body ->
  rows_bytes seqs gap_char (rows_reverse rows) = Some (reverse_complement body).
Proof.
  intros seqs gap_char rows body Hg. revert body.
  induction rows as [|r rows IH]; intros body F H; cbn [rows_bytes] in H.
  - injection H as <-. reflexivity.
  - inversion F as [|? ? Hr F']; subst.
    destruct (row_bytes seqs gap_char r) as [p|] eqn:P; [|discriminate].
    destruct (rows_bytes seqs gap_char rows) as [q|] eqn:Q; [|discriminate].
    injection H as <-.
    unfold rows_reverse. cbn [rev]. rewrite map_app. cbn [map].
    rewrite Proofs.Chunks.reverse_complement_app.
    apply rows_bytes_app.
    + apply (IH q F' eq_refl).
    + cbn [rows_bytes]. rewrite (row_bytes_reverse seqs gap_char r p Hg Hr P).
      rewrite app_nil_r. reflexivity.
Qed.

Lemma gaps_nonneg_reverse rows : gaps_nonneg rows -> gaps_nonneg (rows_reverse rows).
Proof.
  unfold gaps_nonneg, rows_reverse. intro F. apply Forall_forall. intros x Hx.
  apply in_map_iff in Hx as (y & <- & Hy). apply in_rev in Hy.
  rewrite Forall_forall in F. specialize (F y Hy). destruct y; cbn; [exact I | exact F].
Qed.

(* streaming a reversed scaffold = header + wrap (reverse complement of the
   body of the original), for fragments of strand +1/-1 and a gap character
   that is its own complement *)
Theorem stream_reverse : forall file idx seqs buf L gap_char name rows body,
  1 <= buf -> (1 <= L)%nat ->
  Proofs.Stream.seqs_accessible file idx seqs ->
  gaps_nonneg rows ->
  complement gap_char = gap_char ->
  Forall (fun r => match r with RF f => f_strand f = 1 \/ f_strand f = -1 | RG _ => True end) rows ->
  rows_bytes seqs gap_char rows = Some body ->
  write_scaffold file idx buf (Z.of_nat L) gap_char name (rows_reverse rows)
  = Ok (GT :: name ++ LF :: wrap_body L (reverse_complement body)).
Proof.
  intros file idx seqs buf L gap_char name rows body Hb HL Hacc Hg Hc Hs H.
  apply (write_scaffold_final file idx seqs buf L gap_char name (rows_reverse rows)
           (reverse_complement body) Hb HL Hacc (gaps_nonneg_reverse rows Hg)).
  apply rows_bytes_reverse; assumption.
Qed.
