(* The chunk iterators of tola.fasta.index (fwd_chunks, rev_chunks, get_gap_iter): what they
   deliver for every buffer size; IUPAC complement / reverse complement; Scaffold.reverse. *)
From Tola Require Import Py.Base Model.Fragment Model.Scaffold Model.Fasta Model.FastaSpec
     Proofs.BaseLemmas Proofs.Rows Proofs.FastaIndex.
From Coq Require Import Lia ZifyBool.

Theorem complement_involutive : forall c, complement (complement c) = c.
Proof. intros [[] [] [] [] [] [] [] []]; vm_compute; reflexivity. Qed.

Theorem reverse_complement_app : forall a b,
  reverse_complement (a ++ b) = reverse_complement b ++ reverse_complement a.
Proof.
  intros a b. unfold reverse_complement. rewrite rev_app_distr, map_app. reflexivity.
Qed.

Theorem reverse_complement_involutive : forall x,
  reverse_complement (reverse_complement x) = x.
Proof.
  intros x. unfold reverse_complement.
  rewrite <- map_rev, rev_involutive, map_map.
  transitivity (map (fun c : ascii => c) x); [|apply map_id].
  apply map_ext. intro c. apply complement_involutive.
Qed.

Theorem reverse_complement_length : forall x,
  length (reverse_complement x) = length x.
Proof. intros x. unfold reverse_complement. rewrite map_length, rev_length. reflexivity. Qed.

Lemma reverse_complement_zlen x : zlen (reverse_complement x) = zlen x.
Proof. unfold zlen. rewrite reverse_complement_length. reflexivity. Qed.

Lemma reverse_complement_nil : reverse_complement [] = [].
Proof. reflexivity. Qed.

Lemma concat_rev_map_revcomp (L : list str) :
  concat (rev (map reverse_complement L)) = reverse_complement (concat L).
Proof.
  induction L as [|c L IH]; [reflexivity|].
  cbn [map rev concat]. rewrite concat_app, IH, reverse_complement_app.
  cbn [concat]. rewrite app_nil_r. reflexivity.
Qed.

Lemma frag_reverse_involutive f : frag_reverse (frag_reverse f) = f.
Proof. exact (Rows.frag_reverse_involutive f). Qed.

Theorem rows_reverse_involutive : forall rows, rows_reverse (rows_reverse rows) = rows.
Proof. exact Rows.rows_reverse_involutive. Qed.

Lemma row_len_reverse r : row_len (row_reverse r) = row_len r.
Proof. destruct r; reflexivity. Qed.

Lemma nth_error_rev_some {A} (l : list A) k x :
  nth_error l k = Some x -> nth_error (rev l) (length l - 1 - k)%nat = Some x.
Proof.
  revert k; induction l as [|a l IH]; intros k H.
  - destruct k; discriminate.
  - cbn [rev length]. destruct k as [|k]; cbn [nth_error] in H.
    + injection H as ->.
      rewrite nth_error_app2 by (rewrite rev_length; lia).
      rewrite rev_length.
      replace (S (length l) - 1 - 0 - length l)%nat with 0%nat by lia. reflexivity.
    + assert (k < length l)%nat by (apply nth_error_Some; congruence).
      rewrite nth_error_app1 by (rewrite rev_length; lia).
      replace (S (length l) - 1 - S k)%nat with (length l - 1 - k)%nat by lia.
      apply IH; exact H.
Qed.

Theorem rows_reverse_spec : forall rows,
  length (rows_reverse rows) = length rows
  /\ rows_len (rows_reverse rows) = rows_len rows
  /\ forall k r, nth_error rows k = Some r ->
       nth_error (rows_reverse rows) (length rows - 1 - k)%nat = Some (row_reverse r).
Proof.
  intros rows. unfold rows_reverse. repeat split.
  - rewrite map_length, rev_length. reflexivity.
  - unfold rows_len. rewrite map_map.
    rewrite (map_ext _ row_len) by apply row_len_reverse.
    rewrite map_rev, sumZ_rev. reflexivity.
  - intros k r H. apply map_nth_error. apply nth_error_rev_some. exact H.
Qed.

Theorem row_reverse_spec : forall r,
  match r, row_reverse r with
  | RF f, RF g => f_name g = f_name f /\ f_start g = f_start f /\ f_end g = f_end f
                  /\ f_tags g = f_tags f /\ f_strand g = - f_strand f
  | RG g, RG h => h = g
  | _, _ => False
  end.
Proof. intros [f|g]; cbn; repeat split; reflexivity. Qed.

Lemma slice1_app (x : str) a m b :
  1 <= a -> a - 1 <= m -> m <= b ->
  slice1 x a m ++ slice1 x (m + 1) b = slice1 x a b.
Proof.
  intros Ha Hm Hb. unfold slice1. replace (m + 1 - 1) with m by lia. apply py_slice_app; lia.
Qed.

Lemma slice1_empty (x : str) a b : b <= a - 1 -> slice1 x a b = [].
Proof.
  intros H. unfold slice1, py_slice.
  replace (Z.to_nat (b - (a - 1))) with 0%nat by lia. reflexivity.
Qed.

Lemma zlen_slice1 (x : str) a b :
  1 <= a -> a - 1 <= b -> b <= zlen x -> zlen (slice1 x a b) = b - a + 1.
Proof. intros Ha Hb Hx. unfold slice1. rewrite py_slice_len by lia. lia. Qed.

Lemma for_range_ok {A} (f : Z -> res A) (g : Z -> A) n i :
  (forall k, (i <= k < i + n)%nat -> f (Z.of_nat k) = Ok (g (Z.of_nat k))) ->
  for_range f (Z.of_nat i) n = Ok (map g (map Z.of_nat (seq i n))).
Proof.
  revert i; induction n as [|n IH]; intros i H; cbn [for_range seq map]; [reflexivity|].
  rewrite H by lia. cbn [bind].
  replace (Z.of_nat i + 1) with (Z.of_nat (S i)) by lia.
  rewrite IH by (intros k Hk; apply H; lia). reflexivity.
Qed.

Lemma for_range_down_ok {A} (f : Z -> res A) (g : Z -> A) n :
  (forall k, (k < n)%nat -> f (Z.of_nat k) = Ok (g (Z.of_nat k))) ->
  for_range_down f n = Ok (rev (map g (map Z.of_nat (seq 0 n)))).
Proof.
  induction n as [|n IH]; intros H; [reflexivity|].
  cbn [for_range_down]. rewrite H by lia.
  rewrite IH by (intros k Hk; apply H; lia). cbn [bind].
  rewrite seq_S, !map_app, rev_app_distr. reflexivity.
Qed.

(* chunk k of the forward iterator *)
Definition fchunk (residues : str) (buf s e k : Z) : str :=
  slice1 residues (s + k * buf) (Z.min e (s + k * buf + buf - 1)).

Lemma fchunk_concat residues buf s e :
  1 <= buf -> 1 <= s ->
  forall m j,
    concat (map (fchunk residues buf s e) (map Z.of_nat (seq j m)))
    = slice1 residues (s + Z.of_nat j * buf) (Z.min e (s + Z.of_nat (j + m) * buf - 1)).
Proof.
  intros Hbuf Hs. induction m as [|m IH]; intros j.
  - cbn [seq map concat]. rewrite Nat.add_0_r. symmetry. apply slice1_empty. lia.
  - cbn [seq map concat]. rewrite IH. unfold fchunk.
    replace (Z.of_nat (S j + m)) with (Z.of_nat (j + S m)) by lia.
    set (hi := Z.min e (s + Z.of_nat (j + S m) * buf - 1)).
    pose proof (Z.mul_nonneg_nonneg (Z.of_nat m) buf ltac:(lia) ltac:(lia)) as P.
    destruct (Z_le_gt_dec (s + Z.of_nat j * buf + buf - 1) e) as [Hle|Hgt].
    + rewrite Z.min_r by lia.
      replace (s + Z.of_nat (S j) * buf) with (s + Z.of_nat j * buf + buf - 1 + 1) by lia.
      apply slice1_app; unfold hi; lia.
    + rewrite Z.min_l by lia.
      rewrite (slice1_empty residues (s + Z.of_nat (S j) * buf)) by (unfold hi; lia).
      rewrite app_nil_r. f_equal. unfold hi. lia.
Qed.

(* everything about the list of forward pieces, shared by fwd and rev *)
Lemma fchunk_list_props file buf i residues s e :
  good_access file i residues -> 1 <= buf -> 1 <= s -> s <= e -> e <= zlen residues ->
  let n := Z.to_nat (1 + (e - s) / buf) in
  let L := map (fchunk residues buf s e) (map Z.of_nat (seq 0 n)) in
  (forall k, (k < n)%nat ->
     sequence_bytes file i (s + Z.of_nat k * buf)
                    (Z.min e (s + Z.of_nat k * buf + buf - 1))
     = Ok (fchunk residues buf s e (Z.of_nat k)))
  /\ concat L = slice1 residues s e
  /\ Forall (fun c => 1 <= zlen c <= buf) L
  /\ zlen L = (e - s) / buf + 1.
Proof.
  intros [Hlen Hacc] Hbuf Hs Hse He n L.
  pose proof (Z.mul_div_le (e - s) buf ltac:(lia)) as Q1.
  pose proof (Z.mul_succ_div_gt (e - s) buf ltac:(lia)) as Q2.
  assert (Q0 : 0 <= (e - s) / buf) by (apply Z.div_pos; lia).
  set (q := (e - s) / buf) in *.
  assert (Hn : Z.of_nat n = q + 1) by (unfold n; lia).
  assert (Hk : forall k, (k < n)%nat ->
             0 <= Z.of_nat k * buf /\ s + Z.of_nat k * buf <= e).
  { intros k Hk. assert (Z.of_nat k <= q) by lia.
    assert (Z.of_nat k * buf <= q * buf) by (apply Z.mul_le_mono_nonneg_r; lia).
    split; [apply Z.mul_nonneg_nonneg; lia | lia]. }
  repeat split.
  - intros k Hlt. destruct (Hk k Hlt) as [K1 K2]. unfold fchunk. apply Hacc; lia.
  - unfold L. rewrite fchunk_concat by assumption.
    cbn [Nat.add]. rewrite Hn. change (Z.of_nat 0 * buf) with 0.
    rewrite Z.add_0_r. f_equal. lia.
  - apply Forall_forall. intros c Hin. unfold L in Hin.
    apply in_map_iff in Hin as [kz [<- Hin]].
    apply in_map_iff in Hin as [k [<- Hin]].
    apply in_seq in Hin. destruct (Hk k ltac:(lia)) as [K1 K2].
    unfold fchunk. rewrite zlen_slice1 by lia. lia.
  - unfold L, zlen. rewrite !map_length, seq_length. lia.
Qed.

(* both iterators, explicitly: L is the list of forward pieces *)
Lemma fwd_rev_explicit file buf i residues s e :
  good_access file i residues -> 1 <= buf -> 1 <= s -> s <= e -> e <= zlen residues ->
  let L := map (fchunk residues buf s e)
               (map Z.of_nat (seq 0 (Z.to_nat (1 + (e - s) / buf)))) in
  fwd_chunks file buf i s e = Ok L
  /\ rev_chunks file buf i s e = Ok (rev (map reverse_complement L)).
Proof.
  intros Hga Hbuf Hs Hse He L.
  destruct (fchunk_list_props file buf i residues s e Hga Hbuf Hs Hse He) as (Hf & _).
  set (n := Z.to_nat (1 + (e - s) / buf)) in *. split.
  - unfold fwd_chunks. replace (buf =? 0) with false by lia.
    change 0 with (Z.of_nat 0) at 1.
    apply (for_range_ok _ (fchunk residues buf s e)).
    intros k Hk. apply Hf. lia.
  - unfold rev_chunks. replace (buf =? 0) with false by lia.
    replace ((e - s) / buf + 1) with (1 + (e - s) / buf) by lia. fold n.
    unfold L. rewrite map_map.
    apply (for_range_down_ok _ (fun k => reverse_complement (fchunk residues buf s e k))).
    intros k Hk. cbv beta zeta. rewrite Hf by exact Hk. reflexivity.
Qed.

Theorem fwd_chunks_spec : forall file buf i residues s e,
  good_access file i residues -> 1 <= buf -> 1 <= s -> s <= e -> e <= zlen residues ->
  exists cs, fwd_chunks file buf i s e = Ok cs
    /\ concat cs = slice1 residues s e
    /\ Forall (fun c => 1 <= zlen c <= buf) cs
    /\ zlen cs = (e - s) / buf + 1.
Proof.
  intros file buf i residues s e Hga Hbuf Hs Hse He.
  destruct (fchunk_list_props file buf i residues s e Hga Hbuf Hs Hse He) as (_ & Hprops).
  destruct (fwd_rev_explicit file buf i residues s e Hga Hbuf Hs Hse He) as [F _].
  eexists. split; [exact F | exact Hprops].
Qed.

Theorem rev_chunks_spec : forall file buf i residues s e,
  good_access file i residues -> 1 <= buf -> 1 <= s -> s <= e -> e <= zlen residues ->
  exists cs, rev_chunks file buf i s e = Ok cs
    /\ concat cs = reverse_complement (slice1 residues s e)
    /\ Forall (fun c => 1 <= zlen c <= buf) cs
    /\ zlen cs = (e - s) / buf + 1.
Proof.
  intros file buf i residues s e Hga Hbuf Hs Hse He.
  destruct (fchunk_list_props file buf i residues s e Hga Hbuf Hs Hse He)
    as (_ & Hc & Hb & Hl).
  destruct (fwd_rev_explicit file buf i residues s e Hga Hbuf Hs Hse He) as [_ R].
  eexists. split; [exact R|]. split; [|split].
  - rewrite concat_rev_map_revcomp, Hc. reflexivity.
  - apply Forall_rev, Forall_map. eapply Forall_impl; [|exact Hb].
    intros c Hc'. rewrite reverse_complement_zlen. exact Hc'.
  - rewrite <- Hl. unfold zlen. rewrite rev_length, map_length. reflexivity.
Qed.

Definition gchunk (buf : Z) (c : ascii) (len k : Z) : str :=
  repeat c (Z.to_nat (Z.min len (k * buf + buf) - k * buf)).

Lemma gchunk_concat buf c len :
  1 <= buf -> 0 <= len ->
  forall m j,
    concat (map (gchunk buf c len) (map Z.of_nat (seq j m)))
    = repeat c (Z.to_nat (Z.min len (Z.of_nat (j + m) * buf) - Z.min len (Z.of_nat j * buf))).
Proof.
  intros Hbuf Hlen. induction m as [|m IH]; intros j.
  - cbn [seq map concat]. rewrite Nat.add_0_r, Z.sub_diag. reflexivity.
  - cbn [seq map concat]. rewrite IH. unfold gchunk. rewrite <- repeat_app. f_equal.
    replace (Z.of_nat (S j + m)) with (Z.of_nat (j + S m)) by lia.
    pose proof (Z.mul_nonneg_nonneg (Z.of_nat j) buf ltac:(lia) ltac:(lia)) as P1.
    pose proof (Z.mul_nonneg_nonneg (Z.of_nat m) buf ltac:(lia) ltac:(lia)) as P2.
    replace (Z.of_nat (S j) * buf) with (Z.of_nat j * buf + buf) by lia.
    replace (Z.of_nat (j + S m) * buf) with (Z.of_nat j * buf + buf + Z.of_nat m * buf) by lia.
    set (jb := Z.of_nat j * buf) in *. set (mb := Z.of_nat m * buf) in *. clearbody jb mb.
    lia.
Qed.

Theorem gap_chunks_spec : forall buf c len,
  1 <= buf -> 0 <= len ->
  exists cs, gap_chunks buf c len = Ok cs
    /\ concat cs = repeat c (Z.to_nat len)
    /\ Forall (fun x => zlen x <= buf) cs
    /\ zlen cs = len / buf + 1.
Proof.
  intros buf c len Hbuf Hlen.
  pose proof (Z.mul_succ_div_gt len buf ltac:(lia)) as Q2.
  assert (Q0 : 0 <= len / buf) by (apply Z.div_pos; lia).
  set (n := Z.to_nat (1 + len / buf)).
  assert (Hn : Z.of_nat n = len / buf + 1) by (unfold n; lia).
  exists (map (gchunk buf c len) (map Z.of_nat (seq 0 n))). repeat split.
  - unfold gap_chunks. replace (buf =? 0) with false by lia. fold n.
    change 0 with (Z.of_nat 0) at 1.
    apply (for_range_ok _ (gchunk buf c len)). intros k Hk. reflexivity.
  - rewrite gchunk_concat by assumption. cbn [Nat.add]. rewrite Hn.
    change (Z.of_nat 0 * buf) with 0. f_equal. lia.
  - apply Forall_forall. intros x Hin.
    apply in_map_iff in Hin as [kz [<- Hin]].
    unfold gchunk, zlen. rewrite repeat_length. lia.
  - unfold zlen. rewrite !map_length, seq_length. lia.
Qed.

Lemma ok_unique {A} (r : res A) (P : A -> Prop) c :
  (exists c', r = Ok c' /\ P c') -> r = Ok c -> P c.
Proof. intros (c' & E & H) E'. rewrite E in E'. injection E' as <-. exact H. Qed.

Lemma bounded_weaken buf cs : Forall (fun c => 1 <= zlen c <= buf) cs -> chunks_bounded buf cs.
Proof. apply Forall_impl. intros c H. apply H. Qed.

Corollary fwd_chunks_bounded : forall file buf i residues s e cs,
  good_access file i residues -> 1 <= buf -> 1 <= s -> s <= e -> e <= zlen residues ->
  fwd_chunks file buf i s e = Ok cs -> chunks_bounded buf cs.
Proof.
  intros file buf i residues s e cs Hga Hbuf Hs Hse He H.
  apply bounded_weaken.
  apply (ok_unique _ _ _ (fwd_chunks_spec file buf i residues s e Hga Hbuf Hs Hse He) H).
Qed.

Corollary rev_chunks_bounded : forall file buf i residues s e cs,
  good_access file i residues -> 1 <= buf -> 1 <= s -> s <= e -> e <= zlen residues ->
  rev_chunks file buf i s e = Ok cs -> chunks_bounded buf cs.
Proof.
  intros file buf i residues s e cs Hga Hbuf Hs Hse He H.
  apply bounded_weaken.
  apply (ok_unique _ _ _ (rev_chunks_spec file buf i residues s e Hga Hbuf Hs Hse He) H).
Qed.

Corollary gap_chunks_bounded : forall buf c len cs,
  1 <= buf -> 0 <= len -> gap_chunks buf c len = Ok cs -> chunks_bounded buf cs.
Proof.
  intros buf c len cs Hbuf Hlen H.
  apply (ok_unique _ _ _ (gap_chunks_spec buf c len Hbuf Hlen) H).
Qed.

Corollary fwd_chunks_buffer_independent : forall file i residues s e b1 b2 c1 c2,
  good_access file i residues -> 1 <= b1 -> 1 <= b2 -> 1 <= s -> s <= e -> e <= zlen residues ->
  fwd_chunks file b1 i s e = Ok c1 -> fwd_chunks file b2 i s e = Ok c2 -> concat c1 = concat c2.
Proof.
  intros file i residues s e b1 b2 c1 c2 Hga H1 H2 Hs Hse He E1 E2.
  destruct (ok_unique _ _ _ (fwd_chunks_spec file b1 i residues s e Hga H1 Hs Hse He) E1) as [C1 _].
  destruct (ok_unique _ _ _ (fwd_chunks_spec file b2 i residues s e Hga H2 Hs Hse He) E2) as [C2 _].
  rewrite C1, C2. reflexivity.
Qed.

Corollary rev_chunks_buffer_independent : forall file i residues s e b1 b2 c1 c2,
  good_access file i residues -> 1 <= b1 -> 1 <= b2 -> 1 <= s -> s <= e -> e <= zlen residues ->
  rev_chunks file b1 i s e = Ok c1 -> rev_chunks file b2 i s e = Ok c2 -> concat c1 = concat c2.
Proof.
  intros file i residues s e b1 b2 c1 c2 Hga H1 H2 Hs Hse He E1 E2.
  destruct (ok_unique _ _ _ (rev_chunks_spec file b1 i residues s e Hga H1 Hs Hse He) E1) as [C1 _].
  destruct (ok_unique _ _ _ (rev_chunks_spec file b2 i residues s e Hga H2 Hs Hse He) E2) as [C2 _].
  rewrite C1, C2. reflexivity.
Qed.

Corollary gap_chunks_buffer_independent : forall c len b1 b2 c1 c2,
  1 <= b1 -> 1 <= b2 -> 0 <= len ->
  gap_chunks b1 c len = Ok c1 -> gap_chunks b2 c len = Ok c2 -> concat c1 = concat c2.
Proof.
  intros c len b1 b2 c1 c2 H1 H2 Hlen E1 E2.
  destruct (ok_unique _ _ _ (gap_chunks_spec b1 c len H1 Hlen) E1) as [C1 _].
  destruct (ok_unique _ _ _ (gap_chunks_spec b2 c len H2 Hlen) E2) as [C2 _].
  rewrite C1, C2. reflexivity.
Qed.

(* chunk by chunk: the reverse iterator yields the forward chunks in reverse
   order, each reverse-complemented (same buffer size) *)
Corollary rev_chunks_chunkwise : forall file buf i residues s e cf cr,
  good_access file i residues -> 1 <= buf -> 1 <= s -> s <= e -> e <= zlen residues ->
  fwd_chunks file buf i s e = Ok cf -> rev_chunks file buf i s e = Ok cr ->
  cr = rev (map reverse_complement cf).
Proof.
  intros file buf i residues s e cf cr Hga Hbuf Hs Hse He E1 E2.
  destruct (fwd_rev_explicit file buf i residues s e Hga Hbuf Hs Hse He) as [F R].
  rewrite F in E1. rewrite R in E2.
  injection E1 as E1. injection E2 as E2. rewrite <- E1, <- E2. reflexivity.
Qed.

Corollary rev_chunks_is_revcomp_of_fwd : forall file buf i residues s e cf cr,
  good_access file i residues -> 1 <= buf -> 1 <= s -> s <= e -> e <= zlen residues ->
  fwd_chunks file buf i s e = Ok cf -> rev_chunks file buf i s e = Ok cr ->
  concat cr = reverse_complement (concat cf).
Proof.
  intros file buf i residues s e cf cr Hga Hbuf Hs Hse He E1 E2.
  rewrite (rev_chunks_chunkwise file buf i residues s e cf cr Hga Hbuf Hs Hse He E1 E2).
  apply concat_rev_map_revcomp.
Qed.

(* non-vacuity: a concrete file *)
Definition ex_file : str := s ">a
ACGTAC
GT
".
Definition ex_info : finfo := mkInfo 8 3 6 7.
Definition ex_residues : str := s "ACGTACGT".

Example ex_fwd_chunks :
  fwd_chunks ex_file 3 ex_info 1 8 = Ok [s "ACG"; s "TAC"; s "GT"].
Proof. vm_compute. reflexivity. Qed.

Example ex_rev_chunks :
  rev_chunks ex_file 3 ex_info 1 8 = Ok [s "AC"; s "GTA"; s "CGT"].
Proof. vm_compute. reflexivity. Qed.

Example ex_gap_chunks :
  gap_chunks 3 "N"%char 6 = Ok [s "NNN"; s "NNN"; []]
  /\ gap_chunks 3 "N"%char 0 = Ok [[]]
  /\ gap_chunks 3 "N"%char 7 = Ok [s "NNN"; s "NNN"; s "N"].
Proof. vm_compute. repeat split; reflexivity. Qed.

(* the hypothesis of the theorems is satisfiable: random access into the
   concrete file is good for every 1 <= s <= e <= 8 *)
Example ex_good_access : good_access ex_file ex_info ex_residues.
Proof.
  exact (access_layout 6 8 [LF] (s ">a
") [LF] ex_residues ex_file ltac:(lia) ltac:(cbn; lia) eq_refl).
Qed.

(* so the general theorems apply to it, for every buffer size *)
Example ex_fwd_any_buf : forall buf, 1 <= buf ->
  exists cs, fwd_chunks ex_file buf ex_info 1 8 = Ok cs /\ concat cs = ex_residues.
Proof.
  intros buf Hbuf.
  destruct (fwd_chunks_spec ex_file buf ex_info ex_residues 1 8 ex_good_access Hbuf)
    as (cs & E & C & _); [lia | lia | discriminate |].
  exists cs. split; [exact E|]. rewrite C. reflexivity.
Qed.

Print Assumptions complement_involutive.
Print Assumptions reverse_complement_involutive.
Print Assumptions reverse_complement_app.
Print Assumptions reverse_complement_length.
Print Assumptions rows_reverse_involutive.
Print Assumptions rows_reverse_spec.
Print Assumptions row_reverse_spec.
Print Assumptions fwd_chunks_spec.
Print Assumptions rev_chunks_spec.
Print Assumptions gap_chunks_spec.
Print Assumptions fwd_chunks_bounded.
Print Assumptions rev_chunks_bounded.
Print Assumptions gap_chunks_bounded.
Print Assumptions fwd_chunks_buffer_independent.
Print Assumptions rev_chunks_buffer_independent.
Print Assumptions gap_chunks_buffer_independent.
Print Assumptions rev_chunks_is_revcomp_of_fwd.
Print Assumptions rev_chunks_chunkwise.
Print Assumptions ex_fwd_chunks.
Print Assumptions ex_rev_chunks.
Print Assumptions ex_gap_chunks.
Print Assumptions ex_good_access.
Print Assumptions ex_fwd_any_buf.
