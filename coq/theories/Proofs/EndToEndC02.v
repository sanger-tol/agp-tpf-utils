(* C02 CAPSTONE: one statement about the FINAL output of [remap] for every
   untagged map that tiles the scaffolds it shows: the whole pipeline completes,
   and for every bait with a contig base in its core there is a stored result r
   for that bait, satisfying the C18 invariant and core_kept, whose rows sit as
   ONE contiguous block in a scaffold of an output assembly.  Section Landing
   proves the second half for ANY completed run on a tiling map (the landing
   clause looks at no tag, the order clause asks for one fusion key per Pretext
   scaffold); the capstones add that the run completes.

   One hypothesis is ADDED to those of C02_completion: every input contig is on
   strand +1 or -1.  Without it the statement is false
   ([c02_end_to_end_original_refuted]): an input scaffold with two contigs, one
   of them unstranded (strand 0, which input_ok admits), passes remap_to_input
   but make_stats raises ValueError in junction_tuple on the INPUT assembly. *)
From Tola Require Import Py.Base Model.Fragment Model.Scaffold Model.Lookup Model.OverlapResult
  Model.OvrSpec Model.Remap Model.RemapSpec Proofs.BaseLemmas Proofs.EndToEndC02Total.
From Tola Require Proofs.Completion Proofs.CoreKept Proofs.RoutingEndToEnd
  Proofs.RemapTail Proofs.PretextOrder.
From Coq Require Import Lia.

Lemma frag_eq_dec (a b : frag) : {a = b} + {a <> b}.
Proof.
  decide equality; try apply Z.eq_dec; try (apply list_eq_dec; apply Ascii.ascii_dec).
  apply list_eq_dec. apply list_eq_dec. apply Ascii.ascii_dec.
Qed.

Lemma store_find (st : list ovr) (bait : frag) :
  (exists r, In r st /\ o_bait r = bait) \/ (forall r, In r st -> o_bait r <> bait).
Proof.
  destruct (Exists_dec (fun r => o_bait r = bait) st (fun r => frag_eq_dec (o_bait r) bait)) as [E | NE].
  - left. apply Exists_exists in E. exact E.
  - right. intros r Hr Eb. apply NE. apply Exists_exists. exists r. split; assumption.
Qed.

Lemma get_ovr_of_nat st k r : nth_error st k = Some r -> get_ovr st (Z.of_nat k) = Ok r.
Proof. intro H. unfold get_ovr. rewrite Nat2Z.id, H. reflexivity. Qed.

(* the two clauses of the capstones about a completed run: every bait with a
   contig base in its core has a stored result satisfying the C18 invariant and
   core_kept whose rows, oriented by the bait, are one block of an output
   scaffold; two such baits of ONE Pretext scaffold, b1 before b2 in its rows,
   have their blocks in the SAME output scaffold in that order *)
Definition cores_landed (n d : Z) (input pretext : list (str * list row)) (rs : run_state) (o : outputs) : Prop :=
  forall bait src x,
    In bait (baits_of pretext) ->
    In (f_name bait, src) (number_input input 0) ->
    Proofs.CoreKept.in_core (error_length (n, d)) bait x -> Proofs.CoreKept.contig_base src x ->
    exists r a sc pre suf,
      In r (b_store (rs_b rs)) /\ o_bait r = bait
      /\ Inv src r /\ Proofs.CoreKept.core_kept (error_length (n, d)) src r
      /\ In a (out_asms o) /\ In sc (oa_scaffolds a)
      /\ sc_rows sc = pre ++ to_scaffold_rows r ++ suf.

Definition cores_landed_in_order (n d : Z) (input pretext : list (str * list row)) (rs : run_state) (o : outputs)
  : Prop :=
  forall pname prows l1 b1 l2 b2 l3 src1 x1 src2 x2,
    In (pname, prows) pretext ->
    frags_of prows = l1 ++ b1 :: l2 ++ b2 :: l3 ->
    In (f_name b1, src1) (number_input input 0) ->
    Proofs.CoreKept.in_core (error_length (n, d)) b1 x1 -> Proofs.CoreKept.contig_base src1 x1 ->
    In (f_name b2, src2) (number_input input 0) ->
    Proofs.CoreKept.in_core (error_length (n, d)) b2 x2 -> Proofs.CoreKept.contig_base src2 x2 ->
    exists r1 r2 a sc pre mid post,
      In r1 (b_store (rs_b rs)) /\ o_bait r1 = b1
      /\ Inv src1 r1 /\ Proofs.CoreKept.core_kept (error_length (n, d)) src1 r1
      /\ In r2 (b_store (rs_b rs)) /\ o_bait r2 = b2
      /\ Inv src2 r2 /\ Proofs.CoreKept.core_kept (error_length (n, d)) src2 r2
      /\ In a (out_asms o) /\ In sc (oa_scaffolds a)
      /\ sc_rows sc = pre ++ to_scaffold_rows r1 ++ mid ++ to_scaffold_rows r2 ++ post.

(* What the capstones share: a completed first half on a map that tiles the
   scaffolds it shows.  The landing clause looks at no tag; the order clause
   assumes one fusion key per Pretext scaffold (Hkey), which its callers get
   from the tags. *)
Section Landing.
  Variables (g : gap) (prefix : str) (n d : Z) (input pretext : list (str * list row)) (rs : run_state).
  Hypothesis Hd : 0 < d.
  Hypothesis Hdn : d <= n.
  Hypothesis Hin : Forall Proofs.Completion.input_ok input.
  Hypothesis Hnm : NoDup (map fst input).
  Hypothesis Hkeys : NoDup (map key_of (in_frags input)).
  Hypothesis Hnamed : Forall (fun b => In (f_name b) (map fst input)) (baits_of pretext).
  Hypothesis Htile : Forall (Proofs.Completion.scaffold_tiled n d (baits_of pretext)) input.
  Hypothesis Hrs : remap_to_input repaired g prefix (n, d) input pretext = Ok rs.

  Lemma baits_nodup : NoDup (baits_of pretext).
  Proof.
    apply disjoint_valid_nodup.
    - exact (Proofs.Completion.tiled_disjoint n d input _ Hnamed Htile).
    - exact (Proofs.Completion.tiled_valid n d input _ Hnamed Htile).
  Qed.

  (* a bait with a contig base in its core has a stored result that kept it,
     still has rows and is therefore listed in b_added *)
  Lemma core_result bait src x :
    In bait (baits_of pretext) -> In (f_name bait, src) (number_input input 0) ->
    Proofs.CoreKept.in_core (error_length (n, d)) bait x -> Proofs.CoreKept.contig_base src x ->
    exists k r, nth_error (b_store (rs_b rs)) k = Some r /\ o_bait r = bait
      /\ Inv src r /\ Proofs.CoreKept.core_kept (error_length (n, d)) src r
      /\ o_rows r <> [] /\ In (Z.of_nat k) (b_added (rs_b rs)).
  Proof.
    intros Hbait Hsrc Hcore Hbase.
    assert (Hpos0 : Forall (fun isc => pos_rows (snd isc)) input).
    { eapply Forall_impl; [|exact Hin]. intros isc (_ & H & _). exact H. }
    (* core_kept_end_to_end is stated over a pair bpt with fst / snd and a let *)
    assert (Hn0 : 0 <= fst (n, d)) by (cbn [fst]; lia).
    pose proof (Proofs.CoreKept.core_kept_end_to_end repaired g prefix (n, d) input pretext rs Hn0 Hd Hpos0 Hkeys
                  (Proofs.Completion.tiled_valid n d input _ Hnamed Htile)
                  (Proofs.Completion.tiled_disjoint n d input _ Hnamed Htile) Hrs) as HAB.
    cbv zeta in HAB. destruct HAB as [HA HB].
    destruct (store_find (b_store (rs_b rs)) bait) as [(r & Hr & Eb) | Hnone].
    2:{ exfalso. exact (HB bait src Hbait Hsrc Hnone x Hcore Hbase). }
    destruct (HA r Hr) as (src' & Hsrc' & _ & HI & HK).
    assert (Es : src' = src).
    { rewrite Eb in Hsrc'. apply (NoDup_fst_inj (number_input input 0) (f_name bait));
        [rewrite RemapTail.number_input_names; exact Hnm | exact Hsrc' | exact Hsrc]. }
    subst src'.
    assert (Hne : o_rows r <> []).
    { rewrite <- Eb in Hcore. exact (proj1 (HK x Hcore Hbase)). }
    apply In_nth_error in Hr. destruct Hr as (k & Hk).
    exists k, r. split; [exact Hk|]. split; [exact Eb|]. split; [exact HI|]. split; [exact HK|].
    split; [exact Hne|]. exact (proj2 (head_added _ _ _ _ _ _ _ Hrs) k r Hk Hne).
  Qed.

  Variable o : outputs.
  Hypothesis Ho : remap repaired g prefix (n, d) input pretext = Ok o.

  Lemma cores_land bait src x :
    In bait (baits_of pretext) -> In (f_name bait, src) (number_input input 0) ->
    Proofs.CoreKept.in_core (error_length (n, d)) bait x -> Proofs.CoreKept.contig_base src x ->
    exists r a sc pre suf,
      In r (b_store (rs_b rs)) /\ o_bait r = bait
      /\ Inv src r /\ Proofs.CoreKept.core_kept (error_length (n, d)) src r
      /\ In a (out_asms o) /\ In sc (oa_scaffolds a)
      /\ sc_rows sc = pre ++ to_scaffold_rows r ++ suf
      /\ sc_tag sc = o_tag r /\ sc_hap sc = o_hap r.
  Proof.
    intros Hbait Hsrc Hcore Hbase.
    destruct (core_result bait src x Hbait Hsrc Hcore Hbase) as (k & r & Hk & Eb & HI & HK & Hne & Hadd).
    destruct (Proofs.RoutingEndToEnd.routing_end_to_end g prefix (n, d) input pretext o rs Hrs Ho)
      as (Hroute & _ & _).
    destruct (Hroute (Z.of_nat k) r Hadd (get_ovr_of_nat _ _ _ Hk) Hne)
      as (a & sc & pre & suf & Ha & Hsc & Erows & Etag & Ehap & _).
    exists r, a, sc, pre, suf.
    split; [exact (nth_error_In _ _ Hk)|]. split; [exact Eb|]. split; [exact HI|]. split; [exact HK|].
    split; [exact Ha|]. split; [exact Hsc|]. split; [exact Erows|]. split; [exact Etag | exact Ehap].
  Qed.

  Lemma cores_landed_run : cores_landed n d input pretext rs o.
  Proof.
    intros bait src x Hbait Hsrc Hcore Hbase.
    destruct (cores_land bait src x Hbait Hsrc Hcore Hbase)
      as (r & a & sc & pre & suf & C1 & C2 & C3 & C4 & C5 & C6 & C7 & _).
    exists r, a, sc, pre, suf. repeat (split; [assumption|]). exact C7.
  Qed.

  Hypothesis Hkey : forall r r' pname prows,
    In r (b_store (rs_b rs)) -> In r' (b_store (rs_b rs)) -> In (pname, prows) pretext ->
    In (o_bait r) (frags_of prows) -> In (o_bait r') (frags_of prows) -> result_key r = result_key r'.

  Lemma cores_land_in_order : cores_landed_in_order n d input pretext rs o.
  Proof.
    intros pname prows l1 b1 l2 b2 l3 src1 x1 src2 x2 He Hfr Hs1 Hc1 Hx1 Hs2 Hc2 Hx2.
    assert (Hb1p : In b1 (frags_of prows)) by (rewrite Hfr; apply in_elt).
    assert (Hb2p : In b2 (frags_of prows)).
    { rewrite Hfr. apply in_or_app. right. right. apply in_elt. }
    destruct (in_split _ _ He) as (P1 & P2 & EP).
    assert (EQ : baits_of pretext = (baits_of P1 ++ l1) ++ b1 :: l2 ++ b2 :: (l3 ++ baits_of P2)).
    { rewrite EP. change ((pname, prows) :: P2) with ([(pname, prows)] ++ P2).
      rewrite !baits_of_app.
      unfold baits_of at 2. cbn [flat_map snd]. rewrite app_nil_r, Hfr.
      rewrite <- !app_assoc. cbn [app]. rewrite <- !app_assoc. reflexivity. }
    destruct (core_result b1 src1 x1 (in_baits_of (pname, prows) _ _ He Hb1p) Hs1 Hc1 Hx1)
      as (k1 & r1 & Hk1 & Eb1 & HI1 & HK1 & Hne1 & Ha1).
    destruct (core_result b2 src2 x2 (in_baits_of (pname, prows) _ _ He Hb2p) Hs2 Hc2 Hx2)
      as (k2 & r2 & Hk2 & Eb2 & HI2 & HK2 & Hne2 & Ha2).
    pose proof (nth_error_In _ _ Hk1) as Hr1. pose proof (nth_error_In _ _ Hk2) as Hr2.
    (* their ids are met in b_added in this order *)
    assert (Lt : (k1 < k2)%nat).
    { eapply (store_order repaired g prefix (n, d) input pretext rs k1 k2 r1 r2);
        [exact baits_nodup | exact Hrs | exact Hk1 | exact Hk2|]. rewrite Eb1, Eb2. exact EQ. }
    destruct (Proofs.PretextOrder.remap_order _ _ _ _ _ _ _ Hrs) as [_ HO].
    unfold Proofs.PretextOrder.OKA in HO.
    destruct (asc_split _ _ _ (Z.of_nat k1) (Z.of_nat k2) HO Ha1 Ha2) as (a1 & a2 & a3 & Eadd); [lia|].
    assert (HKeq : result_key r1 = result_key r2).
    { apply (Hkey r1 r2 pname prows Hr1 Hr2 He); [rewrite Eb1 | rewrite Eb2]; assumption. }
    (* the fused scaffold and its place in the output *)
    destruct (Proofs.RemapTail.remap_stages _ _ _ _ _ _ _ Ho) as (rs' & Hrs' & Ho').
    rewrite Hrs in Hrs'. injection Hrs' as <-.
    destruct (Proofs.RoutingEndToEnd.assemblies_out _ _ _ _ _ _ Ho') as (fused0 & fused & F & _).
    destruct (Proofs.PretextOrder.pretext_order_pairs g prefix (n, d) input pretext rs fused0
                a1 (Z.of_nat k1) a2 (Z.of_nat k2) a3 r1 r2 Hrs F Eadd
                (get_ovr_of_nat _ _ _ Hk1) (get_ovr_of_nat _ _ _ Hk2) Hne1 Hne2 HKeq)
      as (results & b & _ & Hbf & _ & (pre & mid & post & Erows) & _).
    destruct (Proofs.RoutingEndToEnd.fused_in_output_named _ _ _ _ _ _ _ b Ho' F Hbf)
      as (a & sc & Ha & Hsc & Esc & _).
    exists r1, r2, a, sc, pre, mid, post.
    repeat (split; [assumption|]). rewrite Esc. exact Erows.
  Qed.
End Landing.

(* the landing clause for maps with ANY tags: whenever the whole run completes
   on a map that tiles the scaffolds it shows, every piece with a contig base
   in its core lands whole in an output scaffold -- whatever the tags route it
   to (haplotype assemblies, Haplotig, Contaminant ...) *)
Theorem c02_cores_land_any_tags : forall g prefix n d input pretext o,
  0 < d -> d <= n ->
  Forall Proofs.Completion.input_ok input -> NoDup (map fst input) ->
  NoDup (map key_of (Model.RemapSpec.in_frags input)) ->
  Forall (fun b => In (f_name b) (map fst input)) (Proofs.CoreKept.baits_of pretext) ->
  Forall (Proofs.Completion.scaffold_tiled n d (Proofs.CoreKept.baits_of pretext)) input ->
  remap repaired g prefix (n, d) input pretext = Ok o ->
  exists rs,
    remap_to_input repaired g prefix (n, d) input pretext = Ok rs
    /\ let err := error_length (n, d) in
       forall bait src x,
         In bait (Proofs.CoreKept.baits_of pretext) ->
         In (f_name bait, src) (number_input input 0) ->
         Proofs.CoreKept.in_core err bait x -> Proofs.CoreKept.contig_base src x ->
         exists r a sc pre suf,
           In r (b_store (rs_b rs)) /\ o_bait r = bait
           /\ Model.OvrSpec.Inv src r /\ Proofs.CoreKept.core_kept err src r
           /\ In a (out_asms o) /\ In sc (oa_scaffolds a)
           /\ sc_rows sc = pre ++ to_scaffold_rows r ++ suf
           /\ sc_tag sc = o_tag r /\ sc_hap sc = o_hap r.
Proof.
  intros g prefix n d input pretext o Hd Hdn Hin Hnm Hkeys Hnamed Htile Hremap.
  destruct (Proofs.RemapTail.remap_stages _ _ _ _ _ _ _ Hremap) as (rs & Hrs & _).
  exists rs. split; [exact Hrs|].
  exact (cores_land g prefix n d input pretext rs Hd Hdn Hin Hnm Hkeys Hnamed Htile Hrs o Hremap).
Qed.

(* baits that are untagged or tagged ["Painted"] give one key per Pretext scaffold *)
Lemma cores_land_in_order_tags_ok g prefix n d input pretext rs o :
  0 < d -> d <= n ->
  Forall Proofs.Completion.input_ok input -> NoDup (map fst input) ->
  NoDup (map key_of (in_frags input)) ->
  Forall (fun b => tags_ok (f_tags b) /\ (f_strand b = 1 \/ f_strand b = -1)
                   /\ In (f_name b) (map fst input)) (baits_of pretext) ->
  Forall (Proofs.Completion.scaffold_tiled n d (baits_of pretext)) input ->
  remap_to_input repaired g prefix (n, d) input pretext = Ok rs ->
  remap repaired g prefix (n, d) input pretext = Ok o ->
  cores_landed_in_order n d input pretext rs o.
Proof.
  intros Hd Hdn Hin Hnm Hkeys Hb Htile Hrs Ho.
  assert (Hnamed : Forall (fun b => In (f_name b) (map fst input)) (baits_of pretext)).
  { eapply Forall_impl; [|exact Hb]. intros b (_ & _ & H). exact H. }
  apply (cores_land_in_order g prefix n d input pretext rs Hd Hdn Hin Hnm Hkeys Hnamed Htile Hrs o Ho).
  apply (same_scaffold_same_key_painted repaired g prefix (n, d) input pretext rs);
    [|exact (baits_nodup n d input pretext Hnamed Htile) | exact Hrs].
  eapply Forall_impl; [|exact Hb]. intros b (H & _). exact H.
Qed.

Section Untagged.
  Variables (g : gap) (prefix : str) (n d : Z) (input pretext : list (str * list row)).
  Hypothesis Hd : 0 < d.
  Hypothesis Hdn : d <= n.
  Hypothesis Hin : Forall Proofs.Completion.input_ok input.
  Hypothesis Hnm : NoDup (map fst input).
  Hypothesis Hkeys : NoDup (map key_of (in_frags input)).
  Hypothesis Hunt : Forall (fun f => f_tags f = []) (in_frags input).
  Hypothesis Hstr : Forall (fun f => f_strand f = 1 \/ f_strand f = -1) (in_frags input).  (* ADDED *)
  Hypothesis Hpre : Forall (fun p => exists b t, snd p = RF b :: t) pretext.
  Hypothesis Hb : Forall (fun b => f_tags b = [] /\ (f_strand b = 1 \/ f_strand b = -1)
                                   /\ In (f_name b) (map fst input)) (baits_of pretext).
  Hypothesis Htile : Forall (Proofs.Completion.scaffold_tiled n d (baits_of pretext)) input.

Theorem c02_end_to_end :
  exists rs o,
    remap_to_input repaired g prefix (n, d) input pretext = Ok rs
    /\ remap repaired g prefix (n, d) input pretext = Ok o
    /\ cores_landed n d input pretext rs o.
Proof.
  destruct (Proofs.Completion.completion_of_tiling_maps g prefix n d input pretext
              Hd Hdn Hin Hnm Hkeys Hunt Hpre Hb Htile) as (rs & Hrs).
  assert (Hnamed : Forall (fun b => In (f_name b) (map fst input)) (baits_of pretext)).
  { eapply Forall_impl; [|exact Hb]. intros b (_ & _ & H). exact H. }
  (* everything of rank 3, every contig on strand +1 / -1: the rest of remap completes *)
  assert (Hbu : Forall (fun f => f_tags f = []) (baits_of pretext)).
  { eapply Forall_impl; [|exact Hb]. intros b (H & _). exact H. }
  destruct (head_untagged repaired g prefix (n, d) input pretext rs Hbu Hrs) as (Hrk & Hlrk).
  destruct (tail_total g prefix (n, d) input pretext rs Hrs Hstr Hrk Hlrk) as (o & Ho).
  assert (Hremap : remap repaired g prefix (n, d) input pretext = Ok o).
  { unfold remap. rewrite Hrs. cbn [bind]. exact Ho. }
  exists rs, o. split; [exact Hrs|]. split; [exact Hremap|].
  exact (cores_landed_run g prefix n d input pretext rs Hd Hdn Hin Hnm Hkeys Hnamed Htile Hrs o Hremap).
Qed.

Theorem c02_end_to_end_order :
  exists rs o,
    remap_to_input repaired g prefix (n, d) input pretext = Ok rs
    /\ remap repaired g prefix (n, d) input pretext = Ok o
    /\ cores_landed_in_order n d input pretext rs o.
Proof.
  destruct c02_end_to_end as (rs & o & Hrs & Ho & _).
  exists rs, o. split; [exact Hrs|]. split; [exact Ho|].
  apply (cores_land_in_order_tags_ok g prefix n d input pretext rs o Hd Hdn Hin Hnm Hkeys); try assumption.
  eapply Forall_impl; [|exact Hb]. intros b (H & H'). split; [left; exact H | exact H'].
Qed.
End Untagged.


Module Refutation.
  Definition g10 := mkGap 10 (s "scaffold").
  Definition A := mkFrag 0 (s "cA") 1 100 0 [].      (* an unstranded contig *)
  Definition B := mkFrag 0 (s "cB") 1 100 1 [].
  Definition input : list (str * list row) := [(s "scaf1", [RF A; RG g10; RF B])].
  Definition bt := mkFrag 0 (s "scaf1") 1 210 1 [].
  Definition pretext : list (str * list row) := [(s "P1", [RF bt])].

  (* the first half succeeds, the statistics of the INPUT assembly fail *)
  Lemma head_ok : exists rs, remap_to_input repaired g10 (s "SUPER_") (1, 1) input pretext = Ok rs.
  Proof. vm_compute. eexists. reflexivity. Qed.

  Lemma run : remap repaired g10 (s "SUPER_") (1, 1) input pretext = Err ValueError.
  Proof. vm_compute. reflexivity. Qed.
End Refutation.

(* the statement with the hypotheses of C02_completion only *)
Definition c02_end_to_end_original : Prop :=
  forall g prefix n d input pretext,
  0 < d -> d <= n ->
  Forall Proofs.Completion.input_ok input ->
  NoDup (map fst input) ->
  NoDup (map key_of (Model.RemapSpec.in_frags input)) ->
  Forall (fun f => f_tags f = []) (Model.RemapSpec.in_frags input) ->
  Forall (fun p => exists b t, snd p = RF b :: t) pretext ->
  Forall (fun b => f_tags b = [] /\ (f_strand b = 1 \/ f_strand b = -1)
                   /\ In (f_name b) (map fst input)) (Proofs.CoreKept.baits_of pretext) ->
  Forall (Proofs.Completion.scaffold_tiled n d (Proofs.CoreKept.baits_of pretext)) input ->
  exists rs o,
    remap_to_input repaired g prefix (n, d) input pretext = Ok rs
    /\ remap repaired g prefix (n, d) input pretext = Ok o
    /\ let err := error_length (n, d) in
       forall bait src x,
         In bait (Proofs.CoreKept.baits_of pretext) ->
         In (f_name bait, src) (number_input input 0) ->
         Proofs.CoreKept.in_core err bait x -> Proofs.CoreKept.contig_base src x ->
         exists r a sc pre suf,
           In r (b_store (rs_b rs)) /\ o_bait r = bait
           /\ Model.OvrSpec.Inv src r /\ Proofs.CoreKept.core_kept err src r
           /\ In a (out_asms o) /\ In sc (oa_scaffolds a)
           /\ sc_rows sc = pre ++ to_scaffold_rows r ++ suf.

Theorem c02_end_to_end_original_refuted : ~ c02_end_to_end_original.
Proof.
  intros H.
  destruct (Proofs.Completion.tiling_map_okb_sound 1 1 Refutation.input Refutation.pretext)
    as (H1 & H2 & H3 & H4 & H5 & H7 & H8 & H9); [vm_compute; reflexivity|].
  destruct (H Refutation.g10 (s "SUPER_") 1 1 Refutation.input Refutation.pretext H1 H2 H3 H4 H5) as (rs & o & _ & Ho & _);
    [repeat constructor | exact H7 | apply Forall_and; [repeat constructor | exact H8] | exact H9 |].
  rewrite Refutation.run in Ho. discriminate.
Qed.


(* non-vacuity:
   the three-piece map of Proofs.Completion (A(100,+) -10- B(300,-) -10- C(100,+),
   texel 3.5 bp, pieces 1-200 | 201-350 | 351-520 out of order, two reversed, in
   two Pretext scaffolds) satisfies every hypothesis: the whole of [remap]
   completes -- obtained by applying the theorem *)
Example c02_end_to_end_instance :
  exists o, remap repaired Proofs.Completion.ThreePieces.g10 (s "SUPER_") (7, 2)
              Proofs.Completion.ThreePieces.input Proofs.Completion.ThreePieces.pretext = Ok o.
Proof.
  destruct Proofs.Completion.three_pieces_hyps as (H1 & H2 & H3 & H4 & H5 & H6 & H6' & H7 & H8 & H9).
  destruct (c02_end_to_end_order Proofs.Completion.ThreePieces.g10 (s "SUPER_") 7 2
              Proofs.Completion.ThreePieces.input Proofs.Completion.ThreePieces.pretext
              H1 H2 H3 H4 H5 H6 H6' H7 H8 H9) as (rs & o & _ & Ho & _).
  exists o. exact Ho.
Qed.

Print Assumptions c02_end_to_end_original_refuted.
Print Assumptions c02_end_to_end_instance.
Print Assumptions c02_end_to_end_order.
Print Assumptions c02_end_to_end.
Print Assumptions c02_cores_land_any_tags.
