(* C02 CAPSTONE for PAINTED maps: the statement of Proofs.EndToEndC02 about the
   FINAL output of [remap], for maps whose baits are untagged or tagged
   ["Painted"] and that tile the scaffolds it shows.  The hypotheses are those
   under which Proofs.CompletionPainted proves that the whole run completes
   (each of the three extra ones is refuted there without). *)
From Tola Require Import Py.Base Model.Fragment Model.Scaffold Model.OverlapResult Model.Remap
  Model.RemapSpec Proofs.EndToEndC02.
From Tola Require Proofs.Completion Proofs.CompletionPainted Proofs.CoreKept Proofs.UniqueNames.
From Coq Require Import Lia.

Section Painted.
  Variables (g : gap) (prefix : str) (n d : Z) (input pretext : list (str * list row)).
  Hypothesis Hd : 0 < d.
  Hypothesis Hdn : d <= n.
  Hypothesis Hin : Forall Proofs.Completion.input_ok input.
  Hypothesis Hnm : NoDup (map fst input).
  Hypothesis Hkeys : NoDup (map key_of (in_frags input)).
  Hypothesis Hunt : Forall (fun f => f_tags f = []) (in_frags input).
  Hypothesis Hpre : Forall (fun p => exists b t, snd p = RF b :: t) pretext.
  Hypothesis Hb :
    Forall (fun b => (f_tags b = [] \/ f_tags b = [s "Painted"]) /\ (f_strand b = 1 \/ f_strand b = -1)
                     /\ In (f_name b) (map fst input)) (Proofs.CoreKept.baits_of pretext).
  Hypothesis Htile : Forall (Proofs.Completion.scaffold_tiled n d (Proofs.CoreKept.baits_of pretext)) input.
  (* for the second half of the pipeline *)
  Hypothesis Hstr : Forall (fun f => f_strand f = 1 \/ f_strand f = -1) (in_frags input).
  Hypothesis Hnames : Forall (fun p => Proofs.UniqueNames.painted_b p = true -> fst p <> []) pretext.
  Hypothesis NHp : Proofs.UniqueNames.no_haplotypes pretext.

Theorem c02_end_to_end_painted :
  exists rs o,
    remap_to_input repaired g prefix (n, d) input pretext = Ok rs
    /\ remap repaired g prefix (n, d) input pretext = Ok o
    /\ cores_landed n d input pretext rs o.
Proof.
  destruct (Proofs.CompletionPainted.completion_of_painted_tiling_maps g prefix n d input pretext
              Hd Hdn Hin Hnm Hkeys Hunt Hpre Hb Htile) as (rs & Hrs).
  destruct (Proofs.CompletionPainted.painted_tiling_maps_complete g prefix n d input pretext
              Hd Hdn Hin Hnm Hkeys Hunt Hpre Hb Htile Hstr Hnames NHp) as (o & Hremap).
  assert (Hnamed : Forall (fun b => In (f_name b) (map fst input)) (Proofs.CoreKept.baits_of pretext)).
  { eapply Forall_impl; [|exact Hb]. intros b (_ & _ & H). exact H. }
  exists rs, o. split; [exact Hrs|]. split; [exact Hremap|].
  exact (cores_landed_run g prefix n d input pretext rs Hd Hdn Hin Hnm Hkeys Hnamed Htile Hrs o Hremap).
Qed.

Theorem c02_end_to_end_painted_order :
  exists rs o,
    remap_to_input repaired g prefix (n, d) input pretext = Ok rs
    /\ remap repaired g prefix (n, d) input pretext = Ok o
    /\ cores_landed_in_order n d input pretext rs o.
Proof.
  destruct c02_end_to_end_painted as (rs & o & Hrs & Ho & _).
  exists rs, o. split; [exact Hrs|]. split; [exact Ho|].
  exact (cores_land_in_order_tags_ok g prefix n d input pretext rs o Hd Hdn Hin Hnm Hkeys Hb Htile Hrs Ho).
Qed.
End Painted.

(* non-vacuity:
   the painted three-piece map of Proofs.CompletionPainted (P1 = [p3], P2 =
   [p2; p1 Painted]) satisfies every hypothesis; the two baits of P2 both have
   contig bases in their cores, so the order clause applies to them *)
Module Instance.
  Import Proofs.Completion.ThreePieces Proofs.CompletionPainted.PaintedThreePieces.

  Lemma hyps :
    (0 < 2) /\ (2 <= 7)
    /\ Forall Proofs.Completion.input_ok input /\ NoDup (map fst input)
    /\ NoDup (map key_of (Model.RemapSpec.in_frags input))
    /\ Forall (fun f => f_tags f = []) (Model.RemapSpec.in_frags input)
    /\ Forall (fun p => exists b t, snd p = RF b :: t) pretext
    /\ Forall (fun b => (f_tags b = [] \/ f_tags b = [s "Painted"]) /\ (f_strand b = 1 \/ f_strand b = -1)
                     /\ In (f_name b) (map fst input)) (Proofs.CoreKept.baits_of pretext)
    /\ Forall (Proofs.Completion.scaffold_tiled 7 2 (Proofs.CoreKept.baits_of pretext)) input
    /\ Forall (fun f => f_strand f = 1 \/ f_strand f = -1) (Model.RemapSpec.in_frags input)
    /\ Forall (fun p => Proofs.UniqueNames.painted_b p = true -> fst p <> []) pretext
    /\ Proofs.UniqueNames.no_haplotypes pretext.
  Proof.
    destruct Proofs.Completion.three_pieces_hyps as (H1 & H2 & H3 & H4 & H5 & H6 & H6' & _).
    destruct Proofs.CompletionPainted.painted_three_pieces_hyps as (H7 & H8 & H9 & Hn & Hh).
    repeat (split; [assumption|]). exact Hh.
  Qed.
End Instance.

Example c02_end_to_end_painted_instance :
  exists o, remap repaired Proofs.Completion.ThreePieces.g10 (s "SUPER_") (7, 2)
              Proofs.Completion.ThreePieces.input Proofs.CompletionPainted.PaintedThreePieces.pretext = Ok o.
Proof.
  destruct Instance.hyps as (H1 & H2 & H3 & H4 & H5 & H6 & H7 & H8 & H9 & H10 & H11 & H12).
  destruct (c02_end_to_end_painted_order Proofs.Completion.ThreePieces.g10 (s "SUPER_") 7 2
              Proofs.Completion.ThreePieces.input Proofs.CompletionPainted.PaintedThreePieces.pretext
              H1 H2 H3 H4 H5 H6 H7 H8 H9 H10 H11 H12) as (rs & o & _ & Ho & _).
  exists o. exact Ho.
Qed.

(* the order clause applied to the two baits of P2 = [p2; p1 (Painted)]: base 250
   lies in the core of p2 (201..350), base 50 in the core of p1 (1..200) *)
Example c02_end_to_end_painted_order_instance :
  exists o a sc r1 r2 pre mid post,
    remap repaired Proofs.Completion.ThreePieces.g10 (s "SUPER_") (7, 2)
          Proofs.Completion.ThreePieces.input Proofs.CompletionPainted.PaintedThreePieces.pretext = Ok o
    /\ In a (out_asms o) /\ In sc (oa_scaffolds a)
    /\ o_bait r1 = Proofs.CompletionPainted.PaintedThreePieces.p2
    /\ o_bait r2 = Proofs.CompletionPainted.PaintedThreePieces.p1
    /\ sc_rows sc = pre ++ to_scaffold_rows r1 ++ mid ++ to_scaffold_rows r2 ++ post.
Proof.
  destruct Instance.hyps as (H1 & H2 & H3 & H4 & H5 & H6 & H7 & H8 & H9 & H10 & H11 & H12).
  destruct (c02_end_to_end_painted_order Proofs.Completion.ThreePieces.g10 (s "SUPER_") 7 2
              Proofs.Completion.ThreePieces.input Proofs.CompletionPainted.PaintedThreePieces.pretext
              H1 H2 H3 H4 H5 H6 H7 H8 H9 H10 H11 H12) as (rs & o & _ & Ho & HC).
  set (src := snd (hd (s "", []) (number_input Proofs.Completion.ThreePieces.input 0))).
  destruct (HC (s "P2") [RF Proofs.CompletionPainted.PaintedThreePieces.p2;
                         RF Proofs.CompletionPainted.PaintedThreePieces.p1]
               [] Proofs.CompletionPainted.PaintedThreePieces.p2
               [] Proofs.CompletionPainted.PaintedThreePieces.p1 [] src 250 src 50)
    as (r1 & r2 & a & sc & pre & mid & post & _ & E1 & _ & _ & _ & E2 & _ & _ & Ha & Hsc & Er).
  - right. left. reflexivity.
  - reflexivity.
  - vm_compute. left. reflexivity.
  - unfold Proofs.CoreKept.in_core. vm_compute. split; discriminate.
  - exists 2%nat. split; [eexists; vm_compute; reflexivity|]. vm_compute. split; discriminate.
  - vm_compute. left. reflexivity.
  - unfold Proofs.CoreKept.in_core. vm_compute. split; discriminate.
  - exists 0%nat. split; [eexists; vm_compute; reflexivity|]. vm_compute. split; discriminate.
  - exists o, a, sc, r1, r2, pre, mid, post. repeat (split; [assumption|]). exact Er.
Qed.

Print Assumptions c02_end_to_end_painted.
Print Assumptions c02_end_to_end_painted_order.
Print Assumptions c02_end_to_end_painted_instance.
Print Assumptions c02_end_to_end_painted_order_instance.
