(* What the output of a well-paired two-haplotype map looks like: both
   homologues of a pair carry the same chromosome number, numbers go by
   non-increasing length of the FIRST-haplotype scaffold (ties in map order). *)
From Tola Require Import Py.Base Py.Dec Py.Sort Model.Fragment Model.Scaffold Model.Remap
  Model.RemapSpec Proofs.BaseLemmas Proofs.CoreKept Proofs.Naming Proofs.UniqueNames
  Proofs.Completion Proofs.MultiHap Proofs.CompletionTagged Proofs.CompletionTwoHapsGlue
  Proofs.CompletionTwoHaps.
From Tola Require Proofs.ChromosomeNumbers Proofs.RoutingEndToEnd Proofs.Sort.
From Coq Require Import Lia Permutation Bool.

(* the two output scaffolds of a pair, read at its two indices; the default is
   never met: both indices hold a scaffold ([Hmem] below) *)
Definition default_sc : scaffold := mkScaffold [] [] None None 0 None [].
Definition hom_of (fused : list scaffold) (p : sub2) : scaffold * scaffold :=
  (nth (first_idx (fst p)) fused default_sc, nth (first_idx (snd p)) fused default_sc).

Theorem two_haplotype_maps_names : forall g prefix n d input pretext h1 h2 (hapf : str -> str) k,
  0 < d -> d <= n ->
  Forall input_ok input -> NoDup (map fst input) ->
  NoDup (map key_of (in_frags input)) ->
  Forall (fun f => f_tags f = []) (in_frags input) ->
  Forall (fun f => f_strand f = 1 \/ f_strand f = -1) (in_frags input) ->
  Forall (fun p => exists b t, snd p = RF b :: t) pretext ->
  Forall (fun b => (f_strand b = 1 \/ f_strand b = -1) /\ In (f_name b) (map fst input)) (baits_of pretext) ->
  Forall (scaffold_tiled n d (baits_of pretext)) input ->
  lower h1 <> lower h2 -> is_hap_tag h1 = true -> is_hap_tag h2 = true ->
  hap_baits hapf pretext ->
  map hapf (map fst pretext) = alternating h1 h2 (S k) ->
  NoDup (map fst pretext) -> Forall (fun p => fst p <> []) pretext ->
  Forall (fun p => exists b src x, In b (frags_of (snd p)) /\ In (f_name b, src) (number_input input 0)
                     /\ in_core (error_length (n, d)) b x /\ contig_base src x) pretext ->
  exists o (homs : list (scaffold * scaffold)),
    remap repaired g prefix (n, d) input pretext = Ok o
    (* one pair of output scaffolds per pair of Pretext scaffolds, in map order *)
    /\ length homs = S k
    /\ (forall j sc1 sc2, nth_error homs j = Some (sc1, sc2) ->
          sc_orig sc1 = nth_error (map fst pretext) (2 * j)
          /\ sc_orig sc2 = nth_error (map fst pretext) (2 * j + 1)
          /\ sc_rank sc1 = 1 /\ sc_rank sc2 = 1
          /\ (exists a, In a (out_asms o) /\ oa_key a = Some h1 /\ In sc1 (oa_scaffolds a))
          /\ (exists a, In a (out_asms o) /\ oa_key a = Some h2 /\ In sc2 (oa_scaffolds a)))
    (* the pair at rank kk by non-increasing first-haplotype length (stable: ties in map order)
       is chromosome kk+1 in BOTH haplotypes *)
    /\ (forall kk sc1 sc2,
          nth_error (sort_by_Z_desc (fun p => frags_length (sc_rows (fst p))) homs) kk = Some (sc1, sc2) ->
          sc_name sc1 = prefix ++ str_of_Z (Z.of_nat kk + 1)
          /\ sc_name sc2 = prefix ++ str_of_Z (Z.of_nat kk + 1)).
Proof.
  intros g prefix n d input pretext h1 h2 hapf k Hd Hdn Hin Hnm Hkeys Hunt Hpm Hpre Hb Htile
    Hlow Hh1 Hh2 Hbaits Halt Hnd Hne Hcore.
  destruct (two_haplotype_maps_complete g prefix n d input pretext h1 h2 hapf k Hd Hdn Hin Hnm Hkeys Hunt Hpm
              Hpre Hb Htile Hlow Hh1 Hh2 Hbaits Halt Hnd Hne Hcore) as (o & Ho).
  destruct (Proofs.ChromosomeNumbers.remap_stages _ _ _ _ _ _ Ho) as (rs & fused0 & fused & Hrs & HF & NC & Pm).
  destruct (Proofs.RoutingEndToEnd.routing_end_to_end g prefix (n, d) input pretext o rs Hrs Ho) as (_ & _ & Hkey).
  destruct (two_hap_run_items g prefix n d input pretext h1 h2 hapf k Hd Hdn Hin Hnm Hkeys Hunt
              Hpre Hb Htile Hlow Hh1 Hh2 Hbaits Halt Hnd Hne Hcore rs fused0 Hrs HF) as [(idxs & Eitems & F2) Hlab].
  set (fused1 := map (prefix_rank2 prefix) fused0) in *. set (names := map fst pretext) in *.
  assert (Hdiff : h1 <> h2) by (intro E; apply Hlow; rewrite E; reflexivity).
  destruct (pair_up_explicit fused1 hapf h1 h2 (S k) names idxs Halt F2) as (Lp & E & Fp & Hp).
  set (pairs := pairs_of names idxs) in *.
  destruct pairs as [|p0 pairs'] eqn:Epairs; [discriminate Lp|].
  rewrite Halt, E in Eitems.
  assert (Hndi : NoDup (map snd (items_of (map (chrom2 h1 h2) (p0 :: pairs'))))).
  { rewrite <- Eitems. apply chr_items_nodup. }
  destruct (two_hap_names prefix fused1 h1 h2 p0 pairs' Hdiff Fp Hndi) as (fused' & NC' & [Hsame _] & Hnames).
  rewrite Eitems in NC. rewrite NC' in NC. injection NC as ->.
  (* both indices of a pair are ChrNamer items *)
  assert (Hit : forall j n1 i1 n2 i2, nth_error (p0 :: pairs') j = Some ((n1, [i1]), (n2, [i2])) ->
            In (h1, i1) (chr_items fused1) /\ In (h2, i2) (chr_items fused1)).
  { intros j n1 i1 n2 i2 Hj.
    assert (I : In (chrom2 h1 h2 ((n1, [i1]), (n2, [i2]))) (map (chrom2 h1 h2) (p0 :: pairs'))).
    { apply in_map. eapply nth_error_In. exact Hj. }
    rewrite Eitems. split; apply in_flat_map; eexists; (split; [exact I|]); cbn; auto. }
  (* an item: the rank-1 fused scaffold painted in nm, and what the ChrNamer made of it *)
  assert (Hmem : forall h i s0 nm, In (h, i) (chr_items fused1) -> nth_error fused1 i = Some s0 ->
            sc_orig s0 = Some nm ->
            sc_rank s0 = 1 /\ sc_tag s0 = None /\ sc_name s0 = nm /\ sc_hap s0 = Some (hapf nm) /\ hapf nm <> []
            /\ exists t, nth_error fused i = Some t /\ same_but_name s0 t).
  { intros h i s0 nm Ii Hs Ho0.
    apply chr_items_in in Ii as (_ & x & X1 & X2 & _). rewrite Nat.sub_0_r in X1.
    assert (R : sc_rank s0 = 1) by congruence.
    destruct (Hlab s0 (nth_error_In _ _ Hs) R) as (Tg & m & Nm & Om & Hm & Ne).
    assert (Em : m = nm) by congruence. rewrite Em in Nm, Hm, Ne.
    destruct (Forall2_nth_error _ _ _ Hsame i s0 Hs) as (t & T & St).
    split; [exact R|]. split; [exact Tg|]. split; [exact Nm|]. split; [exact Hm|]. split; [exact Ne|].
    exists t. split; assumption. }
  exists o, (map (hom_of fused) (p0 :: pairs')). split; [exact Ho|]. split; [rewrite map_length; exact Lp|]. split.
  - intros j sc1 sc2 Hj. rewrite nth_error_map in Hj.
    destruct (nth_error (p0 :: pairs') j) as [p|] eqn:Ej; [|discriminate].
    cbn [option_map] in Hj. assert (Hj' : hom_of fused p = (sc1, sc2)) by congruence.
    clear Hj. rename Hj' into Hj.
    destruct (Hp j p Ej) as (n1 & i1 & n2 & i2 & s1 & s2 & -> & A1 & A2 & A3 & A4 & A5 & O1 & A7 & O2).
    destruct (Hit j _ _ _ _ Ej) as [I1 I2].
    destruct (Hmem h1 i1 s1 n1 I1 A5 O1) as (R1 & G1 & _ & P1 & E1 & t1 & T1 & S1).
    destruct (Hmem h2 i2 s2 n2 I2 A7 O2) as (R2 & G2 & _ & P2 & E2 & t2 & T2 & S2).
    rewrite A3 in P1, E1. rewrite A4 in P2, E2.
    unfold hom_of, first_idx in Hj. cbn [fst snd hd] in Hj.
    rewrite (nth_error_nth _ _ default_sc T1), (nth_error_nth _ _ default_sc T2) in Hj. injection Hj as <- <-.
    destruct S1 as (_ & St1 & Sh1 & Sr1 & So1 & _). destruct S2 as (_ & St2 & Sh2 & Sr2 & So2 & _).
    split; [congruence|]. split; [congruence|]. split; [congruence|]. split; [congruence|].
    assert (M : forall t h, In t fused -> sc_tag t = None -> sc_hap t = Some h -> h <> [] ->
                  exists a, In a (out_asms o) /\ oa_key a = Some h /\ In t (oa_scaffolds a)).
    { intros t h It Tt Th Hn. apply (Permutation_in _ (Permutation_sym Pm)) in It.
      unfold Proofs.ChromosomeNumbers.out_scaffolds in It. apply in_flat_map in It as (a & Ia & Its).
      exists a. split; [exact Ia|]. split; [|exact Its]. rewrite (Hkey a t Ia Its), Tt, Th.
      unfold Proofs.RoutingEndToEnd.dest_key. destruct h; [congruence | reflexivity]. }
    split; [apply M; [eapply nth_error_In; exact T1 | congruence | congruence | exact E1]
           | apply M; [eapply nth_error_In; exact T2 | congruence | congruence | exact E2]].
  - intros kk sc1 sc2 Hk. unfold sort_by_Z_desc in Hk. rewrite <- Proofs.Sort.stable_sort_map in Hk.
    rewrite nth_error_map in Hk.
    match type of Hk with context [nth_error ?L kk] => destruct (nth_error L kk) as [p|] eqn:Ek end; [|discriminate].
    cbn [option_map] in Hk. assert (Hk' : hom_of fused p = (sc1, sc2)) by congruence.
    clear Hk. rename Hk' into Hk.
    assert (Ekey : forall x, In x (p0 :: pairs') ->
              frags_length (sc_rows (fst (hom_of fused x))) = sumZ (map (member_len fused1) (snd (fst x)))).
    { intros x Ix. apply In_nth_error in Ix as (j & Ej).
      destruct (Hp j x Ej) as (n1 & i1 & n2 & i2 & s1 & s2 & -> & _ & _ & _ & _ & A5 & O1 & _).
      destruct (Hmem h1 i1 s1 n1 (proj1 (Hit j _ _ _ _ Ej)) A5 O1) as (_ & _ & _ & _ & _ & t1 & T1 & S1).
      unfold hom_of, first_idx. cbn [fst snd hd map]. rewrite (nth_error_nth _ _ default_sc T1).
      unfold sumZ. cbn [fold_left]. unfold member_len. rewrite A5. destruct S1 as (Sr & _). rewrite Sr. lia. }
    rewrite (stable_sort_ext_in _ (fun a b => sumZ (map (member_len fused1) (snd (fst a)))
                                              >=? sumZ (map (member_len fused1) (snd (fst b))))) in Ek.
    2:{ intros x y Ix Iy. rewrite (Ekey x Ix), (Ekey y Iy). reflexivity. }
    assert (Ip : In p (p0 :: pairs')).
    { eapply Permutation_in; [apply (sort_desc_perm (fun a : sub2 => sumZ (map (member_len fused1) (snd (fst a)))))|].
      eapply nth_error_In. exact Ek. }
    apply In_nth_error in Ip as (j & Ej).
    destruct (Hp j p Ej) as (n1 & i1 & n2 & i2 & s1 & s2 & -> & _ & _ & _ & _ & A5 & O1 & A7 & O2).
    destruct (Hit j _ _ _ _ Ej) as [I1 I2].
    destruct (Hmem h1 i1 s1 n1 I1 A5 O1) as (_ & _ & N1 & _ & _ & t1 & T1 & _).
    destruct (Hmem h2 i2 s2 n2 I2 A7 O2) as (_ & _ & N2 & _ & _ & t2 & T2 & _).
    unfold hom_of, first_idx in Hk. cbn [fst snd hd] in Hk.
    rewrite (nth_error_nth _ _ default_sc T1), (nth_error_nth _ _ default_sc T2) in Hk. injection Hk as <- <-.
    pose proof (Hnames kk _ Ek (n1, [i1]) i1 s1 [] (or_introl eq_refl) (or_introl eq_refl) A5
                  ltac:(cbn [fst]; rewrite app_nil_r; exact N1) ltac:(intros j0 Hj0; destruct (Nat.nlt_0_r _ Hj0))) as X1.
    pose proof (Hnames kk _ Ek (n2, [i2]) i2 s2 [] (or_intror eq_refl) (or_introl eq_refl) A7
                  ltac:(cbn [fst]; rewrite app_nil_r; exact N2) ltac:(intros j0 Hj0; destruct (Nat.nlt_0_r _ Hj0))) as X2.
    rewrite X1 in T1. rewrite X2 in T2. injection T1 as <-. injection T2 as <-.
    cbn [with_name sc_name]. rewrite !app_nil_r. split; reflexivity.
Qed.

(* the two-pair map of CompletionTwoHaps.TwoHapEx, by computation *)
Example two_pair_map_names :
  exists o, remap repaired TwoHapEx.g10 (s "SUPER_") (2, 1) TwoHapEx.input TwoHapEx.pretext_ok = Ok o
    /\ map (fun a => (oa_key a, oa_curated a, map (fun sc => (sc_name sc, sc_orig sc)) (oa_scaffolds a))) (out_asms o)
       = [(Some (s "HAP1"), true, [(s "SUPER_1", Some (s "P1")); (s "SUPER_2", Some (s "P3"))]);
          (Some (s "HAP2"), true, [(s "SUPER_1", Some (s "P2")); (s "SUPER_2", Some (s "P4"))])].
Proof. eexists. split; vm_compute; reflexivity. Qed.

Print Assumptions two_haplotype_maps_names.
Print Assumptions two_pair_map_names.
