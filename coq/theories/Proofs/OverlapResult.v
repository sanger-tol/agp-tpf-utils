(* C18: the operations on an overlap result keep it a trimmed slice of its
   source scaffold.  trim_fragment recognises a row by its object id, so the
   induction runs on [Inv'], which strengthens [Inv] of Model/OvrSpec.v by
   naming the rows before and after the slice and by [idok] (which ids the end
   rows can have); [Inv'_Inv] weakens it.  Proofs about whole runs (PipelineInv,
   CoreKeptDeepCut) use [Inv']. *)
From Tola Require Import Py.Base Model.Fragment Model.Lookup
  Model.OverlapResult Model.OvrSpec Proofs.BaseLemmas Proofs.Rows Proofs.Lookup.
From Coq Require Import Lia ZifyBool.

Local Ltac spl := repeat match goal with |- _ /\ _ => split end.

Local Ltac lnorm := repeat (cbn [app]; rewrite <- app_assoc); cbn [app].
#[local] Hint Rewrite rows_len_app rows_len_cons rows_len_nil rows_len_rev : rl.

Lemma leading_gaps_nonneg t : pos_rows t -> 0 <= leading_gaps_len t.
Proof.
  induction 1 as [|x t Hx _ IH]; cbn [leading_gaps_len]; [lia|].
  destruct x as [f|g]; [lia|]. cbn [row_len] in Hx. lia.
Qed.

Lemma firstn_add {A} (i n : nat) (l : list A) :
  firstn (i + n) l = firstn i l ++ firstn n (skipn i l).
Proof.
  revert l; induction i as [|i IH]; intros l; [reflexivity|].
  destruct l as [|x l]; cbn [Nat.add firstn skipn app].
  - destruct n; reflexivity.
  - rewrite IH. reflexivity.
Qed.

Lemma skipn_nth_cons {A} (l : list A) i x :
  nth_error l i = Some x -> skipn i l = x :: skipn (S i) l.
Proof.
  revert l; induction i as [|i IH]; intros [|y l] H; cbn in H; try discriminate.
  - injection H as ->. reflexivity.
  - cbn [skipn]. rewrite (IH l H). reflexivity.
Qed.

Lemma firstn_S_nth {A} (l : list A) k y :
  nth_error l k = Some y -> firstn (S k) l = firstn k l ++ [y].
Proof.
  revert l; induction k as [|k IH]; intros [|x l] H; cbn in H; try discriminate.
  - injection H as ->. reflexivity.
  - cbn [firstn app]. f_equal. apply IH. exact H.
Qed.

Lemma nth_error_skipn' {A} (l : list A) i k :
  nth_error (skipn i l) k = nth_error l (i + k).
Proof.
  revert l; induction i as [|i IH]; intros l; [reflexivity|].
  destruct l as [|x l]; cbn [skipn Nat.add nth_error].
  - destruct k; reflexivity.
  - apply IH.
Qed.

Lemma py_nth_nil {A} i : py_nth (@nil A) i = Err IndexError.
Proof.
  unfold py_nth, zlen. cbv zeta. cbn [length].
  destruct (i <? 0) eqn:E.
  - destruct (i + Z.of_nat 0 <? 0) eqn:E1; [reflexivity|lia].
  - destruct (i <? 0) eqn:E1; [discriminate|].
    destruct (Z.of_nat 0 <=? i) eqn:E2; [reflexivity|lia].
Qed.

Lemma py_nth_last_cons {A} (y : A) (l : list A) x : py_nth (y :: l ++ [x]) (-1) = Ok x.
Proof. apply (py_nth_m1 (y :: l) x). Qed.

Lemma py_nth_last_single {A} (x : A) : py_nth [x] (-1) = Ok x.
Proof. apply (py_nth_m1 [] x). Qed.

Definition all_gaps (l : list row) : Prop := Forall (fun x => is_gap x = true) l.

Lemma split_gaps (l : list row) :
  exists gaps rest, l = gaps ++ rest /\ all_gaps gaps
    /\ (rest = [] \/ exists f rest', rest = RF f :: rest').
Proof.
  induction l as [|x l IH].
  - exists [], []. repeat split; [constructor | left; reflexivity].
  - destruct x as [f|g].
    + exists [], (RF f :: l). repeat split; [constructor | right; eauto].
    + destruct IH as (gaps & rest & -> & Hg & Hr).
      exists (RG g :: gaps), rest. repeat split; [|exact Hr].
      constructor; [reflexivity | exact Hg].
Qed.

Lemma split_gaps_back (l : list row) :
  exists rest gaps, l = rest ++ gaps /\ all_gaps gaps
    /\ (rest = [] \/ exists rest' f, rest = rest' ++ [RF f]).
Proof.
  destruct (split_gaps (rev l)) as (gaps & rest & E & Hg & Hr).
  exists (rev rest), (rev gaps). repeat split.
  - rewrite <- rev_app_distr, <- E, rev_involutive. reflexivity.
  - unfold all_gaps in *. apply Forall_rev. exact Hg.
  - destruct Hr as [-> | (f & rest' & ->)]; [left; reflexivity|].
    right. exists (rev rest'), f. reflexivity.
Qed.

(* pop_gaps_front stops at the first fragment row, summing the gap lengths *)
Lemma pop_front_app gaps rest pos :
  all_gaps gaps -> pop_gaps_front (gaps ++ rest) pos = pop_gaps_front rest (pos + rows_len gaps).
Proof.
  intros H; revert pos; induction H as [|x gaps Hx _ IH]; intros pos.
  - cbn [app]. rewrite rows_len_nil, Z.add_0_r. reflexivity.
  - destruct x as [f0|g]; [discriminate|].
    cbn [app pop_gaps_front]. rewrite IH, rows_len_cons. cbn [row_len]. f_equal. lia.
Qed.

Lemma pop_back_app gaps rest pos :
  all_gaps gaps ->
  pop_gaps_back_rev (gaps ++ rest) pos = pop_gaps_back_rev rest (pos - rows_len gaps).
Proof.
  intros H; revert pos; induction H as [|x gaps Hx _ IH]; intros pos.
  - cbn [app]. rewrite rows_len_nil, Z.sub_0_r. reflexivity.
  - destruct x as [f0|g]; [discriminate|].
    cbn [app pop_gaps_back_rev]. rewrite IH, rows_len_cons. cbn [row_len]. f_equal. lia.
Qed.

Lemma pop_front_gaps gaps f tl pos :
  all_gaps gaps ->
  pop_gaps_front (gaps ++ RF f :: tl) pos = (RF f :: tl, pos + rows_len gaps).
Proof. intros H. apply pop_front_app, H. Qed.

Lemma pop_front_all_gaps gaps pos :
  all_gaps gaps -> pop_gaps_front gaps pos = ([], pos + rows_len gaps).
Proof. intros H. rewrite <- (app_nil_r gaps) at 1. apply pop_front_app, H. Qed.

Lemma pop_back_gaps gaps f tl pos :
  all_gaps gaps ->
  pop_gaps_back_rev (gaps ++ RF f :: tl) pos = (RF f :: tl, pos - rows_len gaps).
Proof. intros H. apply pop_back_app, H. Qed.

Lemma leading_gaps_len_app gaps rest :
  all_gaps gaps -> leading_gaps_len (gaps ++ rest) = rows_len gaps + leading_gaps_len rest.
Proof.
  induction 1 as [|x gaps Hx _ IH]; cbn [app]; [rewrite rows_len_nil; lia|].
  destruct x as [f0|g]; [discriminate|].
  cbn [leading_gaps_len]. rewrite IH, rows_len_cons. cbn [row_len]. lia.
Qed.

(* what both popping loops do to a list of rows, whatever the position *)
Lemma pop_front_spec t pos :
  exists gaps rest, t = gaps ++ rest /\ all_gaps gaps
    /\ (rest = [] \/ exists f rest', rest = RF f :: rest')
    /\ pop_gaps_front t pos = (rest, pos + rows_len gaps)
    /\ leading_gaps_len t = rows_len gaps.
Proof.
  destruct (split_gaps t) as (gaps & rest & -> & Hg & Hr). exists gaps, rest.
  rewrite pop_front_app, leading_gaps_len_app by exact Hg.
  repeat split; try assumption.
  - destruct Hr as [-> | (f & rest' & ->)]; reflexivity.
  - destruct Hr as [-> | (f & rest' & ->)]; cbn [leading_gaps_len]; lia.
Qed.

Lemma pop_back_spec t pos :
  exists gaps rest, t = gaps ++ rest /\ all_gaps gaps
    /\ (rest = [] \/ exists f rest', rest = RF f :: rest')
    /\ pop_gaps_back_rev t pos = (rest, pos - rows_len gaps)
    /\ leading_gaps_len t = rows_len gaps.
Proof.
  destruct (split_gaps t) as (gaps & rest & -> & Hg & Hr). exists gaps, rest.
  rewrite pop_back_app, leading_gaps_len_app by exact Hg.
  repeat split; try assumption.
  - destruct Hr as [-> | (f & rest' & ->)]; reflexivity.
  - destruct Hr as [-> | (f & rest' & ->)]; cbn [leading_gaps_len]; lia.
Qed.

(* discard_start drops the first row and the gaps after it, and moves the
   start past them; nothing else changes *)
Lemma discard_start_spec r r' : discard_start r = Ok r' ->
  exists d gaps, o_rows r = d :: gaps ++ o_rows r' /\ all_gaps gaps
    /\ (o_rows r' = [] \/ exists f t, o_rows r' = RF f :: t)
    /\ leading_gaps_len (gaps ++ o_rows r') = rows_len gaps
    /\ r' = set_span_rows r (o_start r + row_len d + rows_len gaps) (o_end r) (o_rows r').
Proof.
  unfold discard_start. destruct (o_rows r) as [|d t]; [discriminate|].
  destruct (pop_front_spec t (o_start r + row_len d)) as (gaps & rest & -> & Hg & Hr & Hp & Hl).
  rewrite Hp. intros H. injection H as <-. exists d, gaps. cbn [set_span_rows o_rows].
  repeat split; assumption.
Qed.

Lemma discard_end_spec r r' : discard_end r = Ok r' ->
  exists d gaps, o_rows r = o_rows r' ++ gaps ++ [d] /\ all_gaps gaps
    /\ (o_rows r' = [] \/ exists t f, o_rows r' = t ++ [RF f])
    /\ leading_gaps_len (rev gaps ++ rev (o_rows r')) = rows_len gaps
    /\ r' = set_span_rows r (o_start r) (o_end r - row_len d - rows_len gaps) (o_rows r').
Proof.
  unfold discard_end. destruct (rev (o_rows r)) as [|d t] eqn:Er; [discriminate|].
  destruct (pop_back_spec t (o_end r - row_len d)) as (gaps & rest & -> & Hg & Hr & Hp & Hl).
  rewrite Hp. intros H. injection H as <-. exists d, (rev gaps). cbn [set_span_rows o_rows].
  rewrite rev_involutive, rows_len_rev. repeat split.
  - rewrite <- (rev_involutive (o_rows r)), Er. cbn [rev]. rewrite rev_app_distr, <- app_assoc. reflexivity.
  - apply Forall_rev. exact Hg.
  - destruct Hr as [-> | (f & rest' & ->)]; [left; reflexivity|].
    right. exists (rev rest'), f. reflexivity.
  - rewrite rev_involutive. exact Hl.
Qed.

(* the two moves of trim_fragment, as sums *)
Lemma moved_start (ms me s : bool) x v e :
  (if me && negb s then (if ms && s then x + v else x) + e else (if ms && s then x + v else x))
  = x + (if s then (if ms then v else 0) else (if me then e else 0)).
Proof. destruct ms, me, s; cbn [andb negb]; lia. Qed.

Lemma moved_end (ms me s : bool) y v e :
  (if me && s then (if ms && negb s then y - v else y) - e else (if ms && negb s then y - v else y))
  = y - (if s then (if me then e else 0) else (if ms then v else 0)).
Proof. destruct ms, me, s; cbn [andb negb]; lia. Qed.

Lemma move_nonneg (a k : bool) v : 0 <= (if a && (v >? 0) && k then v else 0).
Proof. destruct a, k, (v >? 0) eqn:E; cbn [andb]; lia. Qed.

(* trim_fragment in one equation: [ds] and [de] are the distances the start
   and the end of the result move (0 when that end is kept or is not [t]);
   which contig coordinate of the copy moves depends on the strand *)
Lemma trim_fragment_spec r t ks ke new r' :
  trim_fragment r t ks ke = Ok (new, r') ->
  exists x0 xl ds de,
    first_row r = Ok x0 /\ last_row r = Ok xl
    /\ row_is x0 t || row_is xl t = true
    /\ ds = (if row_is x0 t && (start_overhang r >? 0) && negb ks then start_overhang r else 0)
    /\ de = (if row_is xl t && (end_overhang r >? 0) && negb ke then end_overhang r else 0)
    /\ 0 <= ds /\ 0 <= de
    /\ new = mkFrag (if row_is xl t then -2 else -1) (f_name t)
                    (f_start t + (if f_strand t =? 1 then ds else de))
                    (f_end t - (if f_strand t =? 1 then de else ds))
                    (f_strand t) (cut_tags (o_bait r))
    /\ f_start new <= f_end new
    /\ r' = set_span_rows r (o_start r + ds) (o_end r - de)
              (if row_is xl t then set_last (o_rows r) (RF new) else set_nth (o_rows r) 0 (RF new)).
Proof.
  unfold trim_fragment. intros H.
  destruct (first_row r) as [x0|] eqn:E0; cbn [bind] in H; [|discriminate].
  cbv zeta in H.
  destruct (last_row r) as [xl|] eqn:El; cbn [bind] in H; [|discriminate].
  fold (end_overhang r) in H.
  destruct (row_is x0 t || row_is xl t) eqn:Eat; cbn [negb] in H; [|discriminate].
  rewrite moved_start, moved_end in H.
  match type of H with
  | bind ?X _ = _ => destruct X as [nf|] eqn:Hnf; cbn [bind] in H; [|discriminate]
  end.
  injection H as <- <-. apply new_frag_ok in Hnf. destruct Hnf as [-> Hle].
  exists x0, xl. do 2 eexists.
  split; [reflexivity|]. split; [reflexivity|]. split; [exact Eat|].
  split; [reflexivity|]. split; [reflexivity|].
  split; [apply move_nonneg|]. split; [apply move_nonneg|].
  split; [reflexivity|]. split; [exact Hle|].
  f_equal.
  - destruct (row_is x0 t && (start_overhang r >? 0) && negb ks); [reflexivity | symmetry; apply Z.add_0_r].
  - destruct (row_is xl t && (end_overhang r >? 0) && negb ke); [reflexivity | symmetry; apply Z.sub_0_r].
Qed.

Theorem overhang_if_start_removed_agrees : forall r r',
  discard_start r = Ok r' -> overhang_if_start_removed r = Ok (start_overhang r').
Proof.
  intros r r' H. destruct (discard_start_spec r r' H) as (d & gaps & Er & _ & _ & Hl & ->).
  unfold overhang_if_start_removed, start_overhang. rewrite Er, Hl.
  reflexivity.
Qed.

Theorem overhang_if_end_removed_agrees : forall r r',
  discard_end r = Ok r' -> overhang_if_end_removed r = Ok (end_overhang r').
Proof.
  intros r r' H. destruct (discard_end_spec r r' H) as (d & gaps & Er & _ & _ & Hl & ->).
  unfold overhang_if_end_removed, end_overhang.
  rewrite Er, !rev_app_distr. cbn [rev app]. rewrite Hl.
  reflexivity.
Qed.

Theorem start_row_bait_overlap_spec : forall r x v,
  first_row r = Ok x -> start_row_bait_overlap r = Ok v ->
  v = Z.max 0 (Z.min (f_end (o_bait r)) (o_start r + row_len x - 1)
               - Z.max (f_start (o_bait r)) (o_start r) + 1).
Proof.
  intros r x v Hx H. unfold start_row_bait_overlap in H. rewrite Hx in H.
  cbn [bind] in H. cbv zeta in H. injection H as <-.
  destruct (_ <? _) eqn:E; lia.
Qed.

Theorem end_row_bait_overlap_spec : forall r x v,
  last_row r = Ok x -> end_row_bait_overlap r = Ok v ->
  v = Z.max 0 (Z.min (f_end (o_bait r)) (o_end r)
               - Z.max (f_start (o_bait r)) (o_end r - row_len x + 1) + 1).
Proof.
  intros r x v Hx H. unfold end_row_bait_overlap in H. rewrite Hx in H.
  cbn [bind] in H. cbv zeta in H. injection H as <-.
  destruct (_ <? _) eqn:E; lia.
Qed.

(* object identities: in a result of two or more rows the first row is the
   source row itself or a start-copy (-1), the last row is the source row
   itself or an end-copy (-2) *)
Definition idok (o1 f1 o2 f2 : frag) : Prop :=
  (f_id f1 = f_id o1 \/ f_id f1 = -1) /\ (f_id f2 = f_id o2 \/ f_id f2 = -2).

Definition rows_rel' (slice rows : list row) (ls le : Z) : Prop :=
  (exists o f, slice = [RF o] /\ rows = [RF f] /\ trimmed o f ls le)
  \/ (exists o1 f1 mid o2 f2,
        slice = RF o1 :: mid ++ [RF o2] /\ rows = RF f1 :: mid ++ [RF f2]
        /\ trimmed o1 f1 ls 0 /\ trimmed o2 f2 0 le /\ idok o1 f1 o2 f2).

Definition Inv' (src : list row) (r : ovr) : Prop :=
  o_rows r = [] \/
  exists pre slice post ls le,
    src = pre ++ slice ++ post
    /\ rows_rel' slice (o_rows r) ls le
    /\ o_start r = 1 + rows_len pre + ls
    /\ o_end r = rows_len pre + rows_len slice - le.

Lemma rows_rel'_weaken slice rows ls le :
  rows_rel' slice rows ls le -> rows_rel slice rows ls le.
Proof.
  intros [(o & f & H1 & H2 & H3) | (o1 & f1 & mid & o2 & f2 & H1 & H2 & H3 & H4 & _)].
  - left. exists o, f. auto.
  - right. exists o1, f1, mid, o2, f2. auto.
Qed.

Lemma Inv'_Inv src r : Inv' src r -> Inv src r.
Proof.
  intros [H | (pre & slice & post & ls & le & Hsrc & Hrel & Hs & He)]; [left; exact H|].
  right. exists (length pre), (length slice), ls, le.
  assert (Hn : (1 <= length slice)%nat).
  { destruct Hrel as [(o & f & -> & _) | (o1 & f1 & mid & o2 & f2 & -> & _)];
      cbn [length]; lia. }
  subst src. spl.
  - exact Hn.
  - rewrite !app_length. lia.
  - rewrite skipn_length_app, firstn_length_app. apply rows_rel'_weaken; exact Hrel.
  - rewrite firstn_length_app. exact Hs.
  - rewrite app_assoc, <- app_length, firstn_length_app, rows_len_app. exact He.
Qed.

Lemma trimmed_refl o : 1 <= f_len o -> trimmed o o 0 0.
Proof.
  unfold trimmed, f_len. intros H. spl; try reflexivity; try lia.
  destruct (f_strand o =? 1); lia.
Qed.

Lemma trimmed_len o f ls le :
  trimmed o f ls le -> f_len f = f_len o - ls - le /\ 1 <= f_len f.
Proof.
  unfold trimmed, f_len. intros (_ & _ & ? & ? & ? & H).
  destruct (f_strand o =? 1); lia.
Qed.

Lemma pos_rows_In src x : pos_rows src -> In x src -> 1 <= row_len x.
Proof. unfold pos_rows. rewrite Forall_forall. intros H Hx. apply H. exact Hx. Qed.

(* the slice between two fragment rows: one row, or first :: middle ++ [last] *)
Lemma slice_shape (rows : list row) i j o1 o2 :
  (i <= j)%nat -> nth_error rows i = Some (RF o1) -> nth_error rows j = Some (RF o2) ->
  firstn (S j - i) (skipn i rows) = [RF o1] /\ i = j
  \/ firstn (S j - i) (skipn i rows)
     = RF o1 :: firstn (j - i - 1) (skipn (S i) rows) ++ [RF o2].
Proof.
  intros Hij Ho1 Ho2. destruct (Nat.eq_dec i j) as [E|Hne].
  - subst j. left. replace (S i - i)%nat with 1%nat by lia.
    rewrite (skipn_nth_cons _ _ _ Ho1). cbn [firstn]. split; reflexivity.
  - right. replace (S j - i)%nat with (S (j - i)) by lia.
    rewrite (firstn_S_nth _ (j - i) (RF o2)).
    2:{ rewrite nth_error_skipn'. replace (i + (j - i))%nat with j by lia. exact Ho2. }
    rewrite (skipn_nth_cons _ _ _ Ho1).
    remember (j - i - 1)%nat as k eqn:Ek.
    replace (j - i)%nat with (S k) by lia. cbn [firstn app]. reflexivity.
Qed.

(* the invariant holds of whatever the lookup returns: only the shape of the
   answer matters, not which rows meet the bait *)
Lemma Inv'_init_shape src bait fo :
  pos_rows src -> lookup_shape src fo -> Inv' src (ovr_of_found bait fo).
Proof.
  intros Hpos (i & j & Hij & Hrows & Hst & Hen & (o1 & Ho1) & (o2 & Ho2)).
  assert (P1 : 1 <= f_len o1).
  { apply (pos_rows_In src (RF o1) Hpos). eapply nth_error_In; exact Ho1. }
  assert (P2 : 1 <= f_len o2).
  { apply (pos_rows_In src (RF o2) Hpos). eapply nth_error_In; exact Ho2. }
  right.
  exists (firstn i src), (firstn (S j - i) (skipn i src)),
         (skipn (S j - i) (skipn i src)), 0, 0.
  cbn [ovr_of_found o_rows o_start o_end].
  spl.
  - rewrite firstn_skipn, firstn_skipn. reflexivity.
  - rewrite Hrows.
    destruct (slice_shape src i j o1 o2 ltac:(lia) Ho1 Ho2) as [[E Eij] | E]; rewrite E.
    + subst j. left. exists o1, o1. spl; try reflexivity. apply trimmed_refl; exact P1.
    + right. exists o1, o1, (firstn (j - i - 1) (skipn (S i) src)), o2, o2.
      spl; try reflexivity.
      * apply trimmed_refl; exact P1.
      * apply trimmed_refl; exact P2.
      * split; left; reflexivity.
  - rewrite Hst. unfold span_start. lia.
  - rewrite Hen. unfold span_end.
    assert (E : firstn (S j) src = firstn i src ++ firstn (S j - i) (skipn i src)).
    { rewrite <- firstn_add. f_equal. lia. }
    rewrite E, rows_len_app. lia.
Qed.

Lemma Inv'_init src bait bs be fo :
  pos_rows src -> lookup_spec src bs be (Some fo) -> Inv' src (ovr_of_found bait fo).
Proof. intros Hpos H. apply Inv'_init_shape; [exact Hpos | eapply lookup_spec_shape; exact H]. Qed.

Theorem Inv_init : forall src bait bs be fo,
  pos_rows src -> lookup_spec src bs be (Some fo) -> Inv src (ovr_of_found bait fo).
Proof. intros. apply Inv'_Inv. eapply Inv'_init; eassumption. Qed.

Theorem Inv_consistent : forall src r, pos_rows src -> Inv src r -> consistent r.
Proof.
  intros src r Hpos [H | (i & n & ls & le & Hn & Hlen & Hrel & Hs & He)]; [left; exact H|].
  right.
  assert (Hsl : pos_rows (firstn n (skipn i src))).
  { unfold pos_rows in *. rewrite <- (firstn_skipn i src) in Hpos.
    apply Forall_app in Hpos as [_ Hpos].
    rewrite <- (firstn_skipn n (skipn i src)) in Hpos.
    apply Forall_app in Hpos as [Hpos _]. exact Hpos. }
  rewrite firstn_add, rows_len_app in He.
  destruct Hrel as [(o & f & Esl & Er & Ht) | (o1 & f1 & mid & o2 & f2 & Esl & Er & Ht1 & Ht2)];
    rewrite Esl in *; rewrite Er.
  - apply trimmed_len in Ht as [L1 L2].
    rewrite rows_len_single in *. cbn [row_len] in *. spl.
    + lia.
    + exists f, []. reflexivity.
    + exists f, []. reflexivity.
    + constructor; [exact L2 | constructor].
  - apply trimmed_len in Ht1 as [L1 L1']. apply trimmed_len in Ht2 as [L2 L2'].
    unfold pos_rows in Hsl. apply Forall_cons_iff in Hsl as [_ Hsl].
    apply Forall_app in Hsl as [Hmid _].
    rewrite !rows_len_cons, !rows_len_app, !rows_len_single in *. cbn [row_len] in *.
    spl.
    + lia.
    + exists f1, (mid ++ [RF f2]). reflexivity.
    + exists f2, (RF f1 :: mid). reflexivity.
    + constructor; [exact L1'|]. apply Forall_app; split; [exact Hmid|].
      constructor; [exact L2' | constructor].
Qed.

Lemma NoDup_two {A} (a : list A) x b y c : NoDup (a ++ x :: b ++ y :: c) -> x <> y.
Proof.
  intros H E; subst. apply NoDup_remove_2 in H. apply H.
  apply in_or_app; right. apply in_or_app; right. left; reflexivity.
Qed.

Lemma In_frags_of o l : In (RF o) l -> In o (frags_of l).
Proof.
  intros H. unfold frags_of. apply in_flat_map. exists (RF o). split; [exact H|].
  left; reflexivity.
Qed.

Lemma ids_of_slice pre o1 mid o2 post :
  ids_distinct (pre ++ (RF o1 :: mid ++ [RF o2]) ++ post) ->
  f_id o1 <> f_id o2 /\ 0 <= f_id o1 /\ 0 <= f_id o2.
Proof.
  intros [Hnd Hpos]. spl.
  - assert (E : map f_id (frags_of (pre ++ (RF o1 :: mid ++ [RF o2]) ++ post))
                = map f_id (frags_of pre) ++ f_id o1 :: map f_id (frags_of mid)
                  ++ f_id o2 :: map f_id (frags_of post)).
    { rewrite !frags_of_app, frags_of_RF, !frags_of_app, frags_of_RF.
      rewrite !map_app. cbn [map app]. rewrite !map_app. cbn [map app frags_of flat_map].
      rewrite <- app_assoc. reflexivity. }
    rewrite E in Hnd. eapply NoDup_two; exact Hnd.
  - rewrite Forall_forall in Hpos. apply Hpos. apply In_frags_of.
    apply in_or_app; right. apply in_or_app; left. left; reflexivity.
  - rewrite Forall_forall in Hpos. apply Hpos. apply In_frags_of.
    apply in_or_app; right. apply in_or_app; left. right.
    apply in_or_app; right. left; reflexivity.
Qed.

Lemma first_row_ok r : o_rows r <> [] -> exists x, first_row r = Ok x.
Proof.
  intro H. unfold first_row. destruct (o_rows r) as [|x t]; [congruence|].
  exists x. apply py_nth_0.
Qed.

Lemma last_row_ok r : o_rows r <> [] -> exists x, last_row r = Ok x.
Proof.
  intro H. unfold last_row. destruct (list_snoc_cases (o_rows r)) as [E|(l' & x & E)]; [congruence|].
  rewrite E. exists x. apply py_nth_m1.
Qed.

Lemma discard_start_ok r : o_rows r <> [] -> exists r', discard_start r = Ok r'.
Proof.
  intro H. unfold discard_start. destruct (o_rows r) as [|d t]; [congruence|].
  destruct (pop_gaps_front t (o_start r + row_len d)) as [rows' st]. eexists. reflexivity.
Qed.

Lemma discard_end_ok r : o_rows r <> [] -> exists r', discard_end r = Ok r'.
Proof.
  intro H. unfold discard_end. destruct (rev (o_rows r)) as [|d t] eqn:E.
  - exfalso. apply H. rewrite <- (rev_involutive (o_rows r)), E. reflexivity.
  - destruct (pop_gaps_back_rev t (o_end r - row_len d)) as [rr en]. eexists. reflexivity.
Qed.

Lemma discard_start_bait r r' : discard_start r = Ok r' -> o_bait r' = o_bait r /\ o_end r' = o_end r.
Proof. intros H. destruct (discard_start_spec r r' H) as (d & gaps & _ & _ & _ & _ & ->). split; reflexivity. Qed.

Lemma discard_start_pres src r r' :
  pos_rows src -> Inv' src r -> discard_start r = Ok r' -> Inv' src r'.
Proof.
  intros Hpos [H | (pre & slice & post & ls & le & Hsrc & Hrel & Hs & He)] Hd;
    unfold discard_start in Hd.
  - rewrite H in Hd. discriminate.
  - destruct Hrel as [(o & f & Esl & Er & Ht)
                     | (o1 & f1 & mid & o2 & f2 & Esl & Er & Ht1 & Ht2 & Hid)];
      rewrite Er in Hd.
    + cbn [pop_gaps_front] in Hd. injection Hd as <-. left. reflexivity.
    + apply trimmed_len in Ht1 as [L1 _].
      destruct (split_gaps mid) as (gaps & rest & Emid & Hg & Hrest).
      destruct Hrest as [-> | (m & rest' & ->)].
      * rewrite app_nil_r in Emid. subst mid.
        rewrite pop_front_gaps in Hd by exact Hg. injection Hd as <-. right.
        exists (pre ++ RF o1 :: gaps), [RF o2], post, 0, le.
        cbn [set_span_rows o_rows o_start o_end].
        subst slice. spl.
        -- rewrite Hsrc. lnorm. reflexivity.
        -- left. exists o2, f2. spl; try reflexivity. exact Ht2.
        -- rewrite rows_len_app, rows_len_cons. cbn [row_len]. lia.
        -- rewrite He. autorewrite with rl. lia.
      * subst mid. rewrite <- app_assoc in Hd. cbn [app] in Hd.
        rewrite pop_front_gaps in Hd by exact Hg. injection Hd as <-. right.
        exists (pre ++ RF o1 :: gaps), (RF m :: rest' ++ [RF o2]), post, 0, le.
        cbn [set_span_rows o_rows o_start o_end].
        subst slice. spl.
        -- rewrite Hsrc. lnorm. reflexivity.
        -- right. exists m, m, rest', o2, f2. spl; try reflexivity.
           ++ apply trimmed_refl. apply (pos_rows_In src (RF m) Hpos). rewrite Hsrc.
              apply in_or_app; right. apply in_or_app; left. right.
              apply in_or_app; left. apply in_or_app; right. left; reflexivity.
           ++ exact Ht2.
           ++ split; [left; reflexivity | apply Hid].
        -- rewrite rows_len_app, rows_len_cons. cbn [row_len]. lia.
        -- rewrite He. autorewrite with rl. lia.
Qed.

Lemma rev_rows2 (x y : row) mid : rev (x :: mid ++ [y]) = y :: rev mid ++ [x].
Proof. cbn [rev]. rewrite rev_unit. reflexivity. Qed.

Lemma discard_end_pres src r r' :
  pos_rows src -> Inv' src r -> discard_end r = Ok r' -> Inv' src r'.
Proof.
  intros Hpos [H | (pre & slice & post & ls & le & Hsrc & Hrel & Hs & He)] Hd;
    unfold discard_end in Hd.
  - rewrite H in Hd. discriminate.
  - destruct Hrel as [(o & f & Esl & Er & Ht)
                     | (o1 & f1 & mid & o2 & f2 & Esl & Er & Ht1 & Ht2 & Hid)];
      rewrite Er in Hd.
    + cbn [rev app pop_gaps_back_rev] in Hd. injection Hd as <-. left. reflexivity.
    + apply trimmed_len in Ht2 as [L2 _].
      rewrite rev_rows2 in Hd.
      destruct (split_gaps_back mid) as (rest & gaps & Emid & Hg & Hrest).
      assert (Hg' : all_gaps (rev gaps)) by (apply Forall_rev; exact Hg).
      destruct Hrest as [-> | (rest' & m & ->)].
      * cbn [app] in Emid. subst mid.
        rewrite pop_back_gaps in Hd by exact Hg'. injection Hd as <-. right.
        exists pre, [RF o1], (gaps ++ [RF o2] ++ post), ls, 0.
        cbn [set_span_rows o_rows o_start o_end rev app].
        subst slice. spl.
        -- rewrite Hsrc. lnorm. reflexivity.
        -- left. exists o1, f1. spl; try reflexivity. exact Ht1.
        -- exact Hs.
        -- rewrite He. autorewrite with rl. cbn [row_len]. lia.
      * subst mid. rewrite rev_app_distr, rev_unit in Hd.
        rewrite <- app_assoc in Hd. cbn [app] in Hd.
        rewrite pop_back_gaps in Hd by exact Hg'. injection Hd as <-. right.
        exists pre, (RF o1 :: rest' ++ [RF m]), (gaps ++ [RF o2] ++ post), ls, 0.
        cbn [set_span_rows o_rows o_start o_end].
        subst slice. spl.
        -- rewrite Hsrc. lnorm. reflexivity.
        -- right. exists o1, f1, rest', m, m. spl; try reflexivity.
           ++ cbn [rev]. rewrite rev_unit, rev_involutive. reflexivity.
           ++ exact Ht1.
           ++ apply trimmed_refl. apply (pos_rows_In src (RF m) Hpos). rewrite Hsrc.
              apply in_or_app; right. apply in_or_app; left. right.
              apply in_or_app; left. apply in_or_app; left.
              apply in_or_app; right. left; reflexivity.
           ++ split; [apply Hid | left; reflexivity].
        -- exact Hs.
        -- rewrite He. autorewrite with rl. cbn [row_len]. lia.
Qed.

(* a copy moved [ds] further in from the scaffold-start side and [de] from the end side *)
Lemma trimmed_move o f ls le ds de id tags :
  trimmed o f ls le -> 0 <= ds -> 0 <= de ->
  f_start f + (if f_strand f =? 1 then ds else de) <= f_end f - (if f_strand f =? 1 then de else ds) ->
  trimmed o (mkFrag id (f_name f) (f_start f + (if f_strand f =? 1 then ds else de))
                    (f_end f - (if f_strand f =? 1 then de else ds)) (f_strand f) tags)
          (ls + ds) (le + de).
Proof.
  unfold trimmed. intros (Hn & Hst & Hls & Hle & Hse & Hc) Hds Hde Hok.
  cbn [f_name f_strand f_start f_end]. rewrite Hst in *.
  spl; try assumption; try lia.
  destruct (f_strand o =? 1); lia.
Qed.

Lemma idok_neq pre o1 mid o2 post f1 f2 :
  ids_distinct (pre ++ (RF o1 :: mid ++ [RF o2]) ++ post) ->
  idok o1 f1 o2 f2 -> f_id f1 <> f_id f2.
Proof.
  intros Hd [H1 H2]. apply ids_of_slice in Hd as (Hne & P1 & P2). lia.
Qed.

Lemma trim_pres_single src r pre o post f ls le ks ke nf r' :
  src = pre ++ [RF o] ++ post ->
  o_rows r = [RF f] -> trimmed o f ls le ->
  o_start r = 1 + rows_len pre + ls ->
  o_end r = rows_len pre + rows_len [RF o] - le ->
  trim_fragment r f ks ke = Ok (nf, r') -> Inv' src r'.
Proof.
  intros Hsrc Er Ht Hs He Hd.
  destruct (trim_fragment_spec _ _ _ _ _ _ Hd)
    as (x0 & xl & ds & de & _ & _ & _ & _ & _ & Hds & Hde & En & Hle & ->).
  right. exists pre, [RF o], post, (ls + ds), (le + de).
  rewrite Er. cbn [set_span_rows o_rows o_start o_end]. spl.
  - exact Hsrc.
  - left. exists o, nf. spl; [reflexivity | destruct (row_is xl f); reflexivity |].
    rewrite En in Hle |- *. apply trimmed_move; assumption.
  - lia.
  - lia.
Qed.

Lemma trim_pres_first src r pre o1 mid o2 post f1 f2 ls le ks ke nf r' :
  ids_distinct src ->
  src = pre ++ (RF o1 :: mid ++ [RF o2]) ++ post ->
  o_rows r = RF f1 :: mid ++ [RF f2] ->
  trimmed o1 f1 ls 0 -> trimmed o2 f2 0 le -> idok o1 f1 o2 f2 ->
  o_start r = 1 + rows_len pre + ls ->
  o_end r = rows_len pre + rows_len (RF o1 :: mid ++ [RF o2]) - le ->
  trim_fragment r f1 ks ke = Ok (nf, r') -> Inv' src r'.
Proof.
  intros Hids Hsrc Er Ht1 Ht2 Hid Hs He Hd.
  assert (Hne : f_id f2 =? f_id f1 = false).
  { rewrite Hsrc in Hids. pose proof (idok_neq _ _ _ _ _ _ _ Hids Hid). lia. }
  destruct (trim_fragment_spec _ _ _ _ _ _ Hd)
    as (x0 & xl & ds & de & _ & El & _ & _ & Ede & Hds & _ & En & Hle & ->).
  unfold last_row in El. rewrite Er, py_nth_last_cons in El. injection El as <-.
  cbn [row_is] in Ede, En |- *. rewrite Hne in Ede, En |- *. cbn [andb] in Ede. subst de.
  right. exists pre, (RF o1 :: mid ++ [RF o2]), post, (ls + ds), le.
  rewrite Er. cbn [set_span_rows o_rows o_start o_end set_nth]. spl.
  - exact Hsrc.
  - right. exists o1, nf, mid, o2, f2. spl; [reflexivity | reflexivity | | exact Ht2 |].
    + rewrite En in Hle |- *. exact (trimmed_move o1 f1 ls 0 ds 0 _ _ Ht1 Hds (Z.le_refl 0) Hle).
    + split; [right; rewrite En; reflexivity | apply Hid].
  - lia.
  - lia.
Qed.

Lemma trim_pres_last src r pre o1 mid o2 post f1 f2 ls le ks ke nf r' :
  ids_distinct src ->
  src = pre ++ (RF o1 :: mid ++ [RF o2]) ++ post ->
  o_rows r = RF f1 :: mid ++ [RF f2] ->
  trimmed o1 f1 ls 0 -> trimmed o2 f2 0 le -> idok o1 f1 o2 f2 ->
  o_start r = 1 + rows_len pre + ls ->
  o_end r = rows_len pre + rows_len (RF o1 :: mid ++ [RF o2]) - le ->
  trim_fragment r f2 ks ke = Ok (nf, r') -> Inv' src r'.
Proof.
  intros Hids Hsrc Er Ht1 Ht2 Hid Hs He Hd.
  assert (Hne : f_id f1 =? f_id f2 = false).
  { rewrite Hsrc in Hids. pose proof (idok_neq _ _ _ _ _ _ _ Hids Hid). lia. }
  destruct (trim_fragment_spec _ _ _ _ _ _ Hd)
    as (x0 & xl & ds & de & E0 & El & _ & Eds & _ & _ & Hde & En & Hle & ->).
  unfold first_row in E0. rewrite Er, py_nth_0 in E0. injection E0 as <-.
  unfold last_row in El. rewrite Er, py_nth_last_cons in El. injection El as <-.
  cbn [row_is] in Eds, En |- *. rewrite Hne in Eds. rewrite Z.eqb_refl in En |- *. cbn [andb] in Eds. subst ds.
  right. exists pre, (RF o1 :: mid ++ [RF o2]), post, ls, (le + de).
  rewrite Er. change (RF f1 :: mid ++ [RF f2]) with ((RF f1 :: mid) ++ [RF f2]).
  rewrite set_last_snoc. cbn [set_span_rows o_rows o_start o_end app]. spl.
  - exact Hsrc.
  - right. exists o1, f1, mid, o2, nf. spl; [reflexivity | reflexivity | exact Ht1 | |].
    + rewrite En in Hle |- *. exact (trimmed_move o2 f2 0 le 0 de _ _ Ht2 (Z.le_refl 0) Hde Hle).
    + split; [apply Hid | right; rewrite En; reflexivity].
  - lia.
  - lia.
Qed.

Lemma trim_frag_pres src r last ks ke r' :
  ids_distinct src -> Inv' src r ->
  apply_op r (TrimFrag last ks ke) = Ok r' -> Inv' src r'.
Proof.
  intros Hids [H | (pre & slice & post & ls & le & Hsrc & Hrel & Hs & He)] Hd;
    cbn [apply_op] in Hd; unfold first_row, last_row in Hd.
  - rewrite H in Hd. rewrite !py_nth_nil in Hd. destruct last; discriminate.
  - destruct Hrel as [(o & f & Esl & Er & Ht)
                     | (o1 & f1 & mid & o2 & f2 & Esl & Er & Ht1 & Ht2 & Hid)];
      rewrite Er in Hd; subst slice.
    + rewrite py_nth_0, py_nth_last_single in Hd.
      assert (Hd' : (do fr <- trim_fragment r f ks ke; Ok (snd fr)) = Ok r')
        by (destruct last; exact Hd).
      destruct (trim_fragment r f ks ke) as [[nf r'']|] eqn:Htr; [|discriminate].
      cbn [bind snd] in Hd'. injection Hd' as <-.
      eapply trim_pres_single; eassumption.
    + rewrite py_nth_0, py_nth_last_cons in Hd. destruct last; cbn [bind] in Hd.
      * destruct (trim_fragment r f2 ks ke) as [[nf r'']|] eqn:Htr; [|discriminate].
        cbn [bind snd] in Hd. injection Hd as <-.
        eapply trim_pres_last; eassumption.
      * destruct (trim_fragment r f1 ks ke) as [[nf r'']|] eqn:Htr; [|discriminate].
        cbn [bind snd] in Hd. injection Hd as <-.
        eapply trim_pres_first; eassumption.
Qed.

Lemma trim_large_cases r e r' :
  trim_large_overhangs r e = Ok r' ->
  exists r1, (r1 = r \/ discard_start r = Ok r1) /\ (r' = r1 \/ discard_end r1 = Ok r').
Proof.
  intros H. unfold trim_large_overhangs in H.
  destruct ((zlen (o_rows r) =? 1) && (f_len (o_bait r) >? e)).
  { injection H as <-. exists r. auto. }
  match type of H with
  | bind ?X _ = _ => destruct X as [r1|] eqn:H1; [|discriminate]
  end.
  cbn [bind] in H. exists r1. split.
  - destruct (start_overhang r >? e); [|injection H1 as <-; auto].
    destruct (start_row_bait_overlap r) as [ov|]; cbn [bind] in H1; [|discriminate].
    destruct (ov <? e); [right; exact H1 | injection H1 as <-; auto].
  - destruct (o_rows r1).
    + destruct ((start_overhang r >? e) && negb (zlen (o_rows r) =? 0));
        [injection H as <-; auto|].
      destruct (end_overhang r1 >? e); [|injection H as <-; auto].
      destruct (end_row_bait_overlap r1) as [ov|]; cbn [bind] in H; [|discriminate].
      injection H as <-; auto.
    + destruct (end_overhang r1 >? e); [|injection H as <-; auto].
      destruct (end_row_bait_overlap r1) as [ov|]; cbn [bind] in H; [|discriminate].
      destruct (ov <? e); [right; exact H | injection H as <-; auto].
Qed.

Lemma apply_op_pres src r o r' :
  pos_rows src -> ids_distinct src -> Inv' src r -> apply_op r o = Ok r' -> Inv' src r'.
Proof.
  intros Hpos Hids HI H. destruct o as [| |e|last ks ke].
  - eapply discard_start_pres; eassumption.
  - eapply discard_end_pres; eassumption.
  - cbn [apply_op] in H. apply trim_large_cases in H as (r1 & [->|H1] & [->|H2]).
    + exact HI.
    + eapply discard_end_pres; eassumption.
    + eapply discard_start_pres; eassumption.
    + eapply discard_end_pres; [exact Hpos| |exact H2].
      eapply discard_start_pres; eassumption.
  - eapply trim_frag_pres; eassumption.
Qed.

Theorem C18_invariant : forall src bait bs be fo ops r,
  pos_rows src -> ids_distinct src ->
  lookup_spec src bs be (Some fo) ->
  foldM apply_op ops (ovr_of_found bait fo) = Ok r ->
  Inv src r.
Proof.
  intros src bait bs be fo ops r Hpos Hids Hl H. apply Inv'_Inv.
  eapply (foldM_inv_In apply_op (Inv' src)); [| |exact H].
  - intros s a s' _ Hs Ha. eapply apply_op_pres; eassumption.
  - eapply Inv'_init; eassumption.
Qed.

(* once the rows are empty they stay empty (or the operation fails) *)
Lemma empty_stays_empty r o r' :
  o_rows r = [] -> apply_op r o = Ok r' -> o_rows r' = [].
Proof.
  intros E H. destruct o as [| |e|last ks ke]; cbn [apply_op] in H.
  - unfold discard_start in H. rewrite E in H. discriminate.
  - unfold discard_end in H. rewrite E in H. discriminate.
  - apply trim_large_cases in H as (r1 & [->|H1] & [->|H2]).
    + exact E.
    + unfold discard_end in H2. rewrite E in H2. discriminate.
    + unfold discard_start in H1. rewrite E in H1. discriminate.
    + unfold discard_start in H1. rewrite E in H1. discriminate.
  - unfold first_row, last_row in H. rewrite E, !py_nth_nil in H. destruct last; discriminate.
Qed.

Module Example.
  Definition a := mkFrag 0 (s "c1") 1 100 1 [].
  Definition b := mkFrag 1 (s "c2") 1 50 (-1) [].
  Definition c := mkFrag 2 (s "c3") 11 30 1 [].
  Definition d := mkFrag 3 (s "c4") 1 50 (-1) [].
  Definition g10 := mkGap 10 (s "scaffold").
  Definition g20 := mkGap 20 (s "scaffold").
  (* spans: a 1-100, gap 101-110, b 111-160, gap 161-180, d 181-230 *)
  Definition src1 : list row := [RF a; RG g10; RF b; RG g20; RF d].
  (* spans: a 1-100, b 101-150, gap 151-160, c 161-180, d 181-230 *)
  Definition src2 : list row := [RF a; RF b; RG g10; RF c; RF d].
  Definition bait := mkFrag 100 (s "scf") 95 200 1 [s "Painted"].
  Definition ops1 := [TrimFrag false false false; DiscardEnd; TrimLarge 2].
  Definition ops2 := [TrimFrag true false false; TrimLarge 10; DiscardEnd].
  (* the copy of [a] that TrimFrag makes at the start of the result *)
  Definition a' := mkFrag (-1) (s "c1") 95 100 1 [s "Cut"].

  Lemma pos1 : pos_rows src1.
  Proof. repeat (constructor; [cbn; lia|]). constructor. Qed.
  Lemma pos2 : pos_rows src2.
  Proof. repeat (constructor; [cbn; lia|]). constructor. Qed.
  Lemma ids1 : ids_distinct src1.
  Proof. split; cbn; repeat constructor; cbn; intuition lia. Qed.
  Lemma ids2 : ids_distinct src2.
  Proof. split; cbn; repeat constructor; cbn; intuition lia. Qed.

  (* both sources: the bait 95..200 meets rows 0..4, which are fragments *)
  Lemma lookup_all src x y :
    length src = 5%nat -> nth_error src 0 = Some (RF x) -> nth_error src 4 = Some (RF y) ->
    rows_len (firstn 1 src) = 100 -> rows_len src = 230 -> rows_len (firstn 4 src) = 180 ->
    lookup_spec src 95 200 (Some (mkFound 1 230 src)).
  Proof.
    intros Hl Hx Hy H1 H5 H4. exists 0%nat, 4%nat. cbn [fo_rows fo_start fo_end].
    assert (E5 : firstn 5 src = src) by (rewrite <- Hl; apply firstn_all).
    unfold meets, span_start, span_end. rewrite E5, H1, H5, H4. cbn [firstn skipn Nat.sub].
    rewrite rows_len_nil. spl; try lia; try reflexivity.
    - symmetry; exact E5.
    - exists x; exact Hx.
    - exists y; exact Hy.
    - intros k [f Hf] _. assert (k < length src)%nat by (apply nth_error_Some; congruence). lia.
  Qed.
End Example.
Import Example.

Example C18_nonvacuous : exists src bait fo ops r,
  pos_rows src /\ ids_distinct src /\ length src = 5%nat
  /\ find_overlaps src (f_start bait) (f_end bait) = Ok (Some fo)
  /\ lookup_spec src (f_start bait) (f_end bait) (Some fo)
  /\ ops = [TrimFrag false false false; DiscardEnd; TrimLarge 2]
  /\ foldM apply_op ops (ovr_of_found bait fo) = Ok r
  /\ o_rows r = [RF a'; RG g10; RF b] /\ o_start r = 95 /\ o_end r = 160
  /\ Inv src r.
Proof.
  assert (L : lookup_spec src1 95 200 (Some (mkFound 1 230 src1))).
  { eapply lookup_all; vm_compute; reflexivity. }
  eexists src1, bait, (mkFound 1 230 src1), ops1, _.
  split; [exact pos1|]. split; [exact ids1|]. split; [reflexivity|].
  split; [vm_compute; reflexivity|]. split; [exact L|]. split; [reflexivity|].
  assert (F : foldM apply_op ops1 (ovr_of_found bait (mkFound 1 230 src1))
              = Ok (mkOvr bait 95 160 [RF a'; RG g10; RF b] [] None None 0 None [])).
  { vm_compute. reflexivity. }
  split; [exact F|]. split; [reflexivity|]. split; [reflexivity|]. split; [reflexivity|].
  exact (C18_invariant src1 bait 95 200 _ ops1 _ pos1 ids1 L F).
Qed.

(* a second run in which trim_large_overhangs itself discards the start row *)
Example C18_nonvacuous_trim_large : exists r,
  pos_rows src2 /\ ids_distinct src2
  /\ lookup_spec src2 95 200 (Some (mkFound 1 230 src2))
  /\ foldM apply_op ops2 (ovr_of_found bait (mkFound 1 230 src2)) = Ok r
  /\ o_rows r = [RF b; RG g10; RF c] /\ o_start r = 101 /\ o_end r = 180
  /\ Inv src2 r.
Proof.
  assert (L : lookup_spec src2 95 200 (Some (mkFound 1 230 src2))).
  { eapply lookup_all; vm_compute; reflexivity. }
  assert (F : foldM apply_op ops2 (ovr_of_found bait (mkFound 1 230 src2))
              = Ok (mkOvr bait 101 180 [RF b; RG g10; RF c] [] None None 0 None [])).
  { vm_compute. reflexivity. }
  eexists. split; [exact pos2|]. split; [exact ids2|]. split; [exact L|].
  split; [exact F|]. split; [reflexivity|]. split; [reflexivity|]. split; [reflexivity|].
  exact (C18_invariant src2 bait 95 200 _ ops2 _ pos2 ids2 L F).
Qed.

(* an emptied result: the invariant holds by its first disjunct, and every
   further operation fails or leaves the rows empty (empty_stays_empty) *)
Example C18_emptied :
  (exists r, foldM apply_op [DiscardStart; DiscardStart; DiscardStart; TrimLarge 50]
               (ovr_of_found bait (mkFound 1 230 src1)) = Ok r /\ o_rows r = [])
  /\ foldM apply_op [DiscardStart; DiscardStart; DiscardStart; TrimLarge 2]
        (ovr_of_found bait (mkFound 1 230 src1)) = Err IndexError.
Proof. split; [eexists; split|]; vm_compute; reflexivity. Qed.

Print Assumptions Inv_init.
Print Assumptions C18_invariant.
Print Assumptions Inv_consistent.
Print Assumptions overhang_if_start_removed_agrees.
Print Assumptions overhang_if_end_removed_agrees.
Print Assumptions start_row_bait_overlap_spec.
Print Assumptions end_row_bait_overlap_spec.
Print Assumptions C18_nonvacuous.
Print Assumptions C18_nonvacuous_trim_large.
Print Assumptions C18_emptied.
