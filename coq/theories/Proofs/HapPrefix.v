(* C09: the haplotype an unplaced scaffold belongs to is read off its name:
   re.search(r"^([^_]+)_.+_\d+$", name) -- "Hap2_scaffold_17" belongs to Hap2. *)
From Coq Require Import ZArith List Bool Ascii String.
From Tola Require Import Py.Base Model.Scaffold Model.Namer Model.NaturalKey Proofs.BaseLemmas Proofs.Span.
Import ListNotations.
Local Open Scope Z_scope.

Definition us : ascii := "_"%char.
Definition not_us (c : ascii) : bool := negb (Ascii.eqb c us).
Definition not_nl (c : ascii) : bool := negb (Ascii.eqb c (ascii_of_N 10)).

Lemma span'_all (p : ascii -> bool) : forall a, forallb p a = true -> span' p a = (a, []).
Proof.
  intros a Ha. rewrite <- (app_nil_r a) at 1. exact (take_while_app p a [] Ha I).
Qed.

Lemma digit_not_nl c : is_digit c = true -> not_nl c = true.
Proof. intro H. unfold not_nl. rewrite (is_digit_neq c (ascii_of_N 10) H eq_refl). reflexivity. Qed.

Lemma digit_not_us c : is_digit c = true -> Ascii.eqb c us = false.
Proof. intro H. exact (is_digit_neq c us H eq_refl). Qed.

(* every name of the shape <hap>_<anything>_<digits> yields <hap> *)
Theorem hap_prefix_of_shaped_name : forall h mid ds,
  h <> [] -> forallb not_us h = true ->
  mid <> [] -> forallb not_nl mid = true ->
  ds <> [] -> forallb is_digit ds = true ->
  haplotype_prefix_of_name (h ++ us :: mid ++ us :: ds) = Some h.
Proof.
  intros h mid ds Hh Hu Hm Hn Hd Hg. unfold haplotype_prefix_of_name.
  change (fun c => negb (Ascii.eqb c "_"%char)) with not_us.
  rewrite span'_take_while, (take_while_app not_us h (us :: mid ++ us :: ds) Hu) by reflexivity.
  destruct h as [|h0 h']; [contradiction|].
  rewrite rev_app_distr. cbn [List.rev]. rewrite <- app_assoc. cbn [app].
  rewrite span'_take_while, (take_while_app is_digit (List.rev ds) (us :: List.rev mid)); [|rewrite forallb_rev; exact Hg|reflexivity].
  destruct (List.rev ds) as [|d0 dr] eqn:Ed.
  { exfalso. exact (rev_nonempty ds Hd Ed). }
  change (Ascii.eqb us "_"%char) with true. cbv iota.
  destruct (List.rev mid) as [|m0 mr] eqn:Em.
  { exfalso. exact (rev_nonempty mid Hm Em). }
  change (fun c => negb (Ascii.eqb c (ascii_of_N 10))) with not_nl.
  rewrite forallb_app. cbn [forallb]. rewrite Hn.
  rewrite (forallb_impl is_digit not_nl ds digit_not_nl Hg). reflexivity.
Qed.

(* conversely, whatever it returns is the part of the name before its first
   underscore, non-empty, and the name ends in _<digits> *)
Theorem hap_prefix_some_shape : forall name h,
  haplotype_prefix_of_name name = Some h ->
  h <> [] /\ forallb not_us h = true
  /\ exists after, name = h ++ us :: after
     /\ exists mid ds, List.rev after = ds ++ us :: mid /\ ds <> [] /\ forallb is_digit ds = true /\ mid <> [].
Proof.
  intros name h H. unfold haplotype_prefix_of_name in H.
  change (fun c => negb (Ascii.eqb c "_"%char)) with not_us in H.
  rewrite span'_take_while in H.
  destruct (take_while not_us name) as [p rest] eqn:E1.
  destruct (take_while_spec _ _ _ _ E1) as (En & Fp & Fr).
  destruct p as [|p0 p']; [discriminate|]. destruct rest as [|r0 after]; [discriminate|].
  rewrite span'_take_while in H.
  destruct (take_while is_digit (List.rev after)) as [dr r1] eqn:E2.
  destruct (take_while_spec _ _ _ _ E2) as (Er & Fd & _).
  destruct dr as [|d0 dr']; [discriminate|]. destruct r1 as [|u mid]; [discriminate|].
  destruct (Ascii.eqb u "_"%char) eqn:Eu; [|discriminate].
  destruct mid as [|m0 mid']; [discriminate|].
  destruct (forallb _ after); [|discriminate]. injection H as <-.
  apply Ascii.eqb_eq in Eu. subst u.
  unfold not_us in Fr. apply negb_false_iff, Ascii.eqb_eq in Fr. subst r0.
  split; [discriminate|]. split; [exact Fp|].
  exists after. split; [exact En|]. exists (m0 :: mid'), (d0 :: dr'). repeat split; try discriminate; assumption.
Qed.

(* two names of the shape, then names without two underscores or not ending in
   digits, which give nothing *)
Example hap_prefix_examples :
  haplotype_prefix_of_name (s "Hap2_scaffold_17") = Some (s "Hap2")
  /\ haplotype_prefix_of_name (s "HAP1_SUPER_3_unloc_2") = Some (s "HAP1")
  /\ haplotype_prefix_of_name (s "scaffold_17") = None
  /\ haplotype_prefix_of_name (s "ptg000012l") = None
  /\ haplotype_prefix_of_name (s "_x_1") = None
  /\ haplotype_prefix_of_name (s "Hap2_scaffold_17b") = None.
Proof. vm_compute. repeat split; reflexivity. Qed.

Print Assumptions hap_prefix_of_shaped_name.
Print Assumptions hap_prefix_some_shape.
