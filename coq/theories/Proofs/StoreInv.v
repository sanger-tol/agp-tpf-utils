(* Invariants of the store of overlap results through remap_to_input.
   [store_invariant]: take a predicate on results that does not look at labels,
   holds of every result a lookup builds, and is kept by discard_start,
   discard_end and trim_fragment (called with an input fragment); it holds of
   every stored result of every completed run, because every modification the
   pipeline makes to a stored result is one of those operations or a relabelling.
   [store_pointwise]: after the lookups no result is added or removed, so a
   preorder that those operations and set_name respect relates the store
   position by position across the resolver, the cuts and the renaming.
   Section Kept is the instance "a field that set_span_rows leaves alone". *)
From Tola Require Import Py.Base Py.Sort Model.Fragment Model.Scaffold Model.Lookup
  Model.OverlapResult Model.OvrSpec Model.Namer Model.Remap Model.RemapSpec
  Proofs.BaseLemmas Proofs.Sort Proofs.Rows Proofs.OverlapResult Proofs.RemapHead.

Definition stored (P : ovr -> Prop) (st : list ovr) : Prop := forall r, In r st -> P r.

Definition input_found (inp : list (str * list row)) (found : list (fkey * (frag * list rid))) : Prop :=
  forall k f ids, aget key_eqb found k = Some (f, ids) -> In f (in_frags inp).

Lemma rename_results_pairs st ids st' : rename_results st ids = Ok st' ->
  exists pairs, st' = fold_left (fun st0 '(id, r, n) => put_ovr st0 id (set_name r n)) pairs st
    /\ forall id r n, In ((id, r), n) pairs -> get_ovr st id = Ok r.
Proof.
  unfold rename_results. intros H. bind_inv H rs Hrs. injection H as <-.
  eexists. split; [reflexivity|].
  intros id r n Hin. unfold rename_by_size in Hin. apply in_combine_l in Hin.
  unfold sort_by_Z_desc in Hin. apply Proofs.Sort.In_stable_sort in Hin.
  destruct (mapM_In _ _ _ Hrs _ Hin) as (id0 & _ & Hf).
  bind_inv Hf r0 Hr0. injection Hf as <- <-. exact Hr0.
Qed.

Lemma rename_results_In st ids st' : rename_results st ids = Ok st' ->
  forall x, In x st' -> exists r, In r st /\ (x = r \/ exists n, x = set_name r n).
Proof.
  intros H. destruct (rename_results_pairs _ _ _ H) as (pairs & -> & Hp). clear H.
  set (Q := fun x => exists r, In r st /\ (x = r \/ exists n, x = set_name r n)).
  assert (G : forall cur, (forall x, In x cur -> Q x) ->
    forall x, In x (fold_left (fun st0 '(id, r, n) => put_ovr st0 id (set_name r n)) pairs cur) -> Q x).
  { induction pairs as [|[[id r] n] pairs IH]; intros cur Hc; cbn [fold_left]; [exact Hc|].
    apply IH.
    - intros id' r' n' Hin. apply (Hp id' r' n'). right. exact Hin.
    - intros x Hx. apply put_ovr_In in Hx. destruct Hx as [-> | Hx]; [|apply Hc; exact Hx].
      exists r. split; [eapply get_ovr_In; apply (Hp id r n); left; reflexivity|]. right. exists n. reflexivity. }
  apply G. intros x Hx. exists x. split; [exact Hx | left; reflexivity].
Qed.

Lemma Forall2_refl_of {A} (R : A -> A -> Prop) : (forall a, R a a) -> forall l, Forall2 R l l.
Proof. intros HR. induction l; constructor; [apply HR | assumption]. Qed.

Lemma Forall2_trans_of {A} (R : A -> A -> Prop) : (forall a b c, R a b -> R b c -> R a c) ->
  forall l1 l2 l3, Forall2 R l1 l2 -> Forall2 R l2 l3 -> Forall2 R l1 l3.
Proof.
  intros HR l1 l2 l3 H. revert l3.
  induction H as [|a b l1 l2 Hab _ IH]; intros l3 H3; inversion H3 as [|? c ? l3' Hbc H3']; subst.
  - constructor.
  - constructor; [exact (HR a b c Hab Hbc) | apply IH; exact H3'].
Qed.

Lemma Forall2_set_nth {A} (R : A -> A -> Prop) : forall l cur n x,
  Forall2 R l cur -> (forall a, nth_error l n = Some a -> R a x) -> Forall2 R l (set_nth cur n x).
Proof.
  intros l cur n x H. revert n. induction H as [|a b l cur Hab Hl IH]; intros [|n] Hx; cbn [set_nth].
  - constructor.
  - constructor.
  - constructor; [apply Hx; reflexivity | exact Hl].
  - constructor; [exact Hab | apply IH; exact Hx].
Qed.

Section Pointwise.
  Variable R : ovr -> ovr -> Prop.
  Hypothesis R_refl : forall r, R r r.
  Hypothesis R_trans : forall a b c, R a b -> R b c -> R a c.
  Hypothesis R_ds : forall r r', discard_start r = Ok r' -> R r r'.
  Hypothesis R_de : forall r r', discard_end r = Ok r' -> R r r'.

  Local Notation RS := (Forall2 R).

  Lemma put_ovr_pointwise st cur id x :
    RS st cur -> (forall a, get_ovr st id = Ok a -> R a x) -> RS st (put_ovr cur id x).
  Proof.
    intros H Hx. apply Forall2_set_nth; [exact H|].
    intros a Ha. apply Hx. unfold get_ovr. rewrite Ha. reflexivity.
  Qed.

  Lemma put_ovr_step st id r x : get_ovr st id = Ok r -> R r x -> RS st (put_ovr st id x).
  Proof.
    intros Hr Hx. apply put_ovr_pointwise; [apply Forall2_refl_of; exact R_refl|].
    intros a Ha. rewrite Hr in Ha. injection Ha as <-. exact Hx.
  Qed.

  Lemma p_apply_pointwise st p st' : p_apply st p = Ok st' -> RS st st'.
  Proof.
    intros H. unfold p_apply in H. bind_inv H r Hr. bind_inv H r' Hr'. injection H as <-.
    apply (put_ovr_step _ _ r); [exact Hr|].
    destruct (pr_kind p); [apply R_ds | apply R_de]; exact Hr'.
  Qed.

  Lemma make_fixes_pointwise err : forall pls st st' fxs,
    make_fixes err st pls = Ok (st', fxs) -> RS st st'.
  Proof.
    induction pls as [|pl pls IH]; intros st st' fxs H; cbn [make_fixes] in H.
    - injection H as <- _. apply Forall2_refl_of. exact R_refl.
    - bind_inv H r Hr. destruct r as [st1 fx]. bind_inv H r2 Hr2. destruct r2 as [st2 fxs2].
      injection H as <- _. apply (Forall2_trans_of R R_trans _ st1); [|eapply IH; exact Hr2].
      apply fix_one_cases in Hr. destruct Hr as [[_ ->] | (p & _ & _ & Hr)].
      + apply Forall2_refl_of. exact R_refl.
      + eapply p_apply_pointwise. exact Hr.
  Qed.

  Lemma discard_loop_pointwise err : forall fuel b b',
    discard_loop fuel err b = Ok b' ->
    RS (b_store b) (b_store b') /\ b_added b' = b_added b /\ b_namer b' = b_namer b.
  Proof.
    induction fuel as [|fuel IH]; intros b b' H; cbn [discard_loop] in H; [discriminate|].
    destruct (b_multi b) as [|k0 ks] eqn:Em.
    { injection H as <-. split; [apply Forall2_refl_of; exact R_refl | split; reflexivity]. }
    bind_inv H pls Hpls. bind_inv H r Hr. destruct r as [st fixes].
    pose proof (make_fixes_pointwise _ _ _ _ _ Hr) as Hst.
    destruct fixes as [|fx0 fixes].
    - injection H as <-. split; [exact Hst | split; reflexivity].
    - bind_inv H fm Hfm. destruct fm as [found multi'].
      destruct (IH _ _ H) as (H1 & H2 & H3). cbn [b_store b_added b_namer] in H1, H2, H3.
      split; [exact (Forall2_trans_of R R_trans _ _ _ Hst H1) | split; assumption].
  Qed.

  (* the cuts, when only fragments satisfying T are trimmed *)
  Section Cuts.
    Variable T : frag -> Prop.
    Hypothesis R_tf_on : forall r t ks ke new r',
      T t -> trim_fragment r t ks ke = Ok (new, r') -> R r r'.

    Lemma trim_all_pointwise_on c f : T f -> forall ids st i last st' subs,
      trim_all c st f ids i last = Ok (st', subs) -> RS st st'.
    Proof.
      intros Hf. induction ids as [|id ids IH]; intros st i last st' subs H; cbn [trim_all] in H.
      - injection H as <- _. apply Forall2_refl_of. exact R_refl.
      - cbv zeta in H. bind_inv H r Hr. bind_inv H fr Hfr. destruct fr as [new r'].
        bind_inv H rest Hrest. destruct rest as [st2 subs2]. cbn [fst snd] in H. injection H as <- _.
        apply (Forall2_trans_of R R_trans _ (put_ovr st id r')); [|eapply IH; exact Hrest].
        apply (put_ovr_step _ _ r); [exact Hr | eapply R_tf_on; [exact Hf | exact Hfr]].
    Qed.

    Lemma cut_fragments_pointwise_on c b k b' :
      (forall f ids, aget key_eqb (b_found b) k = Some (f, ids) -> T f) ->
      cut_fragments c b k = Ok b' ->
      RS (b_store b) (b_store b') /\ b_added b' = b_added b /\ b_namer b' = b_namer b
      /\ b_found b' = b_found b.
    Proof.
      intros HT H. unfold cut_fragments in H.
      destruct (aget key_eqb (b_found b) k) as [[f ids]|]; [|discriminate].
      bind_inv H keyed Hkeyed. bind_inv H r Hr. destruct r as [st subs].
      bind_inv H u Hu. injection H as <-. cbn [b_store b_added b_namer b_found].
      split; [eapply trim_all_pointwise_on; [eapply HT; reflexivity | exact Hr] | repeat split].
    Qed.

    Lemma cut_remaining_pointwise_on c b b' :
      (forall k f ids, aget key_eqb (b_found b) k = Some (f, ids) -> T f) ->
      cut_remaining_overhangs c b = Ok b' ->
      RS (b_store b) (b_store b') /\ b_added b' = b_added b /\ b_namer b' = b_namer b
      /\ b_found b' = b_found b.
    Proof.
      intros HT H. unfold cut_remaining_overhangs in H. bind_inv H b1 Hb1. injection H as <-.
      cbn [b_store b_added b_namer b_found].
      refine (foldM_inv _ (fun s => RS (b_store b) (b_store s) /\ b_added s = b_added b
                                    /\ b_namer s = b_namer b /\ b_found s = b_found b) _ _ _ _ _ Hb1).
      - intros s0 a s1 (H0 & A0 & N0 & F0) Hf.
        destruct (cut_fragments_pointwise_on c s0 a s1) as (H1 & A1 & N1 & F1);
          [rewrite F0; apply HT | exact Hf |].
        split; [exact (Forall2_trans_of R R_trans _ _ _ H0 H1) | repeat split; congruence].
      - split; [apply Forall2_refl_of; exact R_refl | repeat split].
    Qed.
  End Cuts.

  Hypothesis R_tf : forall r t ks ke new r', trim_fragment r t ks ke = Ok (new, r') -> R r r'.

  Lemma cut_fragments_pointwise c b k b' : cut_fragments c b k = Ok b' ->
    RS (b_store b) (b_store b') /\ b_added b' = b_added b /\ b_namer b' = b_namer b
    /\ b_found b' = b_found b.
  Proof.
    exact (cut_fragments_pointwise_on (fun _ => True) (fun r t ks ke new r' _ => R_tf r t ks ke new r')
             c b k b' (fun _ _ _ => I)).
  Qed.

  Lemma cut_remaining_pointwise c b b' : cut_remaining_overhangs c b = Ok b' ->
    RS (b_store b) (b_store b') /\ b_added b' = b_added b /\ b_namer b' = b_namer b
    /\ b_found b' = b_found b.
  Proof.
    exact (cut_remaining_pointwise_on (fun _ => True) (fun r t ks ke new r' _ => R_tf r t ks ke new r')
             c b b' (fun _ _ _ _ => I)).
  Qed.

  Hypothesis R_name : forall r n, R r (set_name r n).

  Lemma rename_results_pointwise st ids st' : rename_results st ids = Ok st' -> RS st st'.
  Proof.
    intros H. destruct (rename_results_pairs _ _ _ H) as (pairs & -> & Hp). clear H.
    assert (G : forall cur, RS st cur ->
      RS st (fold_left (fun st0 '(id, r, n) => put_ovr st0 id (set_name r n)) pairs cur)).
    { induction pairs as [|[[id r] n] pairs IH]; intros cur Hc; cbn [fold_left]; [exact Hc|].
      apply IH.
      - intros id' r' n' Hin. apply (Hp id' r' n'). right. exact Hin.
      - apply put_ovr_pointwise; [exact Hc|]. intros a Ha.
        rewrite (Hp id r n (or_introl eq_refl)) in Ha. injection Ha as <-. apply R_name. }
    apply G. apply Forall2_refl_of. exact R_refl.
  Qed.

  Theorem store_pointwise c err fuel b1 b2 b3 ids st :
    discard_loop fuel err b1 = Ok b2 ->
    cut_remaining_overhangs c b2 = Ok b3 ->
    rename_results (b_store b3) ids = Ok st ->
    RS (b_store b1) st /\ b_added b3 = b_added b1 /\ b_namer b3 = b_namer b1.
  Proof.
    intros H2 H3 H4.
    destruct (discard_loop_pointwise _ _ _ _ H2) as (S2 & A2 & N2).
    destruct (cut_remaining_pointwise _ _ _ H3) as (S3 & A3 & N3 & _).
    pose proof (rename_results_pointwise _ _ _ H4) as S4.
    split; [|split; congruence].
    exact (Forall2_trans_of R R_trans _ _ _ S2 (Forall2_trans_of R R_trans _ _ _ S3 S4)).
  Qed.
End Pointwise.

(* what the cuts do to the found table does not depend on R *)
Lemma cut_remaining_found c b b' : cut_remaining_overhangs c b = Ok b' -> b_found b' = b_found b.
Proof.
  intros H.
  apply (cut_remaining_pointwise (fun _ _ => True) (fun _ => I) (fun _ _ _ _ _ => I)
           (fun _ _ _ _ _ _ _ => I) c b b' H).
Qed.

(* A field of a result that set_span_rows does not touch is written by no stage
   after the lookups: discards, trims and cuts only move the span and the rows.
   If set_name does not touch it either it also survives the renaming. *)
Section Kept.
  Context {X : Type} (g : ovr -> X).
  Hypothesis g_span : forall r st en rows, g (set_span_rows r st en rows) = g r.

  Definition kept (r r' : ovr) : Prop := g r' = g r.

  Lemma kept_refl r : kept r r.
  Proof. reflexivity. Qed.

  Lemma kept_trans a b c : kept a b -> kept b c -> kept a c.
  Proof. unfold kept. congruence. Qed.

  Lemma kept_ds r r' : discard_start r = Ok r' -> kept r r'.
  Proof.
    intros H. destruct (discard_start_spec _ _ H) as (d & gaps & _ & _ & _ & _ & ->). apply g_span.
  Qed.

  Lemma kept_de r r' : discard_end r = Ok r' -> kept r r'.
  Proof.
    intros H. destruct (discard_end_spec _ _ H) as (d & gaps & _ & _ & _ & _ & ->). apply g_span.
  Qed.

  Lemma kept_tf r t ks ke new r' : trim_fragment r t ks ke = Ok (new, r') -> kept r r'.
  Proof.
    intros H. destruct (trim_fragment_spec _ _ _ _ _ _ H)
      as (x0 & xl & ds & de & _ & _ & _ & _ & _ & _ & _ & _ & _ & ->). apply g_span.
  Qed.

  Lemma kept_trim_large r e r' : trim_large_overhangs r e = Ok r' -> kept r r'.
  Proof.
    intros H. apply trim_large_cases in H as (r1 & H1 & H2). apply (kept_trans r r1 r').
    - destruct H1 as [-> | H1]; [apply kept_refl | apply kept_ds; exact H1].
    - destruct H2 as [-> | H2]; [apply kept_refl | apply kept_de; exact H2].
  Qed.

  Lemma kept_map st st' : Forall2 kept st st' -> map g st' = map g st.
  Proof. induction 1 as [|r r' st st' H _ IH]; cbn [map]; [reflexivity|]. rewrite H, IH. reflexivity. Qed.

  Lemma discard_loop_kept err fuel b b' : discard_loop fuel err b = Ok b' ->
    map g (b_store b') = map g (b_store b) /\ b_added b' = b_added b /\ b_namer b' = b_namer b.
  Proof.
    intros H.
    destruct (discard_loop_pointwise kept kept_refl kept_trans kept_ds kept_de err fuel b b' H) as (F & A & N).
    split; [exact (kept_map _ _ F) | split; assumption].
  Qed.

  Lemma cut_fragments_kept c b k b' :
    cut_fragments c b k = Ok b' -> map g (b_store b') = map g (b_store b).
  Proof.
    intros H. apply kept_map.
    exact (proj1 (cut_fragments_pointwise kept kept_refl kept_trans kept_tf c b k b' H)).
  Qed.

  Lemma cut_remaining_kept c b b' : cut_remaining_overhangs c b = Ok b' ->
    map g (b_store b') = map g (b_store b) /\ b_added b' = b_added b /\ b_namer b' = b_namer b.
  Proof.
    intros H.
    destruct (cut_remaining_pointwise kept kept_refl kept_trans kept_tf c b b' H) as (F & A & N & _).
    split; [exact (kept_map _ _ F) | split; assumption].
  Qed.

  Hypothesis g_name : forall r n, g (set_name r n) = g r.

  Lemma rename_results_kept st ids st' : rename_results st ids = Ok st' -> Forall2 kept st st'.
  Proof. apply (rename_results_pointwise kept kept_refl). exact g_name. Qed.

  Lemma store_kept c err fuel b1 b2 b3 ids st :
    discard_loop fuel err b1 = Ok b2 -> cut_remaining_overhangs c b2 = Ok b3 ->
    rename_results (b_store b3) ids = Ok st ->
    Forall2 kept (b_store b1) st /\ b_added b3 = b_added b1 /\ b_namer b3 = b_namer b1.
  Proof.
    exact (store_pointwise kept kept_refl kept_trans kept_ds kept_de kept_tf g_name c err fuel b1 b2 b3 ids st).
  Qed.
End Kept.


Section StoreInv.
  Variable inp : list (str * list row).
  Variable P : ovr -> Prop.
  Hypothesis P_ext : forall r r',
    o_rows r' = o_rows r -> o_start r' = o_start r -> o_end r' = o_end r -> P r -> P r'.
  Hypothesis P_init : forall name rows bait fo,
    In (name, rows) inp ->
    find_overlaps rows (f_start bait) (f_end bait) = Ok (Some fo) -> P (ovr_of_found bait fo).
  Hypothesis P_ds : forall r r', P r -> discard_start r = Ok r' -> P r'.
  Hypothesis P_de : forall r r', P r -> discard_end r = Ok r' -> P r'.
  Hypothesis P_tf : forall r t ks ke new r',
    In t (in_frags inp) -> P r -> trim_fragment r t ks ke = Ok (new, r') -> P r'.

  Local Notation PS := (stored P).
  Local Notation found_in := (input_found inp).

  Lemma P_trim_large r e r' : P r -> trim_large_overhangs r e = Ok r' -> P r'.
  Proof.
    intros Hp H. apply trim_large_cases in H as (r1 & [-> | H1] & [-> | H2]).
    - exact Hp.
    - eapply P_de; eassumption.
    - eapply P_ds; eassumption.
    - eapply P_de; [|exact H2]. eapply P_ds; eassumption.
  Qed.

  Lemma PS_nil : PS [].
  Proof. intros r []. Qed.

  Lemma PS_snoc st r : PS st -> P r -> PS (st ++ [r]).
  Proof.
    intros Hs Hr x Hx. apply in_app_or in Hx.
    destruct Hx as [Hx | [<- | []]]; [apply Hs; exact Hx | exact Hr].
  Qed.

  (* "if P holds before, it holds after", position by position *)
  Local Notation keeps := (fun r r' : ovr => P r -> P r').

  Lemma keeps_refl r : keeps r r.
  Proof. exact (fun p => p). Qed.

  Lemma keeps_trans a b c : keeps a b -> keeps b c -> keeps a c.
  Proof. exact (fun f g p => g (f p)). Qed.

  Lemma PS_keeps st st' : Forall2 keeps st st' -> PS st -> PS st'.
  Proof.
    induction 1 as [|r r' st st' Hr _ IH]; intros Hs x Hx; [destruct Hx|].
    destruct Hx as [<- | Hx]; [apply Hr, Hs; left; reflexivity|].
    apply IH; [intros y Hy; apply Hs; right; exact Hy | exact Hx].
  Qed.

  Lemma PS_rename st ids st' : PS st -> rename_results st ids = Ok st' -> PS st'.
  Proof.
    intros Hs H. eapply PS_keeps; [|exact Hs].
    apply (rename_results_pointwise keeps keeps_refl
             (fun r n p => P_ext r (set_name r n) eq_refl eq_refl eq_refl p) _ _ _ H).
  Qed.

  Lemma one_bait_PS err sc_tags orig b bait b' :
    PS (b_store b) -> one_bait inp err sc_tags orig b bait = Ok b' -> PS (b_store b').
  Proof.
    intros Hs H. destruct (one_bait_spec _ _ _ _ _ _ _ H) as (rows & Hrows & [[_ ->] | Hfound]); [exact Hs|].
    destruct Hfound as (fo & nm & lab & r1 & Hfo & _ & Hr1 & -> & _).
    apply PS_snoc; [exact Hs|]. eapply P_trim_large; [|exact Hr1].
    apply (P_ext (ovr_of_found bait fo)); try reflexivity.
    eapply P_init; [|exact Hfo].
    unfold input_rows in Hrows. destruct (aget str_eqb inp (f_name bait)) as [rows0|] eqn:E; [|discriminate].
    injection Hrows as <-. apply (aget_In str_eqb str_eqb_eq) in E. exact E.
  Qed.

  Lemma one_pretext_scaffold_PS err b psc b' :
    PS (b_store b) -> one_pretext_scaffold inp err b psc = Ok b' -> PS (b_store b').
  Proof.
    intros Hs H. destruct psc as [pname prows].
    destruct (one_pretext_spec _ _ _ _ _ _ H) as (nm & b1 & st & _ & Hb1 & Hst & ->).
    cbn [with_store b_store]. eapply PS_rename; [|exact Hst].
    eapply (foldM_inv _ (fun b => PS (b_store b))); [| |exact Hb1]; [|exact Hs].
    intros s0 a s1 Hs0 Hf. eapply one_bait_PS; eassumption.
  Qed.

  Lemma pretext_PS err pretext b0 b1 :
    PS (b_store b0) -> foldM (one_pretext_scaffold inp err) pretext b0 = Ok b1 -> PS (b_store b1).
  Proof.
    intros Hs H. eapply (foldM_inv _ (fun b => PS (b_store b))); [|exact Hs | exact H].
    intros s0 a s1 Hs0 Hf. eapply one_pretext_scaffold_PS; eassumption.
  Qed.

  Lemma discard_loop_PS err fuel b b' :
    PS (b_store b) -> discard_loop fuel err b = Ok b' -> PS (b_store b').
  Proof.
    intros Hs H. eapply PS_keeps; [|exact Hs].
    apply (discard_loop_pointwise keeps keeps_refl keeps_trans
             (fun r r' Hd p => P_ds r r' p Hd) (fun r r' Hd p => P_de r r' p Hd) err fuel b b' H).
  Qed.

  Lemma cut_remaining_PS c b b' :
    found_in (b_found b) -> PS (b_store b) -> cut_remaining_overhangs c b = Ok b' -> PS (b_store b').
  Proof.
    intros Hfi Hs H. eapply PS_keeps; [|exact Hs].
    apply (cut_remaining_pointwise_on keeps keeps_refl keeps_trans
             (fun t => In t (in_frags inp))
             (fun r t ks ke new r' Ht Htf p => P_tf r t ks ke new r' Ht p Htf) c b b' Hfi H).
  Qed.

  Lemma Inv_found_in b : RemapHead.Inv inp b -> found_in (b_found b).
  Proof.
    intros (_ & _ & (_ & _ & HF & _) & _) k f ids E.
    apply (aget_In key_eqb key_eqb_eq) in E. rewrite Forall_forall in HF.
    destruct (HF _ E) as (_ & Hin & _). exact Hin.
  Qed.

  Hypothesis Hids : NoDup (map f_id (in_frags inp)).

  Lemma head_PS c err fuel pretext nm b1 b2 b3 ids st :
    foldM (one_pretext_scaffold inp err) pretext (mkB [] [] [] [] nm 0) = Ok b1 ->
    discard_loop fuel err b1 = Ok b2 ->
    cut_remaining_overhangs c b2 = Ok b3 ->
    rename_results (b_store b3) ids = Ok st ->
    PS st.
  Proof.
    intros Hb1 Hb2 Hb3 Hst.
    assert (I1 : InvW inp coverage_weight b1) by (eapply pretext_invW; exact Hb1).
    assert (I2 : RemapHead.Inv inp b2) by (apply Inv_InvW; eapply discard_loop_invW; eassumption).
    assert (H1 : PS (b_store b1)) by (eapply pretext_PS; [|exact Hb1]; apply PS_nil).
    assert (H2 : PS (b_store b2)) by (eapply discard_loop_PS; eassumption).
    assert (H3 : PS (b_store b3)).
    { eapply cut_remaining_PS; [apply Inv_found_in; exact I2 | exact H2 | exact Hb3]. }
    eapply PS_rename; eassumption.
  Qed.
End StoreInv.

Theorem store_invariant : forall (P : ovr -> Prop) c g prefix bpt input pretext rs,
  let inp := number_input input 0 in
  (forall r r', o_rows r' = o_rows r -> o_start r' = o_start r -> o_end r' = o_end r -> P r -> P r') ->
  (forall name rows bait fo, In (name, rows) inp ->
     find_overlaps rows (f_start bait) (f_end bait) = Ok (Some fo) -> P (ovr_of_found bait fo)) ->
  (forall r r', P r -> discard_start r = Ok r' -> P r') ->
  (forall r r', P r -> discard_end r = Ok r' -> P r') ->
  (forall r t ks ke new r', In t (in_frags inp) -> P r ->
     trim_fragment r t ks ke = Ok (new, r') -> P r') ->
  remap_to_input c g prefix bpt input pretext = Ok rs ->
  forall r, In r (b_store (rs_b rs)) -> P r.
Proof.
  intros P c g prefix bpt input pretext rs inp Pext Pinit Pds Pde Ptf H.
  destruct (number_input_spec input 0) as (_ & _ & Hids). fold inp in Hids.
  destruct (remap_to_input_stages _ _ _ _ _ _ _ H) as (_ & b1 & b2 & b3 & st & nl & Hb1 & Hb2 & Hb3 & Hst & _ & ->).
  cbn [rs_b with_namer with_store b_store].
  exact (head_PS inp P Pext Pinit Pds Pde Ptf Hids c _ _ _ _ _ _ _ _ _ Hb1 Hb2 Hb3 Hst).
Qed.

(* the cut of one fragment t keeps a predicate that trimming t keeps *)
Lemma trim_all_PS (P : ovr -> Prop) c t :
  (forall r ks ke new r', P r -> trim_fragment r t ks ke = Ok (new, r') -> P r') ->
  forall ids st i last st' subs,
  stored P st -> trim_all c st t ids i last = Ok (st', subs) -> stored P st'.
Proof.
  intros Htf ids st i last st' subs Hs H. apply (PS_keeps P st st'); [|exact Hs].
  refine (trim_all_pointwise_on _ (keeps_refl P) (keeps_trans P) (fun t0 => t0 = t) _
            c t eq_refl _ _ _ _ _ _ H).
  intros r t0 ks ke new r' -> Hf p. exact (Htf r ks ke new r' p Hf).
Qed.

Print Assumptions store_invariant.
