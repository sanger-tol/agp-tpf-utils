(* The FASTA indexer (Model/Fasta.v) against Model/FastaSpec.v.  States are compared in a
   canonical form (buffer flushed, ghost peak forgotten) in which a line step does not depend on
   the buffer size: this gives buffer independence for every byte string.  On a rendered
   well-formed file the canonical state after each record is computed explicitly, which gives the
   index and the derived assembly; a missing final line end only moves the position.  Random
   access is proved for any file that contains the lines of the record, whatever surrounds them. *)
From Tola Require Import Py.Base Model.Fragment Model.Fasta Model.FastaSpec Proofs.BaseLemmas.
From Coq Require Import Lia ZifyBool.

Definition drop_peak {A B} (r : res (A * B * Z)) : res (A * B) :=
  match r with Ok (a, b, _) => Ok (a, b) | Err e => Err e end.

Definition rmap {A B} (f : A -> B) (r : res A) : res B :=
  match r with Ok a => Ok (f a) | Err e => Err e end.

(* the (region_start, region_end, regions) triple of process_seq_buffer.  [charfold] is its
   re.finditer + merge loop run one residue at a time: unlike the run list of acgt_runs it
   splits over [++] (charfold_app), so a buffer may be flushed at any point *)
Definition racc := (Z * option Z * list (Z * Z))%type.

Fixpoint charfold (x : str) (p : Z) (acc : racc) : racc :=
  match x with
  | [] => acc
  | c :: t => charfold t (p + 1) (if is_acgt c then merge_run acc (p, p + 1) else acc)
  end.

Lemma merge_run_join acc a m y :
  merge_run (merge_run acc (a, m)) (m, y) = merge_run acc (a, y).
Proof.
  destruct acc as [[rs re] regs]. cbn.
  destruct re as [e|]; [destruct (a =? e)|]; cbn; rewrite Z.eqb_refl; reflexivity.
Qed.

Lemma runs_charfold L x : forall pos open acc,
  fold_left merge_run (map (fun '(a, b) => (L + a, L + b)) (acgt_runs x pos open)) acc =
  charfold x (L + pos)
    (match open with Some a => merge_run acc (L + a, L + pos) | None => acc end).
Proof.
  induction x as [|c t IH]; intros pos open acc.
  - destruct open; reflexivity.
  - cbn [acgt_runs charfold]. destruct (is_acgt c).
    + rewrite IH. replace (L + (pos + 1)) with (L + pos + 1) by lia.
      destruct open as [a|]; [|reflexivity].
      rewrite merge_run_join. reflexivity.
    + destruct open as [a|].
      * cbn [map fold_left]. rewrite IH. replace (L + (pos + 1)) with (L + pos + 1) by lia.
        reflexivity.
      * rewrite IH. replace (L + (pos + 1)) with (L + pos + 1) by lia. reflexivity.
Qed.

Lemma charfold_app a : forall b p acc,
  charfold (a ++ b) p acc = charfold b (p + zlen a) (charfold a p acc).
Proof.
  induction a as [|c a IH]; intros b p acc.
  - cbn. unfold zlen. cbn. rewrite Z.add_0_r. reflexivity.
  - cbn [app charfold]. rewrite IH. f_equal. unfold zlen. cbn [length]. lia.
Qed.

(* process_seq_buffer with the scan over acgt_runs replaced by [charfold] (runs_charfold) and
   the destructuring let removed *)
Definition flush (st : istate) : istate :=
  let acc := charfold (is_buffer st) (is_seq_length st)
               (is_region_start st, is_region_end st, is_regions st) in
  mkIState (is_name st) (is_seq_length st + zlen (is_buffer st)) (is_file_offset st) (is_rpl st)
           (fst (fst acc)) (snd (fst acc)) (snd acc)
           (is_leb st) [] (is_idx st) (is_asm st) (is_pos st) (is_peak st).

Lemma process_seq_buffer_flush st : process_seq_buffer st = flush st.
Proof.
  unfold process_seq_buffer, flush.
  rewrite (runs_charfold (is_seq_length st) (is_buffer st) 0 None).
  rewrite Z.add_0_r.
  destruct (charfold _ _ _) as [[rs re] regs]. reflexivity.
Qed.

(* forget the ghost *)
Definition zp (st : istate) : istate :=
  mkIState (is_name st) (is_seq_length st) (is_file_offset st) (is_rpl st) (is_region_start st)
           (is_region_end st) (is_regions st) (is_leb st) (is_buffer st) (is_idx st) (is_asm st)
           (is_pos st) 0.

Definition canon (st : istate) : istate := zp (flush st).

Ltac prj := cbn [is_name is_seq_length is_file_offset is_rpl is_region_start is_region_end
                 is_regions is_leb is_buffer is_idx is_asm is_pos is_peak fst snd].

Lemma surj3 (acc : racc) : (fst (fst acc), snd (fst acc), snd acc) = acc.
Proof. destruct acc as [[? ?] ?]. reflexivity. Qed.

Lemma flush_flush st : flush (flush st) = flush st.
Proof.
  unfold flush. prj. cbn [charfold]. rewrite zlen_nil, Z.add_0_r. reflexivity.
Qed.

Lemma flush_zp st : flush (zp st) = zp (flush st).
Proof. reflexivity. Qed.

Lemma canon_flush st : canon (flush st) = canon st.
Proof. unfold canon. rewrite flush_flush. reflexivity. Qed.

Lemma canon_canon st : canon (canon st) = canon st.
Proof. unfold canon. rewrite flush_zp, flush_flush. reflexivity. Qed.

(* two states have the same canonical form as soon as the flush-invariant
   fields agree and the run folds agree *)
Lemma canon_eq_intro x y :
  is_name x = is_name y -> is_file_offset x = is_file_offset y -> is_rpl x = is_rpl y ->
  is_leb x = is_leb y -> is_idx x = is_idx y -> is_asm x = is_asm y -> is_pos x = is_pos y ->
  is_seq_length x + zlen (is_buffer x) = is_seq_length y + zlen (is_buffer y) ->
  charfold (is_buffer x) (is_seq_length x) (is_region_start x, is_region_end x, is_regions x) =
  charfold (is_buffer y) (is_seq_length y) (is_region_start y, is_region_end y, is_regions y) ->
  canon x = canon y.
Proof.
  intros H1 H2 H3 H4 H5 H6 H7 H8 H9. unfold canon, flush, zp. prj.
  rewrite H1, H2, H3, H4, H5, H6, H7, H8, H9. reflexivity.
Qed.

(* the tail of store_info after its initial flush *)
Definition store_tail (st : istate) : res istate :=
  let regs := match is_region_end st with
              | Some e => is_regions st ++ [(is_region_start st, e)]
              | None => is_regions st
              end in
  match is_name st with
  | None => Err TypeError
  | Some name =>
      match aget str_eqb (is_idx st) name with
      | Some _ => Err ValueError
      | None =>
          let info := mkInfo (is_seq_length st) (is_file_offset st) (is_rpl st) (is_rpl st + is_leb st) in
          Ok (mkIState (is_name st) (is_seq_length st) (is_file_offset st) (is_rpl st)
                       (is_region_start st) (is_region_end st) regs (is_leb st) (is_buffer st)
                       (is_idx st ++ [(name, info)])
                       (is_asm st ++ [(name, region_rows name regs 0 (is_seq_length st))])
                       (is_pos st) (is_peak st))
      end
  end.

Lemma store_info_tail st : store_info st = store_tail (flush st).
Proof. rewrite <- process_seq_buffer_flush. reflexivity. Qed.

Lemma store_tail_zp st : store_tail (zp st) = rmap zp (store_tail st).
Proof.
  unfold store_tail. cbn.
  destruct (is_name st); [|reflexivity].
  destruct (aget _ _ _); reflexivity.
Qed.

Lemma store_info_canon st : store_info (canon st) = rmap zp (store_info st).
Proof.
  rewrite !store_info_tail. unfold canon. rewrite flush_zp, flush_flush. apply store_tail_zp.
Qed.

Lemma store_tail_buffer st st' : store_tail st = Ok st' -> is_buffer st' = is_buffer st.
Proof.
  unfold store_tail. destruct (is_name st); [|discriminate].
  destruct (aget _ _ _); [discriminate|]. intro H. injection H as <-. reflexivity.
Qed.

Definition ends_lf (line : str) : bool :=
  match last_opt line with Some c => Ascii.eqb c LF | None => false end.

Definition line_body (leb : Z) (line : str) : str :=
  if ends_lf line then firstn (Z.to_nat (zlen line - leb)) line else line.

Definition seq_st (c : istate) (ch : str) (pos' : Z) : istate :=
  upd_buffer
    (mkIState (is_name c) (is_seq_length c) (is_file_offset c)
              (if is_rpl c =? 0 then zlen ch else is_rpl c)
              (is_region_start c) (is_region_end c) (is_regions c) (is_leb c)
              (is_buffer c) (is_idx c) (is_asm c) pos' (is_peak c))
    (is_buffer c ++ ch).

Definition maybe_flush (buf : Z) (st : istate) : istate :=
  if zlen (is_buffer st) >? buf then process_seq_buffer st else st.

(* a sequence line, for any state: its residues are appended to the
   buffer, which is flushed when it has grown beyond [buf] *)
Lemma index_line_seq_eq buf st c0 rest : Ascii.eqb c0 GT = false ->
  index_line false buf st (c0 :: rest) =
  match is_name st with
  | None => if ends_lf (c0 :: rest) then Err TypeError
            else Ok (upd_pos st (is_pos st + zlen (c0 :: rest)))
  | Some _ => Ok (maybe_flush buf (seq_st st (line_body (is_leb st) (c0 :: rest))
                                          (is_pos st + zlen (c0 :: rest))))
  end.
Proof.
  intro H. unfold index_line. rewrite H.
  destruct (is_name st) eqn:En; [unfold maybe_flush, seq_st; rewrite En|]; reflexivity.
Qed.

Lemma line_body_le leb line : zlen (line_body leb line) <= zlen line.
Proof.
  unfold line_body. destruct (ends_lf line); [|lia].
  unfold zlen. rewrite firstn_length. lia.
Qed.

Lemma maybe_flush_name buf st : is_name (maybe_flush buf st) = is_name st.
Proof. unfold maybe_flush. destruct (_ >? _); [rewrite process_seq_buffer_flush|]; reflexivity. Qed.

Lemma canon_maybe_flush buf st : canon (maybe_flush buf st) = canon st.
Proof.
  unfold maybe_flush. destruct (_ >? _); [rewrite process_seq_buffer_flush; apply canon_flush | reflexivity].
Qed.

Lemma canon_seq_st st ch p : canon (seq_st (canon st) ch p) = canon (seq_st st ch p).
Proof.
  apply canon_eq_intro; try reflexivity; cbn.
  - rewrite zlen_app. lia.
  - rewrite charfold_app, surj3. reflexivity.
Qed.

(* invariant: no residues are buffered before the first header *)
Definition Inv (st : istate) : Prop := is_name st = None -> is_buffer st = [].

(* one line on canonical states; the buffer size 0 is arbitrary: by index_line_canon every
   size gives the same canonical state *)
Definition cstep (c : istate) (line : str) : res istate :=
  rmap canon (index_line false 0 c line).

Lemma index_line_canon buf st line :
  Inv st ->
  rmap canon (index_line false buf st line) = cstep (canon st) line.
Proof.
  intro HI. unfold cstep.
  destruct line as [|c0 rest].
  { cbn. rewrite canon_canon. reflexivity. }
  destruct (Ascii.eqb c0 GT) eqn:Eg.
  - unfold index_line. rewrite Eg.
    change (is_pos (canon st)) with (is_pos st).
    change (is_name (canon st)) with (is_name st).
    destruct (is_name st) as [nm|] eqn:En.
    + rewrite store_info_canon. rewrite store_info_tail.
      destruct (store_tail (flush st)) as [s1|e] eqn:Es; [|reflexivity].
      cbn [rmap bind].
      destruct (first_word rest); [|reflexivity].
      destruct (py_nth _ _); [|reflexivity].
      cbn [bind rmap]. f_equal; try (apply canon_eq_intro; reflexivity).
    + cbn [bind].
      destruct (first_word rest); [|reflexivity].
      destruct (py_nth _ _); [|reflexivity].
      cbn [bind rmap]. f_equal. apply canon_eq_intro; try reflexivity; cbn.
      * rewrite (HI En). reflexivity.
      * rewrite (HI En). reflexivity.
  - rewrite !index_line_seq_eq by exact Eg.
    change (is_pos (canon st)) with (is_pos st).
    change (is_name (canon st)) with (is_name st).
    change (is_leb (canon st)) with (is_leb st).
    destruct (is_name st) as [nm|] eqn:En.
    + cbn [rmap]. rewrite !canon_maybe_flush, canon_seq_st. reflexivity.
    + destruct (ends_lf (c0 :: rest)); [reflexivity|].
      cbn [rmap]. f_equal. apply canon_eq_intro; try reflexivity; cbn; rewrite (HI En); cbn;
        try reflexivity; rewrite ?zlen_nil; lia.
Qed.

Lemma flush_name st : is_name (flush st) = is_name st.
Proof. reflexivity. Qed.

Lemma index_line_Inv buf st line st' :
  Inv st -> index_line false buf st line = Ok st' -> Inv st'.
Proof.
  intros HI.
  destruct line as [|c0 rest]; [intro H; injection H as <-; exact HI|].
  destruct (Ascii.eqb c0 GT) eqn:Eg.
  - unfold index_line. rewrite Eg.
    destruct (match is_name st with Some _ => store_info st | None => Ok st end); [|discriminate].
    cbn [bind]. destruct (first_word rest); [|discriminate].
    destruct (py_nth _ _); [|discriminate]. cbn [bind].
    intro H; injection H as <-. intro C. discriminate C.
  - rewrite index_line_seq_eq by exact Eg.
    destruct (is_name st) as [nm|] eqn:En.
    + intro H; injection H as <-. intro C. rewrite maybe_flush_name in C. cbn in C. congruence.
    + destruct (ends_lf _); [discriminate|].
      intro H; injection H as <-. intro C. cbn. apply HI. exact En.
Qed.

Lemma foldM_canon buf lines : forall st,
  Inv st ->
  rmap canon (foldM (index_line false buf) lines st) = foldM cstep lines (canon st).
Proof.
  induction lines as [|l lines IH]; intros st HI.
  - reflexivity.
  - cbn [foldM]. rewrite <- (index_line_canon buf st l HI).
    destruct (index_line false buf st l) as [st'|e] eqn:E; [|reflexivity].
    cbn [bind rmap]. apply IH. eapply index_line_Inv; eassumption.
Qed.

(* what index_fasta_gen does after the fold, without the peak *)
Definition fin (st : istate) : res (list (str * finfo) * list (str * list row)) :=
  do st' <- (match is_name st with Some _ => store_info st | None => Ok st end);
  match is_idx st' with
  | [] => Err ValueError
  | _ => Ok (is_idx st', is_asm st')
  end.

Lemma drop_peak_index file buf :
  drop_peak (index_fasta file buf) =
  bind (foldM (index_line false buf) (split_lines file) init_istate) fin.
Proof.
  unfold index_fasta, index_fasta_gen, fin.
  destruct (foldM _ _ _) as [st|e]; [|reflexivity]. cbn [bind].
  destruct (match is_name st with Some _ => store_info st | None => Ok st end) as [st'|e];
    [|reflexivity].
  cbn [bind]. destruct (is_idx st'); reflexivity.
Qed.

Lemma fin_canon st : fin (canon st) = fin st.
Proof.
  unfold fin. change (is_name (canon st)) with (is_name st).
  destruct (is_name st).
  - rewrite store_info_canon. destruct (store_info st) as [s1|e]; reflexivity.
  - reflexivity.
Qed.

Lemma Inv_init : Inv init_istate.
Proof. intro. reflexivity. Qed.

Lemma index_canonical file buf :
  drop_peak (index_fasta file buf) =
  bind (foldM cstep (split_lines file) (canon init_istate)) fin.
Proof.
  rewrite drop_peak_index, <- (foldM_canon buf) by exact Inv_init.
  destruct (foldM _ _ _); [symmetry; apply fin_canon | reflexivity].
Qed.

Theorem index_buffer_independent : forall file b1 b2,
  drop_peak (index_fasta file b1) = drop_peak (index_fasta file b2).
Proof. intros. rewrite !index_canonical. reflexivity. Qed.

Definition max_len (lines : list str) : Z := fold_right (fun l m => Z.max (zlen l) m) 0 lines.
Definition max_line (file : str) : Z := max_len (split_lines file).

(* before a line the buffer holds at most buf residues (it is flushed as soon as it exceeds
   buf) and a line adds at most M, so the peak stays below buf + M *)
Definition PInv (buf M : Z) (st : istate) : Prop :=
  zlen (is_buffer st) <= buf /\ is_peak st <= buf + M.

Lemma store_tail_peak st st' :
  store_tail st = Ok st' -> is_buffer st' = is_buffer st /\ is_peak st' = is_peak st.
Proof.
  unfold store_tail. destruct (is_name st); [|discriminate].
  destruct (aget _ _ _); [discriminate|]. intro H. injection H as <-. split; reflexivity.
Qed.

Lemma store_info_peak st st' :
  store_info st = Ok st' -> is_buffer st' = [] /\ is_peak st' = is_peak st.
Proof. rewrite store_info_tail. intro H. apply store_tail_peak in H. exact H. Qed.

Lemma index_line_PInv buf M st line st' :
  0 <= buf -> 0 <= M -> zlen line <= M -> PInv buf M st ->
  index_line false buf st line = Ok st' -> PInv buf M st'.
Proof.
  intros Hb HM Hl [H1 H2].
  destruct line as [|c0 rest]; [intro H; injection H as <-; split; assumption|].
  destruct (Ascii.eqb c0 GT) eqn:Eg.
  - unfold index_line. rewrite Eg. destruct (is_name st).
    + destruct (store_info st) as [s1|] eqn:Es; [|discriminate].
      apply store_info_peak in Es as [Eb Ep]. cbn [bind].
      destruct (first_word rest); [|discriminate].
      destruct (py_nth _ _); [|discriminate]. cbn [bind].
      intro H; injection H as <-. split; cbn; [rewrite Eb, zlen_nil; lia | lia].
    + cbn [bind]. destruct (first_word rest); [|discriminate].
      destruct (py_nth _ _); [|discriminate]. cbn [bind].
      intro H; injection H as <-. split; cbn; assumption.
  - rewrite index_line_seq_eq by exact Eg.
    destruct (is_name st) as [nm|] eqn:En.
    + pose proof (line_body_le (is_leb st) (c0 :: rest)) as Hs.
      set (body := line_body _ _) in *. clearbody body.
      intro H; injection H as <-. unfold maybe_flush.
      destruct (_ >? _) eqn:Eb.
      * rewrite process_seq_buffer_flush. split; cbn; [rewrite ?zlen_nil; lia|].
        rewrite zlen_app. lia.
      * cbn in Eb. split; cbn; [lia|]. rewrite zlen_app. lia.
    + destruct (ends_lf _); [discriminate|].
      intro H; injection H as <-. split; cbn; assumption.
Qed.

Lemma max_len_nonneg lines : 0 <= max_len lines.
Proof. induction lines; cbn; [lia|]. pose proof (zlen_nonneg a). lia. Qed.

Lemma max_len_In l lines : In l lines -> zlen l <= max_len lines.
Proof.
  induction lines as [|a lines IH]; [contradiction|].
  change (max_len (a :: lines)) with (Z.max (zlen a) (max_len lines)).
  intros [->|H]; [lia | specialize (IH H); lia].
Qed.

Theorem index_peak_bounded : forall file buf idx asm peak,
  0 <= buf -> index_fasta file buf = Ok (idx, asm, peak) ->
  peak <= buf + max_line file.
Proof.
  intros file buf idx asm peak Hb. unfold index_fasta, index_fasta_gen.
  destruct (foldM _ _ _) as [st|] eqn:Ef; [|discriminate]. cbn [bind].
  pose proof (max_len_nonneg (split_lines file)) as HM. fold (max_line file) in HM.
  apply (foldM_inv_In _ (PInv buf (max_line file))) in Ef; [| | split; cbn; lia].
  2:{ intros s l s' Il. apply index_line_PInv; [exact Hb | exact HM | apply max_len_In, Il]. }
  destruct Ef as [_ Hp].
  destruct (is_name st).
  - destruct (store_info st) as [s1|] eqn:Es; [|discriminate]. cbn [bind].
    apply store_info_peak in Es as [_ Ep].
    destruct (is_idx s1); [discriminate|]. intro H; injection H as <- <- <-. lia.
  - cbn [bind]. destruct (is_idx st); [discriminate|]. intro H; injection H as <- <- <-. lia.
Qed.

Lemma skipn_add {A} (l : list A) : forall a b, skipn a (skipn b l) = skipn (b + a) l.
Proof.
  induction l as [|x l IH]; intros a b.
  - rewrite !skipn_nil. reflexivity.
  - destruct b; [reflexivity|]. cbn. apply IH.
Qed.

Lemma skipn_app_r {A} (a b : list A) n : skipn (length a + n) (a ++ b) = skipn n b.
Proof. induction a; cbn; auto. Qed.

Lemma firstn_skipn_app_l {A} (a b : list A) j m :
  (j + m <= length a)%nat -> firstn m (skipn j (a ++ b)) = firstn m (skipn j a).
Proof.
  intro H. rewrite skipn_app, firstn_app, skipn_length.
  replace (m - (length a - j))%nat with 0%nat by lia. cbn. apply app_nil_r.
Qed.

(* the sequence lines of a record without their very last eol *)
Fixpoint slines (fuel w : nat) (x eol : str) : str :=
  match fuel with
  | O => []
  | S f => match skipn w x with
           | [] => x
           | rest => firstn w x ++ eol ++ slines f w rest eol
           end
  end.

Lemma seq_lines_nil fuel w eol : seq_lines fuel w [] eol = [].
Proof. destruct fuel; reflexivity. Qed.

Lemma slines_short f w x eol : (length x <= w)%nat -> slines (S f) w x eol = x.
Proof. intro H. cbn [slines]. rewrite skipn_all2 by exact H. reflexivity. Qed.

Lemma slines_long f w x eol : (w < length x)%nat ->
  slines (S f) w x eol = firstn w x ++ eol ++ slines f w (skipn w x) eol.
Proof.
  intro H. cbn [slines]. destruct (skipn w x) eqn:E; [|reflexivity].
  apply (f_equal (@length _)) in E. rewrite skipn_length in E. cbn in E. lia.
Qed.

Lemma seq_lines_slines w eol : (1 <= w)%nat -> forall fuel x,
  (length x <= fuel)%nat -> x <> [] ->
  seq_lines fuel w x eol = slines fuel w x eol ++ eol.
Proof.
  intros Hw. induction fuel as [|f IH]; intros x Hl Hx.
  - destruct x; [contradiction | cbn in Hl; lia].
  - destruct x as [|c x']; [contradiction|]. set (x := c :: x') in *.
    change (seq_lines (S f) w x eol) with (firstn w x ++ eol ++ seq_lines f w (skipn w x) eol).
    destruct (Nat.le_gt_cases (length x) w) as [H|H].
    + rewrite slines_short, skipn_all2, seq_lines_nil, firstn_all2, app_nil_r by exact H. reflexivity.
    + rewrite slines_long by exact H. rewrite IH.
      * rewrite <- !app_assoc. reflexivity.
      * rewrite skipn_length. lia.
      * intro E. apply (f_equal (@length _)) in E. rewrite skipn_length in E.
        change (length (@nil ascii)) with 0%nat in E. lia.
Qed.

Lemma read_line w eol : (1 <= w)%nat -> forall k fuel x j m post,
  (length x <= fuel)%nat -> (j + m <= w)%nat -> (k * w + j + m <= length x)%nat ->
  firstn m (skipn (k * (w + length eol) + j) (slines fuel w x eol ++ post))
  = firstn m (skipn (k * w + j) x).
Proof.
  intros Hw. induction k as [|k IH]; intros fuel x j m post Hf Hj Hk;
    (destruct m as [|m']; [reflexivity|]); set (m := S m') in *;
    (destruct fuel as [|f]; [cbn in Hk; lia|]).
  - cbn [Nat.mul Nat.add] in *.
    destruct (Nat.le_gt_cases (length x) w) as [Hl|Hl].
    + rewrite slines_short by exact Hl. apply firstn_skipn_app_l. lia.
    + rewrite slines_long, <- app_assoc by exact Hl.
      rewrite firstn_skipn_app_l by (rewrite firstn_length; lia).
      rewrite <- (firstn_skipn w x) at 2.
      rewrite firstn_skipn_app_l by (rewrite firstn_length; lia). reflexivity.
  - rewrite slines_long by (cbn in Hk; lia).
    replace (S k * (w + length eol) + j)%nat
      with (length (firstn w x ++ eol) + (k * (w + length eol) + j))%nat
      by (rewrite app_length, firstn_length; cbn in Hk; lia).
    rewrite <- !app_assoc, (app_assoc (firstn w x) eol), skipn_app_r.
    rewrite IH by (try rewrite skipn_length; cbn in Hk; lia).
    rewrite skipn_add. f_equal. f_equal. lia.
Qed.

Lemma py_slice_app {A} (x : list A) a b c :
  0 <= a -> a <= b -> b <= c -> py_slice x a b ++ py_slice x b c = py_slice x a c.
Proof.
  intros Ha Hb Hc. unfold py_slice.
  set (y := skipn (Z.to_nat a) x).
  replace (skipn (Z.to_nat b) x) with (skipn (Z.to_nat (b - a)) y)
    by (unfold y; rewrite skipn_add; f_equal; lia).
  replace (Z.to_nat (c - a)) with (Z.to_nat (b - a) + Z.to_nat (c - b))%nat by lia.
  set (d1 := Z.to_nat (b - a)). set (d2 := Z.to_nat (c - b)).
  rewrite firstn_skipn_comm.
  rewrite <- (firstn_skipn d1 (firstn (d1 + d2) y)) at 2.
  f_equal. rewrite firstn_firstn. f_equal. lia.
Qed.

Lemma py_slice_len {A} (x : list A) a b :
  0 <= a -> a <= b -> b <= zlen x -> zlen (py_slice x a b) = b - a.
Proof.
  intros. unfold py_slice, zlen in *. rewrite firstn_length, skipn_length. lia.
Qed.

Lemma py_slice_empty {A} (x : list A) a : py_slice x a a = [].
Proof. unfold py_slice. rewrite Z.sub_diag. reflexivity. Qed.

Section Access.
  Variables (w F : nat) (eol pre post x file : str).
  Hypothesis Hw : (1 <= w)%nat.
  Hypothesis HF : (length x <= F)%nat.
  Hypothesis Hfile : file = pre ++ slines F w x eol ++ post.
  Let off := zlen pre.
  Let n := zlen x.
  Let W := Z.of_nat w.
  Let le := zlen eol.

  (* [m] residues from column [j] of line [k] *)
  Lemma fread_line (k : nat) j m :
    0 <= j -> 0 <= m -> j + m <= W -> Z.of_nat k * W + j + m <= n ->
    fread file (off + (W + le) * Z.of_nat k + j) m
    = py_slice x (Z.of_nat k * W + j) (Z.of_nat k * W + j + m).
  Proof.
    intros Hj Hm Hjm Hn. unfold fread, py_slice.
    replace (m <? 0) with false by lia.
    rewrite Hfile.
    replace (Z.to_nat (off + (W + le) * Z.of_nat k + j))
      with (length pre + (k * (w + length eol) + Z.to_nat j))%nat
      by (unfold off, W, le, zlen; lia).
    rewrite skipn_app_r.
    replace (Z.of_nat k * W + j + m - (Z.of_nat k * W + j)) with m by lia.
    replace (Z.to_nat (Z.of_nat k * W + j)) with (k * w + Z.to_nat j)%nat by (unfold W; lia).
    apply read_line; try assumption; unfold W, n, zlen in *; lia.
  Qed.

  Lemma rwl cnt : forall k : nat, Z.of_nat (k + cnt) * W <= n ->
    read_whole_lines file cnt (off + (W + le) * Z.of_nat k) W le
    = (py_slice x (Z.of_nat k * W) (Z.of_nat (k + cnt) * W), off + (W + le) * Z.of_nat (k + cnt)).
  Proof.
    induction cnt as [|c IH]; intros k Hn.
    - cbn [read_whole_lines]. rewrite Nat.add_0_r, py_slice_empty. reflexivity.
    - cbn [read_whole_lines].
      assert (HW : 1 <= W) by (unfold W; lia).
      rewrite Nat.add_succ_r, <- Nat.add_succ_l in *.
      pose proof (IH (S k) Hn) as IH'.
      rewrite Nat2Z.inj_add, Nat2Z.inj_succ in *. unfold Z.succ in *.
      pose proof (Z.mul_nonneg_nonneg (Z.of_nat c) W ltac:(lia) ltac:(lia)).
      pose proof (Z.mul_nonneg_nonneg (Z.of_nat k) W ltac:(lia) ltac:(lia)).
      pose proof (fread_line k 0 W) as E.
      rewrite !Z.add_0_r in E. rewrite E by lia. clear E.
      rewrite py_slice_len by lia.
      replace (off + (W + le) * Z.of_nat k + (Z.of_nat k * W + W - Z.of_nat k * W) + le)
        with (off + (W + le) * (Z.of_nat k + 1)) by lia.
      rewrite IH'. f_equal.
      replace ((Z.of_nat k + 1) * W) with (Z.of_nat k * W + W) by lia.
      apply py_slice_app; lia.
  Qed.

  Lemma access_layout :
    good_access file (mkInfo n off (Z.min W n) (Z.min W n + le)) x.
  Proof.
    split; [reflexivity|]. intros s0 e Hs Hse He. fold n in He.
    assert (HW : 1 <= W) by (unfold W; lia).
    assert (Hoff : 0 <= off) by apply zlen_nonneg.
    assert (Hle : 0 <= le) by apply zlen_nonneg.
    unfold sequence_bytes, slice1. cbn [fi_rpl fi_mll fi_offset].
    replace (Z.min W n + le - Z.min W n) with le by lia.
    destruct (Z.le_gt_cases n W) as [Hc|Hc].
    - (* a single line *)
      rewrite (Z.min_r W n) by lia.
      replace (n =? 0) with false by lia.
      rewrite (Z.div_small (s0 - 1) n), (Z.div_small (e - 1) n), (Z.mod_small (s0 - 1) n) by lia.
      replace (off + (s0 - 1) + (n + le) * 0 <? 0) with false by lia.
      rewrite Z.eqb_refl.
      pose proof (fread_line 0 (s0 - 1) (e - (s0 - 1))) as E. change (Z.of_nat 0) with 0 in E.
      replace (off + (W + le) * 0 + (s0 - 1)) with (off + (s0 - 1) + (n + le) * 0) in E by lia.
      rewrite E by lia. f_equal. f_equal; lia.
    - rewrite (Z.min_l W n) by lia.
      replace (W =? 0) with false by lia.
      (* s0 - 1 is column j0 of line K0, e - 1 column r1 of line K1 *)
      pose proof (Z.div_mod (s0 - 1) W ltac:(lia)) as D0.
      pose proof (Z.mod_pos_bound (s0 - 1) W ltac:(lia)) as B0.
      pose proof (Z.div_mod (e - 1) W ltac:(lia)) as D1.
      pose proof (Z.mod_pos_bound (e - 1) W ltac:(lia)) as B1.
      pose proof (Z.div_le_mono (s0 - 1) (e - 1) W ltac:(lia) ltac:(lia)) as Mono.
      assert (Hj1 : e mod W = ((e - 1) mod W + 1) mod W).
      { rewrite Z.add_mod_idemp_l by lia. f_equal. lia. }
      destruct (Z_of_nat_complete ((s0 - 1) / W)) as [K0 EK0]; [apply Z.div_pos; lia|].
      destruct (Z_of_nat_complete ((e - 1) / W)) as [K1 EK1]; [apply Z.div_pos; lia|].
      rewrite EK0, EK1 in *. clear EK0 EK1.
      set (j0 := (s0 - 1) mod W) in *. set (r1 := (e - 1) mod W) in *. set (j1 := e mod W) in *.
      clearbody j0 r1 j1.
      assert (Hq : (r1 + 1 = W /\ j1 = 0) \/ (r1 + 1 < W /\ j1 = r1 + 1)).
      { destruct (Z.eq_dec (r1 + 1) W) as [E|E].
        - left. split; [exact E|]. rewrite Hj1, E. apply Z_mod_same_full.
        - right. split; [lia|]. rewrite Hj1. apply Z.mod_small. lia. }
      clear Hj1.
      pose proof (Z.mul_nonneg_nonneg (Z.of_nat K0) W ltac:(lia) ltac:(lia)) as P0.
      pose proof (Z.mul_nonneg_nonneg (Z.of_nat K0) le ltac:(lia) ltac:(lia)) as P0'.
      replace (off + j0 + (W + le) * Z.of_nat K0 <? 0) with false by lia.
      replace (off + j0 + (W + le) * Z.of_nat K0) with (off + (W + le) * Z.of_nat K0 + j0) by lia.
      destruct (Z.of_nat K0 =? Z.of_nat K1) eqn:Ek.
      + assert (K0 = K1) by lia. subst K1.
        rewrite fread_line by lia. f_equal. f_equal; lia.
      + assert (Hb : (Z.of_nat K0 + 1) * W <= Z.of_nat K1 * W)
          by (apply Z.mul_le_mono_nonneg_r; lia).
        rewrite fread_line by lia.
        rewrite py_slice_len by lia.
        replace (off + (W + le) * Z.of_nat K0 + j0
                 + (Z.of_nat K0 * W + j0 + (W - j0) - (Z.of_nat K0 * W + j0)) + le)
          with (off + (W + le) * Z.of_nat (S K0)) by lia.
        replace (Z.of_nat K0 * W + j0) with (s0 - 1) by lia.
        replace (s0 - 1 + (W - j0)) with (Z.of_nat (S K0) * W) by lia.
        destruct Hq as [[Hr Hj]|[Hr Hj]].
        * replace (j1 =? 0) with true by lia.
          replace (Z.to_nat (Z.of_nat K1 - Z.of_nat K0)) with (K1 - K0)%nat by lia.
          rewrite rwl by (replace (S K0 + (K1 - K0))%nat with (S K1) by lia; lia).
          rewrite app_nil_r.
          replace (S K0 + (K1 - K0))%nat with (S K1) by lia.
          replace (Z.of_nat (S K1) * W) with e by lia.
          f_equal. apply py_slice_app; lia.
        * replace (j1 =? 0) with false by lia.
          replace (Z.to_nat (Z.of_nat K1 - 1 - Z.of_nat K0)) with (K1 - S K0)%nat by lia.
          rewrite rwl by (replace (S K0 + (K1 - S K0))%nat with K1 by lia; lia).
          replace (S K0 + (K1 - S K0))%nat with K1 by lia.
          pose proof (fread_line K1 0 j1) as E. rewrite !Z.add_0_r in E.
          rewrite E by lia. clear E.
          replace (Z.of_nat K1 * W + j1) with e by lia.
          rewrite py_slice_app by lia.
          f_equal. apply py_slice_app; lia.
  Qed.
End Access.

Definition hdr (eol : str) (r : record) : str := GT :: r_name r ++ r_desc r ++ eol.

Lemma render_record_split w eol r : (1 <= w)%nat -> r_seq r <> [] ->
  render_record w eol r
  = hdr eol r ++ slines (S (length (r_seq r))) w (r_seq r) eol ++ eol.
Proof.
  intros Hw Hx. unfold render_record, hdr.
  rewrite (seq_lines_slines w eol Hw) by (auto; lia).
  cbn [app]. f_equal. rewrite <- !app_assoc. reflexivity.
Qed.

Lemma render_all_app w eol a b :
  render_all w eol (a ++ b) = render_all w eol a ++ render_all w eol b.
Proof. unfold render_all. rewrite map_app, concat_app. reflexivity. Qed.

Lemma render_all_cons w eol r l :
  render_all w eol (r :: l) = render_record w eol r ++ render_all w eol l.
Proof. reflexivity. Qed.

Definition has_seq (r : record) : Prop := r_seq r <> [].

Lemma render_all_ends w eol : (1 <= w)%nat -> forall l, Forall has_seq l ->
  exists p, eol ++ render_all w eol l = p ++ eol.
Proof.
  intros Hw. induction l as [|r l IH]; intro H.
  - exists []. cbn. apply app_nil_r.
  - inversion H as [|? ? Hr Hl]; subst. destruct (IH Hl) as [p Hp].
    rewrite render_all_cons, render_record_split by assumption.
    exists (eol ++ hdr eol r ++ slines (S (length (r_seq r))) w (r_seq r) eol ++ p).
    rewrite <- !app_assoc. rewrite Hp. reflexivity.
Qed.

Lemma render_layout w eol fnl l1 r l2 : (1 <= w)%nat -> Forall has_seq (r :: l2) ->
  exists post, render w eol fnl (l1 ++ r :: l2)
    = (render_all w eol l1 ++ hdr eol r)
      ++ slines (S (length (r_seq r))) w (r_seq r) eol ++ post.
Proof.
  intros Hw H. inversion H as [|? ? Hr Hl]; subst.
  unfold render. rewrite render_all_app, render_all_cons, render_record_split by assumption.
  destruct fnl.
  - eexists. rewrite <- !app_assoc. reflexivity.
  - destruct (render_all_ends w eol Hw l2 Hl) as [p Hp].
    exists p.
    set (sl := slines _ _ _ _) in *.
    replace (render_all w eol l1 ++ (hdr eol r ++ sl ++ eol) ++ render_all w eol l2)
      with (((render_all w eol l1 ++ hdr eol r) ++ sl ++ p) ++ eol)
      by (rewrite <- !app_assoc; rewrite <- Hp; reflexivity).
    rewrite app_length, Nat.add_sub. apply firstn_length_app.
Qed.

Lemma offsets_nth w eol l1 r l2 : forall pos,
  nth_error (offsets w eol (l1 ++ r :: l2) pos) (length l1)
  = Some (pos + zlen (render_all w eol l1) + zlen (hdr eol r)).
Proof.
  induction l1 as [|a l1 IH]; intro pos.
  - cbn. f_equal. unfold render_all, hdr, zlen. cbn. lia.
  - cbn [app length offsets nth_error]. rewrite IH. f_equal.
    rewrite render_all_cons, zlen_app. lia.
Qed.

Lemma record_ok_has_seq r : record_ok r -> has_seq r.
Proof. intros (_ & _ & H & _). exact H. Qed.

Theorem random_access_spec : forall w eol final_nl recs k r off,
  fasta_wf w eol recs -> nth_error recs k = Some r -> nth_error (offsets w eol recs 0) k = Some off ->
  good_access (render w eol final_nl recs) (expected_info w eol r off) (r_seq r).
Proof.
  intros w eol fnl recs k r off (Hw & Heol & Hne & Hok & Hnd) Hk Hoff.
  apply nth_error_split in Hk as (l1 & l2 & -> & <-).
  rewrite offsets_nth in Hoff. injection Hoff as <-.
  assert (Hs : Forall has_seq (r :: l2)).
  { apply Forall_app in Hok as [_ Hok]. eapply Forall_impl; [|exact Hok].
    apply record_ok_has_seq. }
  destruct (render_layout w eol fnl l1 r l2 Hw Hs) as [post Hfile].
  unfold expected_info.
  match goal with |- good_access _ (mkInfo _ ?o _ _) _ =>
    replace o with (zlen (render_all w eol l1 ++ hdr eol r)) by (rewrite zlen_app; lia) end.
  eapply access_layout; [exact Hw | | exact Hfile]. lia.
Qed.

Theorem empty_file_rejected : forall buf, index_fasta [] buf = Err ValueError.
Proof. reflexivity. Qed.

Lemma index_legacy_refuted : exists file, file = s ">a
ACGT" /\
  (match index_fasta_legacy file 250000 with
   | Ok (idx, _, _) => map (fun p => fi_length (snd p)) idx | Err _ => [] end) = [3]
  /\ (match index_fasta file 250000 with
      | Ok (idx, _, _) => map (fun p => fi_length (snd p)) idx | Err _ => [] end) = [4].
Proof. eexists. split; [reflexivity|]. vm_compute. split; reflexivity. Qed.

(* the region list store_info computes from the triple: the open region is appended *)
Definition close (acc : racc) : list (Z * Z) :=
  match acc with
  | (rs, Some e, regs) => regs ++ [(rs, e)]
  | (_, None, regs) => regs
  end.

(* the fold never looks at the regions already closed: they can be put in front afterwards *)
Definition pre_regs (pre : list (Z * Z)) (acc : racc) : racc :=
  match acc with (rs, re, regs) => (rs, re, pre ++ regs) end.

Lemma merge_run_prefix pre acc run :
  merge_run (pre_regs pre acc) run = pre_regs pre (merge_run acc run).
Proof.
  destruct acc as [[rs re] regs], run as [a b]. cbn.
  destruct re as [e|]; [destruct (a =? e)|]; cbn; rewrite ?app_assoc; reflexivity.
Qed.

Lemma charfold_prefix pre x : forall p acc,
  charfold x p (pre_regs pre acc) = pre_regs pre (charfold x p acc).
Proof.
  induction x as [|c t IH]; intros p acc; [reflexivity|].
  cbn [charfold]. destruct (is_acgt c); [rewrite merge_run_prefix|]; apply IH.
Qed.

Lemma close_prefix pre acc : close (pre_regs pre acc) = pre ++ close acc.
Proof. destruct acc as [[rs [e|]] regs]; cbn; rewrite ?app_assoc; reflexivity. Qed.

Definition acc0 : racc := (0, None, []).
(* the maximal ACGT runs of x as [start, end) offsets, x starting at offset p *)
Definition runs (x : str) (p : Z) : list (Z * Z) := close (charfold x p acc0).

Lemma close_charfold_sep x : forall p rs e regs, e < p ->
  close (charfold x p (rs, Some e, regs)) = regs ++ (rs, e) :: runs x p.
Proof.
  induction x as [|c t IH]; intros p rs e regs He.
  - reflexivity.
  - unfold runs. cbn [charfold]. destruct (is_acgt c).
    + cbn [merge_run acc0]. replace (p =? e) with false by lia.
      assert (E : (p, Some (p + 1), regs ++ [(rs, e)])
                  = pre_regs (regs ++ [(rs, e)]) (p, Some (p + 1), []))
        by (cbn; rewrite app_nil_r; reflexivity).
      rewrite E, charfold_prefix, close_prefix, <- app_assoc. reflexivity.
    + apply IH. lia.
Qed.

Definition all_acgt (a : str) : Prop := forallb is_acgt a = true.
Definition none_acgt (a : str) : Prop := forallb (fun c => negb (is_acgt c)) a = true.
Definition starts_non (b : str) : Prop :=
  match b with [] => True | d :: _ => is_acgt d = false end.
Definition starts_acgt (b : str) : Prop :=
  match b with [] => True | d :: _ => is_acgt d = true end.

Lemma charfold_acgt a : forall p acc, all_acgt a -> a <> [] ->
  charfold a p acc = merge_run acc (p, p + zlen a).
Proof.
  unfold all_acgt.
  induction a as [|c a IH]; intros p acc Ha Hne; [contradiction|].
  cbn in Ha. apply andb_true_iff in Ha as [Hc Ha]. cbn [charfold]. rewrite Hc.
  destruct a as [|c' a'].
  - reflexivity.
  - rewrite IH by (auto; discriminate). rewrite merge_run_join. f_equal. f_equal.
    rewrite (zlen_cons c). lia.
Qed.

Lemma charfold_non a : forall p acc, none_acgt a -> charfold a p acc = acc.
Proof.
  unfold none_acgt.
  induction a as [|c a IH]; intros p acc Ha; [reflexivity|].
  cbn in Ha. apply andb_true_iff in Ha as [Hc Ha]. cbn [charfold].
  destruct (is_acgt c); [discriminate|]. apply IH. exact Ha.
Qed.

Lemma runs_non a rest p : none_acgt a -> runs (a ++ rest) p = runs rest (p + zlen a).
Proof. intro H. unfold runs. rewrite charfold_app, (charfold_non a) by exact H. reflexivity. Qed.

Lemma runs_acgt a rest p : all_acgt a -> a <> [] -> starts_non rest ->
  runs (a ++ rest) p = (p, p + zlen a) :: runs rest (p + zlen a).
Proof.
  intros Ha Hne Hr. unfold runs at 1. rewrite charfold_app, (charfold_acgt a) by assumption.
  cbn [merge_run acc0]. destruct rest as [|d rest'].
  - reflexivity.
  - cbn in Hr. cbn [charfold]. rewrite Hr.
    rewrite close_charfold_sep by lia. cbn [app]. f_equal.
    unfold runs. cbn [charfold]. rewrite Hr. reflexivity.
Qed.

Definition take_acgt : str -> str * str :=
  fix tw (l : str) : str * str :=
    match l with
    | d :: t => if is_acgt d then let '(a, b) := tw t in (d :: a, b) else ([], l)
    | [] => ([], [])
    end.
Definition take_non : str -> str * str :=
  fix tw (l : str) : str * str :=
    match l with
    | d :: t => if is_acgt d then ([], l) else let '(a, b) := tw t in (d :: a, b)
    | [] => ([], [])
    end.

Lemma take_acgt_spec l : forall a b, take_acgt l = (a, b) ->
  l = a ++ b /\ all_acgt a /\ starts_non b.
Proof.
  unfold all_acgt.
  induction l as [|d t IH]; intros a b H; cbn in H.
  - injection H as <- <-. repeat split.
  - destruct (is_acgt d) eqn:Ed.
    + destruct (take_acgt t) as [a' b'] eqn:Et. injection H as <- <-.
      destruct (IH a' b' eq_refl) as (-> & Ha & Hb). repeat split; auto.
      cbn. rewrite Ed. exact Ha.
    + injection H as <- <-. repeat split. cbn. exact Ed.
Qed.

Lemma take_non_spec l : forall a b, take_non l = (a, b) ->
  l = a ++ b /\ none_acgt a /\ starts_acgt b.
Proof.
  unfold none_acgt.
  induction l as [|d t IH]; intros a b H; cbn in H.
  - injection H as <- <-. repeat split.
  - destruct (is_acgt d) eqn:Ed.
    + injection H as <- <-. repeat split. cbn. exact Ed.
    + destruct (take_non t) as [a' b'] eqn:Et. injection H as <- <-.
      destruct (IH a' b' eq_refl) as (-> & Ha & Hb). repeat split; auto.
      cbn. rewrite Ed. exact Ha.
Qed.

Lemma tile_rows_nil f name pos : tile_rows f name [] pos = [].
Proof. destruct f; reflexivity. Qed.

Lemma tile_rows_acgt f name c t pos : is_acgt c = true ->
  tile_rows (S f) name (c :: t) pos =
  let '(run, rest) := take_acgt (c :: t) in
  RF (mkFrag (-1) name (pos + 1) (pos + zlen run) 1 []) :: tile_rows f name rest (pos + zlen run).
Proof.
  intro H. cbn [tile_rows].
  change (take_acgt (c :: t))
    with (if is_acgt c then let '(a, b) := take_acgt t in (c :: a, b) else ([], c :: t)).
  rewrite H. reflexivity.
Qed.

Lemma tile_rows_non f name c t pos : is_acgt c = false ->
  tile_rows (S f) name (c :: t) pos =
  let '(run, rest) := take_non (c :: t) in
  RG (mkGap (zlen run) scaffold_gap) :: tile_rows f name rest (pos + zlen run).
Proof.
  intro H. cbn [tile_rows].
  change (take_non (c :: t))
    with (if is_acgt c then ([], c :: t) else let '(a, b) := take_non t in (c :: a, b)).
  rewrite H. reflexivity.
Qed.

(* one step of [tile_rows]: the first maximal run and the row it gives *)
Lemma tile_rows_step f name c t pos :
  exists run rest, c :: t = run ++ rest /\ run <> [] /\ (length rest < length (c :: t))%nat /\
    ((all_acgt run /\ starts_non rest /\
      tile_rows (S f) name (c :: t) pos
      = RF (mkFrag (-1) name (pos + 1) (pos + zlen run) 1 [])
        :: tile_rows f name rest (pos + zlen run))
     \/ (none_acgt run /\ starts_acgt rest /\
      tile_rows (S f) name (c :: t) pos
      = RG (mkGap (zlen run) scaffold_gap) :: tile_rows f name rest (pos + zlen run))).
Proof.
  assert (Hlen : forall run rest : str, c :: t = run ++ rest -> run <> [] ->
                 (length rest < length (c :: t))%nat).
  { intros run rest -> Hne. rewrite app_length. destruct run; [contradiction | cbn; lia]. }
  destruct (is_acgt c) eqn:Ec.
  - destruct (take_acgt (c :: t)) as [run rest] eqn:Et.
    destruct (take_acgt_spec _ _ _ Et) as (E & Ha & Hr).
    assert (Hne : run <> []).
    { cbn in Et. rewrite Ec in Et. destruct (take_acgt t). injection Et as <- _. discriminate. }
    exists run, rest. split; [exact E|]. split; [exact Hne|]. split; [exact (Hlen _ _ E Hne)|].
    left. split; [exact Ha|]. split; [exact Hr|].
    rewrite tile_rows_acgt, Et by exact Ec. reflexivity.
  - destruct (take_non (c :: t)) as [run rest] eqn:Et.
    destruct (take_non_spec _ _ _ Et) as (E & Hg & Hr).
    assert (Hne : run <> []).
    { cbn in Et. rewrite Ec in Et. destruct (take_non t). injection Et as <- _. discriminate. }
    exists run, rest. split; [exact E|]. split; [exact Hne|]. split; [exact (Hlen _ _ E Hne)|].
    right. split; [exact Hg|]. split; [exact Hr|].
    rewrite tile_rows_non, Et by exact Ec. reflexivity.
Qed.

Lemma runs_starts_acgt d t q : is_acgt d = true -> exists en tl, runs (d :: t) q = (q, en) :: tl.
Proof.
  intro Hd. destruct (take_acgt (d :: t)) as [run rest] eqn:Et.
  destruct (take_acgt_spec _ _ _ Et) as (E & Ha & Hr).
  assert (Hne : run <> []).
  { cbn in Et. rewrite Hd in Et. destruct (take_acgt t). injection Et as <- _. discriminate. }
  rewrite E, runs_acgt by assumption. eauto.
Qed.

Lemma region_rows_head name q en t p n :
  region_rows name ((q, en) :: t) p n
  = (if q =? p then [] else [RG (mkGap (q - p) scaffold_gap)]) ++ region_rows name ((q, en) :: t) q n.
Proof. cbn [region_rows]. rewrite Z.eqb_refl. reflexivity. Qed.

Lemma tile_region name : forall fuel x p, (length x <= fuel)%nat ->
  region_rows name (runs x p) p (p + zlen x) = tile_rows fuel name x p.
Proof.
  assert (Hnil : forall p, region_rows name (runs [] p) p (p + zlen (@nil ascii)) = []).
  { intro p. cbn. rewrite ?zlen_nil. replace (p + 0 - p =? 0) with true by lia. reflexivity. }
  induction fuel as [|f IH]; intros x p Hl.
  - destruct x; [apply Hnil | cbn in Hl; lia].
  - destruct x as [|c t]; [apply Hnil|].
    destruct (tile_rows_step f name c t p)
      as (run & rest & E & Hne & Hlen & [(Ha & Hr & ->)|(Hg & Hr & ->)]).
    + rewrite E, runs_acgt by assumption.
      cbn [region_rows]. rewrite Z.eqb_refl. cbn [app]. f_equal.
      rewrite zlen_app, Z.add_assoc. apply IH. lia.
    + pose proof (zlen_pos run Hne) as Hgz.
      rewrite E, runs_non, zlen_app, Z.add_assoc by assumption.
      rewrite <- (IH rest (p + zlen run)) by lia.
      (* the gap is emitted in front of the next run, or at the end *)
      destruct rest as [|d rest'].
      * cbn. rewrite ?zlen_nil.
        replace (p + zlen run + 0 - p =? 0) with false by lia.
        replace (p + zlen run + 0 - (p + zlen run) =? 0) with true by lia.
        do 3 f_equal. lia.
      * destruct (runs_starts_acgt d rest' (p + zlen run) Hr) as (en & tl & ->).
        rewrite region_rows_head.
        replace (p + zlen run =? p) with false by lia.
        cbn [app]. do 3 f_equal. lia.
Qed.

Lemma tile_region0 name x :
  region_rows name (runs x 0) 0 (zlen x) = tile_rows (S (length x)) name x 0.
Proof. apply (tile_region name (S (length x)) x 0). lia. Qed.

Definition lf_free (b : str) : Prop := forallb (fun c => negb (Ascii.eqb c LF)) b = true.

Lemma split_lines_acc_line body : forall rest cur, lf_free body ->
  split_lines_acc (body ++ LF :: rest) cur = (rev cur ++ body ++ [LF]) :: split_lines_acc rest [].
Proof.
  unfold lf_free. induction body as [|c body IH]; intros rest cur H.
  - cbn. reflexivity.
  - cbn [forallb] in H. apply andb_true_iff in H as [Hc H]. cbn [app split_lines_acc].
    apply negb_true_iff in Hc. rewrite Hc.
    rewrite IH by exact H. cbn [rev]. rewrite <- app_assoc. reflexivity.
Qed.

Lemma split_lines_acc_last body : forall cur, lf_free body -> (body <> [] \/ cur <> []) ->
  split_lines_acc body cur = [rev cur ++ body].
Proof.
  unfold lf_free. induction body as [|c body IH]; intros cur H Hne.
  - cbn. destruct cur; [destruct Hne; contradiction|]. rewrite app_nil_r. reflexivity.
  - cbn [forallb] in H. apply andb_true_iff in H as [Hc H]. cbn [split_lines_acc].
    apply negb_true_iff in Hc. rewrite Hc.
    rewrite IH by (auto; right; discriminate). cbn [rev]. rewrite <- app_assoc. reflexivity.
Qed.

Definition good_line (l : str) : Prop := exists b, l = b ++ [LF] /\ lf_free b.

Lemma split_lines_concat ls : Forall good_line ls -> forall tail, lf_free tail ->
  split_lines (concat ls ++ tail) = ls ++ (match tail with [] => [] | _ => [tail] end).
Proof.
  unfold split_lines. induction 1 as [|l ls (b & -> & Hb) Hls IH]; intros tail Ht.
  - cbn [concat app]. destruct tail as [|c t]; [reflexivity|].
    rewrite split_lines_acc_last by (auto; left; discriminate). reflexivity.
  - cbn [concat]. rewrite <- !app_assoc. cbn [app].
    rewrite split_lines_acc_line by exact Hb. cbn [rev app]. rewrite IH by exact Ht. reflexivity.
Qed.

Fixpoint chunks (fuel w : nat) (x : str) : list str :=
  match fuel with
  | O => []
  | S f => match x with
           | [] => []
           | _ => firstn w x :: chunks f w (skipn w x)
           end
  end.

Lemma seq_lines_chunks w eol : forall fuel x,
  seq_lines fuel w x eol = concat (map (fun ch => ch ++ eol) (chunks fuel w x)).
Proof.
  induction fuel as [|f IH]; intro x; [reflexivity|].
  destruct x as [|c x']; [reflexivity|].
  cbn [seq_lines chunks map concat]. rewrite IH, <- app_assoc. reflexivity.
Qed.

Definition chunk_ok (ch : str) : Prop := ch <> [] /\ forallb residue_ok ch = true.

Lemma chunks_ok w : (1 <= w)%nat -> forall fuel x,
  forallb residue_ok x = true -> Forall chunk_ok (chunks fuel w x).
Proof.
  intros Hw. induction fuel as [|f IH]; intros x Hx; [constructor|].
  destruct x as [|c x']; [constructor|]. cbn [chunks]. constructor.
  - split; [|apply forallb_firstn; exact Hx]. destruct w; [lia|]. discriminate.
  - apply IH. apply forallb_skipn. exact Hx.
Qed.

Lemma chunks_concat w : (1 <= w)%nat -> forall fuel x, (length x <= fuel)%nat ->
  concat (chunks fuel w x) = x.
Proof.
  intros Hw. induction fuel as [|f IH]; intros x Hl.
  - destruct x; [reflexivity | cbn in Hl; lia].
  - destruct x as [|c x']; [reflexivity|]. cbn [chunks concat].
    rewrite IH; [apply firstn_skipn|]. rewrite skipn_length. cbn [length] in *. lia.
Qed.

Definition rec_lines (w : nat) (eol : str) (r : record) : list str :=
  hdr eol r :: map (fun ch => ch ++ eol) (chunks (S (length (r_seq r))) w (r_seq r)).
Definition all_lines (w : nat) (eol : str) (recs : list record) : list str :=
  flat_map (rec_lines w eol) recs.

Lemma render_record_lines w eol r : render_record w eol r = concat (rec_lines w eol r).
Proof.
  unfold render_record, rec_lines, hdr. rewrite seq_lines_chunks. cbn [concat app].
  f_equal. rewrite <- !app_assoc. reflexivity.
Qed.

Lemma render_all_lines w eol recs : render_all w eol recs = concat (all_lines w eol recs).
Proof.
  induction recs as [|r recs IH]; [reflexivity|].
  rewrite render_all_cons. unfold all_lines. cbn [flat_map]. rewrite concat_app.
  rewrite render_record_lines. f_equal. exact IH.
Qed.

Lemma all_lines_app w eol a b : all_lines w eol (a ++ b) = all_lines w eol a ++ all_lines w eol b.
Proof. unfold all_lines. apply flat_map_app. Qed.

Definition nocrlf (c : ascii) : bool := negb (Ascii.eqb c LF) && negb (Ascii.eqb c CR).

Lemma name_nocrlf n : name_ok n -> forallb nocrlf n = true.
Proof.
  intros [_ H]. eapply forallb_impl; [|exact H]. intros a Ha. apply negb_true_iff in Ha.
  unfold nocrlf.
  destruct (Ascii.eqb_spec a LF) as [->|]; [discriminate Ha|].
  destruct (Ascii.eqb_spec a CR) as [->|]; [discriminate Ha|]. reflexivity.
Qed.
Lemma desc_nocrlf d : desc_ok d -> forallb nocrlf d = true.
Proof. destruct d; [reflexivity|]. intros [_ H]. exact H. Qed.
Lemma residue_nocrlf x : forallb residue_ok x = true -> forallb nocrlf x = true.
Proof.
  apply forallb_impl. intros a Ha. unfold residue_ok in Ha. unfold nocrlf.
  apply andb_true_iff in Ha as [Ha _]. exact Ha.
Qed.
Lemma nocrlf_lf_free x : forallb nocrlf x = true -> lf_free x.
Proof.
  apply forallb_impl. intros a Ha. unfold nocrlf in Ha. apply andb_true_iff in Ha as [Ha _]. exact Ha.
Qed.

Definition hbody (r : record) : str := GT :: r_name r ++ r_desc r.

Lemma hdr_hbody eol r : hdr eol r = hbody r ++ eol.
Proof. unfold hdr, hbody. cbn [app]. rewrite <- app_assoc. reflexivity. Qed.

Lemma hbody_nocrlf r : record_ok r -> forallb nocrlf (hbody r) = true.
Proof.
  intros (Hn & Hd & _). unfold hbody. cbn [forallb]. rewrite forallb_app.
  rewrite (name_nocrlf _ Hn), (desc_nocrlf _ Hd). reflexivity.
Qed.

Lemma good_line_eol eol b : eol_ok eol -> forallb nocrlf b = true -> good_line (b ++ eol).
Proof.
  intros [->| ->] Hb.
  - exists b. split; [reflexivity | apply nocrlf_lf_free; exact Hb].
  - exists (b ++ [CR]). split; [rewrite <- app_assoc; reflexivity|].
    unfold lf_free. rewrite forallb_app. apply nocrlf_lf_free in Hb. unfold lf_free in Hb.
    rewrite Hb. reflexivity.
Qed.

Lemma rec_lines_good w eol r : (1 <= w)%nat -> eol_ok eol -> record_ok r ->
  Forall good_line (rec_lines w eol r).
Proof.
  intros Hw He Hr. unfold rec_lines. constructor.
  - rewrite hdr_hbody. apply good_line_eol; [exact He | apply hbody_nocrlf; exact Hr].
  - apply Forall_map. destruct Hr as (_ & _ & _ & Hx).
    eapply Forall_impl; [|apply (chunks_ok w Hw _ _ Hx)].
    intros ch [_ Hc]. apply good_line_eol; [exact He | apply residue_nocrlf; exact Hc].
Qed.

Lemma all_lines_good w eol recs : (1 <= w)%nat -> eol_ok eol -> Forall record_ok recs ->
  Forall good_line (all_lines w eol recs).
Proof.
  intros Hw He. induction 1 as [|r recs Hr _ IH]; [constructor|].
  unfold all_lines. cbn [flat_map]. apply Forall_app. split; [apply rec_lines_good; assumption | exact IH].
Qed.

Lemma split_lines_render_true w eol recs : (1 <= w)%nat -> eol_ok eol -> Forall record_ok recs ->
  split_lines (render w eol true recs) = all_lines w eol recs.
Proof.
  intros Hw He Hr. unfold render. rewrite render_all_lines.
  rewrite <- (app_nil_r (concat _)).
  rewrite (split_lines_concat _ (all_lines_good w eol recs Hw He Hr) []) by reflexivity.
  apply app_nil_r.
Qed.

Definition word_split : str -> str * str :=
  fix tw (l : str) : str * str :=
    match l with
    | c :: t => if is_bspace c then ([], l) else let '(a, b) := tw t in (c :: a, b)
    | [] => ([], [])
    end.

Lemma first_word_eq x :
  first_word x = match lstrip_bspace x with [] => None | y => Some (fst (word_split y)) end.
Proof. unfold first_word. destruct (lstrip_bspace x); reflexivity. Qed.

Definition starts_space (x : str) : Prop :=
  match x with c :: _ => is_bspace c = true | [] => True end.

Lemma word_split_name n : forall rest,
  forallb (fun c => negb (is_bspace c)) n = true -> starts_space rest ->
  word_split (n ++ rest) = (n, rest).
Proof.
  induction n as [|c n IH]; intros rest Hn Hr.
  - cbn [app]. destruct rest as [|d rest]; [reflexivity|]. cbn in Hr. cbn. rewrite Hr. reflexivity.
  - cbn [forallb] in Hn. apply andb_true_iff in Hn as [Hc Hn]. apply negb_true_iff in Hc.
    cbn [app]. change (word_split (c :: n ++ rest))
      with (if is_bspace c then ([], c :: n ++ rest)
            else let '(a, b) := word_split (n ++ rest) in (c :: a, b)).
    rewrite Hc, IH by assumption. reflexivity.
Qed.

Lemma first_word_hdr eol r : eol_ok eol -> record_ok r ->
  first_word (r_name r ++ r_desc r ++ eol) = Some (r_name r).
Proof.
  intros He ((Hne & Hn) & Hd & _). rewrite first_word_eq.
  destruct (r_name r) as [|c n] eqn:En; [contradiction|].
  assert (Hc : is_bspace c = false).
  { cbn [forallb] in Hn. apply andb_true_iff in Hn as [Hc _]. apply negb_true_iff in Hc. exact Hc. }
  cbn [app lstrip_bspace]. rewrite Hc.
  change (c :: n ++ r_desc r ++ eol) with ((c :: n) ++ r_desc r ++ eol).
  rewrite word_split_name; [reflexivity | exact Hn |].
  destruct (r_desc r) as [|d ds].
  - destruct He as [-> | ->]; reflexivity.
  - destruct Hd as [[-> | ->] _]; reflexivity.
Qed.

Lemma py_nth_m2 {A} (a : list A) x y : py_nth (a ++ [x; y]) (-2) = Ok x.
Proof.
  unfold py_nth. rewrite zlen_app. change (zlen [x; y]) with 2.
  pose proof (zlen_nonneg a).
  replace (-2 <? 0) with true by lia.
  replace ((-2 + (zlen a + 2) <? 0) || (zlen a + 2 <=? -2 + (zlen a + 2))) with false by lia.
  replace (Z.to_nat (-2 + (zlen a + 2))) with (length a + 0)%nat by (unfold zlen; lia).
  rewrite nth_error_app2 by lia. replace (length a + 0 - length a)%nat with 0%nat by lia.
  reflexivity.
Qed.

Lemma py_nth_hdr eol r : eol_ok eol -> record_ok r ->
  exists c2, py_nth (hdr eol r) (-2) = Ok c2 /\ (if Ascii.eqb c2 CR then 2 else 1) = zlen eol.
Proof.
  intros He Hr. rewrite hdr_hbody. destruct He as [-> | ->].
  - pose proof (hbody_nocrlf r Hr) as Hb.
    destruct (exists_last (l := hbody r)) as (hb & z & E); [unfold hbody; discriminate|].
    rewrite E in *. rewrite <- app_assoc. cbn [app]. exists z. split; [apply py_nth_m2|].
    rewrite forallb_app in Hb. apply andb_true_iff in Hb as [_ Hz]. cbn [forallb] in Hz.
    unfold nocrlf in Hz. rewrite andb_true_r in Hz. apply andb_true_iff in Hz as [_ Hz].
    apply negb_true_iff in Hz. rewrite Hz. reflexivity.
  - exists CR. split; [apply py_nth_m2 | reflexivity].
Qed.

Lemma index_line_hdr buf eol c r : eol_ok eol -> record_ok r ->
  index_line false buf c (hdr eol r) =
  do st1 <- (match is_name c with Some _ => store_info c | None => Ok c end);
  Ok (mkIState (Some (r_name r)) 0 (is_pos c + zlen (hdr eol r)) 0 0 None [] (zlen eol)
               (is_buffer st1) (is_idx st1) (is_asm st1)
               (is_pos c + zlen (hdr eol r)) (is_peak st1)).
Proof.
  intros He Hr.
  destruct (py_nth_hdr eol r He Hr) as (c2 & Hc2 & Hleb).
  unfold index_line.
  change (hdr eol r) with (GT :: (r_name r ++ r_desc r ++ eol)) at 1.
  cbv iota beta.
  rewrite Ascii.eqb_refl, (first_word_hdr eol r He Hr).
  change (GT :: r_name r ++ r_desc r ++ eol) with (hdr eol r).
  rewrite Hc2. cbn [bind]. rewrite Hleb. reflexivity.
Qed.

Lemma residue_not_lf c : residue_ok c = true -> Ascii.eqb c LF = false.
Proof.
  unfold residue_ok. intro H. apply andb_true_iff in H as [H _]. apply andb_true_iff in H as [H _].
  apply negb_true_iff in H. exact H.
Qed.
Lemma residue_not_gt c : residue_ok c = true -> Ascii.eqb c GT = false.
Proof.
  unfold residue_ok. intro H. apply andb_true_iff in H as [_ H].
  apply negb_true_iff in H. exact H.
Qed.

Lemma ends_lf_eol ch eol : eol_ok eol -> ends_lf (ch ++ eol) = true.
Proof.
  unfold ends_lf. intros [-> | ->].
  - rewrite last_opt_snoc. reflexivity.
  - change [CR; LF] with ([CR] ++ [LF]). rewrite app_assoc, last_opt_snoc. reflexivity.
Qed.

Lemma chunk_ok_first ch : chunk_ok ch -> exists c0 ch', ch = c0 :: ch' /\ Ascii.eqb c0 GT = false.
Proof.
  intros [Hne Hch]. destruct ch as [|c0 ch']; [contradiction|]. exists c0, ch'. split; [reflexivity|].
  cbn [forallb] in Hch. apply andb_true_iff in Hch as [H _]. apply residue_not_gt. exact H.
Qed.

Lemma index_line_seq buf c nm ch tl :
  is_name c = Some nm -> chunk_ok ch ->
  (tl = [] \/ (eol_ok tl /\ is_leb c = zlen tl)) ->
  index_line false buf c (ch ++ tl) =
  Ok (maybe_flush buf (seq_st c ch (is_pos c + zlen (ch ++ tl)))).
Proof.
  intros Hn Hc Htl.
  destruct (chunk_ok_first ch Hc) as (c0 & ch' & E & Hgt). destruct Hc as [Hne Hch].
  assert (Hb : line_body (is_leb c) (ch ++ tl) = ch).
  { unfold line_body. destruct Htl as [-> | [He Hl]].
    - rewrite app_nil_r. destruct (exists_last Hne) as (a & z & Ez).
      unfold ends_lf. rewrite Ez, last_opt_snoc.
      rewrite Ez, forallb_app in Hch. apply andb_true_iff in Hch as [_ Hz]. cbn [forallb] in Hz.
      rewrite andb_true_r in Hz. rewrite (residue_not_lf z Hz). reflexivity.
    - rewrite (ends_lf_eol ch tl He), Hl.
      replace (Z.to_nat (zlen (ch ++ tl) - zlen tl)) with (length ch)
        by (rewrite zlen_app; unfold zlen; lia).
      apply firstn_length_app. }
  rewrite <- Hb at 2. rewrite E in *. cbn [app]. rewrite index_line_seq_eq, Hn by exact Hgt.
  reflexivity.
Qed.

Lemma index_line_seq_noname buf c ch eol :
  is_name c = None -> chunk_ok ch -> eol_ok eol ->
  index_line false buf c (ch ++ eol) = Err TypeError.
Proof.
  intros Hn Hc He. pose proof (ends_lf_eol ch eol He) as Hl.
  destruct (chunk_ok_first ch Hc) as (c0 & ch' & -> & Hgt).
  cbn [app] in *. rewrite index_line_seq_eq, Hn, Hl by exact Hgt. reflexivity.
Qed.

Lemma cstep_seq c nm ch tl :
  is_name c = Some nm -> chunk_ok ch ->
  (tl = [] \/ (eol_ok tl /\ is_leb c = zlen tl)) ->
  cstep c (ch ++ tl) = Ok (canon (seq_st c ch (is_pos c + zlen (ch ++ tl)))).
Proof.
  intros Hn Hc Ht. unfold cstep. rewrite (index_line_seq 0 c nm ch tl Hn Hc Ht).
  cbn [rmap]. rewrite canon_maybe_flush. reflexivity.
Qed.


(* canonical state inside record [name]: L residues read, run triple acc, nothing buffered,
   peak forgotten *)
Definition cst (name : str) (L fo rpl : Z) (acc : racc) (leb : Z)
           (idx : list (str * finfo)) (asm : list (str * list row)) (pos : Z) : istate :=
  mkIState (Some name) L fo rpl (fst (fst acc)) (snd (fst acc)) (snd acc) leb [] idx asm pos 0.

Lemma canon_seq_st_cst name L fo rpl acc leb idx asm pos ch pos' :
  canon (seq_st (cst name L fo rpl acc leb idx asm pos) ch pos') =
  cst name (L + zlen ch) fo (if rpl =? 0 then zlen ch else rpl) (charfold ch L acc) leb idx asm pos'.
Proof.
  destruct acc as [[rs re] regs]. reflexivity.
Qed.

Lemma body_fold eol name fo idx asm : eol_ok eol -> forall chs L rpl acc pos,
  Forall chunk_ok chs ->
  foldM cstep (map (fun ch => ch ++ eol) chs) (cst name L fo rpl acc (zlen eol) idx asm pos) =
  Ok (cst name (L + zlen (concat chs)) fo
          (if rpl =? 0 then match chs with [] => 0 | c1 :: _ => zlen c1 end else rpl)
          (charfold (concat chs) L acc) (zlen eol) idx asm
          (pos + zlen (concat (map (fun ch => ch ++ eol) chs)))).
Proof.
  intros He. induction chs as [|ch chs IH]; intros L rpl acc pos Hc.
  - cbn [map foldM concat charfold]. rewrite zlen_nil, !Z.add_0_r.
    destruct (rpl =? 0) eqn:E; [|reflexivity]. replace rpl with 0 by lia. reflexivity.
  - inversion Hc as [|? ? Hch Hchs]; subst. cbn [map foldM concat].
    rewrite (cstep_seq _ name ch eol), canon_seq_st_cst
      by first [reflexivity | assumption | right; split; [exact He | reflexivity]].
    change (is_pos (cst name L fo rpl acc (zlen eol) idx asm pos)) with pos.
    cbn [bind]. rewrite IH by assumption.
    pose proof (zlen_pos ch (proj1 Hch)).
    f_equal. f_equal.
    + rewrite zlen_app. lia.
    + destruct (rpl =? 0) eqn:E.
      * replace (zlen ch =? 0) with false by lia. reflexivity.
      * rewrite E. reflexivity.
    + rewrite charfold_app. reflexivity.
    + rewrite (zlen_app (ch ++ eol)). lia.
Qed.

Lemma flush_cst name L fo rpl acc leb idx asm pos :
  flush (cst name L fo rpl acc leb idx asm pos) = cst name L fo rpl acc leb idx asm pos.
Proof. unfold flush, cst. prj. cbn [charfold]. prj. rewrite zlen_nil, Z.add_0_r. reflexivity. Qed.

Lemma store_info_cst name L fo rpl acc leb idx asm pos :
  store_info (cst name L fo rpl acc leb idx asm pos) =
  match aget str_eqb idx name with
  | Some _ => Err ValueError
  | None =>
      Ok (mkIState (Some name) L fo rpl (fst (fst acc)) (snd (fst acc)) (close acc) leb []
                   (idx ++ [(name, mkInfo L fo rpl (rpl + leb))])
                   (asm ++ [(name, region_rows name (close acc) 0 L)]) pos 0)
  end.
Proof.
  rewrite store_info_tail, flush_cst. unfold store_tail, cst. prj.
  destruct acc as [[rs [e|]] regs]; prj; destruct (aget str_eqb idx name); reflexivity.
Qed.

Lemma cstep_hdr_cst eol r name L fo rpl acc leb idx asm pos :
  eol_ok eol -> record_ok r ->
  cstep (cst name L fo rpl acc leb idx asm pos) (hdr eol r) =
  match aget str_eqb idx name with
  | Some _ => Err ValueError
  | None =>
      Ok (cst (r_name r) 0 (pos + zlen (hdr eol r)) 0 acc0 (zlen eol)
              (idx ++ [(name, mkInfo L fo rpl (rpl + leb))])
              (asm ++ [(name, region_rows name (close acc) 0 L)])
              (pos + zlen (hdr eol r)))
  end.
Proof.
  intros He Hr. unfold cstep. rewrite index_line_hdr by assumption.
  change (is_name (cst name L fo rpl acc leb idx asm pos)) with (Some name).
  rewrite store_info_cst. destruct (aget str_eqb idx name); reflexivity.
Qed.

Lemma offsets_app w eol l1 : forall l2 pos,
  offsets w eol (l1 ++ l2) pos
  = offsets w eol l1 pos ++ offsets w eol l2 (pos + zlen (render_all w eol l1)).
Proof.
  induction l1 as [|a l1 IH]; intros l2 pos.
  - cbn [app offsets]. unfold render_all. cbn. rewrite Z.add_0_r. reflexivity.
  - cbn [app offsets]. rewrite IH. do 3 f_equal. rewrite render_all_cons, zlen_app. lia.
Qed.

Lemma offsets_length w eol l : forall pos, length (offsets w eol l pos) = length l.
Proof. induction l as [|a l IH]; intro pos; [reflexivity|]. cbn. rewrite IH. reflexivity. Qed.

Lemma expected_index_snoc w eol l1 r :
  expected_index w eol (l1 ++ [r])
  = expected_index w eol l1
    ++ [(r_name r, expected_info w eol r (zlen (render_all w eol l1) + zlen (hdr eol r)))].
Proof.
  unfold expected_index. rewrite offsets_app, combine_app by (rewrite offsets_length; reflexivity).
  rewrite map_app. reflexivity.
Qed.

Lemma expected_asm_snoc l1 r :
  expected_asm (l1 ++ [r])
  = expected_asm l1 ++ [(r_name r, tile_rows (S (length (r_seq r))) (r_name r) (r_seq r) 0)].
Proof. unfold expected_asm. rewrite map_app. reflexivity. Qed.

Lemma index_names_gen w eol l : forall offs, length offs = length l ->
  map fst (map (fun '(r, off) => (r_name r, expected_info w eol r off)) (combine l offs))
  = map r_name l.
Proof.
  induction l as [|a l IH]; intros [|o offs] H; try discriminate; [reflexivity|].
  cbn. rewrite IH by (cbn in H; lia). reflexivity.
Qed.

Lemma expected_index_names w eol l : map fst (expected_index w eol l) = map r_name l.
Proof. apply index_names_gen. apply offsets_length. Qed.

Section Rendered.
  Variables (w : nat) (eol : str).
  Hypothesis Hw : (1 <= w)%nat.
  Hypothesis He : eol_ok eol.

  (* all lines of l1 ++ [r] read; r still open *)
  Definition Open (l1 : list record) (r : record) : istate :=
    cst (r_name r) (zlen (r_seq r))
        (zlen (render_all w eol l1) + zlen (hdr eol r))
        (Z.min (Z.of_nat w) (zlen (r_seq r)))
        (charfold (r_seq r) 0 acc0) (zlen eol)
        (expected_index w eol l1) (expected_asm l1)
        (zlen (render_all w eol (l1 ++ [r]))).

  Lemma fold_body_Open l1 r : record_ok r ->
    foldM cstep (map (fun ch => ch ++ eol) (chunks (S (length (r_seq r))) w (r_seq r)))
      (cst (r_name r) 0 (zlen (render_all w eol l1) + zlen (hdr eol r)) 0 acc0 (zlen eol)
           (expected_index w eol l1) (expected_asm l1)
           (zlen (render_all w eol l1) + zlen (hdr eol r)))
    = Ok (Open l1 r).
  Proof.
    intros (_ & _ & Hne & Hx).
    rewrite (body_fold eol _ _ _ _ He) by (apply chunks_ok; assumption).
    rewrite chunks_concat by (auto; lia).
    unfold Open. f_equal. f_equal.
    - destruct (r_seq r) as [|c x'] eqn:Ex; [contradiction|].
      cbn [chunks Z.eqb]. unfold zlen. rewrite firstn_length. lia.
    - rewrite render_all_app, render_all_cons, zlen_app, zlen_app.
      rewrite render_record_lines. unfold rec_lines. cbn [concat]. rewrite zlen_app.
      change (render_all w eol []) with (@nil ascii). rewrite zlen_nil. lia.
  Qed.

  (* what closing the open record appends is the entry of [r] *)
  Lemma Open_closed_index l1 r :
    expected_index w eol l1
    ++ [(r_name r, mkInfo (zlen (r_seq r)) (zlen (render_all w eol l1) + zlen (hdr eol r))
                          (Z.min (Z.of_nat w) (zlen (r_seq r)))
                          (Z.min (Z.of_nat w) (zlen (r_seq r)) + zlen eol))]
    = expected_index w eol (l1 ++ [r]).
  Proof. rewrite expected_index_snoc. reflexivity. Qed.

  Lemma Open_closed_asm l1 r :
    expected_asm l1
    ++ [(r_name r, region_rows (r_name r) (close (charfold (r_seq r) 0 acc0)) 0 (zlen (r_seq r)))]
    = expected_asm (l1 ++ [r]).
  Proof.
    change (close (charfold (r_seq r) 0 acc0)) with (runs (r_seq r) 0).
    rewrite tile_region0, expected_asm_snoc. reflexivity.
  Qed.

  Lemma fold_rec_init r : record_ok r ->
    foldM cstep (rec_lines w eol r) (canon init_istate) = Ok (Open [] r).
  Proof.
    intro Hr. unfold rec_lines. cbn [foldM]. unfold cstep at 1. rewrite index_line_hdr by assumption.
    cbn [bind rmap].
    apply (fold_body_Open [] r Hr).
  Qed.

  Lemma Open_aget_none l1 r : ~ In (r_name r) (map r_name l1) ->
    aget str_eqb (expected_index w eol l1) (r_name r) = None.
  Proof. intro H. apply (aget_notin _ str_eqb_eq). rewrite expected_index_names. exact H. Qed.

  Lemma fold_rec_step l1 r r' : record_ok r' -> ~ In (r_name r) (map r_name l1) ->
    foldM cstep (rec_lines w eol r') (Open l1 r) = Ok (Open (l1 ++ [r]) r').
  Proof.
    intros Hr' Hnin. unfold rec_lines. cbn [foldM]. unfold Open at 1.
    rewrite cstep_hdr_cst, Open_aget_none by assumption. cbn [bind].
    rewrite Open_closed_index, Open_closed_asm.
    apply (fold_body_Open (l1 ++ [r]) r' Hr').
  Qed.

  Lemma fold_all_Open : forall l1 r,
    Forall record_ok (l1 ++ [r]) -> NoDup (map r_name l1) ->
    foldM cstep (all_lines w eol (l1 ++ [r])) (canon init_istate) = Ok (Open l1 r).
  Proof.
    induction l1 as [|r0 l1 IH] using rev_ind; intros r Hok Hnd.
    - cbn [app]. unfold all_lines. cbn [flat_map]. rewrite app_nil_r.
      apply fold_rec_init. inversion Hok; assumption.
    - rewrite all_lines_app, foldM_app.
      apply Forall_app in Hok as [Hok1 Hok2].
      rewrite map_app in Hnd. cbn [map] in Hnd.
      apply NoDup_remove in Hnd as [Hnd Hnin]. rewrite app_nil_r in *.
      rewrite IH by assumption. cbn [bind].
      unfold all_lines. cbn [flat_map]. rewrite app_nil_r.
      apply fold_rec_step; [inversion Hok2; assumption | exact Hnin].
  Qed.

  Lemma fin_Open_ok l1 r : ~ In (r_name r) (map r_name l1) ->
    fin (Open l1 r) = Ok (expected_index w eol (l1 ++ [r]), expected_asm (l1 ++ [r])).
  Proof.
    intro Hnin. unfold fin. change (is_name (Open l1 r)) with (Some (r_name r)).
    unfold Open. rewrite store_info_cst, (Open_aget_none l1 r Hnin). cbn [bind]. prj.
    rewrite Open_closed_index, Open_closed_asm.
    destruct (expected_index w eol (l1 ++ [r])) eqn:E; [|reflexivity].
    rewrite expected_index_snoc in E. apply app_eq_nil in E as [_ E]. discriminate.
  Qed.

  Lemma fin_Open_dup l1 r : In (r_name r) (map r_name l1) -> fin (Open l1 r) = Err ValueError.
  Proof.
    intro Hin. unfold fin. change (is_name (Open l1 r)) with (Some (r_name r)).
    unfold Open. rewrite store_info_cst.
    rewrite <- (expected_index_names w eol) in Hin. apply (aget_in _ str_eqb_eq) in Hin as [v Hv].
    rewrite Hv. reflexivity.
  Qed.

  Lemma index_spec_true recs buf : fasta_wf w eol recs ->
    drop_peak (index_fasta (render w eol true recs) buf)
    = Ok (expected_index w eol recs, expected_asm recs).
  Proof.
    intros (_ & _ & Hne & Hok & Hnd).
    rewrite index_canonical, split_lines_render_true by assumption.
    destruct (exists_last Hne) as (l1 & r & ->).
    rewrite map_app in Hnd. cbn [map] in Hnd.
    apply NoDup_remove in Hnd as [Hnd Hnin]. rewrite app_nil_r in *.
    rewrite fold_all_Open by assumption. cbn [bind]. apply fin_Open_ok. exact Hnin.
  Qed.
End Rendered.

Lemma fin_upd_pos st p : fin (upd_pos st p) = fin st.
Proof.
  unfold fin. change (is_name (upd_pos st p)) with (is_name st).
  destruct (is_name st); [|reflexivity].
  rewrite !store_info_tail. change (flush (upd_pos st p)) with (upd_pos (flush st) p).
  set (t := flush st). clearbody t.
  assert (E : store_tail (upd_pos t p) = rmap (fun u => upd_pos u p) (store_tail t)).
  { unfold store_tail. prj. change (is_name (upd_pos t p)) with (is_name t).
    destruct (is_name t); [|reflexivity].
    change (is_idx (upd_pos t p)) with (is_idx t).
    destruct (aget str_eqb (is_idx t) s0); reflexivity. }
  rewrite E. destruct (store_tail t); reflexivity.
Qed.

(* the position enters the state only as is_pos, which fin ignores; the [change] shows it
   as an upd_pos *)
Lemma fin_seq_pos c ch p1 p2 : fin (canon (seq_st c ch p1)) = fin (canon (seq_st c ch p2)).
Proof.
  change (canon (seq_st c ch p1)) with (upd_pos (canon (seq_st c ch 0)) p1).
  change (canon (seq_st c ch p2)) with (upd_pos (canon (seq_st c ch 0)) p2).
  rewrite !fin_upd_pos. reflexivity.
Qed.

Section Trim.
  Variables (w : nat) (eol : str).
  Hypothesis Hw : (1 <= w)%nat.
  Hypothesis He : eol_ok eol.

  Definition line_ok (l : str) : Prop :=
    (exists r, record_ok r /\ l = hdr eol r) \/ (exists ch, chunk_ok ch /\ l = ch ++ eol).

  (* J: before the first line no record is open; after at least one line of a rendered file
     a record is open and its line_end_bytes is |eol| *)
  Lemma J_step c l c' :
    (is_name c = None \/ is_leb c = zlen eol) -> line_ok l -> cstep c l = Ok c' ->
    is_name c' <> None /\ is_leb c' = zlen eol.
  Proof.
    intros J [(r & Hr & ->) | (ch & Hch & ->)] H.
    - unfold cstep in H. rewrite index_line_hdr in H by assumption.
      destruct (match is_name c with Some _ => store_info c | None => Ok c end) as [st1|];
        [|discriminate].
      cbn [bind rmap] in H. injection H as <-. split; [discriminate | reflexivity].
    - destruct (is_name c) as [nm|] eqn:En.
      + destruct J as [J|J]; [discriminate|].
        rewrite (cstep_seq c nm ch eol En Hch (or_intror (conj He J))) in H.
        injection H as <-. split; [|exact J].
        change (is_name c <> None). rewrite En. discriminate.
      + unfold cstep in H. rewrite index_line_seq_noname in H by assumption. discriminate.
  Qed.

  Lemma J_fold ls : Forall line_ok ls -> forall c c',
    (is_name c = None \/ is_leb c = zlen eol) -> ls <> [] -> foldM cstep ls c = Ok c' ->
    is_name c' <> None /\ is_leb c' = zlen eol.
  Proof.
    induction 1 as [|l ls Hl Hls IH]; intros c c' J Hne H; [contradiction|].
    cbn [foldM] in H. destruct (cstep c l) as [c1|] eqn:E; [|discriminate]. cbn [bind] in H.
    pose proof (J_step c l c1 J Hl E) as [J1 J2].
    destruct ls as [|l' ls'].
    - injection H as <-. split; assumption.
    - eapply IH; [right; exact J2 | discriminate | exact H].
  Qed.

  Lemma all_lines_ok recs : Forall record_ok recs -> Forall line_ok (all_lines w eol recs).
  Proof.
    induction 1 as [|r recs Hr _ IH]; [constructor|].
    unfold all_lines. cbn [flat_map]. apply Forall_app. split; [|exact IH].
    unfold rec_lines. constructor.
    - left. exists r. split; [exact Hr | reflexivity].
    - apply Forall_map. destruct Hr as (_ & _ & _ & Hx).
      eapply Forall_impl; [|apply (chunks_ok w Hw _ _ Hx)].
      intros ch Hch. right. exists ch. split; [exact Hch | reflexivity].
  Qed.

  Lemma all_lines_last recs : recs <> [] -> Forall record_ok recs ->
    exists front chL, all_lines w eol recs = front ++ [chL ++ eol] /\ chunk_ok chL /\ front <> [].
  Proof.
    intros Hne Hok. destruct (exists_last Hne) as (l1 & r & ->).
    apply Forall_app in Hok as [_ Hok]. inversion Hok as [|? ? Hr _]; subst.
    destruct Hr as (_ & _ & Hx & Hres).
    pose proof (chunks_ok w Hw (S (length (r_seq r))) (r_seq r) Hres) as Hch.
    destruct (exists_last (l := chunks (S (length (r_seq r))) w (r_seq r))) as (cf & chL & E).
    { destruct (r_seq r); [contradiction | discriminate]. }
    exists (all_lines w eol l1 ++ hdr eol r :: map (fun ch => ch ++ eol) cf), chL.
    split; [|split].
    - rewrite all_lines_app. unfold all_lines at 2. cbn [flat_map]. unfold rec_lines.
      rewrite E, map_app, app_nil_r. cbn [map]. rewrite <- app_assoc. reflexivity.
    - rewrite E in Hch. apply Forall_app in Hch as [_ Hch]. inversion Hch; assumption.
    - intro C. apply app_eq_nil in C as [_ C]. discriminate.
  Qed.

  (* the two files split into the same lines, except that the last one lacks its eol; on it
     cstep gives the same canonical state up to is_pos (cstep_seq with tl = [] and tl = eol),
     and fin ignores is_pos *)
  Theorem final_nl_irrelevant recs buf : recs <> [] -> Forall record_ok recs ->
    drop_peak (index_fasta (render w eol false recs) buf)
    = drop_peak (index_fasta (render w eol true recs) buf).
  Proof.
    intros Hne Hok.
    destruct (all_lines_last recs Hne Hok) as (front & chL & Hlines & Hch & Hfne).
    pose proof (all_lines_good w eol recs Hw He Hok) as Hgood.
    pose proof (all_lines_ok recs Hok) as Hlok.
    rewrite Hlines in Hgood, Hlok.
    apply Forall_app in Hgood as [Hgood _]. apply Forall_app in Hlok as [Hlok _].
    rewrite !index_canonical, split_lines_render_true by assumption.
    assert (Hsplit : split_lines (render w eol false recs) = front ++ [chL]).
    { unfold render. rewrite render_all_lines, Hlines, concat_app. cbn [concat].
      rewrite app_nil_r, app_assoc, app_length, Nat.add_sub, firstn_length_app.
      rewrite (split_lines_concat front Hgood chL).
      - destruct chL; [destruct Hch; contradiction | reflexivity].
      - apply nocrlf_lf_free, residue_nocrlf. apply Hch. }
    rewrite Hsplit, Hlines, !foldM_app.
    destruct (foldM cstep front (canon init_istate)) as [c|e] eqn:Ef; [|reflexivity].
    cbn [bind foldM].
    destruct (J_fold front Hlok (canon init_istate) c (or_introl eq_refl) Hfne Ef) as [Hn Hl].
    destruct (is_name c) as [nm|] eqn:En; [|contradiction].
    pose proof (cstep_seq c nm chL [] En Hch (or_introl eq_refl)) as E0.
    rewrite app_nil_r in E0. rewrite E0.
    rewrite (cstep_seq c nm chL eol En Hch (or_intror (conj He Hl))).
    cbn [bind]. apply fin_seq_pos.
  Qed.
End Trim.

Theorem index_spec : forall w eol final_nl recs buf,
  fasta_wf w eol recs ->
  drop_peak (index_fasta (render w eol final_nl recs) buf)
  = Ok (expected_index w eol recs, expected_asm recs).
Proof.
  intros w eol fnl recs buf Hwf. pose proof Hwf as (Hw & He & Hne & Hok & _).
  destruct fnl; [|rewrite final_nl_irrelevant by assumption]; apply index_spec_true; assumption.
Qed.

Lemma dup_split (recs : list record) :
  (exists l1 r l2, recs = l1 ++ r :: l2 /\ NoDup (map r_name l1) /\ In (r_name r) (map r_name l1))
  \/ NoDup (map r_name recs).
Proof.
  induction recs as [|r recs IH] using rev_ind; [right; constructor|].
  destruct IH as [(l1 & r0 & l2 & -> & Hnd & Hin) | Hnd].
  - left. exists l1, r0, (l2 ++ [r]). rewrite <- app_assoc. auto.
  - destruct (in_dec (list_eq_dec ascii_dec) (r_name r) (map r_name recs)) as [Hin|Hnin].
    + left. exists recs, r, []. auto.
    + right. rewrite map_app. cbn [map].
      rewrite <- (rev_involutive (map r_name recs ++ [r_name r])). apply NoDup_rev.
      rewrite rev_app_distr. cbn [rev app]. constructor.
      * rewrite <- in_rev. exact Hnin.
      * apply NoDup_rev. exact Hnd.
Qed.

Lemma drop_peak_err {A B} (r : res (A * B * Z)) e : drop_peak r = Err e -> r = Err e.
Proof. destruct r as [[[? ?] ?]|]; [discriminate | cbn; intro H; injection H as ->; reflexivity]. Qed.

Lemma duplicate_true w eol recs buf :
  (1 <= w)%nat -> eol_ok eol -> Forall record_ok recs -> ~ NoDup (map r_name recs) ->
  drop_peak (index_fasta (render w eol true recs) buf) = Err ValueError.
Proof.
  intros Hw He Hok Hdup.
  destruct (dup_split recs) as [(l1 & r & l2 & -> & Hnd & Hin) | H]; [|contradiction].
  rewrite index_canonical, split_lines_render_true by assumption.
  replace (l1 ++ r :: l2) with ((l1 ++ [r]) ++ l2) in * by (rewrite <- app_assoc; reflexivity).
  apply Forall_app in Hok as [Hok1 Hok2].
  rewrite all_lines_app, foldM_app, (fold_all_Open w eol Hw He) by assumption. cbn [bind].
  destruct l2 as [|r' l2'].
  - cbn [all_lines flat_map foldM bind]. apply fin_Open_dup. exact Hin.
  - unfold all_lines. cbn [flat_map]. unfold rec_lines at 1. cbn [app foldM].
    rewrite <- (expected_index_names w eol) in Hin. apply (aget_in _ str_eqb_eq) in Hin as [v Hv].
    unfold Open. rewrite cstep_hdr_cst, Hv by (try assumption; inversion Hok2; assumption). reflexivity.
Qed.

Theorem duplicate_names_rejected : forall w eol final_nl recs buf,
  (1 <= w)%nat -> eol_ok eol -> recs <> [] -> Forall record_ok recs -> ~ NoDup (map r_name recs) ->
  index_fasta (render w eol final_nl recs) buf = Err ValueError.
Proof.
  intros w eol fnl recs buf Hw He Hne Hok Hdup. apply drop_peak_err.
  destruct fnl; [|rewrite final_nl_irrelevant by assumption]; apply duplicate_true; assumption.
Qed.

Print Assumptions index_buffer_independent.
Print Assumptions index_peak_bounded.
Print Assumptions random_access_spec.
Print Assumptions index_spec.
Print Assumptions final_nl_irrelevant.
Print Assumptions duplicate_names_rejected.
Print Assumptions empty_file_rejected.
Print Assumptions index_legacy_refuted.
