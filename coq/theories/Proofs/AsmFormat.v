(* C05, C19: asm-format as a whole (Model/AsmFormat.v): what it writes is the
   concatenation of what it writes per file; --qc-overlaps never changes what is
   written; canonical AGP in, the same bytes out; the STDERR report has one
   block per overlapping pair of the scan. *)
From Tola Require Import Py.Base Model.Fragment Model.Scaffold Model.Fasta Model.AgpTpf Model.AgpTpfSpec
  Model.OutputPlan Model.AsmFormat Proofs.BaseLemmas Proofs.C19 Proofs.AgpTpfRoundTrip.

Definition strand_printable (f : frag) : Prop := f_strand f = 0 \/ f_strand f = 1 \/ f_strand f = -1.

Lemma frag_str_total f : strand_printable f -> exists t, frag_str f = Ok t.
Proof.
  intros [E|[E|E]]; unfold frag_str, strand_str; rewrite E; cbn [Z.eqb orb bind]; eexists; reflexivity.
Qed.

Lemma overlap_block_total names p :
  strand_printable (fst (fst p)) -> strand_printable (fst (snd p)) -> exists t, overlap_block names p = Ok t.
Proof.
  destruct p as [[f1 i1] [f2 i2]]. cbn [fst snd]. intros H1 H2.
  destruct (frag_str_total f1 H1) as [t1 E1]. destruct (frag_str_total f2 H2) as [t2 E2].
  unfold overlap_block. rewrite E1. cbn [bind]. rewrite E2. cbn [bind]. eexists; reflexivity.
Qed.

Definition block_head : str := [LF] ++ s "Overlap:" ++ [LF].

Lemma overlap_block_head names p t : overlap_block names p = Ok t -> exists rest, t = block_head ++ rest.
Proof.
  destruct p as [[f1 i1] [f2 i2]]. unfold overlap_block.
  destruct (frag_str f1) as [t1|e]; cbn [bind]; [|discriminate].
  destruct (frag_str f2) as [t2|e]; cbn [bind]; [|discriminate].
  intros H. inversion H. unfold block_head. eexists. repeat rewrite <- app_assoc. reflexivity.
Qed.

Definition report_header (asm_name : str) : str :=
  [LF] ++ s "Overlaps detected in assembly '" ++ asm_name ++ s "'" ++ [LF].

(* one block per pair, each beginning "\nOverlap:\n" *)
Lemma report_overlaps_shape nm names pairs rep :
  report_overlaps nm names pairs = Ok rep ->
  exists blocks, rep = report_header nm ++ concat blocks
                 /\ length blocks = length pairs
                 /\ Forall (fun b => exists rest, b = block_head ++ rest) blocks.
Proof.
  unfold report_overlaps, report_blocks. destruct (mapM (overlap_block names) pairs) as [blocks|e] eqn:E; cbn [bind]; [|discriminate].
  intros H. inversion H; subst. exists blocks. split; [|split].
  - unfold report_header. repeat rewrite <- app_assoc. reflexivity.
  - eapply mapM_length; eassumption.
  - apply mapM_Forall2 in E. eapply Forall2_Forall_r; [|exact E].
    intros x y Hxy. eapply overlap_block_head; exact Hxy.
Qed.

Lemma report_overlaps_total nm names pairs :
  Forall (fun p => strand_printable (fst (fst p)) /\ strand_printable (fst (snd p))) pairs ->
  exists rep, report_overlaps nm names pairs = Ok rep.
Proof.
  intros HF. unfold report_overlaps, report_blocks.
  destruct (mapM_total (overlap_block names) pairs) as (blocks & E).
  { intros p Hp. rewrite Forall_forall in HF. destruct (HF p Hp). apply overlap_block_total; assumption. }
  rewrite E. cbn [bind]. eexists; reflexivity.
Qed.

Definition parse_as (in_fmt text : str) : res assembly :=
  if str_eqb in_fmt (s "AGP") then parse_agp text
  else if str_eqb in_fmt (s "TPF") then parse_tpf text
  else Err ValueError.
Definition format_as (out_fmt : str) (a : assembly) : res str :=
  if str_eqb out_fmt (s "AGP") then format_agp a
  else if str_eqb out_fmt (s "TPF") then format_tpf a
  else Err ValueError.
Definition qc_report (nm : str) (a : assembly) : res str :=
  match find_overlapping_fragments (map snd (a_scaffolds a)) with
  | Some pairs => report_overlaps nm (map fst (a_scaffolds a)) pairs
  | None => Ok []
  end.

Lemma parse_as_agp text : parse_as (s "AGP") text = parse_agp text.
Proof. reflexivity. Qed.
Lemma parse_as_tpf text : parse_as (s "TPF") text = parse_tpf text.
Proof. reflexivity. Qed.
Lemma format_as_agp a : format_as (s "AGP") a = format_agp a.
Proof. reflexivity. Qed.
Lemma format_as_tpf a : format_as (s "TPF") a = format_tpf a.
Proof. reflexivity. Qed.

Lemma process_fh_unfold in_fmt nm text out_fmt qc :
  process_fh in_fmt nm text out_fmt qc =
  (do a <- parse_as in_fmt text;
   do rep <- (if qc then qc_report nm a else Ok []);
   do out <- format_as out_fmt a;
   Ok (out, rep)).
Proof. reflexivity. Qed.

(* --qc-overlaps is a diagnostics flag: what is written does not depend on it *)
Theorem qc_flag_does_not_change_output in_fmt nm text out_fmt t r :
  process_fh in_fmt nm text out_fmt true = Ok (t, r) ->
  process_fh in_fmt nm text out_fmt false = Ok (t, []).
Proof.
  rewrite !process_fh_unfold. destruct (parse_as in_fmt text) as [a|e]; cbn [bind]; [|discriminate].
  destruct (qc_report nm a) as [rep|e]; cbn [bind]; [|discriminate].
  destruct (format_as out_fmt a) as [out|e]; cbn [bind]; [|discriminate].
  intros H. inversion H. reflexivity.
Qed.

(* the report of a successful run: silent exactly when the scan finds no pair,
   else the header and one block per pair of the scan, in scan order *)
Theorem qc_report_blocks in_fmt nm text out_fmt t rep :
  process_fh in_fmt nm text out_fmt true = Ok (t, rep) ->
  exists a, parse_as in_fmt text = Ok a
    /\ let pairs := scan_pairs (flat_frags (map snd (a_scaffolds a))) in
       (pairs = [] /\ rep = [])
       \/ (pairs <> []
           /\ exists blocks, rep = report_header nm ++ concat blocks
                /\ length blocks = length pairs
                /\ Forall (fun b => exists rest, b = block_head ++ rest) blocks).
Proof.
  rewrite process_fh_unfold. destruct (parse_as in_fmt text) as [a|e]; cbn [bind]; [|discriminate].
  destruct (qc_report nm a) as [r|e] eqn:Er; cbn [bind]; [|discriminate].
  destruct (format_as out_fmt a) as [out|e]; cbn [bind]; [|discriminate].
  intros H. inversion H; subst. exists a. split; [reflexivity|]. cbn zeta.
  unfold qc_report, find_overlapping_fragments in Er.
  destruct (scan_pairs (flat_frags (map snd (a_scaffolds a)))) as [|p ps] eqn:Es.
  - left. inversion Er. split; reflexivity.
  - right. split; [discriminate|]. eapply report_overlaps_shape. exact Er.
Qed.

Definition file_result (o : af_opts) (f : str * str) : res (str * str) :=
  process_fh (in_format o (Some (fst f))) (asm_name_of o (Some (fst f))) (snd f) (out_format o) (af_qc o).

Lemma run_files_app o : forall pre outs rest out err,
  Forall2 (fun f tr => file_result o f = Ok tr) pre outs ->
  run_files o (pre ++ rest) out err
  = run_files o rest (out ++ concat (map fst outs)) (err ++ concat (map snd outs)).
Proof.
  induction pre as [|[name text] pre IH]; intros outs rest out err HF; inversion HF as [|? tr ? outs' Hx Hr]; subst.
  - cbn [app map concat]. rewrite !app_nil_r. reflexivity.
  - cbn [app run_files]. unfold file_result in Hx. cbn [fst snd] in Hx. rewrite Hx. destruct tr as [t r].
    rewrite (IH outs' rest (out ++ t) (err ++ r) Hr). cbn [map concat fst snd]. rewrite <- !app_assoc. reflexivity.
Qed.

(* every input file is converted on its own and the results are written one
   after the other, in command-line order; the reports likewise *)
Theorem asm_format_concatenates o files stdin outs :
  files <> [] ->
  Forall2 (fun f tr => file_result o f = Ok tr) files outs ->
  run o files stdin = mkAFR (concat (map fst outs)) (concat (map snd outs)) None.
Proof.
  intros Hne HF. destruct files as [|f rest]; [contradiction|]. unfold run.
  rewrite <- (app_nil_r (f :: rest)), (run_files_app o (f :: rest) outs [] [] [] HF). reflexivity.
Qed.

(* the first file that cannot be processed ends the run with an exception;
   what the earlier files produced has been written *)
Theorem asm_format_stops_at_first_error o : forall pre outs f rest out err e,
  Forall2 (fun f tr => file_result o f = Ok tr) pre outs ->
  file_result o f = Err e ->
  run_files o (pre ++ f :: rest) out err
  = mkAFR (out ++ concat (map fst outs)) (err ++ concat (map snd outs)) (Some ValueError).
Proof.
  intros pre outs [name text] rest out err e HF He. rewrite (run_files_app o pre outs _ out err HF).
  cbn [run_files]. unfold file_result in He. cbn [fst snd] in He. rewrite He. reflexivity.
Qed.

Lemma flat_frags_in (scs : list (list row)) f i :
  In (f, i) (flat_frags scs) -> exists rows, In rows scs /\ In f (frags_of rows).
Proof.
  unfold flat_frags. intros H. apply in_flat_map in H as ([j rows] & Hj & Hf).
  apply in_map_iff in Hf as (f' & E & If). inversion E; subst.
  exists rows. split; [|exact If]. apply in_combine_r in Hj. exact Hj.
Qed.

Lemma frags_of_in_rows rows f : In f (frags_of rows) -> In (RF f) rows.
Proof.
  unfold frags_of. intro H. apply in_flat_map in H as ([f'|g] & Hr & Hf); [|destruct Hf].
  destruct Hf as [<-|[]]. exact Hr.
Qed.

Lemma qc_report_total_wf nm a : agp_wf a -> exists rep, qc_report nm a = Ok rep.
Proof.
  intros (_ & Hsc & _). unfold qc_report, find_overlapping_fragments.
  destruct (scan_pairs (flat_frags (map snd (a_scaffolds a)))) as [|p ps] eqn:Es; [eexists; reflexivity|].
  apply report_overlaps_total. rewrite <- Es. unfold scan_pairs. apply Forall_forall. intros [[f1 i1] [f2 i2]] Hin.
  apply filter_In in Hin as [Hin _]. apply in_pairs_from in Hin as (k1 & k2 & _ & H1 & H2).
  apply nth_error_In in H1, H2. cbn [fst snd].
  assert (P : forall f i, In (f, i) (flat_frags (map snd (a_scaffolds a))) -> strand_printable f).
  { intros f i Hf. apply flat_frags_in in Hf as (rows & Hr & If). apply in_map_iff in Hr as ([n rows'] & E & Isc).
    cbn [snd] in E. subst rows'. rewrite Forall_forall in Hsc. destruct (Hsc _ Isc) as (_ & _ & Hrows). cbn [snd] in Hrows.
    rewrite Forall_forall in Hrows. specialize (Hrows _ (frags_of_in_rows _ _ If)). cbn [row_ok_agp] in Hrows.
    destruct Hrows as (_ & _ & _ & Hs & _). exact Hs. }
  split; eapply P; eassumption.
Qed.

(* canonical AGP text in, AGP out: the same bytes, for any assembly name, with
   or without the QC *)
Theorem process_fh_identity_agp nm a t qc :
  agp_wf a -> format_agp a = Ok t ->
  exists rep, process_fh (s "AGP") nm t (s "AGP") qc = Ok (t, rep).
Proof.
  intros Hwf Hf. destruct (parse_format_agp a Hwf) as (t' & Ht' & Hp). rewrite Hf in Ht'. inversion Ht'; subst t'.
  rewrite process_fh_unfold, parse_as_agp, Hp. cbn [bind].
  assert (Er : exists rep, (if qc then qc_report nm a else Ok []) = Ok rep)
    by (destruct qc; [apply qc_report_total_wf, Hwf | eexists; reflexivity]).
  destruct Er as [rep ->]. cbn [bind]. rewrite format_as_agp, Hf. eexists; reflexivity.
Qed.

(* the command on any number of canonical AGP files: their concatenation, untouched *)
Theorem asm_format_identity_on_canonical_agp o files stdin :
  files <> [] ->
  out_format o = s "AGP" ->
  Forall (fun f => in_format o (Some (fst f)) = s "AGP"
                   /\ exists a, agp_wf a /\ format_agp a = Ok (snd f)) files ->
  exists err, run o files stdin = mkAFR (concat (map snd files)) err None.
Proof.
  intros Hne Ho HF.
  assert (H : exists outs, Forall2 (fun f tr => file_result o f = Ok tr) files outs /\ map fst outs = map snd files).
  { clear Hne. induction files as [|f rest IH]; [exists []; split; [constructor | reflexivity]|].
    inversion HF as [|? ? Hf Hrest]; subst. destruct (IH Hrest) as (outs & H2 & Em).
    destruct Hf as (Hin & a & Hwf & Hfmt).
    destruct (process_fh_identity_agp (asm_name_of o (Some (fst f))) a (snd f) (af_qc o) Hwf Hfmt) as [rep Er].
    exists ((snd f, rep) :: outs). split.
    - constructor; [|exact H2]. unfold file_result. rewrite Hin, Ho. exact Er.
    - cbn [map fst]. rewrite Em. reflexivity. }
  destruct H as (outs & H2 & Em). exists (concat (map snd outs)).
  rewrite (asm_format_concatenates o files stdin outs Hne H2). rewrite Em. reflexivity.
Qed.

(* non-vacuity and a worked report: two copies of c:1-10 in scaffold s1 and c:5-6 in s2 *)
Definition ex_text : str :=
  s "s1" ++ [TAB] ++ s "1" ++ [TAB] ++ s "10" ++ [TAB] ++ s "1" ++ [TAB] ++ s "W" ++ [TAB] ++ s "c" ++ [TAB] ++ s "1" ++ [TAB] ++ s "10" ++ [TAB] ++ s "+" ++ [LF]
  ++ s "s1" ++ [TAB] ++ s "11" ++ [TAB] ++ s "20" ++ [TAB] ++ s "2" ++ [TAB] ++ s "W" ++ [TAB] ++ s "c" ++ [TAB] ++ s "1" ++ [TAB] ++ s "10" ++ [TAB] ++ s "-" ++ [TAB] ++ s "Painted" ++ [LF]
  ++ s "s2" ++ [TAB] ++ s "1" ++ [TAB] ++ s "2" ++ [TAB] ++ s "1" ++ [TAB] ++ s "W" ++ [TAB] ++ s "c" ++ [TAB] ++ s "5" ++ [TAB] ++ s "6" ++ [TAB] ++ s "?" ++ [LF].

Example ex_run :
  run (mkAF None None None None true) [(s "asm.agp", ex_text)] []
  = mkAFR ex_text
      ([LF] ++ s "Overlaps detected in assembly 'asm'" ++ [LF]
       ++ [LF] ++ s "Overlap:" ++ [LF] ++ s "s1 c:1-10(+)" ++ [LF] ++ s "s1 c:1-10(-) Painted" ++ [LF]
       ++ [LF] ++ s "Overlap:" ++ [LF] ++ s "s1 c:1-10(+)" ++ [LF] ++ s "s2 c:5-6(.)" ++ [LF]
       ++ [LF] ++ s "Overlap:" ++ [LF] ++ s "s1 c:1-10(-) Painted" ++ [LF] ++ s "s2 c:5-6(.)" ++ [LF])
      None.
Proof. vm_compute. reflexivity. Qed.

Lemma tags_ok_nil : tags_ok [].
Proof. unfold tags_ok. cbn. auto. Qed.

Lemma agp_wf_drop_tags a : agp_wf a -> agp_wf (drop_tags a).
Proof.
  intros (Hh & Hs & Ha). unfold drop_tags. split; [exact Hh|]. cbn [a_header a_scaffolds]. split.
  - apply Forall_map. eapply Forall_impl; [|exact Hs]. intros sc (Hn & Hne & Hr). cbn [fst snd].
    split; [exact Hn|]. split; [destruct (snd sc); [contradiction | discriminate]|].
    apply Forall_map. eapply Forall_impl; [|exact Hr].
    intros [f|g]; cbn [drop_tags_row row_ok_agp]; [|auto].
    intros (H1 & H2 & H3 & H4 & _). unfold frag_ok_agp. cbn. repeat split; try assumption. apply tags_ok_nil.
  - rewrite map_map. cbn [fst]. exact Ha.
Qed.

(* converting an assembly from AGP to TPF with the command, and the result back to
   AGP with the command, changes nothing except dropping the tags *)
Theorem asm_format_agp_tpf_agp nm nm' a t :
  agp_wf a -> tpf_wf (drop_tags a) -> format_agp a = Ok t ->
  exists t_tpf t2,
    process_fh (s "AGP") nm t (s "TPF") false = Ok (t_tpf, [])
    /\ process_fh (s "TPF") nm' t_tpf (s "AGP") false = Ok (t2, [])
    /\ format_agp (drop_tags a) = Ok t2.
Proof.
  intros Hwf Htpf Hf.
  destruct (parse_format_agp a Hwf) as (t' & Ht' & Hp). rewrite Hf in Ht'. inversion Ht'; subst t'.
  destruct (agp_tpf_agp a Hwf Htpf) as (t_tpf & Hft & Hpt).
  destruct (parse_format_agp (drop_tags a) (agp_wf_drop_tags a Hwf)) as (t2 & Hf2 & _).
  exists t_tpf, t2. split; [|split; [|exact Hf2]].
  - rewrite process_fh_unfold, parse_as_agp, Hp. cbn [bind]. rewrite format_as_tpf, Hft. reflexivity.
  - rewrite process_fh_unfold, parse_as_tpf, Hpt. cbn [bind]. rewrite format_as_agp, Hf2. reflexivity.
Qed.
