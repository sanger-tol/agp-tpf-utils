(* C10 numbering, first half of the pipeline: two facts about the scaffolds
   that come out of the fusion which UniqueNames.v does not record
   ([fused_order]).  A rank-1 scaffold carries no tag (so, without haplotypes,
   ChrNamer sees ONE haplotype key); and when the Pretext scaffold names are
   pairwise different, the fused scaffolds are in the order of the Pretext
   scaffolds they were painted in ([pos]: index of the original name in the
   map), so the rank-1 scaffolds of one Pretext scaffold are consecutive for
   ChrNamer. *)
From Tola Require Import Py.Base Py.Dec Model.Fragment Model.Scaffold Model.Lookup
  Model.OverlapResult Model.Namer Model.Remap.
From Tola Require Import Proofs.BaseLemmas Proofs.JoinGaps Proofs.Routing Proofs.Naming Proofs.UniqueNames.
From Tola Require Proofs.RemapHead.
From Coq Require Import Lia ZifyBool Sorted.

Fixpoint index_of (x : str) (l : list str) : nat :=
  match l with
  | [] => O
  | y :: t => if str_eqb x y then O else S (index_of x t)
  end.

Lemma index_of_le x : forall l, (index_of x l <= length l)%nat.
Proof.
  induction l as [|y l IH]; cbn [index_of length]; [lia|]. destruct (str_eqb x y); lia.
Qed.

Lemma index_of_inj : forall l x y, In x l -> In y l -> index_of x l = index_of y l -> x = y.
Proof.
  induction l as [|z l IH]; intros x y Ix Iy E; [destruct Ix|]. cbn [index_of] in E.
  destruct (str_eqb x z) eqn:Ex, (str_eqb y z) eqn:Ey; try discriminate.
  - apply str_eqb_eq in Ex, Ey. congruence.
  - injection E as E. apply str_eqb_neq in Ex, Ey. apply IH; [| |exact E].
    + destruct Ix as [Ix|Ix]; [congruence | exact Ix].
    + destruct Iy as [Iy|Iy]; [congruence | exact Iy].
Qed.

Lemma index_of_app_new : forall done x todo, ~ In x done -> index_of x (done ++ x :: todo) = length done.
Proof.
  induction done as [|y done IH]; intros x todo NI; cbn [app index_of length].
  - rewrite str_eqb_refl. reflexivity.
  - destruct (str_eqb x y) eqn:E.
    + apply str_eqb_eq in E. subst y. exfalso. apply NI. left. reflexivity.
    + f_equal. apply IH. intro I. apply NI. right. exact I.
Qed.

(* the position of an original name in the map; "no original name" comes last *)
Definition pos (names : list str) (o : option str) : nat :=
  match o with Some x => index_of x names | None => length names end.

Lemma pos_le names o : (pos names o <= length names)%nat.
Proof. destruct o as [x|]; cbn [pos]; [apply index_of_le | lia]. Qed.

(* The invariant of the head.  [tq]: rank 1 implies no tag.  [okey]: the
   position, in the map, of the Pretext scaffold a stored result was painted
   in; [KL]: these positions for the results added so far.  [HInv names j st
   added]: the added ids are in range, their keys are sorted, all keys are
   <= j (the position of the Pretext scaffold being processed, so that the
   key j can be appended behind them), and every stored result satisfies [tq]. *)
Definition tq (l : labs) : Prop := let '(_, tag, _, rank, _) := l in rank = 1 -> tag = None.

Definition okey (names : list str) (origs : list (option str)) (id : rid) : nat :=
  pos names (nth (Z.to_nat id) origs None).
Definition KL (names : list str) (st : list ovr) (added : list rid) : list nat :=
  map (okey names (map o_orig st)) added.

Definition HInv (names : list str) (j : nat) (st : list ovr) (added : list rid) : Prop :=
  Forall (fun id => 0 <= id < zlen st) added
  /\ StronglySorted le (KL names st added)
  /\ Forall (fun k => (k <= j)%nat) (KL names st added)
  /\ Forall (fun r => tq (o_labs r)) st.

Lemma KL_app_old names st r added :
  Forall (fun id => 0 <= id < zlen st) added -> KL names (st ++ [r]) added = KL names st added.
Proof.
  intro F. unfold KL. apply map_ext_in. intros id I. rewrite Forall_forall in F. specialize (F id I).
  unfold okey. rewrite map_app. rewrite app_nth1; [reflexivity|]. rewrite map_length. unfold zlen in F. lia.
Qed.

Lemma okey_new names st r : okey names (map o_orig (st ++ [r])) (zlen st) = pos names (o_orig r).
Proof.
  unfold okey, zlen. rewrite Nat2Z.id, map_app. rewrite app_nth2 by (rewrite map_length; lia).
  rewrite map_length, Nat.sub_diag. reflexivity.
Qed.

Lemma HInv_mono names j j' st added : (j <= j')%nat -> HInv names j st added -> HInv names j' st added.
Proof.
  intros L (R & S & B & T). split; [exact R|]. split; [exact S|]. split; [|exact T].
  eapply Forall_impl; [|exact B]. cbv beta. intros k Hk. lia.
Qed.

(* what [tq] looks at *)
Definition tr (r : ovr) : option str * Z := (o_tag r, o_rank r).

Lemma HInv_store names j st st' added :
  map o_orig st' = map o_orig st -> map tr st' = map tr st ->
  HInv names j st added -> HInv names j st' added.
Proof.
  intros Mo Mt (R & S & B & T).
  assert (Len : zlen st' = zlen st).
  { unfold zlen. f_equal. rewrite <- (map_length o_orig st'), Mo, map_length. reflexivity. }
  unfold HInv, KL. rewrite Len, Mo. split; [exact R|]. split; [exact S|]. split; [exact B|].
  exact (Forall_map_eq tr (fun p : option str * Z => snd p = 1 -> fst p = None) st st' Mt T).
Qed.

Lemma HInv_labs names j st st' added :
  map o_labs st' = map o_labs st -> HInv names j st added -> HInv names j st' added.
Proof.
  intro M. apply HInv_store.
  - apply (f_equal (map (fun l : labs => let '(_, _, _, _, o) := l in o))) in M.
    rewrite !map_map in M. exact M.
  - apply (f_equal (map (fun l : labs => let '(_, t, _, r, _) := l in (t, r)))) in M.
    rewrite !map_map in M. exact M.
Qed.

Lemma label_tq nm id ft st nm' l : label_scaffold nm id ft st = Ok (nm', l) -> lb_rank l = 1 -> lb_tag l = None.
Proof.
  intros H R. destruct (label_tag_spec _ _ _ _ _ _ H) as (_ & _ & K & _).
  destruct (lb_tag l) as [tag|]; [|reflexivity].
  rewrite K in R by discriminate. discriminate R.
Qed.

Lemma one_bait_hinv names j input err sc_tags pname b bait b' :
  pos names (Some pname) = j ->
  HInv names j (b_store b) (b_added b) -> one_bait input err sc_tags pname b bait = Ok b' ->
  HInv names j (b_store b') (b_added b').
Proof.
  intros Hj HI H.
  destruct (RemapHead.one_bait_spec _ _ _ _ _ _ _ H) as (rows & _ & [[_ ->]|(fo & nm & lab & r1 & _ & EL & ET & Es & _ & _ & Ea)]);
    [exact HI|].
  pose proof (trim_large_labs _ _ _ ET) as L. unfold o_labs in L.
  cbn [set_labels o_name o_tag o_hap o_rank o_orig] in L. injection L as Ln Lt Lh Lr Lo.
  destruct HI as (R & S & B & T). rewrite Es.
  assert (T' : Forall (fun r => tq (o_labs r)) (b_store b ++ [r1])).
  { apply Forall_app. split; [exact T|]. constructor; [|constructor].
    unfold tq, o_labs. rewrite Lt, Lr. exact (label_tq _ _ _ _ _ _ EL). }
  assert (R' : Forall (fun id => 0 <= id < zlen (b_store b ++ [r1])) (b_added b)).
  { eapply Forall_impl; [|exact R]. cbv beta. intros id Hid. rewrite zlen_snoc. lia. }
  pose proof (KL_app_old names (b_store b) r1 (b_added b) R) as K.
  destruct Ea as [(_ & Ea & _)|(_ & Ea & _)]; rewrite Ea.
  - unfold HInv. rewrite K. auto.
  - assert (K2 : KL names (b_store b ++ [r1]) (b_added b ++ [zlen (b_store b)])
                 = KL names (b_store b) (b_added b) ++ [j]).
    { unfold KL at 1. rewrite map_app. fold (KL names (b_store b ++ [r1]) (b_added b)). rewrite K.
      cbn [map]. rewrite okey_new, Lo, Hj. reflexivity. }
    unfold HInv. rewrite K2. split; [|split; [|split; [|exact T']]].
    + apply Forall_app. split; [exact R'|]. constructor; [|constructor]. rewrite zlen_snoc. unfold zlen. lia.
    + apply SS_app_intro; [exact S | constructor; [constructor | constructor]|].
      intros x y Ix [<-|[]]. rewrite Forall_forall in B. exact (B x Ix).
    + apply Forall_app. split; [exact B|]. constructor; [lia | constructor].
Qed.

Lemma one_pretext_scaffold_hinv names j input err b pname prows b' :
  pos names (Some pname) = j ->
  HInv names j (b_store b) (b_added b) -> one_pretext_scaffold input err b (pname, prows) = Ok b' ->
  HInv names j (b_store b') (b_added b').
Proof.
  intros Hj HI H. destruct (RemapHead.one_pretext_spec _ _ _ _ _ _ H) as (nm & b1 & st & _ & EF & ER & ->).
  cbn [with_store b_store b_added].
  assert (I1 : HInv names j (b_store b1) (b_added b1)).
  { apply (foldM_inv_In (one_bait input err (fragment_tags prows) pname)
             (fun s => HInv names j (b_store s) (b_added s))) with (3 := EF); [|exact HI].
    intros s0 a s1 _ Hs E. eapply one_bait_hinv; eassumption. }
  destruct (rename_results_spec _ _ _ ER) as [R1 _].
  apply (HInv_store names j (b_store b1)); [apply R1; reflexivity | apply R1; reflexivity | exact I1].
Qed.

Lemma pretext_fold_hinv names input err : forall todo done b b',
  names = done ++ map fst todo -> NoDup names ->
  HInv names (length done) (b_store b) (b_added b) ->
  foldM (one_pretext_scaffold input err) todo b = Ok b' ->
  HInv names (length names) (b_store b') (b_added b').
Proof.
  induction todo as [|[pname prows] todo IH]; intros done b b' En N HI H; cbn [foldM] in H.
  - injection H as <-. cbn [map] in En. rewrite app_nil_r in En. subst done. exact HI.
  - unfold bind in H. destruct (one_pretext_scaffold input err b (pname, prows)) as [b1|] eqn:E; [|discriminate].
    cbn [map fst] in En.
    assert (Hj : pos names (Some pname) = length done).
    { cbn [pos]. rewrite En. apply index_of_app_new. rewrite En in N. apply NoDup_remove_2 in N.
      intro I. apply N. apply in_or_app. left. exact I. }
    pose proof (one_pretext_scaffold_hinv names (length done) input err b pname prows b1 Hj HI E) as I1.
    apply (IH (done ++ [pname]) b1 b'); [rewrite <- app_assoc; exact En | exact N | | exact H].
    rewrite app_length. cbn [length]. eapply HInv_mono; [|exact I1]. lia.
Qed.

Definition left_lab (sc : scaffold) : Prop := sc_rank sc = 3 /\ sc_orig sc = None.

Lemma leftovers_left_lab c g found : forall inp nm left nm' left',
  Forall left_lab left ->
  foldM (add_missing_one c g found) inp (nm, left) = Ok (nm', left') ->
  Forall left_lab left'.
Proof.
  intros inp nm left nm' left' F H.
  apply (foldM_inv_In (add_missing_one c g found) (fun s => Forall left_lab (snd s))) with (3 := H); [|exact F].
  intros [nm0 l0] [name rows] s' _ F0 E. cbn [snd] in F0.
  destruct (add_missing_one_spec _ _ _ _ _ _ _ _ E) as [[_ ->]|(nm2 & _ & _ & ->)]; cbn [snd]; [exact F0|].
  apply Forall_app. split; [exact F0|]. constructor; [split; reflexivity | constructor].
Qed.

Theorem head_order : forall c g prefix bpt input pretext rs,
  NoDup (map fst pretext) ->
  remap_to_input c g prefix bpt input pretext = Ok rs ->
  HInv (map fst pretext) (length (map fst pretext)) (b_store (rs_b rs)) (b_added (rs_b rs))
  /\ Forall left_lab (rs_left rs).
Proof.
  intros c g prefix bpt input pretext rs N H.
  destruct (RemapHead.remap_to_input_stages _ _ _ _ _ _ _ H) as (_ & b1 & b2 & b3 & st & [nm' left] & E1 & E2 & E3 & E4 & E5 & ->).
  cbn [rs_b rs_left with_namer with_store b_store b_added fst snd].
  set (names := map fst pretext) in *.
  assert (I1 : HInv names (length names) (b_store b1) (b_added b1)).
  { apply (pretext_fold_hinv names _ _ pretext [] _ b1) with (4 := E1); [reflexivity | exact N|].
    cbn [b_store b_added length]. unfold HInv, KL. cbn [map].
    repeat split; constructor. }
  destruct (discard_loop_labs _ _ _ _ E2) as (L2 & A2 & _).
  destruct (cut_remaining_labs _ _ _ E3) as (L3 & A3 & _).
  assert (I3 : HInv names (length names) (b_store b3) (b_added b3)).
  { rewrite A3, A2. apply (HInv_labs names _ (b_store b1)); [congruence | exact I1]. }
  destruct (rename_results_spec _ _ _ E4) as [R1 _].
  split.
  - apply (HInv_store names _ (b_store b3)); [apply R1; reflexivity | apply R1; reflexivity | exact I3].
  - exact (leftovers_left_lab c g _ _ _ _ _ _ (Forall_nil _) E5).
Qed.

Lemma fuse_step_cases c g acc sc isr :
  fuse_step c g acc (sc, isr) = acc
  \/ (exists l1 k v0 v l2, acc = l1 ++ (k, v0) :: l2 /\ fuse_step c g acc (sc, isr) = l1 ++ (k, v) :: l2
                           /\ sc_labs v = sc_labs v0)
  \/ (exists k v, fuse_step c g acc (sc, isr) = acc ++ [(k, v)] /\ sc_labs v = sc_labs sc).
Proof.
  destruct (sc_rows sc) as [|r0 rows0] eqn:Er; [left; apply fuse_step_empty, Er|]. right.
  rewrite fuse_step_spec by (rewrite Er; discriminate).
  destruct (aset_cases fuse_key_eqb fuse_key_eqb_eq acc (piece_key c sc)
              (fused_with c g (aget fuse_key_eqb acc (piece_key c sc)) sc isr))
    as [(l1 & v0 & l2 & E1 & E2 & E3)|[E1 E2]]; rewrite E2.
  - left. exists l1, (piece_key c sc), v0. eexists. exists l2.
    split; [exact E1|]. split; [reflexivity|]. rewrite E3. reflexivity.
  - right. eexists. eexists. split; [reflexivity|]. rewrite E1. reflexivity.
Qed.

Section FuseOrder.
  Variable key : scaffold -> nat.
  Hypothesis Hkey : forall a b, sc_labs a = sc_labs b -> key a = key b.

  Lemma fuse_fold_sorted c g : forall pieces acc,
    StronglySorted le (map key (map snd acc) ++ map key (map fst pieces)) ->
    StronglySorted le (map key (map snd (fold_left (fuse_step c g) pieces acc))).
  Proof.
    induction pieces as [|[sc isr] pieces IH]; intros acc H; cbn [fold_left].
    - cbn [map] in H. rewrite app_nil_r in H. exact H.
    - apply IH. cbn [map fst] in H.
      destruct (fuse_step_cases c g acc sc isr)
        as [E|[(l1 & k & v0 & v & l2 & E1 & E2 & E3)|(k & v & E2 & E3)]].
      + rewrite E. eapply SS_remove_mid. exact H.
      + rewrite E2, E1 in *. rewrite !map_app in *. cbn [map snd] in *.
        rewrite (Hkey v v0 E3). eapply SS_remove_mid. exact H.
      + rewrite E2, !map_app. cbn [map snd]. rewrite (Hkey v sc E3). rewrite <- app_assoc. exact H.
  Qed.
End FuseOrder.

Lemma results_keys names st : forall ids rs,
  mapM (get_ovr st) ids = Ok rs -> map (fun r => pos names (o_orig r)) rs = KL names st ids.
Proof.
  induction ids as [|id ids IH]; intros rs H; cbn [mapM] in H.
  - injection H as <-. reflexivity.
  - unfold bind in H. destruct (get_ovr st id) as [r|] eqn:G; [|discriminate].
    destruct (mapM (get_ovr st) ids) as [rs'|]; [|discriminate]. injection H as <-.
    unfold KL. cbn [map]. fold (KL names st ids). rewrite (IH rs' eq_refl). f_equal.
    unfold okey. apply RemapHead.get_ovr_nth in G.
    rewrite (nth_error_nth _ _ None (map_nth_error o_orig _ _ G)). reflexivity.
Qed.

Definition skey (names : list str) (sc : scaffold) : nat := pos names (sc_orig sc).

Lemma skey_labs names a b : sc_labs a = sc_labs b -> skey names a = skey names b.
Proof. unfold sc_labs, skey. intro E. injection E as _ _ _ _ E. rewrite E. reflexivity. Qed.

(* the fused scaffolds are in the order of the Pretext scaffolds; no rank-1 scaffold is tagged *)
Theorem fused_order : forall c g prefix bpt input pretext rs fused0,
  NoDup (map fst pretext) ->
  remap_to_input c g prefix bpt input pretext = Ok rs -> fuse_all c g rs = Ok fused0 ->
  StronglySorted le (map (skey (map fst pretext)) fused0)
  /\ Forall (fun sc => sc_rank sc = 1 -> sc_tag sc = None) fused0.
Proof.
  intros c g prefix bpt input pretext rs fused0 N H HF.
  destruct (head_order _ _ _ _ _ _ _ N H) as [(R & S & B & T) FL].
  set (names := map fst pretext) in *. split.
  - unfold fuse_all, bind in HF.
    destruct (mapM (get_ovr (b_store (rs_b rs))) (b_added (rs_b rs))) as [results|] eqn:M; [|discriminate].
    injection HF as <-. apply (fuse_fold_sorted (skey names) (skey_labs names)).
    cbn [map app]. rewrite !map_app, !map_map. cbn [fst piece_of_result].
    apply SS_app_intro.
    + change (fun x : ovr => skey names (mkScaffold (o_name x) (to_scaffold_rows x) (o_tag x) (o_hap x)
                                           (o_rank x) (o_orig x) (o_orig_tags x)))
        with (fun r : ovr => pos names (o_orig r)).
      rewrite (results_keys names _ _ _ M). exact S.
    + assert (EL : forall sc, In sc (rs_left rs) -> skey names sc = length names).
      { intros sc I. rewrite Forall_forall in FL. destruct (FL sc I) as [_ O]. unfold skey. rewrite O. reflexivity. }
      clear -EL. induction (rs_left rs) as [|sc l IH]; cbn [map]; constructor.
      * apply IH. intros x Ix. apply EL. right. exact Ix.
      * apply Forall_forall. intros y Iy. apply in_map_iff in Iy as (sc' & <- & I').
        rewrite (EL sc (or_introl eq_refl)), (EL sc' (or_intror I')). lia.
    + intros x y Ix Iy. apply in_map_iff in Iy as (sc & <- & Isc). rewrite Forall_forall in FL.
      destruct (FL sc Isc) as [_ O]. unfold skey at 1. rewrite O. cbn [pos].
      apply in_map_iff in Ix as (r & <- & _). unfold skey. apply pos_le.
  - assert (K : Forall (fun sc => tq (sc_labs sc)) fused0).
    { apply (fuse_all_labs tq c g rs fused0); [exact T | | exact HF].
      eapply Forall_impl; [|exact FL]. intros sc [R3 _]. unfold tq, sc_labs. intro X. lia. }
    exact K.
Qed.

Print Assumptions fused_order.
