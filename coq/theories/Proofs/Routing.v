(* Tag routing: which tag a piece gets (label_scaffold), Target mode is
   monotone, the namer does not depend on the iteration order of the tag set
   (C17), and pieces are routed through the fusion key (tag, haplotype, name)
   to the assembly of their tag (C09). *)
From Tola Require Import Py.Base Py.Dec Model.Fragment Model.Scaffold Model.Namer Model.Remap
  Proofs.BaseLemmas Proofs.JoinGaps.
From Coq Require Import Permutation.

Definition expected_tag (target : bool) (frag_tags scaffold_tags : list str) : option str :=
  if mem_str (s "FalseDuplicate") frag_tags then Some (s "FalseDuplicate")
  else if mem_str (s "Haplotig") frag_tags then Some (s "Haplotig")
  else if mem_str (s "Contaminant") frag_tags || (target && negb (mem_str (s "Target") scaffold_tags)) then Some (s "Contaminant")
  else None.

(* scaffold.name and the Contaminant test of label_scaffold *)
Definition cur_name (nm : namer) : str := match nm_cur_name nm with Some n => n | None => [] end.
Definition contaminant (nm : namer) (ft st : list str) : bool :=
  mem_str (s "Contaminant") ft || (nm_target nm && negb (mem_str (s "Target") st)).

(* the four ways label_scaffold succeeds, each with what it returns *)
Inductive label_res (nm : namer) (id : rid) (ft st : list str) : namer -> label -> Prop :=
  | LFalseDup : mem_str (s "FalseDuplicate") ft = true ->
      label_res nm id ft st nm (mkLabel (cur_name nm) (Some (s "FalseDuplicate")) (nm_cur_hap nm) 3)
  | LHaplotig : mem_str (s "FalseDuplicate") ft = false -> mem_str (s "Haplotig") ft = true ->
      label_res nm id ft st
        (mkNamer (nm_prefix nm) (nm_cur_name nm) (nm_cur_rank nm) (nm_cur_hap nm) (nm_hap_n nm + 1)
                 (nm_hap_scaffolds nm ++ [id]) (nm_primary nm) (nm_target nm)
                 (nm_unloc_n nm) (nm_unloc_scaffolds nm) (nm_hap_lc nm))
        (mkLabel (s "H_" ++ str_of_Z (nm_hap_n nm + 1)) (Some (s "Haplotig")) (nm_cur_hap nm) 3)
  | LUnloc : mem_str (s "FalseDuplicate") ft = false -> mem_str (s "Haplotig") ft = false ->
      mem_str (s "Unloc") ft = true -> mem_str (s "Painted") st = true ->
      label_res nm id ft st
        (mkNamer (nm_prefix nm) (nm_cur_name nm) (nm_cur_rank nm) (nm_cur_hap nm) (nm_hap_n nm)
                 (nm_hap_scaffolds nm) (nm_primary nm) (nm_target nm)
                 (nm_unloc_n nm + 1) (nm_unloc_scaffolds nm ++ [id]) (nm_hap_lc nm))
        (mkLabel (cur_name nm ++ s "_unloc_" ++ str_of_Z (nm_unloc_n nm + 1))
                 (if contaminant nm ft st then Some (s "Contaminant") else None) (nm_cur_hap nm)
                 (if contaminant nm ft st then 3 else nm_cur_rank nm))
  | LPlain : mem_str (s "FalseDuplicate") ft = false -> mem_str (s "Haplotig") ft = false ->
      mem_str (s "Unloc") ft = false ->
      label_res nm id ft st nm
        (mkLabel (cur_name nm) (if contaminant nm ft st then Some (s "Contaminant") else None)
                 (nm_cur_hap nm) (if contaminant nm ft st then 3 else nm_cur_rank nm)).

Lemma label_scaffold_inv nm id ft st nm' l :
  label_scaffold nm id ft st = Ok (nm', l) -> label_res nm id ft st nm' l.
Proof.
  unfold label_scaffold.
  destruct (mem_str (s "FalseDuplicate") ft) eqn:F; [intros [= <- <-]; apply LFalseDup, F|].
  destruct (mem_str (s "Haplotig") ft) eqn:Hp; [intros [= <- <-]; apply LHaplotig; assumption|].
  destruct (mem_str (s "Unloc") ft) eqn:U; [|intros [= <- <-]; apply LPlain; assumption].
  destruct (mem_str (s "Painted") st) eqn:P; [|discriminate].
  intros [= <- <-]. apply LUnloc; assumption.
Qed.

Theorem label_tag_spec : forall nm id ft st nm' l,
  label_scaffold nm id ft st = Ok (nm', l) ->
  lb_tag l = expected_tag (nm_target nm) ft st
  /\ lb_hap l = nm_cur_hap nm
  /\ (lb_tag l <> None -> lb_rank l = 3)
  /\ nm_target nm' = nm_target nm /\ nm_cur_hap nm' = nm_cur_hap nm
  /\ nm_cur_name nm' = nm_cur_name nm /\ nm_cur_rank nm' = nm_cur_rank nm.
Proof.
  intros nm id ft st nm' l H. unfold expected_tag.
  assert (C : forall c : bool, (if c then Some (s "Contaminant") else None) <> None -> (if c then 3 else nm_cur_rank nm) = 3)
    by (intros [|] N; [reflexivity | contradiction]).
  destruct (label_scaffold_inv _ _ _ _ _ _ H) as [F|F Hp|F Hp U P|F Hp U]; rewrite F, ?Hp;
    cbn [lb_tag lb_hap lb_rank nm_target nm_cur_hap nm_cur_name nm_cur_rank]; repeat split; auto.
Qed.

Theorem label_fails_only_unloc_unpainted : forall nm id ft st,
  label_scaffold nm id ft st = Err ValueError <->
  (mem_str (s "FalseDuplicate") ft = false /\ mem_str (s "Haplotig") ft = false
   /\ mem_str (s "Unloc") ft = true /\ mem_str (s "Painted") st = false).
Proof.
  intros nm id ft st. unfold label_scaffold.
  destruct (mem_str (s "FalseDuplicate") ft).
  { split; [discriminate | intros (E & _); discriminate]. }
  destruct (mem_str (s "Haplotig") ft).
  { split; [discriminate | intros (_ & E & _); discriminate]. }
  destruct (mem_str (s "Unloc") ft).
  - destruct (mem_str (s "Painted") st); cbn [negb].
    + split; [discriminate | intros (_ & _ & _ & E); discriminate].
    + split; auto.
  - split; [discriminate | intros (_ & _ & E & _); discriminate].
Qed.

Theorem label_err_is_value_error : forall nm id ft st e,
  label_scaffold nm id ft st = Err e -> e = ValueError.
Proof.
  intros nm id ft st e. unfold label_scaffold.
  destruct (mem_str (s "FalseDuplicate") ft); [discriminate|].
  destruct (mem_str (s "Haplotig") ft); [discriminate|].
  destruct (mem_str (s "Unloc") ft); [|discriminate].
  destruct (negb (mem_str (s "Painted") st)); [|discriminate].
  intros [= <-]. reflexivity.
Qed.

(* make_scaffold_name = scan of the (effective) tag set, then [finish] *)
Definition scan0 (nm : namer) : tagscan :=
  mkScan None None false None false (nm_target nm) (nm_hap_lc nm).
Definition eff_tags (rows : list row) (tags : list str) : list str :=
  match tags with [] => fragment_tags rows | _ => tags end.

Definition fin_hap (rows : list row) (sc : tagscan) : res (option str * list (str * str)) :=
  if truthy (ts_hap sc) then Ok (ts_hap sc, ts_lc sc)
  else
    do fn <- first_row_name rows;
    match haplotype_prefix_of_name fn with
    | Some p => let '(h, lc) := get_set_haplotype (ts_lc sc) p in Ok (Some h, lc)
    | None => Ok (None, ts_lc sc)
    end.

Definition fin_prim (nm : namer) (sc : tagscan) (hap : option str) (lc1 : list (str * str))
  : res (option str * list (str * str)) :=
  if ts_primary sc && negb (truthy (nm_primary nm)) then
    match hap with
    | Some (c :: h') => let '(p, lc2) := get_set_haplotype lc1 (c :: h') in Ok (Some p, lc2)
    | _ => Err TaggingError
    end
  else Ok (nm_primary nm, lc1).

Definition fin_name (sc_name0 : str) (rows : list row) (sc : tagscan) : res (str * Z) :=
  match ts_name sc with
  | Some n => Ok (n, match ts_rank sc with Some r => r | None => 2 end)
  | None =>
      if ts_painted sc then Ok (sc_name0, match ts_rank sc with Some r => r | None => 1 end)
      else do fn <- first_row_name rows; Ok (fn, 3)
  end.

Definition finish (nm : namer) (sc_name0 : str) (rows : list row) (sc : tagscan) : res namer :=
  do hap_lc <- fin_hap rows sc;
  let '(hap, lc1) := hap_lc in
  do prim_lc <- fin_prim nm sc hap lc1;
  let '(prim, lc2) := prim_lc in
  do nr <- fin_name sc_name0 rows sc;
  let '(name, rank) := nr in
  let cur_hap :=
    if truthy prim then
      (if opt_eqb str_eqb hap prim then Some (s "Primary") else hap)
    else hap in
  Ok (mkNamer (nm_prefix nm) (Some name) rank cur_hap (nm_hap_n nm) (nm_hap_scaffolds nm)
              prim (ts_target sc) 0 [] lc2).

Lemma make_scaffold_name_eq nm n rows tags :
  make_scaffold_name nm n rows tags =
  (do sc <- foldM scan_tag (eff_tags rows tags) (scan0 nm); finish nm n rows sc).
Proof. reflexivity. Qed.

Lemma make_scaffold_name_inv nm n rows tags nm' :
  make_scaffold_name nm n rows tags = Ok nm' ->
  exists sc hap lc1 prim lc2 name rank,
    foldM scan_tag (eff_tags rows tags) (scan0 nm) = Ok sc
    /\ fin_hap rows sc = Ok (hap, lc1) /\ fin_prim nm sc hap lc1 = Ok (prim, lc2)
    /\ fin_name n rows sc = Ok (name, rank)
    /\ nm' = mkNamer (nm_prefix nm) (Some name) rank
               (if truthy prim then (if opt_eqb str_eqb hap prim then Some (s "Primary") else hap) else hap)
               (nm_hap_n nm) (nm_hap_scaffolds nm) prim (ts_target sc) 0 [] lc2.
Proof.
  rewrite make_scaffold_name_eq. unfold finish, bind. intro H.
  destruct (foldM scan_tag (eff_tags rows tags) (scan0 nm)) as [sc|] eqn:E; [|discriminate].
  destruct (fin_hap rows sc) as [[hap lc1]|] eqn:E1; [|discriminate].
  destruct (fin_prim nm sc hap lc1) as [[prim lc2]|] eqn:E2; [|discriminate].
  destruct (fin_name n rows sc) as [[name rank]|] eqn:E3; [|discriminate].
  injection H as <-. exists sc, hap, lc1, prim, lc2, name, rank. auto.
Qed.

Lemma scan_painted st :
  scan_tag st (s "Painted")
  = Ok (mkScan (ts_name st) (ts_hap st) true (ts_rank st) (ts_primary st) (ts_target st) (ts_lc st)).
Proof. reflexivity. Qed.

Lemma make_scaffold_name_untagged nm name rows f t :
  rows = RF f :: t -> fragment_tags rows = [] ->
  exists nm', make_scaffold_name nm name rows [] = Ok nm'
              /\ nm_unloc_scaffolds nm' = []
              /\ nm_hap_scaffolds nm' = nm_hap_scaffolds nm
              /\ nm_target nm' = nm_target nm.
Proof.
  intros Hrows Htags. unfold make_scaffold_name. rewrite Htags. subst rows.
  cbn [foldM bind ts_hap ts_lc ts_primary ts_name ts_painted ts_rank ts_target truthy andb negb
       first_row_name].
  destruct (haplotype_prefix_of_name (f_name f)) as [p|] eqn:Ehp.
  - destruct (get_set_haplotype (nm_hap_lc nm) p) as [h lc] eqn:Egs.
    cbn [bind]. eexists. split; [reflexivity|].
    cbn [nm_unloc_scaffolds nm_hap_scaffolds nm_target]. repeat split; reflexivity.
  - cbn [bind]. eexists. split; [reflexivity|].
    cbn [nm_unloc_scaffolds nm_hap_scaffolds nm_target]. repeat split; reflexivity.
Qed.

(* the six classes of a tag; the empty string is no tag at all ("if not tag:
   continue") and goes with the tags that leave the scan state alone *)
Inductive tcls := CPainted | CTarget | CPrimary | CChr | CHap | COther.

Definition cls (tag : str) : tcls :=
  match tag with
  | [] => COther
  | _ :: _ =>
      if str_eqb tag (s "Painted") then CPainted
      else if str_eqb tag (s "Target") then CTarget
      else if str_eqb tag (s "Primary") then CPrimary
      else if looks_like_chr_name tag then CChr
      else if negb (mem_str tag other_known_tags) then CHap
      else COther
  end.

Definition scan_cls (st : tagscan) (tag : str) (c : tcls) : res tagscan :=
  match c with
  | CPainted => Ok (mkScan (ts_name st) (ts_hap st) true (ts_rank st) (ts_primary st) (ts_target st) (ts_lc st))
  | CTarget => Ok (mkScan (ts_name st) (ts_hap st) (ts_painted st) (ts_rank st) (ts_primary st) true (ts_lc st))
  | CPrimary => Ok (mkScan (ts_name st) (ts_hap st) (ts_painted st) (ts_rank st) true (ts_target st) (ts_lc st))
  | CChr =>
      match ts_name st with
      | Some n => if negb (str_eqb tag n) then Err TaggingError
                  else Ok (mkScan (Some tag) (ts_hap st) (ts_painted st) (Some 2) (ts_primary st) (ts_target st) (ts_lc st))
      | None => Ok (mkScan (Some tag) (ts_hap st) (ts_painted st) (Some 2) (ts_primary st) (ts_target st) (ts_lc st))
      end
  | CHap =>
      if truthy (ts_hap st) then Err TaggingError
      else
        let '(h, lc) := get_set_haplotype (ts_lc st) tag in
        Ok (mkScan (ts_name st) (Some h) (ts_painted st) (ts_rank st) (ts_primary st) (ts_target st) lc)
  | COther => Ok st
  end.

Lemma scan_tag_cls st tag : scan_tag st tag = scan_cls st tag (cls tag).
Proof.
  unfold scan_tag, cls. destruct tag as [|c0 tag0]; [reflexivity|].
  destruct (str_eqb (c0 :: tag0) (s "Painted")); [reflexivity|].
  destruct (str_eqb (c0 :: tag0) (s "Target")); [reflexivity|].
  destruct (str_eqb (c0 :: tag0) (s "Primary")); [reflexivity|].
  destruct (looks_like_chr_name (c0 :: tag0)); [reflexivity|].
  destruct (negb (mem_str (c0 :: tag0) other_known_tags)); reflexivity.
Qed.

(* what a tag of each class looks like; in particular only a non-empty string
   is ever taken for a haplotype *)
Lemma cls_cases tag :
  match cls tag with
  | CPainted => tag = s "Painted"
  | CTarget => tag = s "Target"
  | CPrimary => tag = s "Primary"
  | CChr => looks_like_chr_name tag = true
  | CHap => tag <> []
  | COther => True
  end.
Proof.
  unfold cls. destruct tag as [|c0 t0]; [exact I|].
  destruct (str_eqb (c0 :: t0) (s "Painted")) eqn:E1; [apply str_eqb_eq, E1|].
  destruct (str_eqb (c0 :: t0) (s "Target")) eqn:E2; [apply str_eqb_eq, E2|].
  destruct (str_eqb (c0 :: t0) (s "Primary")) eqn:E3; [apply str_eqb_eq, E3|].
  destruct (looks_like_chr_name (c0 :: t0)); [reflexivity|].
  destruct (negb (mem_str (c0 :: t0) other_known_tags)); [discriminate | exact I].
Qed.

Lemma cls_hap_nonempty tag : cls tag = CHap -> tag <> [].
Proof. intro C. pose proof (cls_cases tag) as H. rewrite C in H. exact H. Qed.

Lemma scan_tag_target_mono st tag st' :
  scan_tag st tag = Ok st' -> ts_target st = true -> ts_target st' = true.
Proof.
  rewrite scan_tag_cls. intros H T. destruct (cls tag); cbn [scan_cls] in H.
  1-3, 6: injection H as <-; auto.
  - destruct (ts_name st) as [n|]; [destruct (negb (str_eqb tag n)); [discriminate|]|];
      injection H as <-; exact T.
  - destruct (truthy (ts_hap st)); [discriminate|].
    destruct (get_set_haplotype (ts_lc st) tag). injection H as <-. exact T.
Qed.

Lemma foldM_scan_target_mono tags st st' :
  foldM scan_tag tags st = Ok st' -> ts_target st = true -> ts_target st' = true.
Proof.
  intros H T. apply (foldM_inv_In scan_tag (fun x => ts_target x = true) tags) with (s := st); [|exact T|exact H].
  intros s0 a s1 _ T0 E. exact (scan_tag_target_mono _ _ _ E T0).
Qed.

Lemma foldM_scan_target_set tags : forall st st',
  foldM scan_tag tags st = Ok st' -> In (s "Target") tags -> ts_target st' = true.
Proof.
  induction tags as [|t tags IH]; intros st st' H I; [destruct I|].
  cbn [foldM] in H. unfold bind in H. destruct (scan_tag st t) as [a|] eqn:E; [|discriminate].
  destruct I as [-> | I].
  - injection E as <-. eapply foldM_scan_target_mono; [exact H | reflexivity].
  - eapply IH; eauto.
Qed.

Theorem target_monotone_make : forall nm n rows tags nm',
  make_scaffold_name nm n rows tags = Ok nm' -> nm_target nm = true -> nm_target nm' = true.
Proof.
  intros nm n rows tags nm' H T.
  destruct (make_scaffold_name_inv _ _ _ _ _ H) as (sc & hap & lc1 & prim & lc2 & name & rank & E & _ & _ & _ & ->).
  exact (foldM_scan_target_mono _ _ _ E T).
Qed.

Theorem target_set_by_tag : forall nm n rows tags nm',
  make_scaffold_name nm n rows tags = Ok nm' ->
  tags <> [] -> In (s "Target") tags -> nm_target nm' = true.
Proof.
  intros nm n rows tags nm' H NE I.
  destruct (make_scaffold_name_inv _ _ _ _ _ H) as (sc & hap & lc1 & prim & lc2 & name & rank & E & _ & _ & _ & ->).
  apply (foldM_scan_target_set _ _ _ E). destruct tags; [contradiction | exact I].
Qed.

(* label_scaffold keeps Target mode (the fourth conjunct of label_tag_spec) *)
Theorem target_monotone_label : forall nm id ft st nm' l,
  label_scaffold nm id ft st = Ok (nm', l) -> nm_target nm = true -> nm_target nm' = true.
Proof.
  intros nm id ft st nm' l H T. apply label_tag_spec in H.
  destruct H as (_ & _ & _ & E & _). congruence.
Qed.

Theorem asm_key_of_tagged : forall sc t, sc_tag sc = Some t -> t <> [] -> asm_key_of sc = (Some t, false).
Proof.
  intros sc t E NE. unfold asm_key_of. rewrite E. destruct t; [contradiction | reflexivity].
Qed.

Theorem asm_key_of_untagged : forall sc, truthy (sc_tag sc) = false ->
  asm_key_of sc = (if truthy (sc_hap sc) then (sc_hap sc, true) else (None, true)).
Proof. intros sc E. unfold asm_key_of. rewrite E. reflexivity. Qed.

Definition key_of_piece (sc : scaffold) : fuse_key := (sc_tag sc, sc_hap sc, sc_name sc).
Definition fused_ok (acc : list (fuse_key * scaffold)) : Prop :=
  forall k b, aget fuse_key_eqb acc k = Some b -> key_of_piece b = k.

Lemma append_rows_suffix a b g : exists pre, append_rows a b g = pre ++ b.
Proof.
  unfold append_rows. destruct g as [g'|]; [destruct a as [|r a]|].
  - exists []. reflexivity.
  - exists ((r :: a) ++ [RG g']). rewrite <- app_assoc. reflexivity.
  - exists a. reflexivity.
Qed.

Lemma append_rows_prefix a b g : exists suf, append_rows a b g = a ++ suf.
Proof.
  unfold append_rows. destruct g as [g'|]; [destruct a as [|r a]|]; eexists; reflexivity.
Qed.

Theorem fuse_step_keeps_keys : forall g acc p, fused_ok acc -> fused_ok (fuse_step repaired g acc p).
Proof.
  intros g acc [sc isr] F.
  destruct (sc_rows sc) eqn:R; [rewrite fuse_step_empty by exact R; exact F|].
  intros k b H. rewrite fuse_step_aget in H by congruence.
  destruct (fuse_key_eqb k (piece_key repaired sc)) eqn:E; [|exact (F k b H)].
  apply fuse_key_eqb_eq in E. subst k. injection H as <-.
  destruct (aget fuse_key_eqb acc (piece_key repaired sc)) as [b0|] eqn:G; [exact (F _ _ G) | reflexivity].
Qed.

Theorem fuse_step_places_piece : forall g acc sc isr, sc_rows sc <> [] ->
  exists b pre, aget fuse_key_eqb (fuse_step repaired g acc (sc, isr)) (key_of_piece sc) = Some b
    /\ sc_rows b = pre ++ sc_rows sc.
Proof.
  intros g acc sc isr NE. rewrite fuse_step_aget by exact NE.
  change (piece_key repaired sc) with (key_of_piece sc).
  rewrite (proj2 (fuse_key_eqb_eq _ _) eq_refl).
  eexists. rewrite fused_with_rows. destruct (append_rows_suffix (match aget fuse_key_eqb acc (key_of_piece sc) with
    Some b => sc_rows b | None => [] end) (sc_rows sc) (join_gap repaired g isr)) as [pre P].
  exists pre. split; [reflexivity | exact P].
Qed.

Theorem fuse_step_only_appends : forall g acc p k b, aget fuse_key_eqb acc k = Some b ->
  exists b' suf, aget fuse_key_eqb (fuse_step repaired g acc p) k = Some b' /\ sc_rows b' = sc_rows b ++ suf.
Proof.
  intros g acc [sc isr] k b H.
  destruct (sc_rows sc) eqn:R.
  { rewrite fuse_step_empty by exact R. exists b, []. rewrite app_nil_r. auto. }
  rewrite fuse_step_aget by congruence.
  destruct (fuse_key_eqb k (piece_key repaired sc)) eqn:E; [|exists b, []; rewrite app_nil_r; auto].
  apply fuse_key_eqb_eq in E. subst k. rewrite H.
  destruct (append_rows_prefix (sc_rows b) (sc_rows sc) (join_gap repaired g isr)) as [suf P].
  eexists. exists suf. split; [reflexivity|]. rewrite fused_with_rows. exact P.
Qed.

Lemma fused_ok_nil : fused_ok [].
Proof. intros k b H. discriminate. Qed.

Lemma fold_fuse_keeps_keys g pieces : forall acc,
  fused_ok acc -> fused_ok (fold_left (fuse_step repaired g) pieces acc).
Proof.
  induction pieces as [|p pieces IH]; intros acc F; cbn [fold_left]; [exact F|].
  apply IH. apply fuse_step_keeps_keys. exact F.
Qed.

Lemma fold_fuse_only_appends g pieces : forall acc k b, aget fuse_key_eqb acc k = Some b ->
  exists b' suf, aget fuse_key_eqb (fold_left (fuse_step repaired g) pieces acc) k = Some b'
    /\ sc_rows b' = sc_rows b ++ suf.
Proof.
  induction pieces as [|p pieces IH]; intros acc k b H; cbn [fold_left].
  - exists b, []. rewrite app_nil_r. auto.
  - destruct (fuse_step_only_appends g acc p k b H) as (b1 & s1 & H1 & R1).
    destruct (IH _ _ _ H1) as (b2 & s2 & H2 & R2).
    exists b2, (s1 ++ s2). rewrite R2, R1, <- app_assoc. auto.
Qed.

(* the tag, haplotype and name of the scaffold found under a piece's key are the
   piece's, because every entry sits under its own key *)
Lemma routing_gen g pieces : forall acc sc isr,
  fused_ok acc -> In (sc, isr) pieces -> sc_rows sc <> [] ->
  exists b pre suf,
    aget fuse_key_eqb (fold_left (fuse_step repaired g) pieces acc) (key_of_piece sc) = Some b
    /\ sc_rows b = pre ++ sc_rows sc ++ suf
    /\ sc_tag b = sc_tag sc /\ sc_hap b = sc_hap sc /\ sc_name b = sc_name sc.
Proof.
  induction pieces as [|p pieces IH]; intros acc sc isr F I NE; [destruct I|].
  cbn [fold_left]. destruct I as [-> | I].
  - destruct (fuse_step_places_piece g acc sc isr NE) as (b1 & pre & H1 & R1).
    destruct (fold_fuse_only_appends g pieces _ _ _ H1) as (b2 & suf & H2 & R2).
    exists b2, pre, suf. split; [exact H2|]. split; [rewrite R2, R1, <- app_assoc; reflexivity|].
    pose proof (fold_fuse_keeps_keys g pieces _ (fuse_step_keeps_keys g acc (sc, isr) F) _ _ H2) as K.
    injection K as K1 K2 K3. auto.
  - eapply IH; eauto. apply fuse_step_keeps_keys. exact F.
Qed.

Lemma asm_key_of_ext a b : sc_tag a = sc_tag b -> sc_hap a = sc_hap b -> asm_key_of a = asm_key_of b.
Proof. intros E1 E2. unfold asm_key_of. rewrite E1, E2. reflexivity. Qed.

Theorem routing : forall g pieces sc isr, In (sc, isr) pieces -> sc_rows sc <> [] ->
  exists b pre suf, aget fuse_key_eqb (fold_left (fuse_step repaired g) pieces []) (key_of_piece sc) = Some b
    /\ sc_rows b = pre ++ sc_rows sc ++ suf /\ fst (asm_key_of b) = fst (asm_key_of sc).
Proof.
  intros g pieces sc isr I NE.
  destruct (routing_gen g pieces [] sc isr fused_ok_nil I NE) as (b & pre & suf & H & R & T & Hp & _).
  exists b, pre, suf. repeat split; auto. f_equal. apply asm_key_of_ext; auto.
Qed.

(* a tagged piece never sits in a fused scaffold that goes to a curated assembly *)
Corollary routing_tagged_not_curated : forall g pieces sc isr t,
  In (sc, isr) pieces -> sc_rows sc <> [] -> sc_tag sc = Some t -> t <> [] ->
  exists b pre suf, aget fuse_key_eqb (fold_left (fuse_step repaired g) pieces []) (key_of_piece sc) = Some b
    /\ sc_rows b = pre ++ sc_rows sc ++ suf /\ asm_key_of b = (Some t, false).
Proof.
  intros g pieces sc isr t I NE T Tn.
  destruct (routing_gen g pieces [] sc isr fused_ok_nil I NE) as (b & pre & suf & H & R & Tb & Hp & _).
  exists b, pre, suf. repeat split; auto. apply asm_key_of_tagged; congruence.
Qed.

Theorem legacy_fusion_refuted : exists g p1 p2 b, let c := mkCfg true true false true true in
  sc_tag (fst p2) = Some (s "Contaminant") /\ sc_rows (fst p2) <> [] /\
  aget fuse_key_eqb (fold_left (fuse_step c g) [p1; p2] []) (None, sc_hap (fst p2), sc_name (fst p2)) = Some b
  /\ sc_tag b = None /\ (exists pre, sc_rows b = pre ++ sc_rows (fst p2)).
Proof.
  pose (f1 := mkFrag 0 (s "c1") 1 5 1 []).
  pose (f2 := mkFrag 1 (s "c2") 1 7 1 [s "Contaminant"]).
  pose (g := mkGap 200 (s "scaffold")).
  exists g, (mkScaffold (s "S") [RF f1] None None 3 None [], true),
         (mkScaffold (s "S") [RF f2] (Some (s "Contaminant")) None 3 None [], true),
         (mkScaffold (s "S") [RF f1; RG g; RF f2] None None 3 None []).
  cbv zeta. split; [reflexivity|]. split; [discriminate|]. split; [vm_compute; reflexivity|].
  split; [reflexivity|]. exists [RF f1; RG g]. reflexivity.
Qed.

(* "both fail, or both succeed with the same value" *)
Definition req {A} (a b : res A) : Prop :=
  match a, b with
  | Ok x, Ok y => x = y
  | Err _, Err _ => True
  | _, _ => False
  end.

Lemma req_refl {A} (a : res A) : req a a.
Proof. destruct a; cbn; auto. Qed.

Lemma req_trans {A} (a b c : res A) : req a b -> req b c -> req a c.
Proof. destruct a, b, c; cbn; intros; try congruence; try contradiction; auto. Qed.

Lemma req_bind {A B} (a b : res A) (f : A -> res B) : req a b -> req (bind a f) (bind b f).
Proof. destruct a, b; cbn; intros H; try contradiction; [subst; apply req_refl | exact I]. Qed.

(* invariant of the lower-case haplotype dict: no empty spelling *)
Definition lc_ok (lc : list (str * str)) : Prop := Forall (fun p => snd p <> []) lc.

Lemma aget_str_In (lc : list (str * str)) k v : aget str_eqb lc k = Some v -> exists k', In (k', v) lc.
Proof.
  induction lc as [|[k0 v0] lc IH]; cbn [aget]; [discriminate|].
  destruct (str_eqb k k0).
  - intros [= <-]. exists k0. left. reflexivity.
  - intro H. destruct (IH H) as [k' I]. exists k'. right. exact I.
Qed.

Lemma get_set_haplotype_ok lc h h' lc' :
  lc_ok lc -> h <> [] -> get_set_haplotype lc h = (h', lc') -> h' <> [] /\ lc_ok lc'.
Proof.
  intros L NE. unfold get_set_haplotype.
  destruct (aget str_eqb lc (lower h)) as [v|] eqn:E; intros [= <- <-].
  - split; [|exact L]. destruct (aget_str_In _ _ _ E) as [k' I].
    unfold lc_ok in L. rewrite Forall_forall in L. exact (L _ I).
  - split; [exact NE|]. apply Forall_app. split; [exact L|]. constructor; [exact NE | constructor].
Qed.

Lemma scan_cls_lc_ok st tag c st' :
  lc_ok (ts_lc st) -> (c = CHap -> tag <> []) -> scan_cls st tag c = Ok st' -> lc_ok (ts_lc st').
Proof.
  intros L NE H. destruct c; cbn [scan_cls] in H.
  1-3: injection H as <-; exact L.
  - destruct (ts_name st) as [n|]; [destruct (negb (str_eqb tag n)); [discriminate|]|];
      injection H as <-; exact L.
  - destruct (truthy (ts_hap st)); [discriminate|].
    destruct (get_set_haplotype (ts_lc st) tag) as [h lc] eqn:G. injection H as <-.
    cbn [ts_lc]. eapply get_set_haplotype_ok; eauto.
  - injection H as <-. exact L.
Qed.

Lemma chr_chr_fails st x y : x <> y ->
  (do a <- scan_cls st x CChr; scan_cls a y CChr) = Err TaggingError.
Proof.
  intro N. assert (E : str_eqb y x = false) by (apply str_eqb_neq; congruence).
  cbn [scan_cls]. destruct (ts_name st) as [n|]; [destruct (negb (str_eqb x n)); [reflexivity|]|];
    cbn [bind ts_name]; rewrite E; reflexivity.
Qed.

Lemma hap_hap_fails st x y : lc_ok (ts_lc st) -> x <> [] ->
  (do a <- scan_cls st x CHap; scan_cls a y CHap) = Err TaggingError.
Proof.
  intros L NE. cbn [scan_cls]. destruct (truthy (ts_hap st)); [reflexivity|].
  destruct (get_set_haplotype (ts_lc st) x) as [h lc] eqn:G.
  destruct (get_set_haplotype_ok _ _ _ _ L NE G) as [Hh _].
  cbn [bind ts_hap]. destruct h; [contradiction | reflexivity].
Qed.

(* two chromosome-name tags fail in either order, so do two haplotype tags;
   every other pair of classes reads and writes different fields of the state *)
Lemma scan_cls_swap st x y cx cy :
  lc_ok (ts_lc st) -> (cx = CHap -> x <> []) -> (cy = CHap -> y <> []) -> x <> y ->
  req (do a <- scan_cls st x cx; scan_cls a y cy) (do a <- scan_cls st y cy; scan_cls a x cx).
Proof.
  intros L Nx Ny N.
  destruct cx, cy;
    try (rewrite (chr_chr_fails st x y N), (chr_chr_fails st y x (not_eq_sym N)); exact I);
    try (rewrite (hap_hap_fails st x y L (Nx eq_refl)), (hap_hap_fails st y x L (Ny eq_refl)); exact I);
    repeat (cbn [scan_cls bind ts_name ts_hap ts_painted ts_rank ts_primary ts_target ts_lc];
            match goal with
            | H : ?z = _ |- context [match ?z with _ => _ end] => rewrite H
            | |- context [match ?z with _ => _ end] => destruct z eqn:?
            end);
    cbn [req scan_cls bind ts_name ts_hap ts_painted ts_rank ts_primary ts_target ts_lc];
    try reflexivity; try exact I; try congruence.
Qed.

Definition scan_tag' (st : tagscan) (tag : str) : res tagscan := scan_cls st tag (cls tag).

Lemma foldM_ext {A S} (f g : S -> A -> res S) : (forall s a, f s a = g s a) ->
  forall l s, foldM f l s = foldM g l s.
Proof.
  intros E l. induction l as [|x l IH]; intro s0; cbn [foldM]; [reflexivity|].
  rewrite E. destruct (g s0 x); cbn [bind]; auto.
Qed.

(* no side condition on the list: equal neighbours swap trivially, empty
   strings leave the state alone *)
Lemma scan_perm l l' : Permutation l l' ->
  forall st, lc_ok (ts_lc st) -> req (foldM scan_tag' l st) (foldM scan_tag' l' st).
Proof.
  induction 1 as [| x l l' P IH | x y l | l l' l'' P1 IH1 P2 IH2]; intros st L.
  - apply req_refl.
  - cbn [foldM].
    destruct (scan_tag' st x) as [a|e] eqn:E; cbn [bind]; [|exact I].
    apply IH. unfold scan_tag' in E. eapply scan_cls_lc_ok; [exact L | apply cls_hap_nonempty | exact E].
  - destruct (str_eqb y x) eqn:Eyx; [apply str_eqb_eq in Eyx; subst y; apply req_refl|].
    apply str_eqb_neq in Eyx. cbn [foldM].
    pose proof (scan_cls_swap st y x (cls y) (cls x) L (cls_hap_nonempty y) (cls_hap_nonempty x) Eyx) as Hs.
    unfold scan_tag'.
    destruct (scan_cls st y (cls y)) as [a|]; destruct (scan_cls st x (cls x)) as [b|]; cbn [bind] in *.
    + destruct (scan_cls a x (cls x)) as [a'|]; destruct (scan_cls b y (cls y)) as [b'|];
        cbn [req bind] in *; try contradiction; [subst; apply req_refl | exact I].
    + destruct (scan_cls a x (cls x)) as [a'|]; cbn [req bind] in *; [contradiction | exact I].
    + destruct (scan_cls b y (cls y)) as [b'|]; cbn [req bind] in *; [contradiction | exact I].
    + exact I.
  - eapply req_trans; [apply IH1; assumption|]. apply IH2. exact L.
Qed.

Lemma scan_tag_perm l l' st : Permutation l l' -> lc_ok (ts_lc st) ->
  req (foldM scan_tag l st) (foldM scan_tag l' st).
Proof.
  intros P L.
  rewrite !(foldM_ext scan_tag scan_tag' scan_tag_cls). apply scan_perm; assumption.
Qed.

(* C17 for EVERY namer is false: a namer whose haplotype dict maps a lower-case
   haplotype to the empty spelling makes the first haplotype tag falsy, so a
   second one is accepted or rejected depending on the order. *)
Theorem tags_perm_needs_lc_ok : exists nm n rows tags tags',
  Permutation tags tags' /\ NoDup tags /\ ~ In [] tags /\ tags <> [] /\
  is_ok (make_scaffold_name nm n rows tags) = true /\
  is_ok (make_scaffold_name nm n rows tags') = false.
Proof.
  exists (mkNamer (s "SUPER_") None 0 None 0 [] None false 0 [] [(s "hap1", [])]),
         (s "Scaffold_1"), [RF (mkFrag 0 (s "c") 1 5 1 [])],
         [s "Hap1"; s "Hap2"], [s "Hap2"; s "Hap1"].
  split; [apply perm_swap|]. split.
  { constructor; [intros [X|[]]; discriminate X | constructor; [intros [] | constructor]]. }
  split; [intros [X|[X|[]]]; discriminate X|]. split; [discriminate|].
  split; vm_compute; reflexivity.
Qed.

(* ... and true of every namer whose haplotype dict has no empty spelling:
   only the tags that are actually scanned matter, in any order *)
Lemma eff_tags_perm_invariant nm n rows tags tags' :
  lc_ok (nm_hap_lc nm) -> Permutation (eff_tags rows tags) (eff_tags rows tags') ->
  req (make_scaffold_name nm n rows tags) (make_scaffold_name nm n rows tags').
Proof. intros L P. rewrite !make_scaffold_name_eq. apply req_bind, scan_tag_perm; assumption. Qed.

(* for ANY two orders of the same tags (duplicates, empty strings and the empty
   set -- which falls back to fragment_tags on both sides -- included) *)
Theorem tags_perm_invariant : forall nm n rows tags tags',
  lc_ok (nm_hap_lc nm) ->
  Permutation tags tags' ->
  match make_scaffold_name nm n rows tags, make_scaffold_name nm n rows tags' with
  | Ok a, Ok b => a = b
  | Err _, Err _ => True
  | _, _ => False
  end.
Proof.
  intros nm n rows tags tags' L P. apply (eff_tags_perm_invariant nm n rows tags tags' L).
  destruct tags as [|t0 tags0].
  { apply Permutation_nil in P. subst tags'. reflexivity. }
  destruct tags' as [|t0' tags0']; [|exact P].
  apply Permutation_sym, Permutation_nil in P. discriminate P.
Qed.

(* the same for the fall-back: any order of the fragment tags of the rows *)
Theorem fragment_tags_perm_invariant : forall nm n rows l,
  lc_ok (nm_hap_lc nm) -> l <> [] -> Permutation (fragment_tags rows) l ->
  match make_scaffold_name nm n rows [], make_scaffold_name nm n rows l with
  | Ok a, Ok b => a = b
  | Err _, Err _ => True
  | _, _ => False
  end.
Proof.
  intros nm n rows l L NE P. apply (eff_tags_perm_invariant nm n rows [] l L).
  destruct l; [contradiction | exact P].
Qed.

(* the pinned-commit scan (no "if not tag: continue"): the EMPTY tag is a
   falsy haplotype, and the outcome depends on the order of the tag set *)
Definition scan_tag_legacy (st : tagscan) (tag : str) : res tagscan :=
  if str_eqb tag (s "Painted") then
    Ok (mkScan (ts_name st) (ts_hap st) true (ts_rank st) (ts_primary st) (ts_target st) (ts_lc st))
  else if str_eqb tag (s "Target") then
    Ok (mkScan (ts_name st) (ts_hap st) (ts_painted st) (ts_rank st) (ts_primary st) true (ts_lc st))
  else if str_eqb tag (s "Primary") then
    Ok (mkScan (ts_name st) (ts_hap st) (ts_painted st) (ts_rank st) true (ts_target st) (ts_lc st))
  else if looks_like_chr_name tag then
    match ts_name st with
    | Some n => if negb (str_eqb tag n) then Err TaggingError
                else Ok (mkScan (Some tag) (ts_hap st) (ts_painted st) (Some 2) (ts_primary st) (ts_target st) (ts_lc st))
    | None => Ok (mkScan (Some tag) (ts_hap st) (ts_painted st) (Some 2) (ts_primary st) (ts_target st) (ts_lc st))
    end
  else if negb (mem_str tag other_known_tags) then
    if truthy (ts_hap st) then Err TaggingError
    else
      let '(h, lc) := get_set_haplotype (ts_lc st) tag in
      Ok (mkScan (ts_name st) (Some h) (ts_painted st) (ts_rank st) (ts_primary st) (ts_target st) lc)
  else Ok st.

Definition make_scaffold_name_legacy (nm : namer) (sc_name0 : str) (rows : list row) (tags : list str)
  : res namer :=
  do sc <- foldM scan_tag_legacy (eff_tags rows tags) (scan0 nm); finish nm sc_name0 rows sc.

Lemma scan_tag_legacy_nonempty st tag : tag <> [] -> scan_tag_legacy st tag = scan_tag st tag.
Proof. destruct tag; [contradiction | reflexivity]. Qed.

Lemma make_scaffold_name_legacy_agrees nm n rows tags :
  ~ In [] (eff_tags rows tags) ->
  make_scaffold_name_legacy nm n rows tags = make_scaffold_name nm n rows tags.
Proof.
  intro NI. rewrite make_scaffold_name_eq. unfold make_scaffold_name_legacy. f_equal.
  generalize (scan0 nm). induction (eff_tags rows tags) as [|t l IH]; intro st; cbn [foldM]; [reflexivity|].
  rewrite scan_tag_legacy_nonempty by (intro X; apply NI; left; exact X).
  destruct (scan_tag st t); cbn [bind]; [|reflexivity].
  apply IH. intro X. apply NI. right. exact X.
Qed.

Theorem tags_order_matters_with_empty_tag : exists nm n rows t1 t2,
  Permutation t1 t2 /\ is_ok (make_scaffold_name_legacy nm n rows t1) = true
  /\ is_ok (make_scaffold_name_legacy nm n rows t2) = false.
Proof.
  exists (new_namer (s "SUPER_")), (s "Scaffold_1"), [RF (mkFrag 0 (s "c") 1 5 1 [])],
         [[]; s "Hap1"], [s "Hap1"; []].
  split; [apply perm_swap|]. split; vm_compute; reflexivity.
Qed.

(* the repaired scan accepts that witness in both orders, with the same result *)
Theorem empty_tag_witness_repaired :
  let nm := new_namer (s "SUPER_") in
  let rows := [RF (mkFrag 0 (s "c") 1 5 1 [])] in
  exists r, make_scaffold_name nm (s "Scaffold_1") rows [[]; s "Hap1"] = Ok r
         /\ make_scaffold_name nm (s "Scaffold_1") rows [s "Hap1"; []] = Ok r.
Proof. vm_compute. eexists. split; reflexivity. Qed.

(* [lc_ok] is an invariant of the namer: it holds initially and is kept by
   label_scaffold and by make_scaffold_name *)
Lemma lc_ok_new_namer p : lc_ok (nm_hap_lc (new_namer p)).
Proof. constructor. Qed.

Lemma label_scaffold_hap_lc nm id ft st nm' l :
  label_scaffold nm id ft st = Ok (nm', l) -> nm_hap_lc nm' = nm_hap_lc nm.
Proof. intro H. destruct (label_scaffold_inv _ _ _ _ _ _ H); reflexivity. Qed.

Ltac dm H :=
  match type of H with
  | context [match ?x with _ => _ end] => destruct x eqn:?
  end.

(* every branch of the regex match that yields a prefix yields the first
   component of a span' that was matched against _ :: _ *)
Lemma haplotype_prefix_nonempty name p : haplotype_prefix_of_name name = Some p -> p <> [].
Proof.
  unfold haplotype_prefix_of_name. intro H.
  repeat (dm H; try discriminate). injection H as <-. discriminate.
Qed.

Lemma fin_hap_ok rows sc hap lc1 :
  lc_ok (ts_lc sc) -> fin_hap rows sc = Ok (hap, lc1) -> lc_ok lc1 /\ hap <> Some [].
Proof.
  intros L H. unfold fin_hap, bind in H.
  destruct (truthy (ts_hap sc)) eqn:T.
  { injection H as <- <-. split; [exact L|]. intro E. rewrite E in T. discriminate. }
  destruct (first_row_name rows) as [fn|]; [|discriminate].
  destruct (haplotype_prefix_of_name fn) as [p|] eqn:Ep; [|injection H as <- <-; split; [exact L | discriminate]].
  destruct (get_set_haplotype (ts_lc sc) p) as [h lc] eqn:G. injection H as <- <-.
  destruct (get_set_haplotype_ok _ _ _ _ L (haplotype_prefix_nonempty _ _ Ep) G) as [N L'].
  split; [exact L'|]. intros [= E]. contradiction.
Qed.

Lemma fin_prim_lc_ok nm sc hap lc1 prim lc2 : lc_ok lc1 -> fin_prim nm sc hap lc1 = Ok (prim, lc2) -> lc_ok lc2.
Proof.
  intros L H. unfold fin_prim in H.
  destruct (ts_primary sc && negb (truthy (nm_primary nm))); [|injection H as _ <-; exact L].
  destruct hap as [[|c h']|]; try discriminate.
  destruct (get_set_haplotype lc1 (c :: h')) as [p lc] eqn:G. injection H as _ <-.
  refine (proj2 (get_set_haplotype_ok lc1 (c :: h') p _ L _ G)). discriminate.
Qed.

Lemma foldM_scan_lc_ok tags st st' : lc_ok (ts_lc st) ->
  foldM scan_tag tags st = Ok st' -> lc_ok (ts_lc st').
Proof.
  apply (foldM_inv_In scan_tag (fun x => lc_ok (ts_lc x))). intros s0 t s1 _ L E.
  rewrite scan_tag_cls in E. exact (scan_cls_lc_ok _ _ _ _ L (cls_hap_nonempty t) E).
Qed.

Theorem make_scaffold_name_lc_ok : forall nm n rows tags nm',
  lc_ok (nm_hap_lc nm) ->
  make_scaffold_name nm n rows tags = Ok nm' -> lc_ok (nm_hap_lc nm').
Proof.
  intros nm n rows tags nm' L H.
  destruct (make_scaffold_name_inv _ _ _ _ _ H) as (sc & hap & lc1 & prim & lc2 & name & rank & E & E1 & E2 & _ & ->).
  eapply fin_prim_lc_ok; [|exact E2].
  exact (proj1 (fin_hap_ok _ _ _ _ (foldM_scan_lc_ok _ (scan0 nm) _ L E) E1)).
Qed.

Print Assumptions label_tag_spec.
Print Assumptions label_fails_only_unloc_unpainted.
Print Assumptions label_err_is_value_error.
Print Assumptions target_monotone_make.
Print Assumptions target_set_by_tag.
Print Assumptions target_monotone_label.
Print Assumptions tags_perm_invariant.
Print Assumptions fragment_tags_perm_invariant.
Print Assumptions tags_perm_needs_lc_ok.
Print Assumptions make_scaffold_name_lc_ok.
Print Assumptions make_scaffold_name_legacy_agrees.
Print Assumptions tags_order_matters_with_empty_tag.
Print Assumptions empty_tag_witness_repaired.
Print Assumptions asm_key_of_tagged.
Print Assumptions asm_key_of_untagged.
Print Assumptions fuse_step_keeps_keys.
Print Assumptions fuse_step_places_piece.
Print Assumptions fuse_step_only_appends.
Print Assumptions routing.
Print Assumptions routing_tagged_not_curated.
Print Assumptions legacy_fusion_refuted.
Print Assumptions make_scaffold_name_untagged.
