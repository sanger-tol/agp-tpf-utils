(* Deep cuts: a source fragment f that a bait overlaps in at least 3 error
   lengths ([deep]) stays in the bait's result: as its LAST row, untouched
   and ending where f ends ([ends_f]), if the bait ends inside f, as its FIRST
   row ([starts_f]) if the bait starts inside f.  This holds after the lookup
   (lookup_ends_f / lookup_starts_f) and survives every justified discard
   (Section Keep).  Proofs.CoreKeptDeepCut applies it to two abutting baits. *)
From Tola Require Import Py.Base Model.Fragment Model.Lookup
  Model.OverlapResult Model.RemapSpec
  Proofs.BaseLemmas Proofs.Rows Proofs.Lookup Proofs.OverlapResult Proofs.RemapHead Proofs.PipelineInv
  Proofs.CoreKeptGood Proofs.CoreKeptResolver Proofs.CoreKeptLookup Proofs.CoreKeptHeld.
From Coq Require Import Lia ZifyBool.

Lemma nodup_ids_notin_r a f c :
  NoDup (map f_id (frags_of (a ++ RF f :: c))) -> ~ In (RF f) c.
Proof.
  intros H Hin. rewrite frags_of_app, frags_of_RF, map_app in H. cbn [map] in H.
  apply NoDup_remove_2 in H. apply H. apply in_or_app. right.
  apply in_map. apply In_frags_of_iff. exact Hin.
Qed.

Lemma discard_start_shape r r' g t' f :
  o_rows r = RF g :: t' ++ [RF f] -> discard_start r = Ok r' ->
  (o_rows r' = [RF f] /\ all_gaps t' /\ o_start r' = o_start r + f_len g + rows_len t')
  \/ (exists gaps m rest', t' = gaps ++ RF m :: rest' /\ o_rows r' = RF m :: rest' ++ [RF f]).
Proof.
  intros Er H. destruct (discard_start_spec _ _ H) as (d & gaps & Erows & Hg & Hrest & _ & Er').
  rewrite Er in Erows. injection Erows as <- Et.
  destruct Hrest as [E0 | (m & t0 & E0)]; rewrite E0 in Et.
  - exfalso. rewrite app_nil_r in Et. apply (not_gap_in f gaps Hg). rewrite <- Et.
    apply in_or_app. right. left. reflexivity.
  - destruct (list_snoc_cases t0) as [-> | (t1 & x & ->)].
    + apply app_inj_tail in Et. destruct Et as [-> Ef]. injection Ef as <-.
      left. split; [exact E0|]. split; [exact Hg|]. rewrite Er'. reflexivity.
    + rewrite app_comm_cons, app_assoc in Et. apply app_inj_tail in Et. destruct Et as [-> <-].
      right. exists gaps, m, t1. split; [reflexivity | exact E0].
Qed.

Lemma discard_end_shape r r' f t' g :
  o_rows r = RF f :: t' ++ [RF g] -> discard_end r = Ok r' ->
  (o_rows r' = [RF f] /\ all_gaps t' /\ o_end r' = o_end r - f_len g - rows_len t')
  \/ (exists rest' m gaps, t' = rest' ++ RF m :: gaps /\ o_rows r' = RF f :: rest' ++ [RF m]).
Proof.
  intros Er H. destruct (discard_end_spec _ _ H) as (d & gaps & Erows & Hg & Hrest & _ & Er').
  rewrite Er, app_comm_cons in Erows. rewrite (app_assoc (o_rows r')) in Erows.
  apply app_inj_tail in Erows. destruct Erows as [Et <-].
  destruct Hrest as [E0 | (t0 & m & E0)]; rewrite E0 in Et.
  - exfalso. apply (not_gap_in f gaps Hg). cbn [app] in Et. rewrite <- Et. left. reflexivity.
  - destruct t0 as [|y t1]; cbn [app] in Et; injection Et as Ey Et.
    + subst m t'. left. split; [exact E0|]. split; [exact Hg|]. rewrite Er'. reflexivity.
    + subst y t'. right. exists t1, m, gaps. split; [rewrite <- app_assoc; reflexivity | exact E0].
Qed.

(* f, untouched and spanning lo .. hi, is the last (first) row of r *)
Definition ends_f (f : frag) (lo hi : Z) (r : ovr) : Prop :=
  o_end r = hi
  /\ ((o_rows r = [RF f] /\ o_start r = lo)
      \/ exists g t', o_rows r = RF g :: t' ++ [RF f] /\ f_id g <> f_id f).

Definition starts_f (f : frag) (lo hi : Z) (r : ovr) : Prop :=
  o_start r = lo
  /\ ((o_rows r = [RF f] /\ o_end r = hi)
      \/ exists t' g, o_rows r = RF f :: t' ++ [RF g] /\ f_id g <> f_id f).

Lemma ends_f_last f lo hi r : ends_f f lo hi r -> exists t, o_rows r = t ++ [RF f].
Proof.
  intros (_ & [[Er _] | (g & t' & Er & _)]); [exists []; exact Er | exists (RF g :: t'); exact Er].
Qed.

Lemma starts_f_first f lo hi r : starts_f f lo hi r -> exists t, o_rows r = RF f :: t.
Proof.
  intros (_ & [[Er _] | (t' & g & Er & _)]); [exists []; exact Er | exists (t' ++ [RF g]); exact Er].
Qed.

(* a bait that ends inside the span of source row f: the run the lookup
   returns ends with f; one that starts inside it: the run begins with f *)
Lemma lookup_ends_f src bait fo a0 f c0 :
  pos_rows src -> NoDup (map f_id (frags_of src)) -> src = a0 ++ RF f :: c0 ->
  f_start bait <= f_end bait ->
  rows_len a0 + 1 <= f_end bait <= rows_len a0 + f_len f ->
  lookup_spec src (f_start bait) (f_end bait) (Some fo) ->
  ends_f f (rows_len a0 + 1) (rows_len a0 + f_len f) (ovr_of_found bait fo).
Proof.
  intros Hp Hnd Esrc Hb Hx (i & j & L & R & S1 & E1 & (o1 & Ho1) & (o2 & Ho2) & Mi & Mj & U).
  unfold ends_f. cbn [ovr_of_found o_rows o_start o_end].
  destruct (split_span _ _ _ _ Esrc) as (Hk & Hks & Hke). cbn [row_len] in Hke.
  set (k := length a0) in *.
  assert (Mk : meets src (f_start bait) (f_end bait) k) by (unfold meets; lia).
  pose proof (U k (ex_intro _ f Hk) Mk) as Lk.
  assert (Ej : j = k).
  { destruct (Nat.eq_dec j k) as [E|N]; [exact E|]. exfalso.
    assert (G := pre_mono_le src Hp (S k) j ltac:(lia)). unfold Lookup.pre in G.
    unfold meets, span_start, span_end in *. lia. }
  subst j. rewrite Hk in Ho2. injection Ho2 as <-.
  split; [rewrite E1; exact Hke|]. rewrite R.
  destruct (Nat.eq_dec i k) as [Ei|Ni].
  - left. subst i. rewrite Hk in Ho1. injection Ho1 as <-. split; [|rewrite S1, Hks; lia].
    replace (S k - k)%nat with 1%nat by lia. rewrite (skipn_nth_cons _ _ _ Hk). reflexivity.
  - right. destruct (slice_shape src i k o1 f ltac:(lia) Ho1 Hk) as [[_ E] | E]; [contradiction|].
    eexists o1, _. split; [exact E|]. intros Eid.
    assert (o1 = f).
    { apply (NoDup_map_inj f_id (frags_of src)); [exact Hnd | | | exact Eid]; apply In_frags_of_iff.
      - eapply nth_error_In. exact Ho1.
      - rewrite Esrc. apply in_or_app. right. left. reflexivity. }
    subst o1. apply (nodup_ids_notin a0 f c0); [rewrite <- Esrc; exact Hnd|].
    rewrite Esrc, nth_error_app1 in Ho1 by (fold k; lia). eapply nth_error_In. exact Ho1.
Qed.

Lemma lookup_starts_f src bait fo a0 f c0 :
  pos_rows src -> NoDup (map f_id (frags_of src)) -> src = a0 ++ RF f :: c0 ->
  f_start bait <= f_end bait ->
  rows_len a0 + 1 <= f_start bait <= rows_len a0 + f_len f ->
  lookup_spec src (f_start bait) (f_end bait) (Some fo) ->
  starts_f f (rows_len a0 + 1) (rows_len a0 + f_len f) (ovr_of_found bait fo).
Proof.
  intros Hp Hnd Esrc Hb Hx (i & j & L & R & S1 & E1 & (o1 & Ho1) & (o2 & Ho2) & Mi & Mj & U).
  unfold starts_f. cbn [ovr_of_found o_rows o_start o_end].
  destruct (split_span _ _ _ _ Esrc) as (Hk & Hks & Hke). cbn [row_len] in Hke.
  set (k := length a0) in *.
  assert (Mk : meets src (f_start bait) (f_end bait) k) by (unfold meets; lia).
  pose proof (U k (ex_intro _ f Hk) Mk) as Lk.
  assert (Ei : i = k).
  { destruct (Nat.eq_dec i k) as [E|N]; [exact E|]. exfalso.
    assert (G := pre_mono_le src Hp (S i) k ltac:(lia)). unfold Lookup.pre in G.
    unfold meets, span_start, span_end in *. lia. }
  subst i. rewrite Hk in Ho1. injection Ho1 as <-.
  split; [rewrite S1, Hks; lia|]. rewrite R.
  destruct (Nat.eq_dec j k) as [Ej|Nj].
  - left. subst j. split; [|rewrite E1; exact Hke].
    replace (S k - k)%nat with 1%nat by lia. rewrite (skipn_nth_cons _ _ _ Hk). reflexivity.
  - right. destruct (slice_shape src k j f o2 ltac:(lia) Hk Ho2) as [[_ E] | E]; [lia|].
    eexists _, o2. split; [exact E|]. intros Eid.
    assert (o2 = f).
    { apply (NoDup_map_inj f_id (frags_of src)); [exact Hnd | | | exact Eid]; apply In_frags_of_iff.
      - eapply nth_error_In. exact Ho2.
      - rewrite Esrc. apply in_or_app. right. left. reflexivity. }
    subst o2. apply (nodup_ids_notin_r a0 f c0); [rewrite <- Esrc; exact Hnd|].
    rewrite Esrc, nth_error_app2 in Ho2 by (fold k; lia). fold k in Ho2.
    destruct (j - k)%nat as [|n] eqn:En; [lia|]. cbn [nth_error] in Ho2.
    eapply nth_error_In. exact Ho2.
Qed.

Section Keep.
  Variables (err : Z) (src : list row) (f : frag) (lo hi : Z).
  Hypothesis Herr : 1 <= err.
  Hypothesis Hp : pos_rows src.
  Hypothesis Hnd : NoDup (map f_id (frags_of src)).
  Hypothesis Elh : hi = lo + f_len f - 1.

  (* bait b overlaps lo .. hi in at least 3 error lengths *)
  Definition deep (b : frag) : Prop :=
    3 * err <= f_end b - f_start b + 1 /\ 3 * err <= f_end b - lo + 1
    /\ 3 * err <= hi - f_start b + 1 /\ 3 * err <= hi - lo + 1.

  Lemma ends_f_no_de r : GoodU err src r -> deep (o_bait r) -> ends_f f lo hi r -> ~ just_end err r.
  Proof using All.
    intros HG (D1 & D2 & D3 & D4) HE. destruct (ends_f_last _ _ _ _ HE) as (t & Er).
    destruct HE as (He & _).
    pose proof (GoodU_rows_pos _ _ _ Hp HG) as Hr. rewrite Er in Hr. apply pos_rows_app in Hr.
    apply (no_just_end err r t f Herr Er (proj1 Hr)); lia.
  Qed.

  Lemma starts_f_no_ds r : GoodU err src r -> deep (o_bait r) -> starts_f f lo hi r -> ~ just_start err r.
  Proof using All.
    intros HG (D1 & D2 & D3 & D4) HS. destruct (starts_f_first _ _ _ _ HS) as (t & Er).
    destruct HS as (Hs & _).
    pose proof (GoodU_rows_pos _ _ _ Hp HG) as Hr. rewrite Er in Hr.
    apply (no_just_start err r f t Herr Er (Forall_inv_tail Hr)); lia.
  Qed.

  (* the other end may go, down to the single row f *)
  Lemma ends_f_ds r r' :
    GoodU err src r -> deep (o_bait r) -> ends_f f lo hi r -> just_start err r ->
    discard_start r = Ok r' -> ends_f f lo hi r'.
  Proof using All.
    intros HG HD (He & Hshape) Hj Hd. destruct (discard_start_bait _ _ Hd) as [_ Een].
    split; [rewrite Een; exact He|].
    destruct Hshape as [[Er Es] | (g & t' & Er & Hne)].
    - exfalso. apply (starts_f_no_ds r HG HD); [|exact Hj].
      split; [exact Es|]. left. split; assumption.
    - destruct (discard_start_shape _ _ _ _ _ Er Hd) as [(Er' & Hg & Es') | (gaps & m & rest' & Et & Er')].
      + left. split; [exact Er'|].
        pose proof (good_end err src r (RF g :: t') f HG Er) as Hend.
        rewrite rows_len_cons in Hend. cbn [row_len] in Hend. lia.
      + right. exists m, rest'. split; [exact Er'|].
        pose proof (GoodU_rows_nodup f_id _ _ _ Hnd HG) as Hn. rewrite Er, Et in Hn.
        replace (RF g :: (gaps ++ RF m :: rest') ++ [RF f])
          with ((RF g :: gaps) ++ RF m :: rest' ++ [RF f]) in Hn
          by (cbn [app]; rewrite <- app_assoc; reflexivity).
        rewrite frags_of_app, map_app in Hn. apply NoDup_app_r in Hn.
        rewrite frags_of_RF in Hn. cbn [map] in Hn. inversion Hn as [|? ? Hni _].
        intros E. apply Hni. rewrite E. apply in_map. apply In_frags_of_iff.
        apply in_or_app. right. left. reflexivity.
  Qed.

  Lemma starts_f_de r r' :
    GoodU err src r -> deep (o_bait r) -> starts_f f lo hi r -> just_end err r ->
    discard_end r = Ok r' -> starts_f f lo hi r'.
  Proof using All.
    intros HG HD (Hs & Hshape) Hj Hd. destruct (discard_end_bait _ _ Hd) as [_ Est].
    split; [rewrite Est; exact Hs|].
    destruct Hshape as [[Er Ee] | (t' & g & Er & Hne)].
    - exfalso. apply (ends_f_no_de r HG HD); [|exact Hj].
      split; [exact Ee|]. left. split; assumption.
    - destruct (discard_end_shape _ _ _ _ _ Er Hd) as [(Er' & Hg & Ee') | (rest' & m & gaps & Et & Er')].
      + left. split; [exact Er'|].
        change (RF f :: t' ++ [RF g]) with ((RF f :: t') ++ [RF g]) in Er.
        pose proof (good_end err src r (RF f :: t') g HG Er) as Hend.
        rewrite rows_len_cons in Hend. cbn [row_len] in Hend. lia.
      + right. exists rest', m. split; [exact Er'|].
        pose proof (GoodU_rows_nodup f_id _ _ _ Hnd HG) as Hn. rewrite Er, Et in Hn.
        rewrite frags_of_RF in Hn. cbn [map] in Hn. inversion Hn as [|? ? Hni _].
        intros E. apply Hni. rewrite <- E. apply in_map. apply In_frags_of_iff.
        apply in_or_app. left. apply in_or_app. right. left. reflexivity.
  Qed.
End Keep.

Section DeepK.
  Variable inp : list (str * list row).
  Variable err : Z.
  Variable all : list frag.
  Hypothesis Hids : NoDup (map f_id (in_frags inp)).
  Hypothesis Hidpos : Forall (fun f => 0 <= f_id f) (in_frags inp).
  Hypothesis Hnames : NoDup (map fst inp).
  Hypothesis Hposr : forall name src, In (name, src) inp -> pos_rows src.
  Hypothesis Herr : 1 <= err.
  Hypothesis Hall : Forall (fun b => 1 <= f_start b <= f_end b) all.

  Variables b1 b2 : frag.
  Variable src a0 c0 : list row.
  Variable f : frag.
  Hypothesis Hb1 : In b1 all.
  Hypothesis Hb2 : In b2 all.
  Hypothesis Hname : f_name b1 = f_name b2.
  Hypothesis Habut : f_end b1 + 1 = f_start b2.
  Hypothesis Hsrc : In (f_name b1, src) inp.
  Hypothesis Esrc : src = a0 ++ RF f :: c0.
  Let lo := rows_len a0 + 1.
  Let hi := rows_len a0 + f_len f.
  Hypothesis Hov1 : 3 * err <= Z.min (f_end b1) hi - Z.max (f_start b1) lo + 1.
  Hypothesis Hov2 : 3 * err <= Z.min (f_end b2) hi - Z.max (f_start b2) lo + 1.

  Lemma b1_valid : 1 <= f_start b1 <= f_end b1.
  Proof. rewrite Forall_forall in Hall. apply Hall. exact Hb1. Qed.

  Lemma b2_valid : 1 <= f_start b2 <= f_end b2.
  Proof. rewrite Forall_forall in Hall. apply Hall. exact Hb2. Qed.

  Lemma src_pos : pos_rows src.
  Proof. eapply Hposr. exact Hsrc. Qed.

  Lemma f_len_pos : 1 <= f_len f.
  Proof.
    apply (pos_rows_In src (RF f) src_pos). rewrite Esrc. apply in_or_app. right. left. reflexivity.
  Qed.

  Lemma facts : lo <= f_end b1 /\ f_start b2 <= hi /\ lo <= hi.
  Proof. pose proof f_len_pos. pose proof b1_valid. pose proof b2_valid. unfold lo, hi in *. lia. Qed.

  Lemma at_pos_f : at_pos src f lo.
  Proof. exists a0, c0. split; [exact Esrc | reflexivity]. Qed.

  Let k := length a0.

  Lemma k_facts : nth_error src k = Some (RF f) /\ span_start src k = lo /\ span_end src k = hi.
  Proof.
    destruct (split_span _ _ _ _ Esrc) as (H1 & H2 & H3). cbn [row_len] in H3.
    split; [exact H1|]. unfold lo, hi, k. split; lia.
  Qed.

  Lemma k_lt : (k < length src)%nat.
  Proof. apply nth_error_Some. destruct k_facts as (H & _). fold k in H. congruence. Qed.
End DeepK.
