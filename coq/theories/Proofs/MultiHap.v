(* ChrNamer (name_chromosomes) on MULTI-haplotype maps: "the first haplotype
   decides and homologues grouped with it share the number" (property C10).

   Vocabulary.  The rank-1 scaffolds reach ChrNamer as a list of
   (haplotype, index into [fused]).  We cut that list into
     sub    = (Pretext scaffold name o, indices)   one main scaffold and its unlocs
     run    = (haplotype h, list of subs)          consecutive Pretext scaffolds of h
     chrom  = list of runs, pairwise different haplotypes
   A [chrom] has the very type of the model's [chr_group]; the group that the
   model builds for it is the chromosome itself re-ordered into the order of
   [haps] and padded with empty haplotypes: [group_of haps c].

   The grouping loop on any list of chromosomes that are separated ([sep])
   yields exactly one group per chromosome, [group_of haps c]; nothing is
   assumed about the order of the haplotypes inside a chromosome or about
   every haplotype being present.  check_groups passes iff every chromosome
   has exactly one Pretext scaffold in the FIRST haplotype.  The numbers go by
   rank of the FIRST haplotype's length ([ranked]), the same number for every
   haplotype of the group, letters A, B, ... when a haplotype has several
   Pretext scaffolds in the group; ChrNamerError otherwise.  The examples at
   the end, some with chromosomes not seen in every haplotype, all agree with
   the Python ChrNamer run on the same inputs. *)
From Tola Require Import Py.Base Py.Dec Py.Sort Model.Fragment Model.Scaffold Model.Remap.
From Tola Require Import Proofs.BaseLemmas Proofs.NaturalKey Proofs.Naming Proofs.UniqueNames.
From Coq Require Import Lia ZifyBool Permutation Sorted.

Lemma aget_snoc {V} (d : list (str * V)) k v : ~ In k (map fst d) -> aget str_eqb (d ++ [(k, v)]) k = Some v.
Proof. intro H. rewrite aget_app, (aget_notin _ str_eqb_eq) by exact H. cbn [aget]. rewrite str_eqb_refl. reflexivity. Qed.

Lemma aset_snoc {V} (d : list (str * V)) k v v' : ~ In k (map fst d) ->
  aset str_eqb (d ++ [(k, v)]) k v' = d ++ [(k, v')].
Proof.
  induction d as [|[k0 v0] d IH]; cbn [aset map fst In app]; intro H.
  - rewrite str_eqb_refl. reflexivity.
  - destruct (str_eqb k k0) eqn:E; [apply str_eqb_eq in E; subst; tauto|]. rewrite IH by tauto. reflexivity.
Qed.

Lemma group_hap_head (c : chr_group) h d : group_hap ((h, d) :: c) h = d.
Proof. unfold group_hap. cbn [aget]. rewrite str_eqb_refl. reflexivity. Qed.

Lemma NoDup_pair {A} (a b : A) : a <> b -> NoDup [a; b].
Proof. intro H. constructor; [intros [X|[]]; congruence|]. constructor; [intros [] | constructor]. Qed.

Lemma group_hap_in (c : chr_group) h d : NoDup (map fst c) -> In (h, d) c -> group_hap c h = d.
Proof. intros N I. unfold group_hap. rewrite (In_aget _ str_eqb_eq c h d N I). reflexivity. Qed.

Lemma group_hap_notin (c : chr_group) h : ~ In h (map fst c) -> group_hap c h = [].
Proof. intro H. unfold group_hap. rewrite (aget_notin _ str_eqb_eq) by exact H. reflexivity. Qed.

Lemma group_hap_snoc_same (c1 : chr_group) h d : ~ In h (map fst c1) -> group_hap (c1 ++ [(h, d)]) h = d.
Proof. intro H. unfold group_hap. rewrite aget_snoc by exact H. reflexivity. Qed.

Lemma group_hap_snoc_other (c1 : chr_group) h d x : x <> h -> group_hap (c1 ++ [(h, d)]) x = group_hap c1 x.
Proof.
  intro H. unfold group_hap. rewrite aget_app. destruct (aget str_eqb c1 x) as [v|]; [reflexivity|].
  cbn [aget]. destruct (str_eqb x h) eqn:F; [apply str_eqb_eq in F; contradiction | reflexivity].
Qed.

Lemma last_cons_dflt {A} : forall (cs : list A) x c, last (x :: cs) c = last cs x.
Proof.
  induction cs as [|y cs IH]; intros x c; [reflexivity|].
  change (last (x :: y :: cs) c) with (last (y :: cs) c). rewrite !IH. reflexivity.
Qed.

Lemma app_cons_snoc {A} (a : list A) x b : a ++ x :: b = (a ++ [x]) ++ b.
Proof. rewrite <- app_assoc. reflexivity. Qed.

Lemma NoDup_keys_mid {A B} (a : list (A * B)) x b : NoDup (map fst (a ++ x :: b)) -> ~ In (fst x) (map fst a).
Proof.
  rewrite map_app. cbn [map]. intros N I. apply (NoDup_remove_2 _ _ _ N). apply in_or_app. left. exact I.
Qed.

Notation sub := (str * list nat)%type (only parsing).
Notation chrom := (list (str * list (str * list nat))) (only parsing).

Definition sub_items (h : str) (sb : sub) : list (str * nat) := map (fun i => (h, i)) (snd sb).
Definition run_items (r : str * list sub) : list (str * nat) := flat_map (sub_items (fst r)) (snd r).
Definition chrom_items (c : chrom) : list (str * nat) := flat_map run_items c.
Definition items_of (chrs : list chrom) : list (str * nat) := flat_map chrom_items chrs.

(* the scaffold fused[i] carries the tag "Singleton" (as the model looks it up) *)
Definition singleton_at (fused : list scaffold) (i : nat) : bool :=
  match nth_error fused i with
  | Some sj => mem_str (s "Singleton") (sc_orig_tags sj)
  | None => false
  end.

Definition first_idx (sb : sub) : nat := hd 0%nat (snd sb).
Definition dflt_sub : sub := ([], []).
Definition dflt_run : str * list sub := ([], []).
Definition end_hap (c : chrom) : str := fst (last c dflt_run).
Definition end_sub (c : chrom) : sub := last (snd (last c dflt_run)) dflt_sub.
Definition end_orig (c : chrom) : str := fst (end_sub c).

Definition grp (haps : list str) (f : str -> list sub) : chr_group := map (fun h => (h, f h)) haps.
Definition group_of (haps : list str) (c : chrom) : chr_group := grp haps (group_hap c).

Section Grouping.
  Variable fused : list scaffold.
  Variable haps : list str.
  Hypothesis Hnd : NoDup haps.

  Definition orig_at (o : str) (i : nat) : Prop :=
    exists sc, nth_error fused i = Some sc /\ sc_orig sc = Some o.
  Definition sub_ok (sb : sub) : Prop :=
    fst sb <> [] /\ snd sb <> [] /\ Forall (orig_at (fst sb)) (snd sb).
  Definition not_singleton (sb : sub) : Prop := singleton_at fused (first_idx sb) = false.
  (* the last clause: a Pretext scaffold tagged Singleton that is not the last
     of its run would make the model open a new group inside the run *)
  Definition run_ok (r : str * list sub) : Prop :=
    In (fst r) haps /\ snd r <> [] /\ Forall sub_ok (snd r) /\ NoDup (map fst (snd r))
    /\ Forall not_singleton (removelast (snd r)).
  Definition chrom_ok (c : chrom) : Prop := c <> [] /\ Forall run_ok c /\ NoDup (map fst c).

  (* [c'] comes right after [c] in the map and is NOT merged into its group:
     the group already has the haplotype of the first member of [c'] (the
     model's test "group.haplotype_dict(haplotype)"), and either that is not the
     haplotype seen last, or the Pretext name changes and the previous scaffold
     is tagged Singleton (the two branches of build_groups that open a group) *)
  Definition sep (c c' : chrom) : Prop :=
    match c' with
    | (h', sb' :: _) :: _ =>
        In h' (map fst c)
        /\ (h' <> end_hap c
            \/ (fst sb' <> end_orig c /\ singleton_at fused (first_idx (end_sub c)) = true))
    | _ => False
    end.
  Fixpoint seps (l : list chrom) : Prop :=
    match l with
    | a :: (b :: _) as t => sep a b /\ seps t
    | _ => True
    end.

  Local Notation step := (build_groups_step fused haps true).
  Local Notation need_new cur lh lo h o := (need_new_group fused true cur h o lh lo).

  Lemma aget_map_key (f : str -> list sub) : forall hs h, In h hs ->
    aget str_eqb (map (fun h => (h, f h)) hs) h = Some (f h).
  Proof.
    induction hs as [|a hs IH]; intros h I; [destruct I|]. cbn [map aget].
    destruct (str_eqb h a) eqn:E; [apply str_eqb_eq in E; subst; reflexivity|].
    destruct I as [->|I]; [rewrite str_eqb_refl in E; discriminate | apply IH, I].
  Qed.

  Lemma aset_map_key (f f' : str -> list sub) h : (forall x, x <> h -> f' x = f x) ->
    forall hs, NoDup hs -> In h hs ->
    aset str_eqb (map (fun h => (h, f h)) hs) h (f' h) = map (fun h => (h, f' h)) hs.
  Proof.
    intros Hf. induction hs as [|a hs IH]; intros N I; [destruct I|].
    inversion N as [|? ? N1 N2]; subst. cbn [map aset].
    destruct (str_eqb h a) eqn:E.
    - apply str_eqb_eq in E. subst a. f_equal. apply map_ext_in. intros x Hx.
      rewrite Hf; [reflexivity|]. intros ->. contradiction.
    - destruct I as [->|I]; [rewrite str_eqb_refl in E; discriminate|].
      rewrite (Hf a) by (intros ->; rewrite str_eqb_refl in E; discriminate).
      f_equal. apply IH; assumption.
  Qed.

  Lemma group_hap_grp f h : In h haps -> group_hap (grp haps f) h = f h.
  Proof. intro I. unfold group_hap, grp. rewrite aget_map_key by exact I. reflexivity. Qed.

  Lemma group_hap_group_of c h : In h haps -> group_hap (group_of haps c) h = group_hap c h.
  Proof. apply group_hap_grp. Qed.

  Lemma new_group_group_of : new_group haps = group_of haps [].
  Proof. reflexivity. Qed.

  (* a chromosome has the type of a group: adding a member commutes with [group_of] *)
  Lemma group_add_group_of c h o i : In h haps ->
    group_add (group_of haps c) h o i = group_of haps (group_add c h o i).
  Proof.
    intro I. unfold group_add at 1. rewrite group_hap_group_of by exact I.
    match goal with |- aset _ _ _ ?v = _ =>
      replace v with (group_hap (group_add c h o i) h)
        by (unfold group_hap, group_add; rewrite (aget_aset_same _ str_eqb_eq); reflexivity) end.
    apply aset_map_key; [|exact Hnd | exact I]. intros x Hx.
    unfold group_hap, group_add. rewrite (aget_aset_other _ str_eqb_eq) by exact Hx. reflexivity.
  Qed.

  Lemma group_add_last c1 h d o i : ~ In h (map fst c1) ->
    group_add (c1 ++ [(h, d)]) h o i
    = c1 ++ [(h, aset str_eqb d o ((match aget str_eqb d o with Some l => l | None => [] end) ++ [i]))].
  Proof. intro N. unfold group_add. rewrite group_hap_snoc_same by exact N. apply aset_snoc, N. Qed.

  Lemma group_add_fresh c h o i : ~ In h (map fst c) -> group_add c h o i = c ++ [(h, [(o, [i])])].
  Proof. intro N. unfold group_add. rewrite group_hap_notin by exact N. apply (aset_new _ str_eqb_eq), N. Qed.

  (* The states are written [gs ++ [cur]], the shape [build_groups_step_eq]
     speaks of; hence also [[] ++ [(h, ...)]] for a group that was just opened. *)
  Lemma step_stay gs c lh lo (h : str) i (o : str) : orig_at o i -> o <> [] -> In h haps ->
    need_new (group_of haps c) lh lo h o = false ->
    step (mkCg (gs ++ [group_of haps c]) lh lo) (h, i)
    = Ok (mkCg (gs ++ [group_add (group_of haps c) h o i]) (Some h) (Some o)).
  Proof. intros (sc & Hn & Ho) Hne I E. rewrite (build_groups_step_eq _ _ _ _ _ _ _ _ _ _ _ Hn Ho Hne), E. reflexivity. Qed.

  Lemma step_same_sub gs c1 (h : str) d1 (o : str) l i :
    In h haps -> ~ In h (map fst c1) -> ~ In o (map fst d1) -> o <> [] -> orig_at o i ->
    step (mkCg (gs ++ [group_of haps (c1 ++ [(h, d1 ++ [(o, l)])])]) (Some h) (Some o)) (h, i)
    = Ok (mkCg (gs ++ [group_of haps (c1 ++ [(h, d1 ++ [(o, l ++ [i])])])]) (Some h) (Some o)).
  Proof.
    intros I Nh No Hne Hi. rewrite (step_stay _ _ _ _ _ _ o Hi Hne I).
    - rewrite group_add_group_of, group_add_last by assumption. rewrite aget_snoc, aset_snoc by exact No. reflexivity.
    - unfold need_new_group. rewrite group_hap_group_of, group_hap_snoc_same by assumption.
      destruct (d1 ++ [(o, l)]) eqn:E; [destruct d1; discriminate|].
      cbn [opt_eqb]. rewrite !str_eqb_refl. reflexivity.
  Qed.

  Lemma fold_same_sub : forall idxs gs c1 (h : str) d1 (o : str) l,
    In h haps -> ~ In h (map fst c1) -> ~ In o (map fst d1) -> o <> [] -> Forall (orig_at o) idxs ->
    foldM step (map (fun i => (h, i)) idxs)
          (mkCg (gs ++ [group_of haps (c1 ++ [(h, d1 ++ [(o, l)])])]) (Some h) (Some o))
    = Ok (mkCg (gs ++ [group_of haps (c1 ++ [(h, d1 ++ [(o, l ++ idxs)])])]) (Some h) (Some o)).
  Proof.
    induction idxs as [|i idxs IH]; intros gs c1 h d1 o l I Nh No Hne F; cbn [map].
    - rewrite app_nil_r. reflexivity.
    - inversion F as [|? ? F1 F2]; subst.
      eapply foldM_cons_ok; [apply step_same_sub; assumption|].
      rewrite (app_cons_snoc l i idxs). apply IH; assumption.
  Qed.

  Lemma step_new_sub gs c1 (h : str) d (o : str) l (o' : str) i :
    In h haps -> ~ In h (map fst c1) -> aget str_eqb d o = Some l -> ~ In o' (map fst d) ->
    singleton_at fused (hd 0%nat l) = false -> o' <> [] -> orig_at o' i ->
    step (mkCg (gs ++ [group_of haps (c1 ++ [(h, d)])]) (Some h) (Some o)) (h, i)
    = Ok (mkCg (gs ++ [group_of haps (c1 ++ [(h, d ++ [(o', [i])])])]) (Some h) (Some o')).
  Proof.
    intros I Nh Ho No' Hs Hne Hi. rewrite (step_stay _ _ _ _ _ _ o' Hi Hne I).
    - rewrite group_add_group_of, group_add_last by assumption. rewrite (aget_notin _ str_eqb_eq), (aset_new _ str_eqb_eq) by exact No'. reflexivity.
    - unfold need_new_group. rewrite group_hap_group_of, group_hap_snoc_same by assumption.
      destruct d as [|x d']; [reflexivity|]. cbn [opt_eqb]. rewrite str_eqb_refl. cbn [negb].
      rewrite Ho. destruct l as [|j l']; [apply andb_false_r|]. unfold singleton_at in Hs. cbn [hd] in Hs. rewrite Hs. apply andb_false_r.
  Qed.

  Lemma step_new_run gs c lh lo (h : str) (o : str) i :
    In h haps -> ~ In h (map fst c) -> o <> [] -> orig_at o i ->
    step (mkCg (gs ++ [group_of haps c]) lh lo) (h, i)
    = Ok (mkCg (gs ++ [group_of haps (c ++ [(h, [(o, [i])])])]) (Some h) (Some o)).
  Proof.
    intros I Nh Hne Hi. rewrite (step_stay _ _ _ _ _ _ o Hi Hne I).
    - rewrite group_add_group_of, group_add_fresh by assumption. reflexivity.
    - unfold need_new_group. rewrite group_hap_group_of, group_hap_notin by assumption. reflexivity.
  Qed.

  Lemma step_new_chrom gs c lh lo (h : str) (o : str) i :
    In h haps -> o <> [] -> orig_at o i -> need_new (group_of haps c) lh lo h o = true ->
    step (mkCg (gs ++ [group_of haps c]) lh lo) (h, i)
    = Ok (mkCg ((gs ++ [group_of haps c]) ++ [group_of haps ([] ++ [(h, [(o, [i])])])]) (Some h) (Some o)).
  Proof.
    intros I Hne (sc & Hn & Ho) E. rewrite (build_groups_step_eq _ _ _ _ _ _ _ _ _ _ _ Hn Ho Hne), E.
    rewrite new_group_group_of, group_add_group_of, group_add_fresh; [reflexivity | intros [] | exact I].
  Qed.

  Lemma fold_rest_subs : forall ss gs c1 (h : str) d0 (o : str) l,
    In h haps -> ~ In h (map fst c1) ->
    Forall sub_ok ss -> NoDup (map fst (d0 ++ (o, l) :: ss)) ->
    Forall not_singleton (removelast ((o, l) :: ss)) ->
    foldM step (flat_map (sub_items h) ss)
          (mkCg (gs ++ [group_of haps (c1 ++ [(h, d0 ++ [(o, l)])])]) (Some h) (Some o))
    = Ok (mkCg (gs ++ [group_of haps (c1 ++ [(h, d0 ++ (o, l) :: ss)])]) (Some h)
               (Some (fst (last ss (o, l))))).
  Proof.
    induction ss as [|[o' idxs'] ss IH]; intros gs c1 h d0 o l I Nh Fok Nd Fns; [reflexivity|].
    inversion Fok as [|? ? (Ho' & Hi' & Fo') Fok']; subst. cbn [fst snd] in Ho', Hi', Fo'.
    destruct idxs' as [|i0 rest]; [contradiction|]. inversion Fo' as [|? ? Fo1 Fo2]; subst.
    change (removelast ((o, l) :: (o', i0 :: rest) :: ss))
      with ((o, l) :: removelast ((o', i0 :: rest) :: ss)) in Fns.
    inversion Fns as [|? ? Hns Fns']; subst.
    pose proof (NoDup_keys_mid _ _ _ Nd) as No.
    rewrite (app_cons_snoc d0 (o, l) ((o', i0 :: rest) :: ss)) in Nd |- *.
    pose proof (NoDup_keys_mid _ _ _ Nd) as No'. cbn [fst] in No, No'.
    cbn [flat_map]. unfold sub_items at 1. cbn [snd map app].
    eapply foldM_cons_ok;
      [apply (step_new_sub gs c1 h (d0 ++ [(o, l)]) o l o' i0); try assumption; apply aget_snoc; exact No|].
    eapply foldM_app_ok; [apply (fold_same_sub rest gs c1 h (d0 ++ [(o, l)]) o' [i0]); assumption|].
    rewrite last_cons_dflt. apply (IH gs c1 h (d0 ++ [(o, l)]) o' (i0 :: rest)); assumption.
  Qed.

  Lemma fold_run_tail gs c1 (h : str) (o : str) i0 rest ss :
    run_ok (h, (o, i0 :: rest) :: ss) -> ~ In h (map fst c1) ->
    foldM step (map (fun i => (h, i)) rest ++ flat_map (sub_items h) ss)
          (mkCg (gs ++ [group_of haps (c1 ++ [(h, [(o, [i0])])])]) (Some h) (Some o))
    = Ok (mkCg (gs ++ [group_of haps (c1 ++ [(h, (o, i0 :: rest) :: ss)])]) (Some h)
               (Some (fst (last ((o, i0 :: rest) :: ss) dflt_sub)))).
  Proof.
    intros (I & _ & Fok & Nd & Fns) Nh. cbn [fst snd] in *.
    inversion Fok as [|? ? (Ho & _ & Fo) Fok']; subst. cbn [fst snd] in Ho, Fo.
    inversion Fo as [|? ? _ Fo2]; subst.
    eapply foldM_app_ok; [exact (fold_same_sub rest gs c1 h [] o [i0] I Nh (fun x => x) Ho Fo2)|].
    rewrite last_cons_dflt. apply (fold_rest_subs ss gs c1 h [] o (i0 :: rest)); assumption.
  Qed.

  Lemma end_hap_snoc c r : end_hap (c ++ [r]) = fst r.
  Proof. unfold end_hap. rewrite last_last. reflexivity. Qed.
  Lemma end_orig_snoc c r : end_orig (c ++ [r]) = fst (last (snd r) dflt_sub).
  Proof. unfold end_orig, end_sub. rewrite last_last. reflexivity. Qed.

  Lemma run_ok_head h subs : run_ok (h, subs) ->
    exists o i0 rest ss, subs = (o, i0 :: rest) :: ss /\ In h haps /\ o <> [] /\ orig_at o i0.
  Proof.
    intros (I & Hs & Fs & _). cbn [fst snd] in I, Hs, Fs.
    destruct subs as [|[o idxs] ss]; [contradiction|].
    inversion Fs as [|? ? (Ho & Hi & Fo) _]; subst. cbn [fst snd] in Ho, Hi, Fo.
    destruct idxs as [|i0 rest]; [contradiction|]. inversion Fo; subst.
    exists o, i0, rest, ss. auto.
  Qed.

  Lemma fold_rest_runs : forall rs gs c1, c1 <> [] ->
    Forall run_ok rs -> NoDup (map fst (c1 ++ rs)) ->
    foldM step (flat_map run_items rs)
          (mkCg (gs ++ [group_of haps c1]) (Some (end_hap c1)) (Some (end_orig c1)))
    = Ok (mkCg (gs ++ [group_of haps (c1 ++ rs)]) (Some (end_hap (c1 ++ rs))) (Some (end_orig (c1 ++ rs)))).
  Proof.
    induction rs as [|[h subs] rs IH]; intros gs c1 Hc1 Fok Nd.
    - cbn [flat_map foldM]. rewrite app_nil_r. reflexivity.
    - inversion Fok as [|? ? Hr Fok']; subst. pose proof (NoDup_keys_mid _ _ _ Nd) as Nh. cbn [fst] in Nh.
      destruct (run_ok_head h subs Hr) as (o & i0 & rest & ss & -> & I & Ho & Hi).
      cbn [flat_map]. eapply foldM_app_ok.
      + unfold run_items. cbn [fst snd flat_map]. unfold sub_items at 1. cbn [snd map app].
        eapply foldM_cons_ok; [apply (step_new_run gs c1 _ _ h o i0); assumption|].
        exact (fold_run_tail gs c1 h o i0 rest ss Hr Nh).
      + rewrite (app_cons_snoc c1 (h, (o, i0 :: rest) :: ss) rs) in Nd |- *.
        replace (Some h) with (Some (end_hap (c1 ++ [(h, (o, i0 :: rest) :: ss)])))
          by (rewrite end_hap_snoc; reflexivity).
        replace (Some (fst (last ((o, i0 :: rest) :: ss) dflt_sub)))
          with (Some (end_orig (c1 ++ [(h, (o, i0 :: rest) :: ss)])))
          by (rewrite end_orig_snoc; reflexivity).
        apply IH; [|exact Fok' | exact Nd].
        intro X. apply app_eq_nil in X as [_ X]. discriminate.
  Qed.

  Lemma fold_chrom_tail gs (h : str) (o : str) i0 rest ss rs :
    chrom_ok ((h, (o, i0 :: rest) :: ss) :: rs) ->
    foldM step ((map (fun i => (h, i)) rest ++ flat_map (sub_items h) ss) ++ flat_map run_items rs)
          (mkCg (gs ++ [group_of haps ([] ++ [(h, [(o, [i0])])])]) (Some h) (Some o))
    = Ok (mkCg (gs ++ [group_of haps ((h, (o, i0 :: rest) :: ss) :: rs)])
               (Some (end_hap ((h, (o, i0 :: rest) :: ss) :: rs)))
               (Some (end_orig ((h, (o, i0 :: rest) :: ss) :: rs)))).
  Proof.
    intros (_ & Fok & Nd). inversion Fok as [|? ? Hr _]; subst.
    eapply foldM_app_ok; [apply (fold_run_tail gs [] h o i0 rest ss Hr); intros []|].
    inversion Fok; subst.
    apply (fold_rest_runs rs gs [(h, (o, i0 :: rest) :: ss)]); [discriminate | assumption | exact Nd].
  Qed.

  Lemma chrom_items_head (h : str) (o : str) i0 rest ss rs :
    chrom_items ((h, (o, i0 :: rest) :: ss) :: rs)
    = (h, i0) :: (map (fun i => (h, i)) rest ++ flat_map (sub_items h) ss) ++ flat_map run_items rs.
  Proof. reflexivity. Qed.

  Lemma chrom_ok_head c : chrom_ok c ->
    exists h o i0 rest ss rs, c = (h, (o, i0 :: rest) :: ss) :: rs /\ In h haps /\ o <> [] /\ orig_at o i0.
  Proof.
    intros (Hc & Fok & _). destruct c as [|[h subs] rs]; [contradiction|].
    inversion Fok as [|? ? Hr _]; subst.
    destruct (run_ok_head h subs Hr) as (o & i0 & rest & ss & -> & I & Ho & Hi).
    exists h, o, i0, rest, ss, rs. auto.
  Qed.

  (* [sep] is exactly what makes the model open a new group *)
  Lemma sep_need_new c (h : str) sb ss rs : chrom_ok c -> sep c ((h, sb :: ss) :: rs) -> In h haps ->
    need_new (group_of haps c) (Some (end_hap c)) (Some (end_orig c)) h (fst sb) = true.
  Proof.
    intros (Hc & Fok & Nd) (Ih & S) I. unfold need_new_group. rewrite group_hap_group_of by exact I.
    apply in_map_iff in Ih as ([h' subs] & E & Ic). cbn [fst] in E. subst h'.
    rewrite (group_hap_in c h subs Nd Ic).
    pose proof (proj1 (Forall_forall _ _) Fok _ Ic) as Hr.
    destruct Hr as (_ & Hs & Fs & Ns & _). cbn [fst snd] in Hs, Fs, Ns.
    destruct subs as [|x subs']; [contradiction|]. set (subs := x :: subs') in *.
    cbn [opt_eqb]. destruct (str_eqb h (end_hap c)) eqn:E; [|reflexivity]. cbn [negb].
    apply str_eqb_eq in E. destruct S as [S|[S1 S2]]; [contradiction|].
    destruct (str_eqb (fst sb) (end_orig c)) eqn:F; [apply str_eqb_eq in F; contradiction|]. cbn [negb andb].
    (* the run of h is the last run of c *)
    destruct (exists_last Hc) as (c0 & [hl subsl] & Ec).
    assert (hl = h) by (rewrite E, Ec, end_hap_snoc; reflexivity). subst hl.
    assert (subsl = subs).
    { assert (X : In (h, subsl) c) by (rewrite Ec; apply in_or_app; right; left; reflexivity).
      rewrite <- (group_hap_in c h subsl Nd X). apply group_hap_in; assumption. }
    subst subsl.
    assert (Hs' : subs <> []) by discriminate.
    destruct (exists_last Hs') as (d0 & [ol l] & Es).
    assert (Eo : end_orig c = ol) by (rewrite Ec, end_orig_snoc; cbn [snd]; rewrite Es, last_last; reflexivity).
    assert (Eb : end_sub c = (ol, l)).
    { unfold end_sub. rewrite Ec, last_last. cbn [snd]. rewrite Es, last_last. reflexivity. }
    rewrite Eo. rewrite Es. rewrite aget_snoc.
    - rewrite Eb in S2. unfold first_idx in S2. cbn [snd] in S2.
      assert (Hl : sub_ok (ol, l)).
      { apply (proj1 (Forall_forall _ _) Fs). rewrite Es. apply in_or_app. right. left. reflexivity. }
      destruct Hl as (_ & Hl & _). cbn [snd] in Hl. destruct l as [|j l']; [contradiction|]. exact S2.
    - rewrite Es in Ns. exact (NoDup_keys_mid _ _ _ Ns).
  Qed.

  Lemma fold_rest_chroms : forall cs gs c, chrom_ok c -> Forall chrom_ok cs -> seps (c :: cs) ->
    foldM step (items_of cs) (mkCg (gs ++ [group_of haps c]) (Some (end_hap c)) (Some (end_orig c)))
    = Ok (mkCg (gs ++ [group_of haps c] ++ map (group_of haps) cs)
               (Some (end_hap (last cs c))) (Some (end_orig (last cs c)))).
  Proof.
    induction cs as [|c' cs IH]; intros gs c Hc Fok S.
    - cbn [items_of flat_map foldM map last]. reflexivity.
    - inversion Fok as [|? ? Hc' Fok']; subst. destruct S as [S1 S2].
      destruct (chrom_ok_head c' Hc') as (h & o & i0 & rest & ss & rs & -> & I & Ho & Hi).
      unfold items_of. cbn [flat_map]. fold (items_of cs). eapply foldM_app_ok.
      + rewrite chrom_items_head. eapply foldM_cons_ok;
          [exact (step_new_chrom gs c _ _ h o i0 I Ho Hi (sep_need_new c h (o, i0 :: rest) ss rs Hc S1 I))|].
        exact (fold_chrom_tail (gs ++ [group_of haps c]) h o i0 rest ss rs Hc').
      + rewrite (IH (gs ++ [group_of haps c]) _ Hc' Fok' S2).
        cbn [map]. rewrite <- !app_assoc. cbn [app]. rewrite last_cons_dflt. reflexivity.
  Qed.

  Theorem build_groups_multi : forall c0 chrs,
    Forall chrom_ok (c0 :: chrs) -> seps (c0 :: chrs) ->
    foldM step (items_of (c0 :: chrs)) (mkCg [new_group haps] None None)
    = Ok (mkCg (map (group_of haps) (c0 :: chrs))
               (Some (end_hap (last chrs c0))) (Some (end_orig (last chrs c0)))).
  Proof.
    intros c0 chrs Fok S. inversion Fok as [|? ? Hc0 Fok']; subst.
    destruct (chrom_ok_head c0 Hc0) as (h & o & i0 & rest & ss & rs & -> & I & Ho & Hi).
    unfold items_of. cbn [flat_map]. fold (items_of chrs). eapply foldM_app_ok.
    - rewrite chrom_items_head. eapply foldM_cons_ok;
        [exact (step_new_run [] [] None None h o i0 I (fun x => x) Ho Hi)|].
      exact (fold_chrom_tail [] h o i0 rest ss rs Hc0).
    - exact (fold_rest_chroms chrs [] _ Hc0 Fok' S).
  Qed.

  (* which chromosomes make check_groups raise ChrNamerError *)
  Definition first_hap_single (c : chrom) : Prop :=
    match haps with
    | [] => True
    | h0 :: _ => exists sb, group_hap c h0 = [sb]
    end.

  Lemma group_bad_group_of c : group_bad haps (group_of haps c) = false <-> first_hap_single c.
  Proof.
    unfold group_bad, first_hap_single. destruct haps as [|h0 hs] eqn:E; [tauto|].
    assert (I : In h0 haps) by (rewrite E; left; reflexivity).
    rewrite <- E, group_hap_group_of by exact I.
    destruct (group_hap c h0) as [|x [|y l]]; split; intro H; try discriminate; try reflexivity.
    - destruct H as (sb & H). discriminate.
    - exists x. reflexivity.
    - destruct H as (sb & H). discriminate.
  Qed.

  Theorem groups_bad_iff chrs :
    existsb (group_bad haps) (map (group_of haps) chrs) = false <-> Forall first_hap_single chrs.
  Proof.
    induction chrs as [|c chrs IH]; cbn [map existsb]; [split; [constructor | reflexivity]|].
    split.
    - intro H. apply orb_false_iff in H as [A B]. constructor; [apply group_bad_group_of, A | apply IH, B].
    - intro F. inversion F; subst. apply orb_false_iff. split; [apply group_bad_group_of | apply IH]; assumption.
  Qed.

  Lemma group_of_self c : map fst c = haps -> group_of haps c = c.
  Proof.
    intro E. unfold group_of, grp. rewrite <- E at 1. rewrite map_map.
    rewrite <- (map_id c) at 2. apply map_ext_in. intros [h d] I. cbn [fst].
    rewrite (group_hap_in c h d); [reflexivity | rewrite E; exact Hnd | exact I].
  Qed.

  Lemma run_ok_single h sb : In h haps -> sub_ok sb -> run_ok (h, [sb]).
  Proof.
    intros Ih Hs. split; [exact Ih|]. cbn [fst snd]. split; [discriminate|].
    split; [constructor; [exact Hs | constructor]|].
    split; [constructor; [intros [] | constructor] | constructor].
  Qed.

  Corollary build_groups_ok c0 chrs :
    Forall chrom_ok (c0 :: chrs) -> seps (c0 :: chrs) -> Forall first_hap_single (c0 :: chrs) ->
    exists st,
      foldM step (items_of (c0 :: chrs)) (mkCg [new_group haps] None None) = Ok st
      /\ cg_groups st = map (group_of haps) (c0 :: chrs)
      /\ existsb (group_bad haps) (cg_groups st) = false.
  Proof.
    intros Fok S F1. eexists. split; [apply (build_groups_multi c0 chrs Fok S)|]. cbn [cg_groups].
    split; [reflexivity|]. apply groups_bad_iff, F1.
  Qed.
End Grouping.

Lemma seps_pairwise fused (l : list chrom) :
  (forall a b, In a l -> In b l -> sep fused a b) -> seps fused l.
Proof.
  induction l as [|a [|b l] IH]; intro H; cbn [seps]; try exact Logic.I.
  split; [apply H; [left; reflexivity | right; left; reflexivity]|].
  apply IH. intros x y Hx Hy. apply H; right; assumption.
Qed.

Lemma end_hap_last (c : chrom) : end_hap c = last (map fst c) [].
Proof.
  unfold end_hap. induction c as [|r [|r' c] IH]; [reflexivity | reflexivity|].
  change (fst (last (r' :: c) dflt_run) = last (map fst (r' :: c)) []). exact IH.
Qed.

(* every chromosome has one Pretext scaffold (with its unlocs) in every
   haplotype, the haplotypes always in the same order; the theorems below take
   at least two haplotypes *)
Definition chromk (haps : list str) (sbs : list sub) : chrom := combine haps (map (fun sb => [sb]) sbs).

Lemma chromk_keys haps sbs : length sbs = length haps -> map fst (chromk haps sbs) = haps.
Proof. intro L. unfold chromk. apply map_fst_combine. rewrite map_length. symmetry. exact L. Qed.

Lemma chromk_ok fused haps sbs : NoDup haps -> haps <> [] -> length sbs = length haps ->
  Forall (sub_ok fused) sbs -> chrom_ok fused haps (chromk haps sbs).
Proof.
  intros N Hne L F. split; [|split].
  - intro E. apply (f_equal (map fst)) in E. rewrite chromk_keys in E by exact L. exact (Hne E).
  - apply Forall_forall. intros [h d] I. unfold chromk in I.
    pose proof (in_combine_l _ _ _ _ I) as I1. pose proof (in_combine_r _ _ _ _ I) as I2.
    apply in_map_iff in I2 as (sb & <- & I2). rewrite Forall_forall in F.
    apply run_ok_single; [exact I1 | apply F, I2].
  - rewrite chromk_keys by exact L. exact N.
Qed.

Lemma chromk_sep fused h0 h1 hs a b : NoDup (h0 :: h1 :: hs) ->
  length a = length (h0 :: h1 :: hs) -> length b = length (h0 :: h1 :: hs) ->
  sep fused (chromk (h0 :: h1 :: hs) a) (chromk (h0 :: h1 :: hs) b).
Proof.
  intros N La Lb. destruct b as [|sb b]; [discriminate|]. unfold sep.
  change (chromk (h0 :: h1 :: hs) (sb :: b)) with ((h0, [sb]) :: combine (h1 :: hs) (map (fun sb => [sb]) b)).
  cbv beta iota. rewrite chromk_keys by exact La. split; [left; reflexivity|].
  left. rewrite end_hap_last, chromk_keys by exact La. inversion N as [|? ? N1 _]; subst.
  intro E. apply N1. rewrite E. change (last (h0 :: h1 :: hs) []) with (last (h1 :: hs) (@nil Ascii.ascii)).
  destruct (exists_last (l := h1 :: hs)) as (l' & x & ->); [discriminate|]. rewrite last_last.
  apply in_or_app. right. left. reflexivity.
Qed.

Section ChromK.
  Variables (fused : list scaffold) (h0 h1 : str) (hs : list str) (chrs : list (list sub)).
  Let haps := h0 :: h1 :: hs.
  Hypothesis N : NoDup haps.
  Hypothesis F : Forall (fun sbs => length sbs = length haps /\ Forall (sub_ok fused) sbs) chrs.

  Lemma chromk_all_ok : Forall (chrom_ok fused haps) (map (chromk haps) chrs).
  Proof.
    apply Forall_map. eapply Forall_impl; [|exact F].
    intros sbs [L1 L2]. apply chromk_ok; [exact N | discriminate | exact L1 | exact L2].
  Qed.

  Lemma chromk_seps : seps fused (map (chromk haps) chrs).
  Proof.
    apply seps_pairwise. intros a b Ia Ib. rewrite Forall_forall in F.
    apply in_map_iff in Ia as (sa & <- & Ia). apply in_map_iff in Ib as (sb & <- & Ib).
    apply chromk_sep; [exact N | apply (F sa Ia) | apply (F sb Ib)].
  Qed.

  Lemma chromk_first : Forall (first_hap_single haps) (map (chromk haps) chrs).
  Proof.
    apply Forall_map. eapply Forall_impl; [|exact F]. intros [|sb sbs] [L1 _]; [discriminate|].
    exists sb. apply group_hap_head.
  Qed.

  Lemma chromk_self : map (group_of haps) (map (chromk haps) chrs) = map (chromk haps) chrs.
  Proof.
    rewrite map_map. apply map_ext_in. intros sbs I. rewrite Forall_forall in F.
    apply group_of_self; [exact N | apply chromk_keys, (F sbs I)].
  Qed.
End ChromK.

Theorem k_hap_groups : forall fused haps (chrs : list (list sub)),
  NoDup haps -> (2 <= length haps)%nat -> chrs <> [] ->
  Forall (fun sbs => length sbs = length haps /\ Forall (sub_ok fused) sbs) chrs ->
  exists st,
    foldM (build_groups_step fused haps true) (items_of (map (chromk haps) chrs)) (mkCg [new_group haps] None None) = Ok st
    /\ cg_groups st = map (chromk haps) chrs
    /\ existsb (group_bad haps) (cg_groups st) = false.
Proof.
  intros fused haps chrs N L Hne F.
  destruct haps as [|h0 [|h1 hs]]; cbn [length] in L; try lia.
  destruct chrs as [|c0 chrs]; [contradiction|].
  destruct (build_groups_ok fused _ N _ _ (chromk_all_ok _ _ _ _ _ N F) (chromk_seps _ _ _ _ _ N F)
              (chromk_first _ _ _ _ _ F)) as (st & E & G & B).
  exists st. split; [exact E|]. split; [|exact B]. rewrite G. apply (chromk_self _ _ _ _ _ N F).
Qed.

(* two haplotypes: chromosome i = its h1 scaffold (and unlocs), then its h2
   scaffold (and unlocs) *)
Definition chrom2 (h1 h2 : str) (p : sub * sub) : chrom := [(h1, [fst p]); (h2, [snd p])].

Theorem two_hap_groups : forall fused h1 h2 (pairs : list (sub * sub)),
  h1 <> h2 -> pairs <> [] ->
  Forall (fun p => sub_ok fused (fst p) /\ sub_ok fused (snd p)) pairs ->
  exists st,
    foldM (build_groups_step fused [h1; h2] true) (items_of (map (chrom2 h1 h2) pairs))
          (mkCg [new_group [h1; h2]] None None) = Ok st
    /\ cg_groups st = map (chrom2 h1 h2) pairs
    /\ existsb (group_bad [h1; h2]) (cg_groups st) = false.
Proof.
  intros fused h1 h2 pairs Hne Hp F.
  assert (E : map (chrom2 h1 h2) pairs = map (chromk [h1; h2]) (map (fun p => [fst p; snd p]) pairs)).
  { rewrite map_map. reflexivity. }
  rewrite E. apply k_hap_groups.
  - apply NoDup_pair, Hne.
  - cbn [length]. lia.
  - destruct pairs; [congruence | discriminate].
  - apply Forall_forall. intros sbs I. apply in_map_iff in I as (p & <- & I).
    rewrite Forall_forall in F. destruct (F p I) as [A B].
    split; [reflexivity|]. constructor; [exact A|]. constructor; [exact B | constructor].
Qed.

(* two haplotypes, some chromosomes seen in the first haplotype only.
   Such a chromosome stays alone exactly when its main scaffold carries the
   tag "Singleton" (and the next h1 scaffold has another Pretext name). *)
Inductive chr2 := Pair (a b : sub) | Single (a : sub).
Definition hap1_sub (x : chr2) : sub := match x with Pair a _ => a | Single a => a end.
Definition chrom_of2 (h1 h2 : str) (x : chr2) : chrom :=
  match x with Pair a b => [(h1, [a]); (h2, [b])] | Single a => [(h1, [a])] end.
Definition group_of2 (h1 h2 : str) (x : chr2) : chr_group :=
  match x with Pair a b => [(h1, [a]); (h2, [b])] | Single a => [(h1, [a]); (h2, [])] end.
Definition chr2_ok (fused : list scaffold) (x : chr2) : Prop :=
  match x with Pair a b => sub_ok fused a /\ sub_ok fused b | Single a => sub_ok fused a end.
Fixpoint singles_tagged (fused : list scaffold) (l : list chr2) : Prop :=
  match l with
  | x :: (y :: _) as t =>
      match x with
      | Single a => singleton_at fused (first_idx a) = true /\ fst (hap1_sub y) <> fst a
      | Pair _ _ => True
      end /\ singles_tagged fused t
  | _ => True
  end.

Lemma group_of_chrom_of2 h1 h2 x : h1 <> h2 -> group_of [h1; h2] (chrom_of2 h1 h2 x) = group_of2 h1 h2 x.
Proof.
  intro Hne. assert (E : str_eqb h2 h1 = false) by (apply str_eqb_neq; congruence).
  destruct x as [a b|a]; unfold group_of, grp, group_hap; cbn [map chrom_of2 group_of2 aget];
    rewrite ?str_eqb_refl, ?E; reflexivity.
Qed.

Lemma chrom_of2_ok fused h1 h2 x : h1 <> h2 -> chr2_ok fused x -> chrom_ok fused [h1; h2] (chrom_of2 h1 h2 x).
Proof.
  intros Hne F. destruct x as [a b|a]; cbn [chr2_ok chrom_of2] in *.
  - destruct F as [A B]. split; [discriminate|]. split; [|apply NoDup_pair, Hne].
    constructor; [apply run_ok_single; [left; reflexivity | exact A]|].
    constructor; [apply run_ok_single; [right; left; reflexivity | exact B] | constructor].
  - split; [discriminate|]. split.
    + constructor; [apply run_ok_single; [left; reflexivity | exact F] | constructor].
    + constructor; [intros [] | constructor].
Qed.

Lemma chrom_of2_seps fused h1 h2 : h1 <> h2 -> forall xs,
  singles_tagged fused xs -> seps fused (map (chrom_of2 h1 h2) xs).
Proof.
  intros Hne xs. induction xs as [|x [|y xs] IH]; intro T; cbn [map seps]; try exact Logic.I.
  destruct T as [T1 T2]. split; [|apply IH; exact T2].
  assert (Ey : exists ss rs, chrom_of2 h1 h2 y = (h1, hap1_sub y :: ss) :: rs).
  { destruct y; cbn; eexists; eexists; reflexivity. }
  destruct Ey as (ss & rs & ->). unfold sep.
  destruct x as [a b|a]; cbn [chrom_of2 map fst].
  - split; [left; reflexivity|]. left. exact Hne.
  - split; [left; reflexivity|]. right. destruct T1 as [T1a T1b].
    unfold end_orig, end_sub. cbn [last snd]. split; assumption.
Qed.

Theorem two_hap_singleton_groups : forall fused h1 h2 (xs : list chr2),
  h1 <> h2 -> xs <> [] -> Forall (chr2_ok fused) xs -> singles_tagged fused xs ->
  exists st,
    foldM (build_groups_step fused [h1; h2] true) (items_of (map (chrom_of2 h1 h2) xs))
          (mkCg [new_group [h1; h2]] None None) = Ok st
    /\ cg_groups st = map (group_of2 h1 h2) xs
    /\ existsb (group_bad [h1; h2]) (cg_groups st) = false.
Proof.
  intros fused h1 h2 xs Hne Hx F T. destruct xs as [|x0 xs]; [contradiction|].
  destruct (build_groups_ok fused [h1; h2] (NoDup_pair _ _ Hne) (chrom_of2 h1 h2 x0) (map (chrom_of2 h1 h2) xs))
    as (st & E & G & B).
  - apply (Forall_map (chrom_of2 h1 h2) _ (x0 :: xs)). eapply Forall_impl; [|exact F].
    intro x. apply chrom_of2_ok, Hne.
  - apply (chrom_of2_seps fused h1 h2 Hne (x0 :: xs) T).
  - apply (Forall_map (chrom_of2 h1 h2) _ (x0 :: xs)). apply Forall_forall. intros x _.
    destruct x as [a b|a]; exists a; apply group_hap_head.
  - exists st. split; [exact E|]. split; [|exact B]. rewrite G.
    change (map (group_of [h1; h2]) (map (chrom_of2 h1 h2) (x0 :: xs)) = map (group_of2 h1 h2) (x0 :: xs)).
    rewrite map_map. apply map_ext. intro x. apply group_of_chrom_of2, Hne.
Qed.

Lemma sort_desc_map {X Y} (g : X -> Y) (key : X -> Z) (key' : Y -> Z) xs :
  (forall x, In x xs -> key' (g x) = key x) ->
  sort_by_Z_desc key' (map g xs) = map g (sort_by_Z_desc key xs).
Proof.
  intro H. unfold sort_by_Z_desc. rewrite <- (stable_sort_map g (fun a b => key' a >=? key' b)). f_equal.
  apply stable_sort_ext_in. intros x y Hx Hy. rewrite (H x Hx), (H y Hy). reflexivity.
Qed.

Lemma dedup_acc_all_in : forall l seen, (forall x, In x l -> In x seen) -> dedup_acc str_eqb seen l = [].
Proof.
  induction l as [|x l IH]; intros seen H; cbn [dedup_acc]; [reflexivity|].
  rewrite existsb_str_in by (apply H; left; reflexivity). apply IH. intros y Hy. apply H. right. exact Hy.
Qed.

Lemma dedup_acc_skip h : forall l seen rest, Forall (eq h) l -> In h seen ->
  dedup_acc str_eqb seen (l ++ rest) = dedup_acc str_eqb seen rest.
Proof.
  induction l as [|x l IH]; intros seen rest F I; cbn [app dedup_acc]; [reflexivity|].
  inversion F as [|? ? E F']. subst x. rewrite existsb_str_in by exact I. apply IH; assumption.
Qed.

Lemma dedup_acc_block h l seen rest : l <> [] -> Forall (eq h) l -> ~ In h seen ->
  dedup_acc str_eqb seen (l ++ rest) = h :: dedup_acc str_eqb (h :: seen) rest.
Proof.
  intros Hl F N. destruct l as [|x l]; [contradiction|]. inversion F as [|? ? E F']. subst x.
  cbn [app dedup_acc]. rewrite existsb_str_notin by exact N. f_equal.
  apply (dedup_acc_skip h); [exact F' | left; reflexivity].
Qed.

Lemma run_items_haps (r : str * list sub) : Forall (eq (fst r)) (map fst (run_items r)).
Proof.
  apply Forall_forall. intros x I. apply in_map_iff in I as ([h i] & <- & I).
  unfold run_items in I. apply in_flat_map in I as (sb & _ & I). unfold sub_items in I.
  apply in_map_iff in I as (j & E & _). injection E as <- _. reflexivity.
Qed.

Lemma run_items_nonempty fused haps r : run_ok fused haps r -> map fst (run_items r) <> [].
Proof.
  intros (_ & Hs & Fs & _). destruct r as [h [|[o idxs] ss]]; cbn [snd] in *; [contradiction|].
  inversion Fs as [|? ? (_ & Hi & _) _]; subst. cbn [snd] in Hi. destruct idxs; [contradiction|]. discriminate.
Qed.

Lemma dedup_acc_runs fused haps : forall (c : chrom) seen rest,
  Forall (run_ok fused haps) c -> NoDup (map fst c) -> (forall x, In x (map fst c) -> ~ In x seen) ->
  (forall x, In x rest -> In x seen \/ In x (map fst c)) ->
  dedup_acc str_eqb seen (map fst (chrom_items c) ++ rest) = map fst c.
Proof.
  induction c as [|r c IH]; intros seen rest F N D R.
  - cbn [chrom_items flat_map map app]. apply dedup_acc_all_in. intros x Hx. destruct (R x Hx) as [H|[]]. exact H.
  - inversion F as [|? ? Fr Fc]; subst. cbn [map fst] in N. inversion N as [|? ? N1 N2]; subst.
    unfold chrom_items. cbn [flat_map]. fold (chrom_items c). rewrite map_app, <- app_assoc.
    rewrite (dedup_acc_block (fst r)).
    + cbn [map]. f_equal. apply IH; [exact Fc | exact N2 | |].
      * intros x Hx [<-|Hs]; [contradiction|]. apply (D x); [right; exact Hx | exact Hs].
      * intros x Hx. destruct (R x Hx) as [H|[H|H]]; [left; right; exact H | left; left; exact H | right; exact H].
    + eapply run_items_nonempty; exact Fr.
    + apply run_items_haps.
    + apply D. left. reflexivity.
Qed.

(* the first chromosome shows every haplotype: that is the order of [haps] *)
Lemma dedup_items_first fused haps c0 chrs : Forall (chrom_ok fused haps) (c0 :: chrs) ->
  map fst c0 = haps -> dedup str_eqb (map fst (items_of (c0 :: chrs))) = haps.
Proof.
  intros F E. inversion F as [|? ? (_ & F0 & N0) Fc]; subst.
  unfold items_of. cbn [flat_map]. fold (items_of chrs). rewrite map_app. unfold dedup.
  apply (dedup_acc_runs fused (map fst c0)); [exact F0 | exact N0 | intros x _ [] |].
  intros x Hx. right. apply in_map_iff in Hx as ([h i] & <- & Hx). cbn [fst].
  unfold items_of in Hx. apply in_flat_map in Hx as (c & Hc & Hx).
  rewrite Forall_forall in Fc. destruct (Fc c Hc) as (_ & Fr & _).
  unfold chrom_items in Hx. apply in_flat_map in Hx as (r & Hr & Hx).
  rewrite Forall_forall in Fr. destruct (Fr r Hr) as (Ih & _).
  pose proof (run_items_haps r) as Q. rewrite Forall_forall in Q.
  rewrite <- (Q h); [exact Ih|]. apply (in_map fst) in Hx. exact Hx.
Qed.

Definition member_len (fused : list scaffold) (i : nat) : Z :=
  match nth_error fused i with Some sc => frags_length (sc_rows sc) | None => 0 end.

(* total sequence length of the first Pretext scaffold (main + unlocs) that
   the chromosome has in haplotype h0 *)
Definition first_hap_length (fused : list scaffold) (h0 : str) (c : chrom) : Z :=
  match group_hap c h0 with
  | (_, idxs) :: _ => sumZ (map (member_len fused) idxs)
  | [] => 0
  end.

Definition ranked (fused : list scaffold) (h0 : str) (chrs : list chrom) : list chrom :=
  sort_by_Z_desc (first_hap_length fused h0) chrs.

Theorem ranked_spec fused h0 chrs :
  Permutation (ranked fused h0 chrs) chrs
  /\ StronglySorted (fun a b => first_hap_length fused h0 a >= first_hap_length fused h0 b) (ranked fused h0 chrs)
  /\ (forall z, filter (fun c => first_hap_length fused h0 c =? z) (ranked fused h0 chrs)
                = filter (fun c => first_hap_length fused h0 c =? z) chrs).
Proof.
  split; [apply sort_desc_perm|]. split; [apply sort_desc_sorted|]. intro z. apply sort_desc_stable.
Qed.

Section Naming.
  Variable fused : list scaffold.
  Variables (h0 : str) (hs : list str).
  Let haps := h0 :: hs.

  Lemma group_length_group_of c : NoDup haps ->
    group_length fused haps (group_of haps c) = first_hap_length fused h0 c.
  Proof.
    intro N. unfold group_length, first_hap_length, haps.
    rewrite (group_hap_group_of (h0 :: hs)) by (left; reflexivity). reflexivity.
  Qed.

  Lemma sorted_groups chrs : NoDup haps ->
    sort_by_Z_desc (group_length fused haps) (map (group_of haps) chrs)
    = map (group_of haps) (ranked fused h0 chrs).
  Proof. intro N. apply sort_desc_map. intros c _. apply group_length_group_of, N. Qed.

  Variable prefix : str.
  Variables (c0 : chrom) (chrs : list chrom).
  Let all := c0 :: chrs.
  Hypothesis Hmulti : hs <> [].
  Hypothesis Hok : Forall (chrom_ok fused haps) all.
  Hypothesis Hsep : seps fused all.
  Hypothesis Hseen : dedup str_eqb (map fst (items_of all)) = haps.

  Lemma haps_nodup : NoDup haps.
  Proof. rewrite <- Hseen. apply (Junctions.dedup_nodup _ str_eqb_eq). Qed.

  Lemma multi_flag : (1 <? zlen haps) = true.
  Proof. unfold haps, zlen. destruct hs; [contradiction|]. cbn [length]. lia. Qed.

  (* check_groups fails as soon as one chromosome has no, or more than one,
     Pretext scaffold in the first haplotype *)
  Theorem name_chromosomes_multi_bad :
    ~ Forall (first_hap_single haps) all ->
    name_chromosomes prefix fused (items_of all) = Err ChrNamerError.
  Proof.
    intro B. unfold name_chromosomes. rewrite Hseen. unfold haps at 1. cbv beta iota zeta.
    fold haps. rewrite multi_flag.
    unfold all. rewrite (build_groups_multi fused haps haps_nodup c0 chrs Hok Hsep). cbn [bind cg_groups].
    destruct (existsb (group_bad haps) (map (group_of haps) (c0 :: chrs))) eqn:E; [reflexivity|].
    exfalso. apply B. apply (groups_bad_iff haps haps_nodup). exact E.
  Qed.

  Hypothesis Hfirst : Forall (first_hap_single haps) all.

  (* the result, as the list of renamings of the groups taken in rank order *)
  Theorem name_chromosomes_multi_eq :
    name_chromosomes prefix fused (items_of all)
    = Ok (fold_left apply_rop (all_ops prefix (map (group_of haps) (ranked fused h0 all))) fused).
  Proof.
    unfold name_chromosomes. rewrite Hseen. unfold haps at 1. cbv beta iota zeta.
    fold haps. rewrite multi_flag.
    unfold all at 1. rewrite (build_groups_multi fused haps haps_nodup c0 chrs Hok Hsep). cbn [bind cg_groups].
    fold all. rewrite (proj2 (groups_bad_iff haps haps_nodup all) Hfirst).
    rewrite name_groups_as_ops, sorted_groups by exact haps_nodup. reflexivity.
  Qed.

  Hypothesis Hidx : NoDup (map snd (items_of all)).

  Lemma ranked_in c : In c (ranked fused h0 all) -> In c all.
  Proof. apply Permutation_in. apply sort_desc_perm. Qed.

  Lemma ops_indices :
    Permutation (map rop_idx (all_ops prefix (map (group_of haps) (ranked fused h0 all))))
                (map snd (items_of all)).
  Proof.
    rewrite all_ops_idx.
    assert (E := build_groups_multi fused haps haps_nodup c0 chrs Hok Hsep). fold all in E.
    assert (NE : cg_groups (mkCg [new_group haps] None None) <> []) by (cbn [cg_groups]; discriminate).
    assert (W : Forall group_wf (cg_groups (mkCg [new_group haps] None None))).
    { cbn [cg_groups]. constructor; [apply new_group_wf, haps_nodup | constructor]. }
    destruct (build_groups_fold_spec fused haps true haps_nodup (items_of all)
                (mkCg [new_group haps] None None) _ NE W E) as (_ & P).
    cbn [cg_groups] in P. unfold slots at 2 in P. cbn [flat_map] in P.
    rewrite new_group_slots in P. cbn [app] in P. rewrite app_nil_r in P.
    eapply perm_trans.
    - apply Permutation_map. unfold slots. apply RemapTail.flat_map_perm.
      apply Permutation_map. apply sort_desc_perm.
    - eapply perm_trans; [apply Permutation_map; exact P|].
      rewrite map_map. cbn [slot_idx snd]. apply Permutation_refl.
  Qed.

  (* effect on every member: position k (from 0) in the rank order gives the
     number k+1, whatever the haplotype; the q-th Pretext scaffold of a
     haplotype that has several in the group gets the q-th capital letter.
     The hypothesis on [sfx] says that the Pretext name does not occur again
     in the suffix, so that Python's str.replace touches the head only. *)
  Theorem name_chromosomes_multi :
    exists fused',
      name_chromosomes prefix fused (items_of all) = Ok fused'
      /\ upd_ok (map snd (items_of all)) fused fused'
      /\ forall k c h subs q o idxs i sc sfx,
           nth_error (ranked fused h0 all) k = Some c ->
           In (h, subs) c -> nth_error subs q = Some (o, idxs) -> In i idxs ->
           nth_error fused i = Some sc -> sc_name sc = o ++ sfx ->
           (forall j, (j < length sfx)%nat -> starts_with o (skipn j sfx) = false) ->
           nth_error fused' i
           = Some (with_name sc (prefix ++ str_of_Z (Z.of_nat k + 1) ++ letter q (length subs) ++ sfx)).
  Proof.
    eexists. split; [apply name_chromosomes_multi_eq|].
    set (sorted := map (group_of haps) (ranked fused h0 all)).
    pose proof ops_indices as P. fold sorted in P.
    assert (N : NoDup (map rop_idx (all_ops prefix sorted))).
    { eapply Permutation_NoDup; [apply Permutation_sym; exact P | exact Hidx]. }
    split.
    - eapply upd_ok_incl; [|apply apply_ops_upd_ok].
      intros i Hi. eapply Permutation_in; [exact P | exact Hi].
    - intros k c h subs q o idxs i sc sfx Hk Hc Hq Hi Hn Hname Hocc.
      assert (Ic : In c all) by (apply ranked_in; eapply nth_error_In; exact Hk).
      pose proof Hok as Hok'. rewrite Forall_forall in Hok'. destruct (Hok' c Ic) as (_ & Fr & Nc).
      rewrite Forall_forall in Fr. destruct (Fr _ Hc) as (Ih & _ & Fs & _). cbn [fst snd] in Ih, Fs.
      assert (Ho : o <> []).
      { rewrite Forall_forall in Fs. apply nth_error_In in Hq. destruct (Fs _ Hq) as (X & _). exact X. }
      set (nm := prefix ++ str_of_Z (Z.of_nat k + 1)).
      assert (Iop : In (i, o, nm ++ letter q (length subs)) (all_ops prefix sorted)).
      { apply (all_ops_intro prefix sorted k (group_of haps c) h subs q o idxs i); [| |exact Hq | exact Hi].
        - unfold sorted. apply map_nth_error. exact Hk.
        - unfold group_of, grp. apply in_map_iff. exists h. split; [|exact Ih].
          rewrite (group_hap_in c h subs Nc Hc). reflexivity. }
      pose proof (apply_ops_at _ fused _ sc N Iop Hn) as R. cbn [rop_idx fst snd] in R.
      rewrite R. f_equal. f_equal.
      rewrite Hname, (replace_prefix_gen o _ sfx Ho Hocc). unfold nm. rewrite <- !app_assoc. reflexivity.
  Qed.
End Naming.

(* chromosome = its h1 scaffold [a] (with unlocs) followed by one or more
   Pretext scaffolds [bs] of h2 (each with unlocs).  With one element in [bs]
   this is the well-interleaved map [chrom2]; with several, ChrNamer hands
   out <n>A, <n>B, ... in h2.  NB the same input is what a complete
   chromosome followed by chromosomes seen in h2 only looks like. *)
Definition chrom_split (h1 h2 : str) (x : sub * list sub) : chrom := [(h1, [fst x]); (h2, snd x)].
Definition split_ok (fused : list scaffold) (x : sub * list sub) : Prop :=
  sub_ok fused (fst x) /\ snd x <> [] /\ Forall (sub_ok fused) (snd x) /\ NoDup (map fst (snd x))
  /\ Forall (not_singleton fused) (removelast (snd x)).
Definition hap1_len (fused : list scaffold) (x : sub * list sub) : Z :=
  sumZ (map (member_len fused) (snd (fst x))).

Section Split.
  Variable fused : list scaffold.
  Variables h1 h2 : str.
  Hypothesis Hne : h1 <> h2.

  Lemma chrom_split_ok x : split_ok fused x -> chrom_ok fused [h1; h2] (chrom_split h1 h2 x).
  Proof.
    intros (A & B1 & B2 & B3 & B4). split; [discriminate|]. split.
    - constructor; [|constructor; [|constructor]].
      + apply run_ok_single; [left; reflexivity | exact A].
      + split; [right; left; reflexivity|]. cbn [fst snd]. auto.
    - apply NoDup_pair, Hne.
  Qed.

  Lemma chrom_split_sep x y : sep fused (chrom_split h1 h2 x) (chrom_split h1 h2 y).
  Proof. unfold sep, chrom_split. split; [left; reflexivity|]. left. exact Hne. Qed.

  Lemma chrom_split_first x : first_hap_single [h1; h2] (chrom_split h1 h2 x).
  Proof. exists (fst x). apply group_hap_head. Qed.

  Lemma chrom_split_len x : first_hap_length fused h1 (chrom_split h1 h2 x) = hap1_len fused x.
  Proof.
    unfold first_hap_length, chrom_split, hap1_len. rewrite group_hap_head. destruct (fst x). reflexivity.
  Qed.

  Variables (x0 : sub * list sub) (xs : list (sub * list sub)).
  Hypothesis Hall : Forall (split_ok fused) (x0 :: xs).

  Lemma split_all_ok : Forall (chrom_ok fused [h1; h2]) (map (chrom_split h1 h2) (x0 :: xs)).
  Proof.
    apply Forall_map. eapply Forall_impl; [|exact Hall]. exact chrom_split_ok.
  Qed.

  Lemma split_seps : seps fused (map (chrom_split h1 h2) (x0 :: xs)).
  Proof.
    apply seps_pairwise. intros a b Ia Ib.
    apply in_map_iff in Ia as (xa & <- & _). apply in_map_iff in Ib as (xb & <- & _). apply chrom_split_sep.
  Qed.

  Lemma split_first : Forall (first_hap_single [h1; h2]) (map (chrom_split h1 h2) (x0 :: xs)).
  Proof.
    apply Forall_map, Forall_forall. intros x _. apply chrom_split_first.
  Qed.

  (* the model really puts the consecutive h2 scaffolds into the group of the
     preceding h1 scaffold *)
  Theorem two_hap_split_groups :
    exists st,
      foldM (build_groups_step fused [h1; h2] true) (items_of (map (chrom_split h1 h2) (x0 :: xs)))
            (mkCg [new_group [h1; h2]] None None) = Ok st
      /\ cg_groups st = map (chrom_split h1 h2) (x0 :: xs)
      /\ existsb (group_bad [h1; h2]) (cg_groups st) = false.
  Proof.
    destruct (build_groups_ok fused [h1; h2] (NoDup_pair _ _ Hne) _ _ split_all_ok split_seps split_first)
      as (st & E & G & B).
    exists st. split; [exact E|]. split; [|exact B]. rewrite G.
    change (map (group_of [h1; h2]) (map (chrom_split h1 h2) (x0 :: xs)) = map (chrom_split h1 h2) (x0 :: xs)).
    rewrite map_map. apply map_ext. intro x. apply group_of_self; [apply NoDup_pair, Hne | reflexivity].
  Qed.

  Variable prefix : str.
  Hypothesis Hidx : NoDup (map snd (items_of (map (chrom_split h1 h2) (x0 :: xs)))).

  (* numbers by rank of the h1 length; h1 and h2 share the number; the q-th of
     several h2 scaffolds gets the q-th letter *)
  Theorem two_hap_split_names :
    exists fused',
      name_chromosomes prefix fused (items_of (map (chrom_split h1 h2) (x0 :: xs))) = Ok fused'
      /\ upd_ok (map snd (items_of (map (chrom_split h1 h2) (x0 :: xs)))) fused fused'
      /\ forall k a bs, nth_error (sort_by_Z_desc (hap1_len fused) (x0 :: xs)) k = Some (a, bs) ->
           let num := prefix ++ str_of_Z (Z.of_nat k + 1) in
           (forall i sc sfx, In i (snd a) -> nth_error fused i = Some sc -> sc_name sc = fst a ++ sfx ->
              (forall j, (j < length sfx)%nat -> starts_with (fst a) (skipn j sfx) = false) ->
              nth_error fused' i = Some (with_name sc (num ++ sfx)))
           /\ (forall q b i sc sfx, nth_error bs q = Some b -> In i (snd b) ->
                 nth_error fused i = Some sc -> sc_name sc = fst b ++ sfx ->
                 (forall j, (j < length sfx)%nat -> starts_with (fst b) (skipn j sfx) = false) ->
                 nth_error fused' i = Some (with_name sc (num ++ letter q (length bs) ++ sfx))).
  Proof.
    assert (Hseen : dedup str_eqb (map fst (items_of (map (chrom_split h1 h2) (x0 :: xs)))) = [h1; h2]).
    { apply (dedup_items_first fused [h1; h2]); [exact split_all_ok | reflexivity]. }
    destruct (name_chromosomes_multi fused h1 [h2] prefix (chrom_split h1 h2 x0) (map (chrom_split h1 h2) xs)
                ltac:(discriminate) split_all_ok split_seps Hseen split_first Hidx) as (fused' & E & U & R).
    exists fused'. split; [exact E|]. split; [exact U|].
    intros k a bs Hk num.
    change (chrom_split h1 h2 x0 :: map (chrom_split h1 h2) xs) with (map (chrom_split h1 h2) (x0 :: xs)) in R.
    unfold ranked in R. rewrite (sort_desc_map (chrom_split h1 h2) (hap1_len fused)) in R by (intros; apply chrom_split_len).
    pose proof (map_nth_error (chrom_split h1 h2) _ _ Hk) as Hk'. split.
    - intros i sc sfx Hi Hn Hname Hocc. destruct a as [o idxs]. cbn [fst snd] in *.
      rewrite (R k _ h1 [(o, idxs)] 0%nat o idxs i sc sfx Hk'); try assumption;
        [unfold num; cbn [length letter app]; rewrite <- app_assoc; reflexivity | left; reflexivity | reflexivity].
    - intros q b i sc sfx Hq Hi Hn Hname Hocc. destruct b as [o idxs]. cbn [fst snd] in *.
      rewrite (R k _ h2 bs q o idxs i sc sfx Hk'); try assumption;
        [unfold num; rewrite <- !app_assoc; reflexivity | right; left; reflexivity].
  Qed.
End Split.

Lemma letters_two : letter 0 2 = s "A" /\ letter 1 2 = s "B" /\ letter 0 1 = [].
Proof. repeat split. Qed.

(* the well-interleaved two-haplotype map: both homologues get <prefix><n> *)
Theorem two_hap_names : forall prefix fused h1 h2 (p0 : sub * sub) (pairs : list (sub * sub)),
  h1 <> h2 ->
  Forall (fun p => sub_ok fused (fst p) /\ sub_ok fused (snd p)) (p0 :: pairs) ->
  NoDup (map snd (items_of (map (chrom2 h1 h2) (p0 :: pairs)))) ->
  exists fused',
    name_chromosomes prefix fused (items_of (map (chrom2 h1 h2) (p0 :: pairs))) = Ok fused'
    /\ upd_ok (map snd (items_of (map (chrom2 h1 h2) (p0 :: pairs)))) fused fused'
    /\ forall k p, nth_error (sort_by_Z_desc (fun p => sumZ (map (member_len fused) (snd (fst p)))) (p0 :: pairs)) k = Some p ->
       forall sb i sc sfx, sb = fst p \/ sb = snd p -> In i (snd sb) ->
         nth_error fused i = Some sc -> sc_name sc = fst sb ++ sfx ->
         (forall j, (j < length sfx)%nat -> starts_with (fst sb) (skipn j sfx) = false) ->
         nth_error fused' i = Some (with_name sc (prefix ++ str_of_Z (Z.of_nat k + 1) ++ sfx)).
Proof.
  intros prefix fused h1 h2 p0 pairs Hne F Hidx.
  set (g := fun p : sub * sub => (fst p, [snd p])).
  assert (E : forall l, map (chrom2 h1 h2) l = map (chrom_split h1 h2) (map g l)).
  { intro l. rewrite map_map. reflexivity. }
  rewrite (E (p0 :: pairs)) in *. cbn [map] in *.
  assert (Hall : Forall (split_ok fused) (map g (p0 :: pairs))).
  { apply Forall_map. eapply Forall_impl; [|exact F]. intros p [A B].
    split; [exact A|]. split; [discriminate|]. split; [constructor; [exact B | constructor]|].
    split; [constructor; [intros [] | constructor] | constructor]. }
  destruct (two_hap_split_names fused h1 h2 Hne (g p0) (map g pairs) Hall prefix Hidx) as (fused' & E1 & U & R).
  exists fused'. split; [exact E1|]. split; [exact U|].
  intros k p Hk sb i sc sfx Hsb Hi Hn Hname Hocc.
  assert (Hk' : nth_error (sort_by_Z_desc (hap1_len fused) (g p0 :: map g pairs)) k = Some (g p)).
  { change (g p0 :: map g pairs) with (map g (p0 :: pairs)).
    rewrite (sort_desc_map g (fun p => sumZ (map (member_len fused) (snd (fst p))))) by reflexivity.
    apply map_nth_error. exact Hk. }
  destruct (R k (fst p) [snd p] Hk') as [R1 R2]. destruct Hsb as [->| ->].
  - erewrite (R1 i sc sfx Hi Hn Hname Hocc). rewrite <- app_assoc. reflexivity.
  - erewrite (R2 0%nat (snd p) i sc sfx eq_refl Hi Hn Hname Hocc). cbn [length letter app].
    rewrite <- app_assoc. reflexivity.
Qed.

Definition hd_len (fused : list scaffold) (sbs : list sub) : Z :=
  match sbs with sb :: _ => sumZ (map (member_len fused) (snd sb)) | [] => 0 end.

Theorem k_hap_names : forall prefix fused h0 hs (s0 : list sub) (chrs : list (list sub)),
  NoDup (h0 :: hs) -> hs <> [] ->
  Forall (fun sbs => length sbs = length (h0 :: hs) /\ Forall (sub_ok fused) sbs) (s0 :: chrs) ->
  NoDup (map snd (items_of (map (chromk (h0 :: hs)) (s0 :: chrs)))) ->
  exists fused',
    name_chromosomes prefix fused (items_of (map (chromk (h0 :: hs)) (s0 :: chrs))) = Ok fused'
    /\ upd_ok (map snd (items_of (map (chromk (h0 :: hs)) (s0 :: chrs)))) fused fused'
    /\ forall k sbs, nth_error (sort_by_Z_desc (hd_len fused) (s0 :: chrs)) k = Some sbs ->
       forall sb i sc sfx, In sb sbs -> In i (snd sb) ->
         nth_error fused i = Some sc -> sc_name sc = fst sb ++ sfx ->
         (forall j, (j < length sfx)%nat -> starts_with (fst sb) (skipn j sfx) = false) ->
         nth_error fused' i = Some (with_name sc (prefix ++ str_of_Z (Z.of_nat k + 1) ++ sfx)).
Proof.
  intros prefix fused h0 hs s0 chrs N Hm F Hidx.
  destruct hs as [|h1 hs]; [contradiction|]. set (haps := h0 :: h1 :: hs) in *.
  pose proof (chromk_all_ok fused h0 h1 hs _ N F) as Fok.
  pose proof (chromk_seps fused h0 h1 hs _ N F) as S.
  pose proof (chromk_first fused h0 h1 hs _ F) as Hfirst.
  assert (Hseen : dedup str_eqb (map fst (items_of (map (chromk haps) (s0 :: chrs)))) = haps).
  { apply (dedup_items_first fused haps); [exact Fok | apply chromk_keys]. inversion F as [|? ? [X _] _]; exact X. }
  destruct (name_chromosomes_multi fused h0 (h1 :: hs) prefix (chromk haps s0) (map (chromk haps) chrs)
              ltac:(discriminate) Fok S Hseen Hfirst Hidx) as (fused' & E & U & R).
  exists fused'. split; [exact E|]. split; [exact U|].
  intros k sbs Hk sb i sc sfx Hsb Hi Hn Hname Hocc.
  change (chromk haps s0 :: map (chromk haps) chrs) with (map (chromk haps) (s0 :: chrs)) in R.
  unfold ranked in R. rewrite (sort_desc_map (chromk haps) (hd_len fused)) in R.
  - pose proof (map_nth_error (chromk haps) _ _ Hk) as Hk'.
    assert (Is : In sbs (s0 :: chrs)).
    { eapply Permutation_in; [apply sort_desc_perm | eapply nth_error_In; exact Hk]. }
    rewrite Forall_forall in F. destruct (F sbs Is) as [L1 _].
    apply In_nth_error in Hsb as (q & Hq).
    assert (Hh : exists h, nth_error haps q = Some h).
    { destruct (nth_error haps q) eqn:X; [eexists; reflexivity|]. apply nth_error_None in X.
      assert (q < length sbs)%nat by (apply nth_error_Some; congruence). lia. }
    destruct Hh as (h & Hh). destruct sb as [o idxs]. cbn [fst snd] in *.
    rewrite (R k _ h [(o, idxs)] 0%nat o idxs i sc sfx Hk'); try assumption; [reflexivity | | reflexivity].
    unfold chromk. apply (combine_nth_in _ _ q); [exact Hh|].
    exact (map_nth_error (fun sb : sub => [sb]) q sbs Hq).
  - intros x Ix. rewrite Forall_forall in F. destruct (F x Ix) as [L1 _].
    destruct x as [|[o idxs] x]; [discriminate|]. unfold first_hap_length, haps, chromk, hd_len.
    cbn [combine map]. rewrite group_hap_head. reflexivity.
Qed.

(* what the grouping looks at in a scaffold: Pretext name and tags; what the
   renaming looks at: the name; what the ranking looks at: the lengths of the
   members of the FIRST haplotype *)
Definition same_labels (a b : scaffold) : Prop :=
  sc_name a = sc_name b /\ sc_orig a = sc_orig b /\ sc_orig_tags a = sc_orig_tags b.

Lemma names_transfer : forall fusedA fusedB, Forall2 same_labels fusedA fusedB ->
  map sc_name fusedA = map sc_name fusedB.
Proof.
  induction 1 as [|a b la lb H _ IH]; cbn [map]; [reflexivity|].
  destruct H as (E & _). rewrite E, IH. reflexivity.
Qed.

Section Transfer.
  Variables fusedA fusedB : list scaffold.
  Hypothesis HL : Forall2 same_labels fusedA fusedB.

  Lemma orig_at_transfer o i : orig_at fusedA o i -> orig_at fusedB o i.
  Proof.
    intros (sc & Hn & Ho). destruct (Forall2_nth_error _ _ _ HL i sc Hn) as (sc' & Hn' & _ & Eo & _).
    exists sc'. split; [exact Hn' | congruence].
  Qed.

  Lemma singleton_at_transfer i : singleton_at fusedB i = singleton_at fusedA i.
  Proof.
    unfold singleton_at. destruct (nth_error fusedA i) as [sc|] eqn:Hn.
    - destruct (Forall2_nth_error _ _ _ HL i sc Hn) as (sc' & Hn' & _ & _ & Et). rewrite Hn', Et. reflexivity.
    - apply nth_error_None in Hn. rewrite (Forall2_length _ _ _ HL) in Hn. apply nth_error_None in Hn.
      rewrite Hn. reflexivity.
  Qed.

  Lemma chrom_ok_transfer haps c : chrom_ok fusedA haps c -> chrom_ok fusedB haps c.
  Proof.
    intros (A & B & C). split; [exact A|]. split; [|exact C].
    eapply Forall_impl; [|exact B]. intros r (R1 & R2 & R3 & R4 & R5).
    split; [exact R1|]. split; [exact R2|]. split; [|split; [exact R4|]].
    - eapply Forall_impl; [|exact R3]. intros sb (S1 & S2 & S3). split; [exact S1|]. split; [exact S2|].
      eapply Forall_impl; [|exact S3]. intro i. apply orig_at_transfer.
    - eapply Forall_impl; [|exact R5]. intros sb H. unfold not_singleton in *.
      rewrite singleton_at_transfer. exact H.
  Qed.

  Lemma seps_transfer : forall l, seps fusedA l -> seps fusedB l.
  Proof.
    induction l as [|a [|b l] IH]; cbn [seps]; try exact (fun x => x).
    intros [S1 S2]. split; [|apply IH, S2]. revert S1. unfold sep.
    destruct b as [|[h' [|sb' ss]] rs]; try exact (fun x => x). rewrite singleton_at_transfer. exact (fun x => x).
  Qed.
End Transfer.

Definition rename_names (ns : list str) (p : rop) : list str :=
  match nth_error ns (fst (fst p)) with
  | Some n => set_nth ns (fst (fst p)) (replace (snd (fst p)) (snd p) n None)
  | None => ns
  end.

Lemma apply_rop_names fs p : map sc_name (apply_rop fs p) = rename_names (map sc_name fs) p.
Proof.
  unfold apply_rop, rename_names. rewrite nth_error_map.
  destruct (nth_error fs (fst (fst p))); cbn [option_map]; [rewrite map_set_nth; reflexivity | reflexivity].
Qed.

Lemma apply_ops_names : forall ops fs,
  map sc_name (fold_left apply_rop ops fs) = fold_left rename_names ops (map sc_name fs).
Proof.
  induction ops as [|p ops IH]; intro fs; cbn [fold_left]; [reflexivity|].
  rewrite IH, apply_rop_names. reflexivity.
Qed.

Lemma first_hap_members (c : chrom) h0 o idxs d i :
  group_hap c h0 = (o, idxs) :: d -> In i idxs -> In (h0, i) (chrom_items c).
Proof.
  intros E Hi. unfold group_hap in E. destruct (aget str_eqb c h0) as [d'|] eqn:G; [|discriminate].
  subst d'. apply (aget_In _ str_eqb_eq) in G. unfold chrom_items. apply in_flat_map.
  exists (h0, (o, idxs) :: d). split; [exact G|]. unfold run_items. cbn [fst snd flat_map].
  apply in_or_app. left. unfold sub_items. cbn [snd]. apply in_map. exact Hi.
Qed.

(* Two runs over scaffold lists that agree on names, Pretext names and tags,
   and on the LENGTHS OF THE MEMBERS OF THE FIRST HAPLOTYPE, give every
   scaffold the same name: however the members of the other haplotypes are
   lengthened or shortened, no number changes. *)
Theorem first_haplotype_decides : forall prefix fusedA fusedB h0 hs c0 chrs,
  hs <> [] ->
  Forall (chrom_ok fusedA (h0 :: hs)) (c0 :: chrs) -> seps fusedA (c0 :: chrs) ->
  dedup str_eqb (map fst (items_of (c0 :: chrs))) = h0 :: hs ->
  Forall (first_hap_single (h0 :: hs)) (c0 :: chrs) ->
  Forall2 same_labels fusedA fusedB ->
  (forall i, In (h0, i) (items_of (c0 :: chrs)) -> member_len fusedB i = member_len fusedA i) ->
  exists fa fb,
    name_chromosomes prefix fusedA (items_of (c0 :: chrs)) = Ok fa
    /\ name_chromosomes prefix fusedB (items_of (c0 :: chrs)) = Ok fb
    /\ map sc_name fa = map sc_name fb.
Proof.
  intros prefix fusedA fusedB h0 hs c0 chrs Hm Hok Hsep Hseen Hfirst HL Hlen.
  assert (HokB : Forall (chrom_ok fusedB (h0 :: hs)) (c0 :: chrs)).
  { eapply Forall_impl; [|exact Hok]. intro c. apply chrom_ok_transfer, HL. }
  assert (HsepB : seps fusedB (c0 :: chrs)) by (apply (seps_transfer fusedA), Hsep; exact HL).
  eexists. eexists.
  split; [apply (name_chromosomes_multi_eq fusedA h0 hs prefix c0 chrs Hm Hok Hsep Hseen Hfirst)|].
  split; [apply (name_chromosomes_multi_eq fusedB h0 hs prefix c0 chrs Hm HokB HsepB Hseen Hfirst)|].
  assert (R : ranked fusedB h0 (c0 :: chrs) = ranked fusedA h0 (c0 :: chrs)).
  { unfold ranked, sort_by_Z_desc. apply stable_sort_ext_in. intros x y Hx Hy.
    assert (K : forall c, In c (c0 :: chrs) -> first_hap_length fusedB h0 c = first_hap_length fusedA h0 c).
    { intros c Hc. unfold first_hap_length. destruct (group_hap c h0) as [|[o idxs] d] eqn:G; [reflexivity|].
      f_equal. apply map_ext_in. intros i Hi. apply Hlen. unfold items_of. apply in_flat_map.
      exists c. split; [exact Hc|]. eapply first_hap_members; eassumption. }
    rewrite (K x Hx), (K y Hy). reflexivity. }
  rewrite R, !apply_ops_names, (names_transfer fusedA fusedB HL). reflexivity.
Qed.

Definition with_rows (sc : scaffold) (rows : list row) : scaffold :=
  mkScaffold (sc_name sc) rows (sc_tag sc) (sc_hap sc) (sc_rank sc) (sc_orig sc) (sc_orig_tags sc).

Lemma set_rows_same_labels : forall fused i sc rows, nth_error fused i = Some sc ->
  Forall2 same_labels fused (set_nth fused i (with_rows sc rows)).
Proof.
  assert (Rf : forall l, Forall2 same_labels l l) by (induction l; constructor; [repeat split | assumption]).
  induction fused as [|y l IH]; intros [|i] sc rows H; cbn [nth_error set_nth] in *; try discriminate.
  - injection H as ->. constructor; [repeat split | apply Rf].
  - constructor; [repeat split | apply IH; exact H].
Qed.

(* the corollary in the words of the property: replace the sequence of ONE
   scaffold that is not a member of the first haplotype by anything, longer or
   shorter; every scaffold is named as before *)
Corollary resize_other_haplotype : forall prefix fused h0 hs c0 chrs i sc rows,
  hs <> [] ->
  Forall (chrom_ok fused (h0 :: hs)) (c0 :: chrs) -> seps fused (c0 :: chrs) ->
  dedup str_eqb (map fst (items_of (c0 :: chrs))) = h0 :: hs ->
  Forall (first_hap_single (h0 :: hs)) (c0 :: chrs) ->
  nth_error fused i = Some sc -> ~ In (h0, i) (items_of (c0 :: chrs)) ->
  exists fa fb,
    name_chromosomes prefix fused (items_of (c0 :: chrs)) = Ok fa
    /\ name_chromosomes prefix (set_nth fused i (with_rows sc rows)) (items_of (c0 :: chrs)) = Ok fb
    /\ map sc_name fa = map sc_name fb.
Proof.
  intros prefix fused h0 hs c0 chrs i sc rows Hm Hok Hsep Hseen Hfirst Hn Hi.
  apply (first_haplotype_decides prefix fused _ h0 hs c0 chrs); try assumption.
  - apply set_rows_same_labels. exact Hn.
  - intros j Hj. unfold member_len. rewrite set_nth_other; [reflexivity|]. intros ->. contradiction.
Qed.

(* Each example is run by evaluation and also put through the theorems: the
   second shows that their hypotheses can be met. *)
Definition exsc (name : str) (hap : str) (len : Z) (orig : str) (tags : list str) : scaffold :=
  mkScaffold name [ex_frag (s "ctg") len] None (Some hap) 1 (Some orig) tags.
Definition H1 : str := s "Hap1".
Definition H2 : str := s "Hap2".
Definition names_or_err (r : res (list scaffold)) : list str + exn :=
  match r with Ok fs => inl (map sc_name fs) | Err e => inr e end.

(* A. three chromosomes, two haplotypes, sizes out of order, one unloc.
   h1 lengths: 100, 500+50, 300  ->  numbers 3, 1, 2.  The h2 lengths
   (90, 9999, 10000) play no role. *)
Definition exA_fused : list scaffold :=
  [ exsc (s "Scaffold_1") H1 100 (s "Scaffold_1") [s "Painted"];
    exsc (s "Scaffold_2") H2 90 (s "Scaffold_2") [s "Painted"];
    exsc (s "Scaffold_3") H1 500 (s "Scaffold_3") [s "Painted"];
    exsc (s "Scaffold_3_unloc_1") H1 50 (s "Scaffold_3") [s "Painted"; s "Unloc"];
    exsc (s "Scaffold_4") H2 9999 (s "Scaffold_4") [s "Painted"];
    exsc (s "Scaffold_5") H1 300 (s "Scaffold_5") [s "Painted"];
    exsc (s "Scaffold_6") H2 10000 (s "Scaffold_6") [s "Painted"] ].
Definition exA_pairs : list (sub * sub) :=
  [ ((s "Scaffold_1", [0%nat]), (s "Scaffold_2", [1%nat]));
    ((s "Scaffold_3", [2%nat; 3%nat]), (s "Scaffold_4", [4%nat]));
    ((s "Scaffold_5", [5%nat]), (s "Scaffold_6", [6%nat])) ].
Definition exA_items : list (str * nat) :=
  [(H1, 0%nat); (H2, 1%nat); (H1, 2%nat); (H1, 3%nat); (H2, 4%nat); (H1, 5%nat); (H2, 6%nat)].

Example exA_items_shape : items_of (map (chrom2 H1 H2) exA_pairs) = exA_items.
Proof. reflexivity. Qed.

Example exA_compute :
  names_or_err (name_chromosomes (s "SUPER_") exA_fused exA_items)
  = inl [s "SUPER_3"; s "SUPER_3"; s "SUPER_1"; s "SUPER_1_unloc_1"; s "SUPER_1"; s "SUPER_2"; s "SUPER_2"].
Proof. vm_compute. reflexivity. Qed.

Example exA_groups_compute :
  match foldM (build_groups_step exA_fused [H1; H2] true) exA_items (mkCg [new_group [H1; H2]] None None) with
  | Ok st => cg_groups st | Err _ => [] end
  = map (chrom2 H1 H2) exA_pairs.
Proof. vm_compute. reflexivity. Qed.

Ltac solve_nodup := apply (nodupb_ok str_eqb str_eqb_refl); vm_compute; reflexivity.
(* a tactic argument that starts with [idtac;] is run at each element, not once at the call *)
Ltac solve_forall tac := repeat (first [apply Forall_nil | apply Forall_cons; [tac|]]).
(* [sub_ok] on a concrete list of scaffolds, by evaluation *)
Definition sub_okb (fused : list scaffold) (sb : sub) : bool :=
  negb (str_eqb (fst sb) []) && negb (Nat.eqb (length (snd sb)) 0)
  && forallb (fun i => match nth_error fused i with
                       | Some sc => opt_eqb str_eqb (sc_orig sc) (Some (fst sb))
                       | None => false
                       end) (snd sb).

Lemma sub_okb_sound fused sb : sub_okb fused sb = true -> sub_ok fused sb.
Proof.
  unfold sub_okb. intro H. apply andb_prop in H as [H H3]. apply andb_prop in H as [H1 H2].
  split; [intro E; rewrite E in H1; discriminate|].
  split; [intro E; rewrite E in H2; discriminate|].
  apply Forall_forall. intros i Hi. rewrite forallb_forall in H3. specialize (H3 i Hi).
  destruct (nth_error fused i) as [sc|] eqn:Hn; [|discriminate].
  exists sc. split; [exact Hn | apply opt_str_eqb_eq, H3].
Qed.

Ltac solve_sub_ok := apply sub_okb_sound; vm_compute; reflexivity.

(* likewise [chrom_ok] for a list of chromosomes *)
Definition run_okb (fused : list scaffold) (haps : list str) (r : str * list sub) : bool :=
  mem_str (fst r) haps && negb (Nat.eqb (length (snd r)) 0) && forallb (sub_okb fused) (snd r)
  && nodupb str_eqb (map fst (snd r))
  && forallb (fun sb => negb (singleton_at fused (first_idx sb))) (removelast (snd r)).
Definition chrom_okb (fused : list scaffold) (haps : list str) (c : chrom) : bool :=
  negb (Nat.eqb (length c) 0) && forallb (run_okb fused haps) c && nodupb str_eqb (map fst c).

Lemma run_okb_sound fused haps r : run_okb fused haps r = true -> run_ok fused haps r.
Proof.
  unfold run_okb. intro H. apply andb_prop in H as [H H5]. apply andb_prop in H as [H H4].
  apply andb_prop in H as [H H3]. apply andb_prop in H as [H1 H2].
  split; [apply mem_str_in, H1|]. split; [intro E; rewrite E in H2; discriminate|].
  split; [exact (forallb_Forall _ _ _ H3 (sub_okb_sound fused))|].
  split; [exact (nodupb_ok str_eqb str_eqb_refl _ H4)|].
  apply (forallb_Forall _ _ _ H5 (fun sb => proj1 (negb_true_iff _))).
Qed.

Lemma chroms_okb_sound fused haps l :
  forallb (chrom_okb fused haps) l = true -> Forall (chrom_ok fused haps) l.
Proof.
  intro Hl. apply (forallb_Forall _ _ _ Hl). intros c H. unfold chrom_okb in H.
  apply andb_prop in H as [H H3]. apply andb_prop in H as [H1 H2].
  split; [intro E; rewrite E in H1; discriminate|].
  split; [exact (forallb_Forall _ _ _ H2 (run_okb_sound fused haps)) | exact (nodupb_ok str_eqb str_eqb_refl _ H3)].
Qed.

(* the suffixes of the examples are shorter than 16 characters *)
Ltac solve_noocc :=
  let j := fresh "j" in let Hj := fresh "Hj" in
  intros j Hj;
  first [ exfalso; exact (Nat.nlt_0_r _ Hj)
        | do 16 (destruct j as [|j]; [reflexivity|]); cbn in Hj; lia ].

Lemma exA_hyps :
  H1 <> H2
  /\ Forall (fun p => sub_ok exA_fused (fst p) /\ sub_ok exA_fused (snd p)) exA_pairs
  /\ NoDup (map snd (items_of (map (chrom2 H1 H2) exA_pairs))).
Proof.
  split; [discriminate|]. split.
  - solve_forall ltac:(idtac; split; solve_sub_ok).
  - (* the indices are 0 .. 6 *) vm_compute. exact (seq_NoDup 7 0).
Qed.

Example exA_groups_by_theorem :
  exists st, foldM (build_groups_step exA_fused [H1; H2] true) exA_items (mkCg [new_group [H1; H2]] None None) = Ok st
             /\ cg_groups st = map (chrom2 H1 H2) exA_pairs
             /\ existsb (group_bad [H1; H2]) (cg_groups st) = false.
Proof.
  destruct exA_hyps as (A & B & _).
  apply (two_hap_groups exA_fused H1 H2 exA_pairs A ltac:(discriminate) B).
Qed.

(* through the theorems: the 9999 bp h2 scaffold gets number 1 because its h1
   homologue (500 + 50 bp) is the longest h1 chromosome; the unloc keeps its
   suffix; the 10000 bp h2 scaffold gets number 2 *)
Example exA_names_by_theorem :
  exists fused', name_chromosomes (s "SUPER_") exA_fused exA_items = Ok fused'
    /\ option_map sc_name (nth_error fused' 2) = Some (s "SUPER_1")
    /\ option_map sc_name (nth_error fused' 3) = Some (s "SUPER_1_unloc_1")
    /\ option_map sc_name (nth_error fused' 4) = Some (s "SUPER_1")
    /\ option_map sc_name (nth_error fused' 6) = Some (s "SUPER_2")
    /\ option_map sc_name (nth_error fused' 0) = Some (s "SUPER_3")
    /\ option_map sc_name (nth_error fused' 1) = Some (s "SUPER_3").
Proof.
  destruct exA_hyps as (A & B & C).
  destruct (two_hap_names (s "SUPER_") exA_fused H1 H2 _ _ A B C) as (fused' & E & _ & R).
  exists fused'. split; [exact E|].
  pose (p1 := ((s "Scaffold_1", [0%nat]), (s "Scaffold_2", [1%nat])) : sub * sub).
  pose (p2 := ((s "Scaffold_3", [2%nat; 3%nat]), (s "Scaffold_4", [4%nat])) : sub * sub).
  pose (p3 := ((s "Scaffold_5", [5%nat]), (s "Scaffold_6", [6%nat])) : sub * sub).
  assert (K0 := R 0%nat p2 eq_refl). assert (K1 := R 1%nat p3 eq_refl). assert (K2 := R 2%nat p1 eq_refl).
  repeat split.
  - erewrite (K0 (fst p2) 2%nat _ [] (or_introl eq_refl)); [reflexivity | left; reflexivity | reflexivity | reflexivity | solve_noocc].
  - erewrite (K0 (fst p2) 3%nat _ (s "_unloc_1") (or_introl eq_refl));
      [reflexivity | right; left; reflexivity | reflexivity | reflexivity | solve_noocc].
  - erewrite (K0 (snd p2) 4%nat _ [] (or_intror eq_refl)); [reflexivity | left; reflexivity | reflexivity | reflexivity | solve_noocc].
  - erewrite (K1 (snd p3) 6%nat _ [] (or_intror eq_refl)); [reflexivity | left; reflexivity | reflexivity | reflexivity | solve_noocc].
  - erewrite (K2 (fst p1) 0%nat _ [] (or_introl eq_refl)); [reflexivity | left; reflexivity | reflexivity | reflexivity | solve_noocc].
  - erewrite (K2 (snd p1) 1%nat _ [] (or_intror eq_refl)); [reflexivity | left; reflexivity | reflexivity | reflexivity | solve_noocc].
Qed.

(* "the first haplotype decides": blow the smallest h2 scaffold (index 1,
   90 bp) up to 10^9 bp -- same names *)
Example exA_resize_compute :
  names_or_err (name_chromosomes (s "SUPER_")
                  (set_nth exA_fused 1 (with_rows (exsc (s "Scaffold_2") H2 90 (s "Scaffold_2") [s "Painted"])
                                                  [ex_frag (s "ctg") 1000000000])) exA_items)
  = names_or_err (name_chromosomes (s "SUPER_") exA_fused exA_items).
Proof. vm_compute. reflexivity. Qed.
(* ... whereas lengthening an h1 scaffold does change the numbers *)
Example exA_resize_h1_compute :
  names_or_err (name_chromosomes (s "SUPER_")
                  (set_nth exA_fused 0 (with_rows (exsc (s "Scaffold_1") H1 100 (s "Scaffold_1") [s "Painted"])
                                                  [ex_frag (s "ctg") 1000000000])) exA_items)
  = inl [s "SUPER_1"; s "SUPER_1"; s "SUPER_2"; s "SUPER_2_unloc_1"; s "SUPER_2"; s "SUPER_3"; s "SUPER_3"].
Proof. vm_compute. reflexivity. Qed.

(* B. chromosome 1 has two Pretext scaffolds in Hap2: they get the letters A and B *)
Definition exB_fused : list scaffold :=
  [ exsc (s "Scaffold_1") H1 100 (s "Scaffold_1") [s "Painted"];
    exsc (s "Scaffold_2") H2 60 (s "Scaffold_2") [s "Painted"];
    exsc (s "Scaffold_3") H2 30 (s "Scaffold_3") [s "Painted"];
    exsc (s "Scaffold_3_unloc_1") H2 5 (s "Scaffold_3") [s "Painted"; s "Unloc"];
    exsc (s "Scaffold_4") H1 700 (s "Scaffold_4") [s "Painted"];
    exsc (s "Scaffold_5") H2 650 (s "Scaffold_5") [s "Painted"] ].
Definition exB_x0 : sub * list sub :=
  ((s "Scaffold_1", [0%nat]), [(s "Scaffold_2", [1%nat]); (s "Scaffold_3", [2%nat; 3%nat])]).
Definition exB_x1 : sub * list sub := ((s "Scaffold_4", [4%nat]), [(s "Scaffold_5", [5%nat])]).
Definition exB_items : list (str * nat) :=
  [(H1, 0%nat); (H2, 1%nat); (H2, 2%nat); (H2, 3%nat); (H1, 4%nat); (H2, 5%nat)].

Example exB_items_shape : items_of (map (chrom_split H1 H2) [exB_x0; exB_x1]) = exB_items.
Proof. reflexivity. Qed.

Example exB_compute :
  names_or_err (name_chromosomes (s "SUPER_") exB_fused exB_items)
  = inl [s "SUPER_2"; s "SUPER_2A"; s "SUPER_2B"; s "SUPER_2B_unloc_1"; s "SUPER_1"; s "SUPER_1"].
Proof. vm_compute. reflexivity. Qed.

Example exB_groups_compute :
  match foldM (build_groups_step exB_fused [H1; H2] true) exB_items (mkCg [new_group [H1; H2]] None None) with
  | Ok st => cg_groups st | Err _ => [] end
  = [ [(H1, [(s "Scaffold_1", [0%nat])]); (H2, [(s "Scaffold_2", [1%nat]); (s "Scaffold_3", [2%nat; 3%nat])])];
      [(H1, [(s "Scaffold_4", [4%nat])]); (H2, [(s "Scaffold_5", [5%nat])])] ].
Proof. vm_compute. reflexivity. Qed.

Lemma exB_hyps :
  H1 <> H2 /\ Forall (split_ok exB_fused) [exB_x0; exB_x1]
  /\ NoDup (map snd (items_of (map (chrom_split H1 H2) [exB_x0; exB_x1]))).
Proof.
  split; [discriminate|]. split.
  - constructor; [|constructor; [|constructor]].
    + split; [solve_sub_ok|]. cbn [snd exB_x0]. split; [discriminate|].
      split; [solve_forall solve_sub_ok|]. split; [solve_nodup|].
      cbn [removelast]. repeat constructor.
    + split; [solve_sub_ok|]. cbn [snd exB_x1]. split; [discriminate|].
      split; [solve_forall solve_sub_ok|]. split; [solve_nodup|]. constructor.
  - (* the indices are 0 .. 5 *) vm_compute. exact (seq_NoDup 6 0).
Qed.

Example exB_names_by_theorem :
  exists fused', name_chromosomes (s "SUPER_") exB_fused exB_items = Ok fused'
    /\ option_map sc_name (nth_error fused' 0) = Some (s "SUPER_2")
    /\ option_map sc_name (nth_error fused' 1) = Some (s "SUPER_2A")
    /\ option_map sc_name (nth_error fused' 2) = Some (s "SUPER_2B")
    /\ option_map sc_name (nth_error fused' 3) = Some (s "SUPER_2B_unloc_1").
Proof.
  destruct exB_hyps as (A & B & C).
  destruct (two_hap_split_names exB_fused H1 H2 A _ _ B (s "SUPER_") C) as (fused' & E & _ & R).
  exists fused'. split; [exact E|].
  destruct (R 1%nat (fst exB_x0) (snd exB_x0) eq_refl) as [R1 R2].
  repeat split.
  - erewrite (R1 0%nat _ []); [reflexivity | left; reflexivity | reflexivity | reflexivity | solve_noocc].
  - erewrite (R2 0%nat (s "Scaffold_2", [1%nat]) 1%nat _ []);
      [reflexivity | reflexivity | left; reflexivity | reflexivity | reflexivity | solve_noocc].
  - erewrite (R2 1%nat (s "Scaffold_3", [2%nat; 3%nat]) 2%nat _ []);
      [reflexivity | reflexivity | left; reflexivity | reflexivity | reflexivity | solve_noocc].
  - erewrite (R2 1%nat (s "Scaffold_3", [2%nat; 3%nat]) 3%nat _ (s "_unloc_1"));
      [reflexivity | reflexivity | right; left; reflexivity | reflexivity | reflexivity | solve_noocc].
Qed.

(* C. chromosomes that are not seen in every haplotype *)
Definition exC (tag_b1 tag_bx : list str) : list scaffold :=
  [ exsc (s "a1") H1 100 (s "a1") [];
    exsc (s "b1") H2 90 (s "b1") tag_b1;
    exsc (s "bx") H2 50 (s "bx") tag_bx;          (* seen in Hap2 only *)
    exsc (s "a2") H1 200 (s "a2") [];
    exsc (s "b2") H2 10 (s "b2") [] ].
Definition exC_items : list (str * nat) := [(H1, 0%nat); (H2, 1%nat); (H2, 2%nat); (H1, 3%nat); (H2, 4%nat)].

(* C1. a chromosome seen in Hap2 only is taken for a second Pretext scaffold of
   the previous chromosome: it gets that chromosome's number and the letter B
   (the true homologue becomes A) -- whether or not it is tagged Singleton:
   the tag that is looked at is the one of the PREVIOUS Hap2 scaffold *)
Example exC1_h2_only_becomes_B :
  names_or_err (name_chromosomes (s "S_") (exC [] []) exC_items)
  = inl [s "S_2"; s "S_2A"; s "S_2B"; s "S_1"; s "S_1"]
  /\ names_or_err (name_chromosomes (s "S_") (exC [] [s "Singleton"]) exC_items)
     = inl [s "S_2"; s "S_2A"; s "S_2B"; s "S_1"; s "S_1"].
Proof. split; vm_compute; reflexivity. Qed.

(* C2. tagging the previous Hap2 scaffold does separate it, but the new group
   has no Hap1 member yet, so the NEXT Hap1 scaffold joins it: from here on
   every Hap1 scaffold is grouped with the Hap2 scaffold of the chromosome
   before it, and the last group stays without Hap1 -> ChrNamerError *)
Example exC2_shifted_groups :
  match foldM (build_groups_step (exC [s "Singleton"] []) [H1; H2] true) exC_items (mkCg [new_group [H1; H2]] None None) with
  | Ok st => cg_groups st | Err _ => [] end
  = [ [(H1, [(s "a1", [0%nat])]); (H2, [(s "b1", [1%nat])])];
      [(H1, [(s "a2", [3%nat])]); (H2, [(s "bx", [2%nat])])];
      [(H1, []); (H2, [(s "b2", [4%nat])])] ]
  /\ name_chromosomes (s "S_") (exC [s "Singleton"] []) exC_items = Err ChrNamerError.
Proof. split; vm_compute; reflexivity. Qed.

(* ... unless a later chromosome seen in Hap1 only (tagged Singleton) makes up
   for it: then there is NO error, and a2 shares its number with bx, a3 with b2 *)
Definition exC3_fused : list scaffold :=
  exC [s "Singleton"] [] ++
  [ exsc (s "a3") H1 300 (s "a3") [s "Singleton"];   (* seen in Hap1 only *)
    exsc (s "a4") H1 20 (s "a4") [];
    exsc (s "b4") H2 10 (s "b4") [] ].
Definition exC3_items : list (str * nat) := exC_items ++ [(H1, 5%nat); (H1, 6%nat); (H2, 7%nat)].
Definition exC3_chrs : list chrom :=
  [ [(H1, [(s "a1", [0%nat])]); (H2, [(s "b1", [1%nat])])];
    [(H2, [(s "bx", [2%nat])]); (H1, [(s "a2", [3%nat])])];
    [(H2, [(s "b2", [4%nat])]); (H1, [(s "a3", [5%nat])])];
    [(H1, [(s "a4", [6%nat])]); (H2, [(s "b4", [7%nat])])] ].

Example exC3_silent_mispairing :
  names_or_err (name_chromosomes (s "S_") exC3_fused exC3_items)
  = inl [s "S_3"; s "S_3"; s "S_2"; s "S_2"; s "S_1"; s "S_1"; s "S_4"; s "S_4"].
Proof. vm_compute. reflexivity. Qed.

(* the general grouping theorem covers it: the "chromosomes" of the model are
   (a1 b1) (bx a2) (b2 a3) (a4 b4) *)
Example exC3_by_theorem :
  exists lh lo,
    foldM (build_groups_step exC3_fused [H1; H2] true) exC3_items (mkCg [new_group [H1; H2]] None None)
    = Ok (mkCg (map (group_of [H1; H2]) exC3_chrs) lh lo)
    /\ map (group_of [H1; H2]) exC3_chrs
       = [ [(H1, [(s "a1", [0%nat])]); (H2, [(s "b1", [1%nat])])];
           [(H1, [(s "a2", [3%nat])]); (H2, [(s "bx", [2%nat])])];
           [(H1, [(s "a3", [5%nat])]); (H2, [(s "b2", [4%nat])])];
           [(H1, [(s "a4", [6%nat])]); (H2, [(s "b4", [7%nat])])] ].
Proof.
  eexists. eexists. split; [|vm_compute; reflexivity].
  change exC3_items with (items_of exC3_chrs).
  apply (build_groups_multi exC3_fused [H1; H2]).
  - solve_nodup.
  - apply chroms_okb_sound. vm_compute. reflexivity.
  - cbn [seps exC3_chrs]. repeat split; cbn [map fst In]; try tauto.
    + (* (a1 b1) | bx : same haplotype as b1, another name, b1 tagged Singleton *)
      right. split; [discriminate | reflexivity].
    + (* (bx a2) | b2 : Hap2 is already in the group and a2 is Hap1 *)
      left. discriminate.
    + (* (b2 a3) | a4 : same haplotype as a3, another name, a3 tagged Singleton *)
      right. split; [discriminate | reflexivity].
Qed.

(* C4. a chromosome seen in Hap1 only, NOT tagged: the next Hap1 scaffold is
   put into the same group -> "<Consecutive Hap1>", ChrNamerError *)
Definition exC4 (tag_ax : list str) : list scaffold :=
  [ exsc (s "a1") H1 100 (s "a1") [];
    exsc (s "b1") H2 90 (s "b1") [];
    exsc (s "ax") H1 50 (s "ax") tag_ax;          (* seen in Hap1 only *)
    exsc (s "a2") H1 200 (s "a2") [];
    exsc (s "b2") H2 10 (s "b2") [] ].
Definition exC4_items : list (str * nat) := [(H1, 0%nat); (H2, 1%nat); (H1, 2%nat); (H1, 3%nat); (H2, 4%nat)].

Example exC4_untagged_compute : name_chromosomes (s "S_") (exC4 []) exC4_items = Err ChrNamerError.
Proof. vm_compute. reflexivity. Qed.

Example exC4_untagged_by_theorem : name_chromosomes (s "S_") (exC4 []) exC4_items = Err ChrNamerError.
Proof.
  pose (c0 := [(H1, [(s "a1", [0%nat])]); (H2, [(s "b1", [1%nat])])] : chrom).
  pose (c1 := [(H1, [(s "ax", [2%nat]); (s "a2", [3%nat])]); (H2, [(s "b2", [4%nat])])] : chrom).
  change exC4_items with (items_of [c0; c1]).
  apply (name_chromosomes_multi_bad (exC4 []) H1 [H2]).
  - discriminate.
  - apply chroms_okb_sound. vm_compute. reflexivity.
  - cbn [seps]. split; [|exact Logic.I]. split; [left; reflexivity|]. left. discriminate.
  - vm_compute. reflexivity.
  - intro F. inversion F as [|? ? _ F']; subst. inversion F' as [|? ? (sb & X) _]; subst.
    vm_compute in X. discriminate.
Qed.

(* C5. tagged Singleton it stays alone and is numbered by its own length *)
Example exC5_singleton_compute :
  names_or_err (name_chromosomes (s "S_") (exC4 [s "Singleton"]) exC4_items)
  = inl [s "S_2"; s "S_2"; s "S_3"; s "S_1"; s "S_1"].
Proof. vm_compute. reflexivity. Qed.

Example exC5_singleton_by_theorem :
  exists st,
    foldM (build_groups_step (exC4 [s "Singleton"]) [H1; H2] true) exC4_items (mkCg [new_group [H1; H2]] None None) = Ok st
    /\ cg_groups st = [ [(H1, [(s "a1", [0%nat])]); (H2, [(s "b1", [1%nat])])];
                        [(H1, [(s "ax", [2%nat])]); (H2, [])];
                        [(H1, [(s "a2", [3%nat])]); (H2, [(s "b2", [4%nat])])] ]
    /\ existsb (group_bad [H1; H2]) (cg_groups st) = false.
Proof.
  apply (two_hap_singleton_groups (exC4 [s "Singleton"]) H1 H2
           [Pair (s "a1", [0%nat]) (s "b1", [1%nat]); Single (s "ax", [2%nat]); Pair (s "a2", [3%nat]) (s "b2", [4%nat])]).
  - discriminate.
  - discriminate.
  - solve_forall ltac:(idtac; cbn [chr2_ok]; first [split; solve_sub_ok | solve_sub_ok]).
  - cbn [singles_tagged]. repeat split. discriminate.
Qed.

(* C6. which haplotype is "the first" is decided by the first painted scaffold
   of the map: if that one is Hap2, Hap2 lengths decide *)
Example exC6_first_seen :
  names_or_err (name_chromosomes (s "S_")
      [ exsc (s "b1") H2 10 (s "b1") []; exsc (s "a1") H1 999 (s "a1") [];
        exsc (s "b2") H2 20 (s "b2") []; exsc (s "a2") H1 1 (s "a2") [] ]
      [(H2, 0%nat); (H1, 1%nat); (H2, 2%nat); (H1, 3%nat)])
  = inl [s "S_2"; s "S_2"; s "S_1"; s "S_1"].
Proof. vm_compute. reflexivity. Qed.

Print Assumptions build_groups_multi.
Print Assumptions groups_bad_iff.
Print Assumptions k_hap_groups.
Print Assumptions two_hap_groups.
Print Assumptions two_hap_singleton_groups.
Print Assumptions two_hap_split_groups.
Print Assumptions ranked_spec.
Print Assumptions name_chromosomes_multi_bad.
Print Assumptions name_chromosomes_multi_eq.
Print Assumptions name_chromosomes_multi.
Print Assumptions two_hap_split_names.
Print Assumptions two_hap_names.
Print Assumptions k_hap_names.
Print Assumptions first_haplotype_decides.
Print Assumptions resize_other_haplotype.
Print Assumptions exA_groups_by_theorem.
Print Assumptions exA_names_by_theorem.
Print Assumptions exB_names_by_theorem.
Print Assumptions exC3_by_theorem.
Print Assumptions exC4_untagged_by_theorem.
Print Assumptions exC5_singleton_by_theorem.
