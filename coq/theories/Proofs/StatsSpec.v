(* C10, C09: specification of Model/Stats.v: chromosome_name_csv (the
   chromosome.list.csv file) and name_assemblies (file-name stems of the output
   assemblies). *)
From Tola Require Import Py.Base Model.Scaffold Model.Namer Model.Remap Model.Stats.
From Tola Require Import Proofs.BaseLemmas.
From Coq Require Import Permutation.

Definition rank12 (sc : scaffold) : bool := (sc_rank sc =? 1) || (sc_rank sc =? 2).
Definition nl : str := [ascii_of_N 10].
Definition csv_line (name chr loc : str) : str := name ++ comma ++ chr ++ comma ++ loc ++ nl.
Definition chr_of (prefix name : str) : str := replace prefix [] name (Some 1%nat).

(* one step of the loop, in the vocabulary of this file *)
Lemma chr_csv_lines_cons prefix sc t lo cn :
  chr_csv_lines prefix (sc :: t) lo cn =
  if rank12 sc then
    if truthy lo && opt_eqb str_eqb (sc_orig sc) lo
    then csv_line (sc_name sc) cn (s "no") :: chr_csv_lines prefix t lo cn
    else csv_line (sc_name sc) (chr_of prefix (sc_name sc)) (s "yes")
           :: chr_csv_lines prefix t (sc_orig sc) (chr_of prefix (sc_name sc))
  else chr_csv_lines prefix t lo cn.
Proof. reflexivity. Qed.

Theorem csv_ignores_rank3 : forall prefix scs lo cn,
  chr_csv_lines prefix scs lo cn = chr_csv_lines prefix (filter rank12 scs) lo cn.
Proof.
  intros prefix scs; induction scs as [|sc t IH]; intros lo cn; [reflexivity|].
  cbn [filter]. rewrite chr_csv_lines_cons. destruct (rank12 sc) eqn:E; [|apply IH].
  rewrite chr_csv_lines_cons, E.
  destruct (truthy lo && opt_eqb str_eqb (sc_orig sc) lo); f_equal; apply IH.
Qed.

Theorem csv_some : forall prefix scs x,
  chromosome_name_csv prefix scs = Some x -> x = concat (chr_csv_lines prefix scs None []).
Proof.
  intros prefix scs x. unfold chromosome_name_csv.
  destruct (chr_csv_lines prefix scs None []); [discriminate|]. intros [= <-]. reflexivity.
Qed.

Definition is_csv_line_of (sc : scaffold) (line : str) : Prop :=
  exists chr loc, (loc = s "yes" \/ loc = s "no")
                  /\ line = sc_name sc ++ s "," ++ chr ++ s "," ++ loc ++ s "
".

Theorem csv_lines_shape : forall prefix scs lo cn,
  Forall2 is_csv_line_of (filter rank12 scs) (chr_csv_lines prefix scs lo cn).
Proof.
  intros prefix scs; induction scs as [|sc t IH]; intros lo cn; [constructor|].
  rewrite chr_csv_lines_cons. cbn [filter]. destruct (rank12 sc); [|apply IH].
  destruct (truthy lo && opt_eqb str_eqb (sc_orig sc) lo); constructor; try apply IH.
  - exists cn, (s "no"). split; [right|]; reflexivity.
  - exists (chr_of prefix (sc_name sc)), (s "yes"). split; [left|]; reflexivity.
Qed.

Theorem csv_line_count : forall prefix scs lo cn,
  length (chr_csv_lines prefix scs lo cn)
  = length (filter (fun sc => (sc_rank sc =? 1) || (sc_rank sc =? 2)) scs).
Proof. intros. symmetry. exact (Forall2_length _ _ _ (csv_lines_shape prefix scs lo cn)). Qed.

Theorem csv_none_iff : forall prefix scs,
  chromosome_name_csv prefix scs = None
  <-> (forall sc, In sc scs -> (sc_rank sc =? 1) || (sc_rank sc =? 2) = false).
Proof.
  intros prefix scs. unfold chromosome_name_csv.
  transitivity (filter (fun sc => (sc_rank sc =? 1) || (sc_rank sc =? 2)) scs = []); [|apply filter_nil_iff].
  rewrite <- length_zero_iff_nil, <- (csv_line_count prefix scs None []), length_zero_iff_nil.
  destruct (chr_csv_lines prefix scs None []); split; congruence.
Qed.

(* the chromosome name: the scaffold name with the autosome prefix removed *)
Theorem chr_of_prefixed : forall prefix x, prefix <> [] -> chr_of prefix (prefix ++ x) = x.
Proof. intros. unfold chr_of. rewrite replace_once_prefix by assumption. reflexivity. Qed.

Theorem chr_of_unprefixed : forall prefix name,
  (forall j, (j < length name)%nat -> starts_with prefix (skipn j name) = false) ->
  chr_of prefix name = name.
Proof. intros. apply replace_no_occurrence. assumption. Qed.

Theorem chr_of_empty_prefix : forall name, chr_of [] name = name.
Proof. reflexivity. Qed.

Record chr_grp := mkGrp { g_main : scaffold; g_unlocs : list scaffold; g_orig : str }.
Definition grp_scs (g : chr_grp) : list scaffold := g_main g :: g_unlocs g.
Definition grp_ok (g : chr_grp) : Prop :=
  g_orig g <> [] /\
  Forall (fun sc => sc_orig sc = Some (g_orig g) /\ rank12 sc = true) (grp_scs g).
Fixpoint adjacent_differ (gs : list chr_grp) : Prop :=
  match gs with
  | g1 :: (g2 :: _) as t => g_orig g1 <> g_orig g2 /\ adjacent_differ t
  | _ => True
  end.
Definition grp_lines (prefix : str) (g : chr_grp) : list str :=
  let chr := replace prefix [] (sc_name (g_main g)) (Some 1%nat) in
  (sc_name (g_main g) ++ s "," ++ chr ++ s ",yes
")
    :: map (fun u => sc_name u ++ s "," ++ chr ++ s ",no
") (g_unlocs g).

Lemma not_same lo o : lo <> Some o -> truthy lo && opt_eqb str_eqb (Some o) lo = false.
Proof.
  intros H. destruct lo as [l|]; [|reflexivity]. cbn [opt_eqb].
  destruct (str_eqb o l) eqn:E; [|apply andb_false_r].
  apply str_eqb_eq in E. subst. congruence.
Qed.

Lemma is_same o : o <> [] -> truthy (Some o) && opt_eqb str_eqb (Some o) (Some o) = true.
Proof. intros H. destruct o; [congruence|]. cbn [truthy opt_eqb andb]. apply str_eqb_refl. Qed.

Lemma csv_unlocs prefix o cn : o <> [] -> forall us rest,
  Forall (fun sc => sc_orig sc = Some o /\ rank12 sc = true) us ->
  chr_csv_lines prefix (us ++ rest) (Some o) cn
  = map (fun u => sc_name u ++ s "," ++ cn ++ s ",no
") us ++ chr_csv_lines prefix rest (Some o) cn.
Proof.
  intros Ho us rest; induction us as [|u us IH]; intros F; [reflexivity|].
  inversion F as [|? ? [Eo Er] F']; subst.
  cbn [app map]. rewrite chr_csv_lines_cons, Er, Eo, (is_same o Ho). f_equal. apply IH. exact F'.
Qed.

Theorem csv_groups_gen : forall prefix groups lo cn,
  Forall grp_ok groups -> adjacent_differ groups ->
  match groups with g :: _ => lo <> Some (g_orig g) | [] => True end ->
  chr_csv_lines prefix (flat_map grp_scs groups) lo cn = flat_map (grp_lines prefix) groups.
Proof.
  intros prefix groups; induction groups as [|g gs IH]; intros lo cn F A L; [reflexivity|].
  inversion F as [|? ? [Ho Fg] F']; subst.
  cbn [flat_map]. unfold grp_scs at 1. cbn [app].
  inversion Fg as [|? ? [Eo Er] Fu]; subst.
  rewrite chr_csv_lines_cons, Er, Eo, (not_same lo _ L).
  unfold grp_lines at 1. cbn [app]. f_equal.
  rewrite csv_unlocs by assumption. f_equal.
  apply IH; [exact F' | destruct gs; [exact I | apply A] |].
  destruct gs as [|g2 gs]; [exact I|]. destruct A as [A _]. congruence.
Qed.

(* localised = "no" exactly for the unlocs, each carrying its chromosome's name *)
Theorem csv_groups : forall prefix groups,
  Forall grp_ok groups -> adjacent_differ groups ->
  chr_csv_lines prefix (flat_map (fun g => g_main g :: g_unlocs g) groups) None []
  = flat_map (fun g =>
      let chr := replace prefix [] (sc_name (g_main g)) (Some 1%nat) in
      (sc_name (g_main g) ++ s "," ++ chr ++ s ",yes
")
        :: map (fun u => sc_name u ++ s "," ++ chr ++ s ",no
") (g_unlocs g)) groups.
Proof.
  intros prefix groups F A. apply (csv_groups_gen prefix groups None [] F A).
  destruct groups; [exact I | discriminate].
Qed.

(* with other (rank 3) scaffolds interleaved anywhere *)
Corollary csv_groups_interleaved : forall prefix groups scs,
  Forall grp_ok groups -> adjacent_differ groups ->
  filter rank12 scs = flat_map grp_scs groups ->
  chr_csv_lines prefix scs None [] = flat_map (grp_lines prefix) groups.
Proof.
  intros prefix groups scs F A E. rewrite csv_ignores_rank3, E. apply csv_groups; assumption.
Qed.

Definition mk_sc (name : string) (rank : Z) (orig : string) : scaffold :=
  mkScaffold (s name) [] None None rank (Some (s orig)) [].
Arguments mk_sc name%string_scope rank%Z_scope orig%string_scope.

(* known weakness (recorded finding): the main scaffold of a chromosome is
   missing and its unloc comes first -- the unloc is reported as localised,
   and its "chromosome" is its own name *)
Example csv_orphan_unloc :
  chr_csv_lines (s "SUPER_") [mk_sc "SUPER_4_unloc_1" 2 "Scaffold_4"] None []
  = [s "SUPER_4_unloc_1,4_unloc_1,yes
"].
Proof. vm_compute. reflexivity. Qed.

(* same cause: the unloc sorted before its main scaffold swaps the roles *)
Example csv_unloc_before_main :
  chr_csv_lines (s "SUPER_")
    [mk_sc "SUPER_4_unloc_1" 2 "Scaffold_4"; mk_sc "SUPER_4" 1 "Scaffold_4"] None []
  = [s "SUPER_4_unloc_1,4_unloc_1,yes
"; s "SUPER_4,4_unloc_1,no
"].
Proof. vm_compute. reflexivity. Qed.

(* why [adjacent_differ] is needed: two chromosomes cut from the same Pretext
   scaffold, one after the other -- the second main scaffold reads as an unloc *)
Example csv_same_orig_adjacent :
  chr_csv_lines (s "SUPER_")
    [mk_sc "SUPER_1" 1 "Scaffold_1"; mk_sc "SUPER_2" 1 "Scaffold_1"] None []
  = [s "SUPER_1,1,yes
"; s "SUPER_2,1,no
"].
Proof. vm_compute. reflexivity. Qed.

(* why [o <> []]: with an empty (falsy) original name nothing is ever an unloc *)
Example csv_empty_orig :
  chr_csv_lines (s "SUPER_")
    [mk_sc "SUPER_1" 1 ""; mk_sc "SUPER_1_unloc_1" 2 ""] None []
  = [s "SUPER_1,1,yes
"; s "SUPER_1_unloc_1,1_unloc_1,yes
"].
Proof. vm_compute. reflexivity. Qed.

Definition has_key (k : option str) (asms : list out_asm) : bool :=
  existsb (fun a => opt_eqb str_eqb (oa_key a) k) asms.

Definition key_str (k : option str) : str := match k with Some t => t | None => [] end.

(* the Primary branch *)
Definition primary_entry (root v : str) (a : out_asm) : list named_asm :=
  if is_primary_key (oa_key a)
  then [mkNamed (oa_key a) (stem root v (s "primary")) (oa_curated a) (oa_scaffolds a)]
  else if oa_curated a then []
  else [mkNamed (oa_key a) (stem root v (lower (key_str (oa_key a)) ++ s "s")) false (oa_scaffolds a)].

Definition is_merged (a : out_asm) : bool := negb (is_primary_key (oa_key a)) && oa_curated a.
Definition merged (asms : list out_asm) : list out_asm := filter is_merged asms.
Definition kept (asms : list out_asm) : list out_asm := filter (fun a => negb (is_merged a)) asms.

Definition all_haplotigs_na (root v : str) (asms : list out_asm) : named_asm :=
  mkNamed (Some (s "all_haplotigs")) (stem root v (s "all_haplotigs")) true
          (flat_map oa_scaffolds (merged asms)).

Definition primary_result (root v : str) (asms : list out_asm) : list named_asm :=
  flat_map (primary_entry root v) asms
  ++ match merged asms with [] => [] | _ => [all_haplotigs_na root v asms] end.

(* the assemblies on which asm_key.lower() is called with asm_key = None *)
Definition none_uncurated (a : out_asm) : bool :=
  match oa_key a with None => negb (oa_curated a) | Some _ => false end.

Definition g_primary (root v : str) (a : out_asm) : res (list named_asm) :=
  if is_primary_key (oa_key a)
  then Ok [mkNamed (oa_key a) (stem root v (s "primary")) (oa_curated a) (oa_scaffolds a)]
  else if oa_curated a then Ok []
  else do l <- key_lower (oa_key a);
       Ok [mkNamed (oa_key a) (stem root v (l ++ s "s")) false (oa_scaffolds a)].

Lemma g_primary_eq root v a :
  g_primary root v a
  = if none_uncurated a then Err AttributeError else Ok (primary_entry root v a).
Proof.
  unfold g_primary, primary_entry, none_uncurated.
  destruct (oa_key a) as [t|]; cbn [is_primary_key opt_eqb key_lower key_str bind].
  - destruct (str_eqb t (s "Primary")), (oa_curated a); reflexivity.
  - destruct (oa_curated a); reflexivity.
Qed.

Lemma mapM_g_primary root v : forall asms,
  mapM (g_primary root v) asms
  = if existsb none_uncurated asms then Err AttributeError
    else Ok (map (primary_entry root v) asms).
Proof.
  induction asms as [|a l IH]; [reflexivity|].
  cbn [mapM existsb map]. rewrite IH, g_primary_eq.
  destruct (none_uncurated a), (existsb none_uncurated l); reflexivity.
Qed.

(* the single-haplotype branch *)
Definition single_na (root v : str) (a : out_asm) : named_asm :=
  match oa_key a with
  | None => mkNamed None (stem root v (s "primary")) (oa_curated a) (oa_scaffolds a)
  | Some t =>
      if str_eqb t (s "Haplotig")
      then mkNamed (Some (s "additional_haplotigs")) (stem root v (s "additional_haplotigs")) true
                   (oa_scaffolds a)
      else mkNamed (Some t) (stem root v (lower t ++ s "s")) (oa_curated a) (oa_scaffolds a)
  end.

(* the multi-haplotype branch *)
Definition multi_na (root v : str) (a : out_asm) : named_asm :=
  let l := lower (key_str (oa_key a)) in
  if oa_curated a
  then mkNamed (oa_key a) (root ++ s "." ++ l ++ s "." ++ v ++ s "." ++ s "primary") true (oa_scaffolds a)
  else mkNamed (oa_key a) (root ++ s "." ++ v ++ s "." ++ l ++ s "s") false (oa_scaffolds a).

Lemma has_key_true k asms :
  has_key k asms = true <-> exists a, In a asms /\ oa_key a = k.
Proof.
  unfold has_key. rewrite existsb_exists.
  split; intros [a [Hin E]]; exists a; (split; [exact Hin|]); apply opt_str_eqb_eq, E.
Qed.

Lemma has_key_false k asms :
  has_key k asms = false -> forall a, In a asms -> oa_key a <> k.
Proof.
  intros H a Hin E. assert (has_key k asms = true) by (apply has_key_true; eauto). congruence.
Qed.

Lemma has_key_In k asms : has_key k asms = true <-> In k (map oa_key asms).
Proof.
  rewrite has_key_true, in_map_iff. split; intros (a & H1 & H2); exists a; auto.
Qed.

Theorem name_assemblies_spec : forall asms root v,
  name_assemblies asms root v =
  if has_key (Some (s "Primary")) asms then
    if existsb none_uncurated asms then Err AttributeError
    else Ok (primary_result root v asms)
  else if has_key None asms then Ok (map (single_na root v) asms)
  else Ok (map (multi_na root v) asms).
Proof.
  intros asms root v. unfold name_assemblies. cbv zeta. fold (has_key (Some (s "Primary")) asms).
  fold (has_key None asms).
  destruct (has_key (Some (s "Primary")) asms) eqn:HP.
  - rewrite (foldM_concat_mapM (g_primary root v)) by (intros acc a; unfold g_primary;
      destruct (is_primary_key (oa_key a)); [reflexivity|];
      destruct (oa_curated a); [cbn [bind]; rewrite app_nil_r; reflexivity|];
      destruct (key_lower (oa_key a)); reflexivity).
    rewrite mapM_g_primary. destruct (existsb none_uncurated asms); [reflexivity|].
    cbn [bind app]. unfold primary_result, all_haplotigs_na, merged, is_merged.
    rewrite <- (flat_map_concat_map (primary_entry root v) asms).
    destruct (filter (fun a => negb (is_primary_key (oa_key a)) && oa_curated a) asms); [|reflexivity].
    rewrite app_nil_r. reflexivity.
  - destruct (has_key None asms) eqn:HN.
    + rewrite (foldM_map (single_na root v)); [reflexivity|].
      intros acc a _. unfold single_na. destruct (oa_key a) as [t|]; [|reflexivity].
      destruct (str_eqb t (s "Haplotig")); reflexivity.
    + rewrite (foldM_map (multi_na root v)); [reflexivity|].
      intros acc a Hin. unfold multi_na. assert (K := has_key_false _ _ HN a Hin).
      destruct (oa_key a) as [t|]; [|congruence]. cbn [key_lower bind key_str].
      destruct (oa_curated a); reflexivity.
Qed.

Lemma flat_map_partition {A B} (f : A -> list B) (q : A -> bool) : forall l,
  Permutation (flat_map f (filter (fun a => negb (q a)) l) ++ flat_map f (filter q l)) (flat_map f l).
Proof.
  induction l as [|a l IH]; [constructor|].
  cbn [filter flat_map]. destruct (q a); cbn [negb flat_map].
  - etransitivity; [apply Permutation_app_swap_app|]. apply Permutation_app_head. exact IH.
  - rewrite <- app_assoc. apply Permutation_app_head. exact IH.
Qed.

Lemma primary_entry_scaffolds root v : forall asms,
  map na_scaffolds (flat_map (primary_entry root v) asms) = map oa_scaffolds (kept asms).
Proof.
  induction asms as [|a l IH]; [reflexivity|].
  unfold kept in *. cbn [flat_map filter]. rewrite map_app, IH.
  unfold primary_entry, is_merged.
  destruct (is_primary_key (oa_key a)), (oa_curated a); reflexivity.
Qed.

Lemma primary_entry_keys root v : forall asms,
  map na_key (flat_map (primary_entry root v) asms) = map oa_key (kept asms).
Proof.
  induction asms as [|a l IH]; [reflexivity|].
  unfold kept in *. cbn [flat_map filter]. rewrite map_app, IH.
  unfold primary_entry, is_merged.
  destruct (is_primary_key (oa_key a)), (oa_curated a); reflexivity.
Qed.

(* order statement, Primary branch: first the assemblies that are kept, in
   order, then the scaffolds of the merged ones, in order *)
Theorem name_assemblies_primary_order : forall asms root v l,
  has_key (Some (s "Primary")) asms = true ->
  name_assemblies asms root v = Ok l ->
  flat_map na_scaffolds l
  = flat_map oa_scaffolds (kept asms) ++ flat_map oa_scaffolds (merged asms).
Proof.
  intros asms root v l HP. rewrite name_assemblies_spec, HP.
  destruct (existsb none_uncurated asms); [discriminate|]. intros [= <-].
  unfold primary_result. rewrite flat_map_app. f_equal.
  - rewrite (flat_map_concat_map na_scaffolds), (flat_map_concat_map oa_scaffolds (kept asms)),
      primary_entry_scaffolds. reflexivity.
  - unfold all_haplotigs_na. destruct (merged asms); [reflexivity|].
    cbn [flat_map na_scaffolds]. apply app_nil_r.
Qed.

(* order statement, the two other branches: assembly by assembly *)
Theorem name_assemblies_other_order : forall asms root v l,
  has_key (Some (s "Primary")) asms = false ->
  name_assemblies asms root v = Ok l ->
  map na_scaffolds l = map oa_scaffolds asms.
Proof.
  intros asms root v l HP. rewrite name_assemblies_spec, HP.
  destruct (has_key None asms); intros [= <-]; rewrite map_map; apply map_ext; intro a.
  - unfold single_na. destruct (oa_key a) as [t|]; [|reflexivity].
    destruct (str_eqb t (s "Haplotig")); reflexivity.
  - unfold multi_na. destruct (oa_curated a); reflexivity.
Qed.

(* no scaffold is lost or duplicated; the distinctness of the keys is not
   even needed *)
Theorem name_assemblies_preserves_scaffolds_strong : forall asms root v l,
  name_assemblies asms root v = Ok l ->
  Permutation (flat_map na_scaffolds l) (flat_map oa_scaffolds asms).
Proof.
  intros asms root v l H.
  destruct (has_key (Some (s "Primary")) asms) eqn:HP.
  - rewrite (name_assemblies_primary_order _ _ _ _ HP H). apply flat_map_partition.
  - rewrite !flat_map_concat_map, (name_assemblies_other_order _ _ _ _ HP H). reflexivity.
Qed.

Theorem name_assemblies_preserves_scaffolds : forall asms root v l,
  name_assemblies asms root v = Ok l -> NoDup (map oa_key asms) ->
  Permutation (flat_map na_scaffolds l) (flat_map oa_scaffolds asms).
Proof. intros asms root v l H _. eapply name_assemblies_preserves_scaffolds_strong; eassumption. Qed.

Theorem name_assemblies_error_iff : forall asms root v e,
  name_assemblies asms root v = Err e
  <-> e = AttributeError
      /\ has_key (Some (s "Primary")) asms = true
      /\ exists a, In a asms /\ oa_key a = None /\ oa_curated a = false.
Proof.
  intros asms root v e. rewrite name_assemblies_spec.
  assert (X : existsb none_uncurated asms = true
              <-> exists a, In a asms /\ oa_key a = None /\ oa_curated a = false).
  { rewrite existsb_exists. unfold none_uncurated.
    split; intros [a [Hin H]]; exists a; (split; [exact Hin|]).
    - destruct (oa_key a); [discriminate|]. destruct (oa_curated a); [discriminate|]. split; reflexivity.
    - destruct H as [-> ->]. reflexivity. }
  destruct (has_key (Some (s "Primary")) asms).
  - destruct (existsb none_uncurated asms).
    + split; [intros [= <-]; split; [reflexivity|]; split; [reflexivity|]; apply X; reflexivity|].
      intros [-> _]. reflexivity.
    + split; [discriminate|]. intros [_ [_ H]]. apply X in H. discriminate.
  - split; [destruct (has_key None asms); discriminate|]. intros [_ [H _]]. discriminate.
Qed.

Corollary name_assemblies_no_primary_ok : forall asms root v,
  has_key (Some (s "Primary")) asms = false -> exists l, name_assemblies asms root v = Ok l.
Proof.
  intros asms root v HP. destruct (name_assemblies asms root v) as [l|e] eqn:E; [eauto|].
  apply name_assemblies_error_iff in E. destruct E as [_ [H _]]. congruence.
Qed.

Theorem name_assemblies_single : forall asms root v,
  has_key (Some (s "Primary")) asms = false -> has_key None asms = true ->
  name_assemblies asms root v = Ok (map (single_na root v) asms).
Proof. intros asms root v HP HN. rewrite name_assemblies_spec, HP, HN. reflexivity. Qed.

Theorem single_na_stems : forall root v a,
  (oa_key a = None -> na_name (single_na root v a) = root ++ s "." ++ v ++ s ".primary") /\
  (oa_key a = Some (s "Haplotig") ->
     na_name (single_na root v a) = root ++ s "." ++ v ++ s ".additional_haplotigs"
     /\ na_key (single_na root v a) = Some (s "additional_haplotigs")
     /\ na_curated (single_na root v a) = true) /\
  (forall t, oa_key a = Some t -> t <> s "Haplotig" ->
     na_name (single_na root v a) = root ++ s "." ++ v ++ s "." ++ lower t ++ s "s"
     /\ na_key (single_na root v a) = Some t
     /\ na_curated (single_na root v a) = oa_curated a).
Proof.
  intros root v a. unfold single_na. split; [|split].
  - intros ->. reflexivity.
  - intros ->. cbn. repeat split; reflexivity.
  - intros t -> Ht. apply str_eqb_neq in Ht. rewrite Ht. repeat split; reflexivity.
Qed.

(* what decides the file name in this branch *)
Definition single_norm (k : option str) : option str :=
  match k with
  | None => None
  | Some t => Some (if str_eqb t (s "Haplotig") then s "additional_haplotig" else lower t)
  end.

Definition single_what (k : option str) : str :=
  match k with None => s "primary" | Some t => key_str (single_norm (Some t)) ++ s "s" end.

Lemma single_na_name root v a : na_name (single_na root v a) = stem root v (single_what (oa_key a)).
Proof.
  unfold single_na, single_what, single_norm. destruct (oa_key a) as [t|]; [|reflexivity].
  destruct (str_eqb t (s "Haplotig")); reflexivity.
Qed.

Lemma stem_inj root v a b : stem root v a = stem root v b -> a = b.
Proof. unfold stem. intros H. repeat apply app_inv_head in H. exact H. Qed.

(* "primary" ends in y, every other stem ends in s: the None assembly never
   clashes with another one, so no condition about "primar" is needed *)
Lemma primary_not_plural x : s "primary" <> x ++ s "s".
Proof.
  intros H. change (s "primary") with (s "primar" ++ ["y"%char]) in H.
  change (s "s") with ["s"%char] in H. apply app_inj_tail in H. destruct H as [_ H]. discriminate.
Qed.

Lemma single_what_eq_iff k k' : single_what k = single_what k' <-> single_norm k = single_norm k'.
Proof.
  destruct k as [t|], k' as [t'|]; unfold single_what; cbn [single_norm key_str].
  - split; intros H; [apply app_inv_tail in H; congruence | injection H as H; f_equal; exact H].
  - split; [intros H; symmetry in H; apply primary_not_plural in H; destruct H | discriminate].
  - split; [intros H; apply primary_not_plural in H; destruct H | discriminate].
  - split; reflexivity.
Qed.

Lemma NoDup_map_transfer {A B C} (f : A -> B) (g : A -> C) : forall l,
  (forall x y, In x l -> In y l -> g x = g y -> f x = f y) ->
  NoDup (map f l) -> NoDup (map g l).
Proof.
  induction l as [|a l IH]; intros H N; [constructor|].
  cbn [map] in *. inversion N as [|? ? Hn N']; subst. constructor.
  - intros Hin. apply in_map_iff in Hin. destruct Hin as [x [E Hx]]. apply Hn.
    rewrite <- (H x a); [apply in_map; exact Hx | right; exact Hx | left; reflexivity | exact E].
  - apply IH; [|exact N']. intros x y Hx Hy. apply H; right; assumption.
Qed.

(* the single-haplotype branch gives "Haplotig" a name of its own and treats
   every other key alike; distinct keys stay distinct if none is sent to that name *)
Definition rename_haplotig (g : str -> str) (X : str) (k : option str) : option str :=
  match k with
  | None => None
  | Some t => Some (if str_eqb t (s "Haplotig") then X else g t)
  end.

Lemma rename_haplotig_nodup g X keys :
  NoDup (map (option_map g) keys) ->
  (In (Some (s "Haplotig")) keys -> forall t, In (Some t) keys -> g t <> X) ->
  NoDup (map (rename_haplotig g X) keys).
Proof.
  intros N C. revert N. apply NoDup_map_transfer. intros k k' Hk Hk' H.
  destruct k as [t|], k' as [t'|]; cbn [rename_haplotig option_map] in *; try discriminate; [|reflexivity].
  f_equal.
  destruct (str_eqb t (s "Haplotig")) eqn:E1, (str_eqb t' (s "Haplotig")) eqn:E2.
  - apply str_eqb_eq in E1, E2. congruence.
  - apply str_eqb_eq in E1. subst t. exfalso. apply (C Hk t' Hk'). congruence.
  - apply str_eqb_eq in E2. subst t'. exfalso. apply (C Hk' t Hk). congruence.
  - congruence.
Qed.

(* exact condition for the file names to be pairwise different *)
Theorem single_names_nodup_iff : forall asms root v,
  NoDup (map na_name (map (single_na root v) asms)) <-> NoDup (map single_norm (map oa_key asms)).
Proof.
  intros asms root v. rewrite !map_map. split; apply NoDup_map_transfer; intros x y _ _ H.
  - rewrite !single_na_name. f_equal. apply single_what_eq_iff. exact H.
  - rewrite !single_na_name in H. apply stem_inj in H. apply single_what_eq_iff. exact H.
Qed.

(* a sufficient condition in plain terms: the keys differ after lower-casing,
   and if "Haplotig" is present no key lower-cases to "additional_haplotig" *)
Theorem single_names_nodup : forall asms root v l,
  has_key (Some (s "Primary")) asms = false -> has_key None asms = true ->
  name_assemblies asms root v = Ok l ->
  NoDup (map (option_map lower) (map oa_key asms)) ->
  (In (Some (s "Haplotig")) (map oa_key asms) ->
   forall t, In (Some t) (map oa_key asms) -> lower t <> s "additional_haplotig") ->
  NoDup (map na_name l).
Proof.
  intros asms root v l HP HN E N C.
  rewrite name_assemblies_single in E by assumption. injection E as <-.
  apply single_names_nodup_iff. exact (rename_haplotig_nodup lower _ _ N C).
Qed.

(* without the side conditions two assemblies are written to the same file *)
Definition oa (k : string) (cur : bool) (scs : list scaffold) : out_asm :=
  mkOutAsm (Some (s k)) cur scs.
Arguments oa k%string_scope cur scs.
Definition oa_none (cur : bool) (scs : list scaffold) : out_asm := mkOutAsm None cur scs.

Example single_clash_haplotig :
  option_map (map na_name)
    (match name_assemblies [oa_none true []; oa "Haplotig" false [];
                            oa "additional_haplotig" false []] (s "ilFoo1") (s "1")
     with Ok l => Some l | Err _ => None end)
  = Some [s "ilFoo1.1.primary"; s "ilFoo1.1.additional_haplotigs"; s "ilFoo1.1.additional_haplotigs"].
Proof. vm_compute. reflexivity. Qed.

Example single_clash_case :
  option_map (map na_name)
    (match name_assemblies [oa_none true []; oa "Contaminant" false [];
                            oa "contaminant" false []] (s "ilFoo1") (s "1")
     with Ok l => Some l | Err _ => None end)
  = Some [s "ilFoo1.1.primary"; s "ilFoo1.1.contaminants"; s "ilFoo1.1.contaminants"].
Proof. vm_compute. reflexivity. Qed.

(* a key lower-casing to "primar" is harmless *)
Example single_primar_no_clash :
  option_map (map na_name)
    (match name_assemblies [oa_none true []; oa "Primar" false []] (s "ilFoo1") (s "1")
     with Ok l => Some l | Err _ => None end)
  = Some [s "ilFoo1.1.primary"; s "ilFoo1.1.primars"].
Proof. vm_compute. reflexivity. Qed.

Theorem name_assemblies_multi : forall asms root v,
  has_key (Some (s "Primary")) asms = false -> has_key None asms = false ->
  name_assemblies asms root v = Ok (map (multi_na root v) asms).
Proof. intros asms root v HP HN. rewrite name_assemblies_spec, HP, HN. reflexivity. Qed.

Definition is_multi_na_of (root v : str) (a : out_asm) (n : named_asm) : Prop :=
  exists t, oa_key a = Some t /\ na_key n = Some t /\ na_scaffolds n = oa_scaffolds a /\
    na_curated n = oa_curated a /\
    na_name n = if oa_curated a
                then root ++ s "." ++ lower t ++ s "." ++ v ++ s ".primary"
                else root ++ s "." ++ v ++ s "." ++ lower t ++ s "s".

Theorem name_assemblies_multi_stems : forall asms root v l,
  has_key (Some (s "Primary")) asms = false -> has_key None asms = false ->
  name_assemblies asms root v = Ok l ->
  Forall2 (is_multi_na_of root v) asms l.
Proof.
  intros asms root v l HP HN E. rewrite name_assemblies_multi in E by assumption. injection E as <-.
  assert (K := has_key_false _ _ HN). clear HP HN.
  induction asms as [|a asms IH]; [constructor|]. cbn [map]. constructor.
  - assert (Ka := K a (or_introl eq_refl)). destruct (oa_key a) as [t|] eqn:Ek; [|congruence].
    exists t. unfold multi_na. rewrite Ek. cbn [key_str].
    destruct (oa_curated a); cbn; repeat split; reflexivity.
  - apply IH. intros x Hx. apply K. right. exact Hx.
Qed.

Theorem name_assemblies_primary : forall asms root v l,
  has_key (Some (s "Primary")) asms = true ->
  name_assemblies asms root v = Ok l ->
  l = primary_result root v asms.
Proof.
  intros asms root v l HP. rewrite name_assemblies_spec, HP.
  destruct (existsb none_uncurated asms); [discriminate|]. intros [= <-]. reflexivity.
Qed.

Lemma in_primary_entry root v a asms n :
  In a asms -> In n (primary_entry root v a) -> In n (primary_result root v asms).
Proof.
  intros Ha Hn. unfold primary_result. apply in_or_app. left. apply in_flat_map. exists a. split; assumption.
Qed.

(* the "Primary" assembly gets root.v.primary *)
Theorem primary_gets_primary : forall asms root v l a,
  name_assemblies asms root v = Ok l ->
  In a asms -> oa_key a = Some (s "Primary") ->
  In (mkNamed (Some (s "Primary")) (root ++ s "." ++ v ++ s ".primary") (oa_curated a) (oa_scaffolds a)) l.
Proof.
  intros asms root v l a E Ha Hk.
  assert (HP : has_key (Some (s "Primary")) asms = true) by (apply has_key_true; eauto).
  rewrite (name_assemblies_primary _ _ _ _ HP E). apply (in_primary_entry root v a); [exact Ha|].
  unfold primary_entry. rewrite Hk. left. reflexivity.
Qed.

(* uncurated assemblies keep their key and get root.v.<lower key>s *)
Theorem primary_uncurated_keep_key : forall asms root v l a,
  has_key (Some (s "Primary")) asms = true ->
  name_assemblies asms root v = Ok l ->
  In a asms -> oa_key a <> Some (s "Primary") -> oa_curated a = false ->
  exists t, oa_key a = Some t /\
    In (mkNamed (Some t) (root ++ s "." ++ v ++ s "." ++ lower t ++ s "s") false (oa_scaffolds a)) l.
Proof.
  intros asms root v l a HP E Ha Hk Hc.
  destruct (oa_key a) as [t|] eqn:Ek.
  - exists t. split; [reflexivity|].
    rewrite (name_assemblies_primary _ _ _ _ HP E). apply (in_primary_entry root v a); [exact Ha|].
    unfold primary_entry. rewrite Ek, Hc. cbn [is_primary_key opt_eqb key_str].
    destruct (str_eqb t (s "Primary")) eqn:Et; [apply str_eqb_eq in Et; congruence|].
    left. reflexivity.
  - exfalso. assert (X : name_assemblies asms root v = Err AttributeError).
    { apply name_assemblies_error_iff. split; [reflexivity|]. split; [exact HP|]. exists a. auto. }
    congruence.
Qed.

(* the other curated assemblies end up, in order, in one all_haplotigs
   assembly, which comes last and is flagged curated; the assemblies before
   it are exactly the kept ones, in order *)
Theorem primary_all_haplotigs_last : forall asms root v l,
  has_key (Some (s "Primary")) asms = true ->
  name_assemblies asms root v = Ok l ->
  merged asms <> [] ->
  exists l0,
    l = l0 ++ [mkNamed (Some (s "all_haplotigs")) (root ++ s "." ++ v ++ s ".all_haplotigs") true
                       (flat_map oa_scaffolds
                          (filter (fun a => negb (is_primary_key (oa_key a)) && oa_curated a) asms))]
    /\ map na_key l0 = map oa_key (kept asms)
    /\ map na_scaffolds l0 = map oa_scaffolds (kept asms).
Proof.
  intros asms root v l HP E M. rewrite (name_assemblies_primary _ _ _ _ HP E).
  exists (flat_map (primary_entry root v) asms). split; [|split].
  - unfold primary_result. f_equal. destruct (merged asms) eqn:Em; [congruence|]. reflexivity.
  - apply primary_entry_keys.
  - apply primary_entry_scaffolds.
Qed.

Theorem primary_nothing_merged : forall asms root v l,
  has_key (Some (s "Primary")) asms = true ->
  name_assemblies asms root v = Ok l ->
  merged asms = [] ->
  map na_key l = map oa_key asms /\ map na_scaffolds l = map oa_scaffolds asms.
Proof.
  intros asms root v l HP E M. rewrite (name_assemblies_primary _ _ _ _ HP E).
  unfold primary_result. rewrite M, app_nil_r, primary_entry_keys, primary_entry_scaffolds.
  assert (K : kept asms = asms).
  { unfold kept, merged in *. clear HP E. induction asms as [|a asms IH]; [reflexivity|].
    cbn [filter] in *. destruct (is_merged a); [discriminate|]. cbn [negb]. f_equal. apply IH. exact M. }
  rewrite K. split; reflexivity.
Qed.

Lemma single_na_key root v a :
  na_key (single_na root v a) = rename_haplotig (fun t => t) (s "additional_haplotigs") (oa_key a).
Proof.
  unfold single_na. destruct (oa_key a) as [t|]; [|reflexivity].
  cbn [rename_haplotig]. destruct (str_eqb t (s "Haplotig")); reflexivity.
Qed.

(* the new keys: Python stores the result in a dict, so a repeated new
   key would silently drop an assembly; the list model keeps both.  The new
   keys are distinct under the following conditions. *)
Theorem name_assemblies_new_keys_nodup : forall asms root v l,
  name_assemblies asms root v = Ok l ->
  NoDup (map oa_key asms) ->
  (has_key (Some (s "Primary")) asms = true ->
     forall a, In a asms -> oa_key a = Some (s "all_haplotigs") -> oa_curated a = true) ->
  (has_key (Some (s "Primary")) asms = false -> has_key None asms = true ->
     has_key (Some (s "Haplotig")) asms = true ->
     has_key (Some (s "additional_haplotigs")) asms = false) ->
  NoDup (map na_key l).
Proof.
  intros asms root v l E N C1 C2. rewrite name_assemblies_spec in E.
  destruct (has_key (Some (s "Primary")) asms) eqn:HP.
  - destruct (existsb none_uncurated asms); [discriminate|]. injection E as <-.
    unfold primary_result. rewrite map_app, primary_entry_keys.
    assert (NK : NoDup (map oa_key (kept asms))) by (apply NoDup_map_filter; exact N).
    destruct (merged asms) eqn:Em; [rewrite app_nil_r; exact NK|].
    cbn [map all_haplotigs_na na_key].
    apply (Permutation_NoDup (Permutation_cons_append _ _)).
    constructor; [|exact NK]. intros Hin. apply in_map_iff in Hin. destruct Hin as [a [Ek Ha]].
    apply filter_In in Ha. destruct Ha as [Ha Hm]. unfold is_merged in Hm.
    rewrite (C1 eq_refl a Ha Ek), Ek in Hm. vm_compute in Hm. discriminate.
  - destruct (has_key None asms) eqn:HN; injection E as <-; rewrite map_map.
    + rewrite (map_ext _ _ (single_na_key root v)), <- (map_map oa_key).
      apply rename_haplotig_nodup.
      * rewrite (map_ext _ (fun k => k)) by (intros [t|]; reflexivity). rewrite map_id. exact N.
      * intros HH t Ht ->. apply has_key_In in HH. apply in_map_iff in Ht as (a & Ek & Ha).
        exact (has_key_false _ _ (C2 eq_refl eq_refl HH) a Ha Ek).
    + replace (map (fun x => na_key (multi_na root v x)) asms) with (map oa_key asms); [exact N|].
      apply map_ext. intro a. unfold multi_na. destruct (oa_curated a); reflexivity.
Qed.

(* and indeed, in the list model, such a repeated key does occur *)
Example single_new_key_clash :
  option_map (map na_key)
    (match name_assemblies [oa_none true []; oa "Haplotig" false [];
                            oa "additional_haplotigs" false []] (s "ilFoo1") (s "1")
     with Ok l => Some l | Err _ => None end)
  = Some [None; Some (s "additional_haplotigs"); Some (s "additional_haplotigs")].
Proof. vm_compute. reflexivity. Qed.

Example primary_new_key_clash :
  option_map (map na_key)
    (match name_assemblies [oa "Primary" true []; oa "HAP2" true [];
                            oa "all_haplotigs" false []] (s "ilFoo1") (s "1")
     with Ok l => Some l | Err _ => None end)
  = Some [Some (s "Primary"); Some (s "all_haplotigs"); Some (s "all_haplotigs")].
Proof. vm_compute. reflexivity. Qed.

(* a name clash in the Primary branch, for the record: an uncurated assembly
   whose key lower-cases to "all_haplotig" gets the file of the merged one *)
Example primary_name_clash :
  option_map (map na_name)
    (match name_assemblies [oa "Primary" true []; oa "HAP2" true [];
                            oa "All_Haplotig" false []] (s "ilFoo1") (s "1")
     with Ok l => Some l | Err _ => None end)
  = Some [s "ilFoo1.1.primary"; s "ilFoo1.1.all_haplotigs"; s "ilFoo1.1.all_haplotigs"].
Proof. vm_compute. reflexivity. Qed.

(* SUPER_1 with two unlocs, SUPER_X with none *)
Definition ex_groups : list chr_grp :=
  [ mkGrp (mk_sc "SUPER_1" 1 "Scaffold_1")
          [mk_sc "SUPER_1_unloc_1" 2 "Scaffold_1"; mk_sc "SUPER_1_unloc_2" 2 "Scaffold_1"]
          (s "Scaffold_1");
    mkGrp (mk_sc "SUPER_X" 1 "Scaffold_7") [] (s "Scaffold_7") ].

Example ex_groups_hyps : Forall grp_ok ex_groups /\ adjacent_differ ex_groups.
Proof.
  split.
  - repeat constructor; discriminate.
  - cbn. split; [discriminate | exact I].
Qed.

Definition ex_lines : list str :=
  [ s "SUPER_1,1,yes
"; s "SUPER_1_unloc_1,1,no
"; s "SUPER_1_unloc_2,1,no
"; s "SUPER_X,X,yes
" ].

(* directly ... *)
Example ex_csv_direct :
  chr_csv_lines (s "SUPER_") (flat_map grp_scs ex_groups) None [] = ex_lines.
Proof. vm_compute. reflexivity. Qed.

(* ... and through the theorem: its right-hand side is these lines *)
Example ex_csv_by_theorem :
  chr_csv_lines (s "SUPER_") (flat_map (fun g => g_main g :: g_unlocs g) ex_groups) None [] = ex_lines.
Proof.
  rewrite (csv_groups (s "SUPER_") ex_groups (proj1 ex_groups_hyps) (proj2 ex_groups_hyps)).
  vm_compute. reflexivity.
Qed.

(* a rank-3 scaffold in the middle changes nothing; the file as a whole *)
Example ex_csv_file :
  chromosome_name_csv (s "SUPER_")
    [ mk_sc "SUPER_1" 1 "Scaffold_1"; mk_sc "SUPER_1_unloc_1" 2 "Scaffold_1";
      mk_sc "scaffold_1" 3 "Scaffold_9";
      mk_sc "SUPER_1_unloc_2" 2 "Scaffold_1"; mk_sc "SUPER_X" 1 "Scaffold_7";
      mk_sc "scaffold_2" 3 "Scaffold_7" ]
  = Some (s "SUPER_1,1,yes
SUPER_1_unloc_1,1,no
SUPER_1_unloc_2,1,no
SUPER_X,X,yes
").
Proof. vm_compute. reflexivity. Qed.

Example ex_csv_no_chromosomes :
  chromosome_name_csv (s "SUPER_") [mk_sc "scaffold_1" 3 "Scaffold_1"; mk_sc "scaffold_2" 3 "Scaffold_2"]
  = None.
Proof. vm_compute. reflexivity. Qed.

Example ex_chr_of : chr_of (s "SUPER_") (s "SUPER_12") = s "12" /\ chr_of (s "SUPER_") (s "scaffold_3") = s "scaffold_3".
Proof. split; vm_compute; reflexivity. Qed.

Definition scA := mk_sc "SUPER_1" 1 "Scaffold_1".
Definition scB := mk_sc "H_1" 3 "Scaffold_2".
Definition scC := mk_sc "C_1" 3 "Scaffold_3".
Definition scD := mk_sc "H_2" 3 "Scaffold_4".

(* single haplotype: Haplotig + Contaminant *)
Definition ex_single := [oa_none true [scA]; oa "Haplotig" false [scB]; oa "Contaminant" false [scC]].

Example ex_single_run :
  name_assemblies ex_single (s "ilFoo1") (s "1")
  = Ok [ mkNamed None (s "ilFoo1.1.primary") true [scA];
         mkNamed (Some (s "additional_haplotigs")) (s "ilFoo1.1.additional_haplotigs") true [scB];
         mkNamed (Some (s "Contaminant")) (s "ilFoo1.1.contaminants") false [scC] ].
Proof. vm_compute. reflexivity. Qed.

(* the hypotheses of single_names_nodup hold of it *)
Example ex_single_names_nodup : forall l,
  name_assemblies ex_single (s "ilFoo1") (s "1") = Ok l -> NoDup (map na_name l).
Proof.
  intros l E. apply (single_names_nodup ex_single (s "ilFoo1") (s "1") l); try reflexivity; [exact E | |].
  - cbn. repeat constructor; cbn; intuition discriminate.
  - intros _ t. cbn. intros [H|[H|[H|[]]]]; try discriminate; injection H as <-; vm_compute; discriminate.
Qed.

(* two haplotypes *)
Definition ex_multi := [oa "HAP1" true [scA]; oa "HAP2" true [scB]; oa "Contaminant" false [scC]].

Example ex_multi_run :
  name_assemblies ex_multi (s "ilFoo1") (s "1")
  = Ok [ mkNamed (Some (s "HAP1")) (s "ilFoo1.hap1.1.primary") true [scA];
         mkNamed (Some (s "HAP2")) (s "ilFoo1.hap2.1.primary") true [scB];
         mkNamed (Some (s "Contaminant")) (s "ilFoo1.1.contaminants") false [scC] ].
Proof. vm_compute. reflexivity. Qed.

(* Primary: HAP2 and HAP3 merged, in order, into all_haplotigs, which comes last *)
Definition ex_primary :=
  [oa "HAP2" true [scB]; oa "Primary" true [scA]; oa "Contaminant" false [scC]; oa "HAP3" true [scD]].

Example ex_primary_run :
  name_assemblies ex_primary (s "ilFoo1") (s "1")
  = Ok [ mkNamed (Some (s "Primary")) (s "ilFoo1.1.primary") true [scA];
         mkNamed (Some (s "Contaminant")) (s "ilFoo1.1.contaminants") false [scC];
         mkNamed (Some (s "all_haplotigs")) (s "ilFoo1.1.all_haplotigs") true [scB; scD] ].
Proof. vm_compute. reflexivity. Qed.

(* the only failure: Primary present, and an uncurated assembly with key None *)
Example ex_primary_error :
  name_assemblies [oa "Primary" true [scA]; oa_none false [scB]] (s "ilFoo1") (s "1") = Err AttributeError.
Proof. vm_compute. reflexivity. Qed.

(* a curated None assembly is merged without its key being looked at *)
Example ex_primary_none_curated :
  name_assemblies [oa "Primary" true [scA]; oa_none true [scB]] (s "ilFoo1") (s "1")
  = Ok [ mkNamed (Some (s "Primary")) (s "ilFoo1.1.primary") true [scA];
         mkNamed (Some (s "all_haplotigs")) (s "ilFoo1.1.all_haplotigs") true [scB] ].
Proof. vm_compute. reflexivity. Qed.

Print Assumptions csv_ignores_rank3.
Print Assumptions csv_line_count.
Print Assumptions csv_none_iff.
Print Assumptions csv_some.
Print Assumptions csv_lines_shape.
Print Assumptions replace_no_occurrence.
Print Assumptions replace_once_prefix.
Print Assumptions chr_of_prefixed.
Print Assumptions chr_of_unprefixed.
Print Assumptions chr_of_empty_prefix.
Print Assumptions csv_groups_gen.
Print Assumptions csv_groups.
Print Assumptions csv_groups_interleaved.
Print Assumptions name_assemblies_spec.
Print Assumptions name_assemblies_primary_order.
Print Assumptions name_assemblies_other_order.
Print Assumptions name_assemblies_preserves_scaffolds_strong.
Print Assumptions name_assemblies_preserves_scaffolds.
Print Assumptions name_assemblies_error_iff.
Print Assumptions name_assemblies_no_primary_ok.
Print Assumptions name_assemblies_single.
Print Assumptions single_na_stems.
Print Assumptions single_names_nodup_iff.
Print Assumptions single_names_nodup.
Print Assumptions name_assemblies_multi.
Print Assumptions name_assemblies_multi_stems.
Print Assumptions name_assemblies_primary.
Print Assumptions primary_gets_primary.
Print Assumptions primary_uncurated_keep_key.
Print Assumptions primary_all_haplotigs_last.
Print Assumptions primary_nothing_merged.
Print Assumptions name_assemblies_new_keys_nodup.
