(* Progress of the first stage of remap_to_input: with baits that name
   non-empty input scaffolds and tags on which the namer does not raise (in
   particular: untagged, or tagged Painted only), the fold of
   one_pretext_scaffold over the Pretext scaffolds returns Ok. *)
From Tola Require Import Py.Base Model.Fragment Model.Scaffold Model.Lookup
  Model.OverlapResult Model.Namer Model.Remap
  Proofs.BaseLemmas Proofs.Rows Proofs.Routing Proofs.Lookup Proofs.OverlapResult Proofs.RemapHead.
From Coq Require Import Lia ZifyBool.

Lemma fragment_tags_untagged' rows :
  Forall (fun f => f_tags f = []) (frags_of rows) -> fragment_tags rows = [].
Proof. exact (fragment_tags_untagged rows). Qed.

Definition tags_ok (l : list str) : Prop := l = [] \/ l = [s "Painted"].

Lemma dedup_acc_seen (p : str) : forall l seen,
  Forall (eq p) l -> existsb (str_eqb p) seen = true -> dedup_acc str_eqb seen l = [].
Proof.
  induction l as [|x l IH]; intros seen H Hs; [reflexivity|].
  inversion H as [|x' l' Hx Hl]; subst. cbn [dedup_acc]. rewrite Hs. apply IH; assumption.
Qed.

Lemma dedup_nil_or_one (p : str) l : Forall (eq p) l -> dedup str_eqb l = [] \/ dedup str_eqb l = [p].
Proof.
  intro H. unfold dedup. destruct l as [|x l]; [left; reflexivity|].
  inversion H as [|x' l' Hx Hl]; subst. right. cbn [dedup_acc existsb].
  rewrite (dedup_acc_seen x l [x] Hl); [reflexivity|].
  cbn [existsb]. rewrite str_eqb_refl. reflexivity.
Qed.

Lemma flat_map_tags_painted : forall l : list frag,
  Forall (fun f => tags_ok (f_tags f)) l -> Forall (eq (s "Painted")) (flat_map f_tags l).
Proof.
  induction l as [|f l IH]; intro H; [constructor|].
  inversion H as [|f' l' Hf Hl]; subst. cbn [flat_map]. apply Forall_app. split; [|exact (IH Hl)].
  destruct Hf as [-> | ->]; repeat constructor.
Qed.

Lemma fragment_tags_painted rows :
  Forall (fun f => tags_ok (f_tags f)) (frags_of rows) -> tags_ok (fragment_tags rows).
Proof. intro H. unfold fragment_tags. apply dedup_nil_or_one, flat_map_tags_painted, H. Qed.

(* [tags] = fragment_tags rows, as one_pretext_scaffold passes it *)
Lemma make_scaffold_name_painted nm name rows f t :
  rows = RF f :: t -> tags_ok (fragment_tags rows) ->
  exists nm', make_scaffold_name nm name rows (fragment_tags rows) = Ok nm'
              /\ nm_unloc_scaffolds nm' = []
              /\ nm_hap_scaffolds nm' = nm_hap_scaffolds nm
              /\ nm_target nm' = nm_target nm.
Proof.
  intros Hrows [Htags | Htags].
  - rewrite Htags. exact (make_scaffold_name_untagged nm name rows f t Hrows Htags).
  - rewrite Htags. unfold make_scaffold_name. subst rows.
    cbn [foldM]. rewrite scan_painted.
    cbn [bind ts_hap ts_lc ts_primary ts_name ts_painted ts_rank ts_target truthy andb negb
         first_row_name].
    destruct (haplotype_prefix_of_name (f_name f)) as [p|] eqn:Ehp.
    + destruct (get_set_haplotype (nm_hap_lc nm) p) as [h lc] eqn:Egs.
      cbn [bind]. eexists. split; [reflexivity|].
      cbn [nm_unloc_scaffolds nm_hap_scaffolds nm_target]. repeat split; reflexivity.
    + cbn [bind]. eexists. split; [reflexivity|].
      cbn [nm_unloc_scaffolds nm_hap_scaffolds nm_target]. repeat split; reflexivity.
Qed.

Lemma start_overlap_ok r : o_rows r <> [] -> exists v, start_row_bait_overlap r = Ok v.
Proof.
  intro H. unfold start_row_bait_overlap. destruct (first_row_ok r H) as (x & E).
  rewrite E. cbn [bind]. eexists. reflexivity.
Qed.

Lemma end_overlap_ok r : o_rows r <> [] -> exists v, end_row_bait_overlap r = Ok v.
Proof.
  intro H. unfold end_row_bait_overlap. destruct (last_row_ok r H) as (x & E).
  rewrite E. cbn [bind]. eexists. reflexivity.
Qed.

Lemma trim_large_overhangs_ok r e : o_rows r <> [] -> exists r', trim_large_overhangs r e = Ok r'.
Proof.
  intro Hne. unfold trim_large_overhangs.
  destruct ((zlen (o_rows r) =? 1) && (f_len (o_bait r) >? e)) eqn:E0; [eexists; reflexivity|].
  assert (H1 : exists r1,
    (if start_overhang r >? e
     then do ov <- start_row_bait_overlap r; if ov <? e then discard_start r else Ok r
     else Ok r) = Ok r1 /\ (o_rows r1 = [] -> (start_overhang r >? e) = true)).
  { destruct (start_overhang r >? e) eqn:Es.
    - destruct (start_overlap_ok r Hne) as (v & Ev). rewrite Ev. cbn [bind].
      destruct (v <? e) eqn:Ev2.
      + destruct (discard_start_ok r Hne) as (r1 & Er1). exists r1. split; [exact Er1|reflexivity].
      + exists r. split; [reflexivity|reflexivity].
    - exists r. split; [reflexivity|]. intro Hr. congruence. }
  destruct H1 as (r1 & Er1 & Hr1). rewrite Er1. cbn [bind].
  destruct (o_rows r1) as [|x t] eqn:Erows.
  - rewrite (Hr1 eq_refl). replace (zlen (o_rows r) =? 0) with false by (pose proof (zlen_pos _ Hne); lia).
    cbn [negb andb]. eexists. reflexivity.
  - assert (Hne1 : o_rows r1 <> []) by (rewrite Erows; discriminate).
    destruct (end_overhang r1 >? e) eqn:Ee; [|eexists; reflexivity].
    destruct (end_overlap_ok r1 Hne1) as (v & Ev). rewrite Ev. cbn [bind].
    destruct (v <? e) eqn:Ev2; [|eexists; reflexivity].
    apply discard_end_ok, Hne1.
Qed.

Lemma found_rows_nonempty rows bs be fo :
  lookup_spec rows bs be (Some fo) -> fo_rows fo <> [].
Proof.
  cbn [lookup_spec]. intros (i & j & Hij & Hrows & _). rewrite Hrows. intro H.
  apply (f_equal (@length row)) in H. rewrite firstn_length, skipn_length in H.
  cbn [length] in H. lia.
Qed.

Lemma store_fragments_found_namer b id rows :
  b_namer (store_fragments_found b id rows) = b_namer b.
Proof.
  unfold store_fragments_found.
  destruct (fold_left (store_found_one id) (frags_of rows) (b_found b, b_multi b)) as [found multi].
  reflexivity.
Qed.

Lemma store_fragments_found_store b id rows :
  b_store (store_fragments_found b id rows) = b_store b.
Proof.
  unfold store_fragments_found.
  destruct (fold_left (store_found_one id) (frags_of rows) (b_found b, b_multi b)) as [found multi].
  reflexivity.
Qed.

Lemma rename_results_ok st ids :
  Forall (fun id => 0 <= id < zlen st) ids ->
  exists st', rename_results st ids = Ok st' /\ zlen st' = zlen st.
Proof.
  intro Hids.
  destruct (mapM_total (fun id => do r <- get_ovr st id; Ok (id, r)) ids) as (rs & Ers).
  { intros id Hid. rewrite Forall_forall in Hids.
    destruct (get_ovr_ok st id (Hids id Hid)) as (r & Er). rewrite Er. cbn [bind]. eauto. }
  assert (E : exists st', rename_results st ids = Ok st')
    by (unfold rename_results; rewrite Ers; cbn [bind]; eauto).
  destruct E as (st' & E). exists st'. split; [exact E|].
  apply rename_results_rows in E. apply (f_equal (@length _)) in E. rewrite !map_length in E.
  unfold zlen. rewrite E. reflexivity.
Qed.

Definition inp_ok (inp : list (str * list row)) : Prop :=
  forall name rows, In (name, rows) inp -> rows <> [] /\ pos_rows rows.

Definition bait_geo (inp : list (str * list row)) (b : frag) : Prop :=
  1 <= f_start b <= f_end b /\ In (f_name b) (map fst inp).

(* label_scaffold raises only on Unloc (FalseDuplicate and Haplotig are looked at first) in an unpainted scaffold *)
Definition label_ok (ft stags : list str) : Prop :=
  mem_str (s "FalseDuplicate") ft = false -> mem_str (s "Haplotig") ft = false ->
  mem_str (s "Unloc") ft = true -> mem_str (s "Painted") stags = true.

(* The namer is called twice in the lookup fold: make_scaffold_name once per
   Pretext scaffold, label_scaffold once per found result.  Whatever makes the
   first succeed ([msn_ok]), and with [label_ok] for the second, the fold
   returns Ok, and every haplotig id it registers is an index of the store. *)
Definition msn_ok (p : str * list row) : Prop :=
  forall nm, lc_ok (nm_hap_lc nm) ->
  exists nm', make_scaffold_name nm (fst p) (snd p) (fragment_tags (snd p)) = Ok nm'.

Lemma label_progress nm id ft stags : label_ok ft stags ->
  exists nm' lab, label_scaffold nm id ft stags = Ok (nm', lab)
    /\ nm_hap_lc nm' = nm_hap_lc nm
    /\ (forall x, In x (nm_unloc_scaffolds nm') -> In x (nm_unloc_scaffolds nm) \/ x = id)
    /\ (forall x, In x (nm_hap_scaffolds nm') -> In x (nm_hap_scaffolds nm) \/ x = id).
Proof.
  intro H. unfold label_scaffold.
  destruct (mem_str (s "FalseDuplicate") ft) eqn:E1.
  { eexists _, _. split; [reflexivity|]. auto. }
  destruct (mem_str (s "Haplotig") ft) eqn:E2.
  { eexists _, _. split; [reflexivity|].
    cbn [nm_hap_lc nm_unloc_scaffolds nm_hap_scaffolds]. split; [reflexivity|]. split; [auto|].
    intros x Hx. apply in_app_or in Hx. destruct Hx as [Hx|[<-|[]]]; auto. }
  destruct (mem_str (s "Unloc") ft) eqn:E3.
  - rewrite (H E1 E2 E3). cbn [negb]. eexists _, _. split; [reflexivity|].
    cbn [nm_hap_lc nm_unloc_scaffolds nm_hap_scaffolds]. split; [reflexivity|]. split; [|auto].
    intros x Hx. apply in_app_or in Hx. destruct Hx as [Hx|[<-|[]]]; auto.
  - eexists _, _. split; [reflexivity|]. auto.
Qed.

Lemma make_scaffold_name_scaffolds nm n rows tags nm' :
  make_scaffold_name nm n rows tags = Ok nm' ->
  nm_unloc_scaffolds nm' = [] /\ nm_hap_scaffolds nm' = nm_hap_scaffolds nm.
Proof.
  intro H. destruct (make_scaffold_name_inv _ _ _ _ _ H) as (sc & hap & lc1 & prim & lc2 & nme & rank & _ & _ & _ & _ & ->).
  split; reflexivity.
Qed.

Definition ids_lt (N : Z) (l : list rid) : Prop := Forall (fun id => 0 <= id < N) l.

(* inside one Pretext scaffold *)
Definition J (b : bstate) : Prop :=
  lc_ok (nm_hap_lc (b_namer b))
  /\ ids_lt (zlen (b_store b)) (nm_unloc_scaffolds (b_namer b))
  /\ ids_lt (zlen (b_store b)) (nm_hap_scaffolds (b_namer b)).

(* between Pretext scaffolds *)
Definition J' (b : bstate) : Prop :=
  lc_ok (nm_hap_lc (b_namer b)) /\ ids_lt (zlen (b_store b)) (nm_hap_scaffolds (b_namer b)).

Lemma one_bait_progress inp err tags orig b bait :
  inp_ok inp -> bait_geo inp bait -> label_ok (f_tags bait) tags ->
  J b -> exists b', one_bait inp err tags orig b bait = Ok b' /\ J b'.
Proof.
  intros Hinp (Hpos & Hname) Hun HJ. unfold one_bait, input_rows.
  destruct (aget_in str_eqb str_eqb_eq inp (f_name bait) Hname) as (rows & Ea).
  pose proof (aget_In str_eqb str_eqb_eq _ _ _ Ea) as Hr. rewrite Ea. cbn [bind].
  destruct (Hinp _ _ Hr) as [Hne Hp].
  destruct (find_overlaps_spec rows (f_start bait) (f_end bait) Hne Hp Hpos) as (fo & Efo & Hspec).
  rewrite Efo. cbn [bind]. destruct fo as [fo'|]; [|exists b; split; [reflexivity|exact HJ]].
  cbv zeta.
  destruct (label_progress (b_namer b) (zlen (b_store b)) (f_tags bait) tags Hun)
    as (nm' & lab & El & Elc & Hu & Hh).
  rewrite El. cbn [bind].
  destruct (trim_large_overhangs_ok (set_labels (ovr_of_found bait fo') lab orig tags) err)
    as (r1 & E1).
  { cbn [set_labels o_rows ovr_of_found]. exact (found_rows_nonempty _ _ _ _ Hspec). }
  rewrite E1. cbn [bind].
  (* the new result has index zlen (b_store b), the only id label_scaffold can have registered *)
  assert (G : forall b', b_store b' = b_store b ++ [r1] -> b_namer b' = nm' -> J b').
  { intros b' Es En. destruct HJ as (J1 & J2 & J3). unfold J, ids_lt in *. rewrite Es, En, Elc, zlen_snoc.
    pose proof (zlen_nonneg (b_store b)) as Z0.
    rewrite Forall_forall in J2, J3.
    split; [exact J1|]. split; apply Forall_forall; intros x Hx.
    - destruct (Hu x Hx) as [Hx'| ->]; [specialize (J2 x Hx')|]; lia.
    - destruct (Hh x Hx) as [Hx'| ->]; [specialize (J3 x Hx')|]; lia. }
  destruct (o_rows r1) as [|x t] eqn:Erows.
  - eexists. split; [reflexivity|]. apply G; reflexivity.
  - eexists. split; [reflexivity|].
    apply G; [rewrite store_fragments_found_store | rewrite store_fragments_found_namer]; reflexivity.
Qed.

Lemma one_pretext_progress inp err b p :
  inp_ok inp -> msn_ok p ->
  Forall (fun bt => bait_geo inp bt /\ label_ok (f_tags bt) (fragment_tags (snd p))) (frags_of (snd p)) ->
  J' b -> exists b1, one_pretext_scaffold inp err b p = Ok b1 /\ J' b1.
Proof.
  destruct p as [pname prows]. cbn [snd]. intros Hinp Hm Hb (J1 & J2).
  unfold one_pretext_scaffold. cbv zeta.
  destruct (Hm (b_namer b) J1) as (nm' & Em). cbn [fst snd] in Em. rewrite Em. cbn [bind].
  destruct (make_scaffold_name_scaffolds _ _ _ _ _ Em) as (Hu & Hh).
  pose proof (make_scaffold_name_lc_ok _ _ _ _ _ J1 Em) as Hlc.
  assert (F : forall baits b0, Forall (fun bt => bait_geo inp bt /\ label_ok (f_tags bt) (fragment_tags prows)) baits ->
            J b0 -> exists b1, foldM (one_bait inp err (fragment_tags prows) pname) baits b0 = Ok b1 /\ J b1).
  { induction baits as [|bait baits IH]; intros b0 Hbs HJ; cbn [foldM]; [eauto|].
    inversion Hbs as [|x l (Hg & Hl) Hrest]; subst.
    destruct (one_bait_progress inp err (fragment_tags prows) pname b0 bait Hinp Hg Hl HJ) as (b1 & E1 & HJ1).
    rewrite E1. cbn [bind]. exact (IH b1 Hrest HJ1). }
  destruct (F (frags_of prows) (with_namer b nm') Hb) as (b1 & E1 & K1 & K2 & K3).
  { unfold J. cbn [with_namer b_namer b_store]. rewrite Hu, Hh.
    split; [exact Hlc|]. split; [constructor | exact J2]. }
  rewrite E1. cbn [bind].
  destruct (rename_results_ok _ _ K2) as (st & Est & Elen). rewrite Est. cbn [bind].
  eexists. split; [reflexivity|]. unfold J'. cbn [with_store b_namer b_store]. rewrite Elen.
  split; [exact K1 | exact K3].
Qed.

Lemma pretext_progress inp err pretext : inp_ok inp -> forall b0,
  Forall msn_ok pretext ->
  Forall (fun p => Forall (fun bt => bait_geo inp bt /\ label_ok (f_tags bt) (fragment_tags (snd p)))
                          (frags_of (snd p))) pretext ->
  J' b0 -> exists b1, foldM (one_pretext_scaffold inp err) pretext b0 = Ok b1 /\ J' b1.
Proof.
  intro Hinp. induction pretext as [|p pretext IH]; intros b0 Hm Hb HJ; cbn [foldM]; [eauto|].
  inversion Hm as [|x l Hmp Hmrest]; subst. inversion Hb as [|x l Hbp Hbrest]; subst.
  destruct (one_pretext_progress inp err b0 p Hinp Hmp Hbp HJ) as (b1 & E1 & HJ1).
  rewrite E1. cbn [bind]. exact (IH b1 Hmrest Hbrest HJ1).
Qed.

Lemma tags_ok_label_ok ft stags : tags_ok ft -> label_ok ft stags.
Proof. intros [-> | ->] _ _ E; discriminate E. Qed.

Lemma tags_ok_msn_ok p :
  (exists b t, snd p = RF b :: t) -> Forall (fun f => tags_ok (f_tags f)) (frags_of (snd p)) -> msn_ok p.
Proof.
  intros (f & t & Hrows) Hb nm _.
  destruct (make_scaffold_name_painted nm (fst p) (snd p) f t Hrows (fragment_tags_painted _ Hb))
    as (nm' & Em & _).
  exists nm'. exact Em.
Qed.

Print Assumptions trim_large_overhangs_ok.
Print Assumptions pretext_progress.
