(* C20: Assembly.name_natural_key as modelled in Model/NaturalKey.v never fails,
   its keys compare without ever meeting a text against a number, sorting by
   them is consistent and stable, numbers and unlocs order as expected, and the
   repaired regex agrees with the old one wherever the old one gave a key. *)
From Tola Require Import Py.Base Py.Dec Py.Sort Model.NaturalKey.
From Tola Require Import Proofs.BaseLemmas Proofs.Dec Proofs.Span.
(* exported: whoever sorts by the natural key also needs the general facts about stable_sort *)
From Tola Require Export Proofs.Sort.
From Coq Require Import Lia Permutation Sorted.

Definition consumes (m : str -> option (str * str)) : Prop :=
  forall x tok rest, m x = Some (tok, rest) -> (length rest < length x)%nat.

Lemma split_fuel_enough m : consumes m ->
  forall f1 f2 x acc, (length x < f1)%nat -> (length x < f2)%nat ->
  split_fuel m f1 x acc = split_fuel m f2 x acc.
Proof.
  intro Hm. induction f1 as [|f1 IH]; intros f2 x acc H1 H2; [lia|].
  destruct f2 as [|f2]; [lia|]. cbn [split_fuel].
  destruct x as [|c t]; [reflexivity|].
  destruct (m (c :: t)) as [[tok rest]|] eqn:E.
  - apply Hm in E. destruct (tok_value tok); cbn [bind]; [|reflexivity].
    rewrite (IH f2 rest []) by lia. reflexivity.
  - apply IH; cbn [length] in *; lia.
Qed.

(* the tokenizer with exactly enough fuel *)
Definition split (m : str -> option (str * str)) (x acc : str) : res (list kelt) :=
  split_fuel m (S (length x)) x acc.

Lemma natural_key_split x : natural_key x = split match_tok x [].
Proof. reflexivity. Qed.
Lemma split_nil m acc : split m [] acc = Ok [KS (rev acc)].
Proof. reflexivity. Qed.

Lemma split_cons m : consumes m -> forall c t acc,
  split m (c :: t) acc =
  match m (c :: t) with
  | Some (tok, rest) =>
      do v <- tok_value tok; do k <- split m rest []; Ok (KS (rev acc) :: KI v :: k)
  | None => split m t (c :: acc)
  end.
Proof.
  intros Hm c t acc. unfold split at 1. cbn [split_fuel].
  destruct (m (c :: t)) as [[tok rest]|] eqn:E; [|reflexivity].
  apply Hm in E. destruct (tok_value tok); cbn [bind]; [|reflexivity].
  rewrite (split_fuel_enough m Hm (length (c :: t)) (S (length rest)) rest []) by lia.
  reflexivity.
Qed.

Definition numeral (t : str) : Prop :=
  t = s "I" \/ t = s "II" \/ t = s "III" \/ t = s "IV".

Lemma is_I_eq c : is_I c = true -> c = "I"%char.
Proof. apply Ascii.eqb_eq. Qed.
Lemma is_V_eq c : is_V c = true -> c = "V"%char.
Proof. apply Ascii.eqb_eq. Qed.

Lemma match_tok_spec x tok rest : match_tok x = Some (tok, rest) ->
  x = tok ++ rest /\ (numeral tok \/ (tok <> [] /\ forallb is_digit tok = true)).
Proof.
  unfold match_tok, numeral. destruct x as [|c1 t1]; [discriminate|].
  destruct (is_I c1) eqn:E1.
  - apply is_I_eq in E1; subst c1.
    destruct t1 as [|c2 t2]; [intro H; injection H as <- <-; cbn; tauto|].
    destruct (is_V c2) eqn:E2.
    { apply is_V_eq in E2; subst c2. intro H; injection H as <- <-; cbn; tauto. }
    destruct (is_I c2) eqn:E3; [|intro H; injection H as <- <-; cbn; tauto].
    apply is_I_eq in E3; subst c2.
    destruct t2 as [|c3 t3]; [intro H; injection H as <- <-; cbn; tauto|].
    destruct (is_I c3) eqn:E4; [apply is_I_eq in E4; subst c3|];
      intro H; injection H as <- <-; cbn; tauto.
  - destruct (is_digit c1) eqn:E2; [|discriminate].
    intro H.
    assert (H' : take_while is_digit (c1 :: t1) = (tok, rest)) by (injection H as H; exact H).
    clear H. pose proof (take_while_spec _ _ _ _ H') as (H1 & H2 & _).
    split; [exact H1|]. right. split; [|exact H2].
    intro; subst tok.
    (* then take_while returned ([], _) although c1 is a digit *)
    cbn [take_while] in H'. rewrite E2 in H'. destruct (take_while is_digit t1). discriminate.
Qed.

Lemma match_tok_consumes : consumes match_tok.
Proof.
  intros x tok rest H. apply match_tok_spec in H as (-> & [H | [H _]]).
  - unfold numeral in H. rewrite app_length.
    destruct H as [-> | [-> | [-> | ->]]]; cbn; lia.
  - rewrite app_length. destruct tok; [congruence | cbn; lia].
Qed.

Lemma tok_value_numeral t : numeral t -> exists z, tok_value t = Ok z.
Proof. intros [-> | [-> | [-> | ->]]]; vm_compute; eauto. Qed.

Lemma tok_value_digits d :
  d <> [] -> forallb is_digit d = true -> tok_value d = int_of_str d.
Proof.
  destruct d as [|c t]; [congruence|]. intros _ H.
  cbn [forallb] in H. apply andb_true_iff in H as [Hc _].
  pose proof (is_digit_neq c "I" Hc eq_refl) as HI.
  unfold tok_value, str_eqb, s. cbn [list_ascii_of_string list_eqb]. rewrite HI. reflexivity.
Qed.

Lemma tok_value_match_tok x tok rest :
  match_tok x = Some (tok, rest) -> exists z, tok_value tok = Ok z.
Proof.
  intro H. apply match_tok_spec in H as (_ & [H | [H1 H2]]).
  - apply tok_value_numeral, H.
  - rewrite tok_value_digits by assumption. apply int_of_str_digits_ok; assumption.
Qed.

Lemma split_fuel_total : forall fuel x acc, (length x < fuel)%nat ->
  exists k, split_fuel match_tok fuel x acc = Ok k.
Proof.
  induction fuel as [|fuel IH]; intros x acc Hl; [lia|]. cbn [split_fuel].
  destruct x as [|c t]; [eauto|].
  destruct (match_tok (c :: t)) as [[tok rest]|] eqn:E.
  - destruct (tok_value_match_tok _ _ _ E) as [z ->]. apply match_tok_consumes in E.
    destruct (IH rest []) as [k ->]; [lia|]. cbn [bind]. eauto.
  - apply IH. cbn [length] in Hl. lia.
Qed.

Theorem natural_key_total : forall x, exists k, natural_key x = Ok k.
Proof. intro x. apply split_fuel_total. lia. Qed.

(* text, int, text, ..., text: KS at even positions, KI at odd positions,
   non-empty, the last element is a KS *)
Fixpoint alternating (expect_text : bool) (k : list kelt) : Prop :=
  match k with
  | [] => False
  | KS _ :: t => expect_text = true /\ (t = [] \/ alternating false t)
  | KI _ :: t => expect_text = false /\ alternating true t
  end.

(* whatever the fuel: running out of it is not a key *)
Lemma split_fuel_shape m : forall fuel x acc k,
  split_fuel m fuel x acc = Ok k -> alternating true k.
Proof.
  induction fuel as [|fuel IH]; intros x acc k; cbn [split_fuel]; [discriminate|].
  destruct x as [|c t]; [intros [= <-]; cbn; auto|].
  destruct (m (c :: t)) as [[tok rest]|]; [|apply IH].
  destruct (tok_value tok) as [v|]; cbn [bind]; [|discriminate].
  destruct (split_fuel m fuel rest []) as [k'|] eqn:Ek; cbn [bind]; [|discriminate].
  intros [= <-]. apply IH in Ek.
  cbn [alternating]. split; [reflexivity|]. right. split; [reflexivity | exact Ek].
Qed.

Theorem natural_key_shape : forall x k, natural_key x = Ok k -> alternating true k.
Proof. intros x k. apply split_fuel_shape. Qed.

(* hence comparing two keys never compares a text with an int *)
Theorem alternating_no_mixed : forall a b, alternating true a -> alternating true b ->
  forall i x y, nth_error a i = Some x -> nth_error b i = Some y ->
  (exists u v, x = KS u /\ y = KS v) \/ (exists n m, x = KI n /\ y = KI m).
Proof.
  intros a b. generalize true. revert b.
  induction a as [|xa a IH]; intros b e Ha Hb i x y Hx Hy; [destruct i; discriminate|].
  destruct b as [|xb b]; [destruct i; discriminate|].
  destruct i as [|i]; cbn [nth_error] in Hx, Hy.
  - injection Hx as <-. injection Hy as <-.
    destruct xa, xb; cbn [alternating] in Ha, Hb; destruct Ha as [Ea _], Hb as [Eb _].
    + left; eauto.
    + congruence.
    + congruence.
    + right; eauto.
  - destruct xa, xb; cbn [alternating] in Ha, Hb; destruct Ha as [Ea Ha], Hb as [Eb Hb];
      try congruence.
    + destruct Ha as [-> | Ha]; [destruct i; discriminate|].
      destruct Hb as [-> | Hb]; [destruct i; discriminate|].
      exact (IH b false Ha Hb i x y Hx Hy).
    + exact (IH b true Ha Hb i x y Hx Hy).
Qed.

Section Lex.
  Context {A : Type} (cmp : A -> A -> comparison).

  Fixpoint lex (a b : list A) : comparison :=
    match a, b with
    | [], [] => Eq
    | [], _ :: _ => Lt
    | _ :: _, [] => Gt
    | x :: a', y :: b' => match cmp x y with Eq => lex a' b' | c => c end
    end.

  Hypothesis cmp_eq : forall x y, cmp x y = Eq <-> x = y.
  Hypothesis cmp_sym : forall x y, cmp y x = CompOpp (cmp x y).
  Hypothesis cmp_trans : forall x y z, cmp x y = Lt -> cmp y z = Lt -> cmp x z = Lt.

  Lemma lex_eq : forall a b, lex a b = Eq <-> a = b.
  Proof.
    induction a as [|x a IH]; intros [|y b]; cbn [lex]; split; intro H;
      try reflexivity; try discriminate.
    - destruct (cmp x y) eqn:E; try discriminate.
      apply cmp_eq in E. apply IH in H. congruence.
    - injection H as -> ->. rewrite (proj2 (cmp_eq y y) eq_refl). apply IH. reflexivity.
  Qed.

  Lemma lex_sym : forall a b, lex b a = CompOpp (lex a b).
  Proof.
    induction a as [|x a IH]; intros [|y b]; cbn [lex]; try reflexivity.
    rewrite (cmp_sym x y). destruct (cmp x y); cbn [CompOpp]; auto.
  Qed.

  Lemma lex_trans : forall a b c, lex a b = Lt -> lex b c = Lt -> lex a c = Lt.
  Proof.
    induction a as [|x a IH]; intros [|y b] [|z c]; cbn [lex]; intros H1 H2;
      try reflexivity; try discriminate.
    destruct (cmp x y) eqn:E1; try discriminate;
      destruct (cmp y z) eqn:E2; try discriminate.
    - apply cmp_eq in E1, E2. subst. rewrite (proj2 (cmp_eq z z) eq_refl). eauto.
    - apply cmp_eq in E1. subst. rewrite E2. reflexivity.
    - apply cmp_eq in E2. subst. rewrite E1. reflexivity.
    - rewrite (cmp_trans _ _ _ E1 E2). reflexivity.
  Qed.
End Lex.

Definition code_cmp (x y : ascii) : comparison := N.compare (code x) (code y).

Lemma code_inj x y : code x = code y -> x = y.
Proof.
  unfold code. intro H. rewrite <- (ascii_N_embedding x), <- (ascii_N_embedding y), H.
  reflexivity.
Qed.

Lemma code_cmp_eq x y : code_cmp x y = Eq <-> x = y.
Proof.
  unfold code_cmp. rewrite N.compare_eq_iff. split; [apply code_inj | congruence].
Qed.
Lemma code_cmp_sym x y : code_cmp y x = CompOpp (code_cmp x y).
Proof. unfold code_cmp. apply N.compare_antisym. Qed.
Lemma code_cmp_trans x y z : code_cmp x y = Lt -> code_cmp y z = Lt -> code_cmp x z = Lt.
Proof. unfold code_cmp. rewrite !N.compare_lt_iff. apply N.lt_trans. Qed.

Lemma str_cmp_lex a : forall b, str_cmp a b = lex code_cmp a b.
Proof.
  (* the two fixpoints are convertible *)
  intros b. reflexivity.
Qed.

Lemma str_cmp_eq a b : str_cmp a b = Eq <-> a = b.
Proof. rewrite str_cmp_lex. apply lex_eq, code_cmp_eq. Qed.
Lemma str_cmp_refl a : str_cmp a a = Eq.
Proof. apply str_cmp_eq. reflexivity. Qed.
Lemma str_cmp_sym a b : str_cmp b a = CompOpp (str_cmp a b).
Proof. rewrite !str_cmp_lex. apply lex_sym, code_cmp_sym. Qed.
Lemma str_cmp_trans a b c : str_cmp a b = Lt -> str_cmp b c = Lt -> str_cmp a c = Lt.
Proof.
  rewrite !str_cmp_lex. apply lex_trans; [apply code_cmp_eq | apply code_cmp_trans].
Qed.

Lemma kelt_cmp_eq x y : kelt_cmp x y = Eq <-> x = y.
Proof.
  destruct x as [x|n], y as [y|m]; cbn [kelt_cmp]; split; intro H; try discriminate.
  - apply str_cmp_eq in H. congruence.
  - injection H as ->. apply str_cmp_refl.
  - apply Z.compare_eq_iff in H. congruence.
  - injection H as ->. apply Z.compare_refl.
Qed.
Lemma kelt_cmp_sym x y : kelt_cmp y x = CompOpp (kelt_cmp x y).
Proof.
  destruct x as [x|n], y as [y|m]; cbn [kelt_cmp CompOpp]; try reflexivity.
  - apply str_cmp_sym.
  - apply Z.compare_antisym.
Qed.
Lemma kelt_cmp_trans x y z : kelt_cmp x y = Lt -> kelt_cmp y z = Lt -> kelt_cmp x z = Lt.
Proof.
  destruct x as [x|n], y as [y|m], z as [z|k]; cbn [kelt_cmp]; intros H1 H2;
    try reflexivity; try discriminate.
  - eapply str_cmp_trans; eassumption.
  - rewrite Z.compare_lt_iff in *. lia.
Qed.

Lemma key_cmp_lex a : forall b, key_cmp a b = lex kelt_cmp a b.
Proof.
  intros b. reflexivity.
Qed.

Theorem key_cmp_eq : forall a b, key_cmp a b = Eq <-> a = b.
Proof. intros a b. rewrite key_cmp_lex. apply lex_eq, kelt_cmp_eq. Qed.
Lemma key_cmp_sym a b : key_cmp b a = CompOpp (key_cmp a b).
Proof. rewrite !key_cmp_lex. apply lex_sym, kelt_cmp_sym. Qed.
Lemma key_cmp_trans a b c : key_cmp a b = Lt -> key_cmp b c = Lt -> key_cmp a c = Lt.
Proof.
  rewrite !key_cmp_lex. apply lex_trans; [apply kelt_cmp_eq | apply kelt_cmp_trans].
Qed.

Theorem key_le_refl : forall a, key_le a a = true.
Proof. intro a. unfold key_le. rewrite (proj2 (key_cmp_eq a a) eq_refl). reflexivity. Qed.

Theorem key_le_trans : forall a b c,
  key_le a b = true -> key_le b c = true -> key_le a c = true.
Proof.
  intros a b c. unfold key_le.
  destruct (key_cmp a b) eqn:E1; try discriminate;
    destruct (key_cmp b c) eqn:E2; try discriminate; intros _ _.
  - apply key_cmp_eq in E1, E2. subst. rewrite (proj2 (key_cmp_eq c c) eq_refl). reflexivity.
  - apply key_cmp_eq in E1. subst. rewrite E2. reflexivity.
  - apply key_cmp_eq in E2. subst. rewrite E1. reflexivity.
  - rewrite (key_cmp_trans _ _ _ E1 E2). reflexivity.
Qed.

Theorem key_le_total : forall a b, key_le a b = true \/ key_le b a = true.
Proof.
  intros a b. unfold key_le. rewrite (key_cmp_sym a b).
  destruct (key_cmp a b); cbn; auto.
Qed.

Theorem key_le_antisym : forall a b, key_le a b = true -> key_le b a = true -> a = b.
Proof.
  intros a b. unfold key_le. rewrite (key_cmp_sym a b).
  destruct (key_cmp a b) eqn:E; cbn; try discriminate.
  intros _ _. apply key_cmp_eq, E.
Qed.

(* the (rank, key) order of smart_sort: the key order with the rank put in front *)
Lemma rank_key_le_key_le a b :
  rank_key_le a b = key_le (KI (fst a) :: snd a) (KI (fst b) :: snd b).
Proof. unfold rank_key_le, key_le. cbn [key_cmp kelt_cmp]. destruct (fst a ?= fst b); reflexivity. Qed.

Lemma rank_key_le_refl a : rank_key_le a a = true.
Proof. rewrite rank_key_le_key_le. apply key_le_refl. Qed.

Lemma rank_key_le_trans a b c :
  rank_key_le a b = true -> rank_key_le b c = true -> rank_key_le a c = true.
Proof. rewrite !rank_key_le_key_le. apply key_le_trans. Qed.

Lemma rank_key_le_total a b : rank_key_le a b = true \/ rank_key_le b a = true.
Proof. rewrite !rank_key_le_key_le. apply key_le_total. Qed.

Lemma rank_key_le_antisym a b :
  rank_key_le a b = true -> rank_key_le b a = true -> a = b.
Proof.
  rewrite !rank_key_le_key_le. intros H1 H2. pose proof (key_le_antisym _ _ H1 H2) as E.
  destruct a, b. cbn [fst snd] in E. congruence.
Qed.

Theorem sort_consistent : forall (A : Type) (l l' : list (list kelt * A)),
  Permutation l l' ->
  map fst (stable_sort (fun a b => key_le (fst a) (fst b)) l)
  = map fst (stable_sort (fun a b => key_le (fst a) (fst b)) l').
Proof.
  intros A l l'.
  apply (stable_sort_consistent fst key_le key_le_trans key_le_total key_le_antisym).
Qed.

Theorem sort_perm : forall (A : Type) (l : list (list kelt * A)),
  Permutation (stable_sort (fun a b => key_le (fst a) (fst b)) l) l.
Proof. intros A l. apply (stable_sort_perm fst key_le). Qed.

Theorem sort_sorted : forall (A : Type) (l : list (list kelt * A)),
  StronglySorted (fun a b => key_le (fst a) (fst b) = true)
    (stable_sort (fun a b => key_le (fst a) (fst b)) l).
Proof. intros A l. apply (stable_sort_sorted fst key_le key_le_trans key_le_total). Qed.

Definition key_is (k a : list kelt) : bool :=
  match key_cmp a k with Eq => true | _ => false end.

Lemma key_is_eq k a : key_is k a = true <-> a = k.
Proof.
  unfold key_is. rewrite <- key_cmp_eq. destruct (key_cmp a k); split; congruence.
Qed.

Theorem sort_stable : forall (A : Type) (k : list kelt) (l : list (list kelt * A)),
  filter (fun a => key_is k (fst a)) (stable_sort (fun a b => key_le (fst a) (fst b)) l)
  = filter (fun a => key_is k (fst a)) l.
Proof.
  intros A k l. apply (stable_sort_filter fst key_le).
  intros x y Hx Hy. apply key_is_eq in Hx, Hy. rewrite Hx, Hy. apply key_le_refl.
Qed.

Section SmartSort.
  Context {A : Type} (rank_of : A -> Z).
  Definition rk (a : list kelt * A) : Z * list kelt := (rank_of (snd a), fst a).
  Local Notation le := (fun a b => rank_key_le (rank_of (snd a), fst a) (rank_of (snd b), fst b)).

  Theorem smart_sort_consistent (l l' : list (list kelt * A)) : Permutation l l' ->
    map rk (stable_sort le l) = map rk (stable_sort le l').
  Proof.
    apply (stable_sort_consistent rk rank_key_le
             rank_key_le_trans rank_key_le_total rank_key_le_antisym).
  Qed.

  Theorem smart_sort_perm (l : list (list kelt * A)) : Permutation (stable_sort le l) l.
  Proof. apply (stable_sort_perm rk rank_key_le). Qed.

  Theorem smart_sort_sorted (l : list (list kelt * A)) :
    StronglySorted (fun a b => rank_key_le (rk a) (rk b) = true) (stable_sort le l).
  Proof. apply (stable_sort_sorted rk rank_key_le rank_key_le_trans rank_key_le_total). Qed.

  Theorem smart_sort_stable (r : Z) (k : list kelt) (l : list (list kelt * A)) :
    filter (fun a => Z.eqb (rank_of (snd a)) r && key_is k (fst a)) (stable_sort le l)
    = filter (fun a => Z.eqb (rank_of (snd a)) r && key_is k (fst a)) l.
  Proof.
    apply (stable_sort_filter rk rank_key_le).
    intros x y Hx Hy. apply andb_true_iff in Hx as [Rx Kx], Hy as [Ry Ky].
    apply Z.eqb_eq in Rx, Ry. apply key_is_eq in Kx, Ky.
    unfold rk. rewrite Rx, Ry, Kx, Ky. apply rank_key_le_refl.
  Qed.
End SmartSort.

(* no character at which match_tok can start a token: neither I nor a digit
   (a V is clean, an I is not) *)
Definition clean (p : str) : Prop :=
  forallb (fun c => negb (is_I c) && negb (is_digit c)) p = true.

Lemma clean_cons c p : clean (c :: p) <-> (is_I c = false /\ is_digit c = false) /\ clean p.
Proof.
  unfold clean. cbn [forallb]. rewrite !andb_true_iff, !negb_true_iff. tauto.
Qed.

Lemma clean_app a b : clean a -> clean b -> clean (a ++ b).
Proof. unfold clean. intros Ha Hb. rewrite forallb_app, Ha, Hb. reflexivity. Qed.

Lemma match_tok_clean_head c t :
  is_I c = false -> is_digit c = false -> match_tok (c :: t) = None.
Proof. intros HI Hd. unfold match_tok. rewrite HI, Hd. reflexivity. Qed.

Lemma split_clean p : forall x acc, clean p ->
  split match_tok (p ++ x) acc = split match_tok x (rev p ++ acc).
Proof.
  induction p as [|c p IH]; intros x acc Hp; [reflexivity|].
  apply clean_cons in Hp as [[HI Hd] Hp].
  cbn [app rev]. rewrite (split_cons _ match_tok_consumes), (match_tok_clean_head _ _ HI Hd).
  rewrite (IH x (c :: acc) Hp), <- app_assoc. reflexivity.
Qed.

Lemma split_clean_end p acc : clean p -> split match_tok p acc = Ok [KS (rev acc ++ p)].
Proof.
  intro Hp. rewrite <- (app_nil_r p) at 1. rewrite (split_clean p [] acc Hp), split_nil.
  rewrite rev_app_distr, rev_involutive. reflexivity.
Qed.

Lemma stops_clean_app a b : clean a -> (a = [] -> stops is_digit b) -> stops is_digit (a ++ b).
Proof.
  destruct a as [|c a]; [intros _ H; exact (H eq_refl)|].
  intros Ha _. apply clean_cons in Ha as [[_ Hd] _]. exact Hd.
Qed.

Lemma stops_clean a : clean a -> stops is_digit a.
Proof. intro H. rewrite <- (app_nil_r a). apply stops_clean_app; [exact H | intros _; exact I]. Qed.

Lemma tok_value_str_of_Z n : 0 <= n -> tok_value (str_of_Z n) = Ok n.
Proof.
  intro H. destruct (str_of_Z_digits n H) as [Hne Hd].
  rewrite tok_value_digits by assumption. apply int_of_str_of_Z.
Qed.

Lemma split_number n rest acc : 0 <= n -> stops is_digit rest ->
  split match_tok (str_of_Z n ++ rest) acc =
  do k <- split match_tok rest []; Ok (KS (rev acc) :: KI n :: k).
Proof.
  intros Hn Hr. pose proof (tok_value_str_of_Z n Hn) as Hv.
  destruct (str_of_Z_digits n Hn) as [Hne Hd].
  destruct (str_of_Z n) as [|c t] eqn:E; [congruence|].
  pose proof Hd as Hd'. cbn [forallb] in Hd'. apply andb_true_iff in Hd' as [Hc _].
  pose proof (is_digit_neq c "I" Hc eq_refl) as HI.
  change ((c :: t) ++ rest) with (c :: (t ++ rest)).
  rewrite (split_cons _ match_tok_consumes).
  assert (M : match_tok (c :: t ++ rest) = Some (c :: t, rest)).
  { change (is_I c = false) in HI. unfold match_tok. rewrite HI, Hc.
    change (c :: t ++ rest) with ((c :: t) ++ rest).
    rewrite (take_while_app is_digit (c :: t) rest Hd Hr). reflexivity. }
  rewrite M, Hv. reflexivity.
Qed.

Theorem key_prefix_number : forall p n sfx, clean p -> clean sfx -> 0 <= n ->
  natural_key (p ++ str_of_Z n ++ sfx) = Ok [KS p; KI n; KS sfx].
Proof.
  intros p n sfx Hp Hs Hn. rewrite natural_key_split.
  rewrite (split_clean p _ [] Hp), (split_number n sfx _ Hn (stops_clean sfx Hs)).
  rewrite (split_clean_end sfx [] Hs). cbn [bind rev app].
  rewrite app_nil_r, rev_involutive. reflexivity.
Qed.

Lemma key_number : forall p n, clean p -> 0 <= n ->
  natural_key (p ++ str_of_Z n) = Ok [KS p; KI n; KS []].
Proof.
  intros p n Hp Hn. rewrite <- (app_nil_r (str_of_Z n)).
  apply key_prefix_number; [exact Hp | reflexivity | exact Hn].
Qed.

Theorem numeric_order : forall p n m, clean p -> 0 <= n < m ->
  exists kn km, natural_key (p ++ str_of_Z n) = Ok kn
    /\ natural_key (p ++ str_of_Z m) = Ok km /\ key_cmp kn km = Lt.
Proof.
  intros p n m Hp H. eexists; eexists.
  split; [apply key_number; [exact Hp | lia]|].
  split; [apply key_number; [exact Hp | lia]|].
  cbn [key_cmp kelt_cmp]. rewrite str_cmp_refl.
  rewrite (proj2 (Z.compare_lt_iff n m)) by lia. reflexivity.
Qed.

(* two numbers need a non-empty text between them, or their digits run together *)
Theorem key_two_numbers : forall p n q m, clean p -> clean q -> q <> [] -> 0 <= n -> 0 <= m ->
  natural_key (p ++ str_of_Z n ++ q ++ str_of_Z m) = Ok [KS p; KI n; KS q; KI m; KS []].
Proof.
  intros p n q m Hp Hq Hne Hn Hm. rewrite natural_key_split, (split_clean p _ [] Hp).
  rewrite <- (app_nil_r (str_of_Z m)).
  rewrite (split_number n _ _ Hn) by (apply stops_clean_app; [exact Hq | contradiction]).
  rewrite (split_clean q _ [] Hq), (split_number m [] _ Hm I), split_nil.
  cbn [bind rev app]. rewrite !app_nil_r, !rev_involutive. reflexivity.
Qed.

Theorem key_unloc : forall p n sfx m, clean p -> clean sfx -> 0 <= n -> 0 <= m ->
  natural_key (p ++ str_of_Z n ++ sfx ++ s "_unloc_" ++ str_of_Z m)
  = Ok [KS p; KI n; KS (sfx ++ s "_unloc_"); KI m; KS []].
Proof.
  intros p n sfx m Hp Hs Hn Hm. rewrite (app_assoc sfx).
  apply key_two_numbers; try assumption.
  - apply clean_app; [exact Hs | reflexivity].
  - destruct sfx; discriminate.
Qed.

Lemma str_cmp_prefix a b : b <> [] -> str_cmp a (a ++ b) = Lt.
Proof.
  intro Hb. induction a as [|c a IH]; cbn [app str_cmp].
  - destruct b; [congruence | reflexivity].
  - rewrite N.compare_refl. exact IH.
Qed.

(* an unloc sorts directly after its own chromosome and before the next
   chromosome number *)
Theorem unloc_between : forall p n n' sfx m,
  clean p -> clean sfx -> 0 <= n < n' -> 0 <= m ->
  exists kc ku kn,
    natural_key (p ++ str_of_Z n ++ sfx) = Ok kc
    /\ natural_key (p ++ str_of_Z n ++ sfx ++ s "_unloc_" ++ str_of_Z m) = Ok ku
    /\ natural_key (p ++ str_of_Z n') = Ok kn
    /\ key_cmp kc ku = Lt /\ key_cmp ku kn = Lt.
Proof.
  intros p n n' sfx m Hp Hs Hn Hm. eexists; eexists; eexists.
  split; [apply key_prefix_number; [exact Hp | exact Hs | lia]|].
  split; [apply key_unloc; [exact Hp | exact Hs | lia | exact Hm]|].
  split; [apply key_number; [exact Hp | lia]|].
  split; cbn [key_cmp kelt_cmp]; rewrite str_cmp_refl.
  - rewrite Z.compare_refl, str_cmp_prefix by discriminate. reflexivity.
  - rewrite (proj2 (Z.compare_lt_iff n n')) by lia. reflexivity.
Qed.

(* ... and before the same chromosome number with a later suffix letter *)
Theorem unloc_before_later_suffix : forall p n a b m,
  clean p -> clean [a] -> clean [b] -> (code a < code b)%N -> 0 <= n -> 0 <= m ->
  exists ku kb,
    natural_key (p ++ str_of_Z n ++ [a] ++ s "_unloc_" ++ str_of_Z m) = Ok ku
    /\ natural_key (p ++ str_of_Z n ++ [b]) = Ok kb
    /\ key_cmp ku kb = Lt.
Proof.
  intros p n a b m Hp Ha Hb Hab Hn Hm. eexists; eexists.
  split; [apply key_unloc; assumption|].
  split; [apply key_prefix_number; assumption|].
  cbn [key_cmp kelt_cmp app str_cmp]. rewrite str_cmp_refl, Z.compare_refl.
  rewrite (proj2 (N.compare_lt_iff _ _) Hab). reflexivity.
Qed.

Theorem roman_order :
  natural_key (s "I") = Ok [KS []; KI 1; KS []] /\
  natural_key (s "II") = Ok [KS []; KI 2; KS []] /\
  natural_key (s "III") = Ok [KS []; KI 3; KS []] /\
  natural_key (s "IV") = Ok [KS []; KI 4; KS []] /\
  key_cmp [KS []; KI 1; KS []] [KS []; KI 2; KS []] = Lt /\
  key_cmp [KS []; KI 2; KS []] [KS []; KI 3; KS []] = Lt /\
  key_cmp [KS []; KI 3; KS []] [KS []; KI 4; KS []] = Lt.
Proof. vm_compute. repeat split. Qed.

Lemma natural_key_legacy_refuted : natural_key_legacy (s "IIII") = Err ValueError.
Proof. vm_compute. reflexivity. Qed.

Lemma natural_key_repaired_IIII :
  natural_key (s "IIII") = Ok [KS []; KI 3; KS []; KI 1; KS []].
Proof. vm_compute. reflexivity. Qed.

(* the old regex at an I: the whole run of I's, plus a V if one follows *)
Lemma legacy_I_run is r : is <> [] -> forallb is_I is = true -> stops is_I r ->
  match_tok_legacy (is ++ r) =
  match r with
  | c :: r' => if is_V c then Some (is ++ [c], r') else Some (is, r)
  | [] => Some (is, [])
  end.
Proof.
  intros Hne Hall Hr. destruct is as [|c1 a]; [congruence|].
  pose proof Hall as H1. cbn [forallb] in H1. apply andb_true_iff in H1 as [H1 _].
  unfold match_tok_legacy. cbn [app]. rewrite H1.
  change (c1 :: a ++ r) with ((c1 :: a) ++ r).
  rewrite (take_while_app is_I (c1 :: a) r Hall Hr). reflexivity.
Qed.

Lemma match_tok_legacy_spec x tok rest : match_tok_legacy x = Some (tok, rest) ->
  x = tok ++ rest /\ tok <> [].
Proof.
  destruct x as [|c1 t1]; [discriminate|].
  destruct (is_I c1) eqn:E1.
  - destruct (take_while is_I (c1 :: t1)) as [is r] eqn:T.
    destruct (take_while_spec _ _ _ _ T) as (Hx & Hall & Hr).
    assert (Hne : is <> []).
    { intro; subst is. cbn [take_while] in T. rewrite E1 in T.
      destruct (take_while is_I t1). discriminate. }
    rewrite Hx, (legacy_I_run is r Hne Hall Hr).
    destruct r as [|c r'].
    + intro H; injection H as <- <-. split; [reflexivity | exact Hne].
    + destruct (is_V c); intro H; injection H as <- <-.
      * split; [rewrite <- app_assoc; reflexivity | destruct is; discriminate].
      * split; [reflexivity | exact Hne].
  - unfold match_tok_legacy. rewrite E1.
    destruct (is_digit c1) eqn:E2; [|discriminate].
    intro H.
    assert (H' : take_while is_digit (c1 :: t1) = (tok, rest)) by (injection H as H; exact H).
    clear H. destruct (take_while_spec _ _ _ _ H') as (H1 & _ & _).
    split; [exact H1|]. intro; subst tok.
    cbn [take_while] in H'. rewrite E2 in H'. destruct (take_while is_digit t1). discriminate.
Qed.

Lemma int_of_str_I y :
  is_space (last ("I"%char :: y) "I"%char) = false ->
  int_of_str ("I"%char :: y) = Err ValueError.
Proof.
  intro H. unfold int_of_str.
  rewrite (strip_space_id "I"%char y "I"%char eq_refl H). reflexivity.
Qed.

Lemma last_all_I l : forallb is_I l = true -> last l "I"%char = "I"%char.
Proof.
  induction l as [|c l IH]; [reflexivity|]. cbn [forallb]. intro H.
  apply andb_true_iff in H as [Hc Hl]. destruct l as [|d l]; [apply is_I_eq, Hc|].
  change (last (d :: l) "I"%char = "I"%char). apply IH, Hl.
Qed.

(* a token that starts with I is one of the four numerals, or int() rejects it *)
Lemma tok_value_I y : is_space (last ("I"%char :: y) "I"%char) = false ->
  numeral ("I"%char :: y) \/ tok_value ("I"%char :: y) = Err ValueError.
Proof.
  intro H. unfold tok_value, numeral.
  destruct (str_eqb _ (s "I")) eqn:E1; [apply str_eqb_eq in E1; auto|].
  destruct (str_eqb _ (s "II")) eqn:E2; [apply str_eqb_eq in E2; auto|].
  destruct (str_eqb _ (s "III")) eqn:E3; [apply str_eqb_eq in E3; auto|].
  destruct (str_eqb _ (s "IV")) eqn:E4; [apply str_eqb_eq in E4; auto 6|].
  right. apply int_of_str_I, H.
Qed.

Lemma numeral_V tok : numeral (tok ++ ["V"%char]) -> tok = ["I"%char].
Proof.
  intro N. assert (R : exists t, numeral t /\ rev t = "V"%char :: rev tok)
    by (eexists; split; [exact N | apply rev_unit]).
  destruct R as (t & [-> | [-> | [-> | ->]]] & R); cbn in R; try discriminate R.
  injection R as R. apply (f_equal (@rev _)) in R. rewrite rev_involutive in R. symmetry. exact R.
Qed.

Lemma numeral_Is a : forallb is_I a = true -> numeral ("I"%char :: a) ->
  a = [] \/ a = ["I"%char] \/ a = ["I"%char; "I"%char].
Proof.
  intros Ha [N | [N | [N | N]]]; cbn in N; injection N as ->; auto. discriminate Ha.
Qed.

Lemma is_V_not_I c : is_V c = true -> is_I c = false.
Proof. intro H. apply is_V_eq in H. subst. reflexivity. Qed.

(* at any position, either both regexes produce the same token, or the old
   token is rejected by int(); the interesting case is a run of I's *)
Lemma legacy_tok_case x :
  match_tok_legacy x = match_tok x
  \/ exists tok rest, match_tok_legacy x = Some (tok, rest) /\ tok_value tok = Err ValueError.
Proof.
  destruct x as [|c t]; [left; reflexivity|].
  destruct (is_I c) eqn:Ic; [|left; unfold match_tok_legacy, match_tok; rewrite Ic; reflexivity].
  apply is_I_eq in Ic; subst c.
  destruct (take_while is_I t) as [a r] eqn:T.
  destruct (take_while_spec _ _ _ _ T) as (-> & Ha & Hr). clear T.
  assert (Hall : forallb is_I ("I"%char :: a) = true) by (cbn [forallb]; rewrite Ha; reflexivity).
  assert (Hrun : is_space (last ("I"%char :: a) "I"%char) = false)
    by (rewrite (last_all_I _ Hall); reflexivity).
  change ("I"%char :: a ++ r) with (("I"%char :: a) ++ r).
  rewrite (legacy_I_run ("I"%char :: a) r) by (discriminate || assumption).
  destruct r as [|c r']; [|destruct (is_V c) eqn:Vc].
  - destruct (tok_value_I a Hrun) as [N | E]; [left | right; eauto].
    destruct (numeral_Is a Ha N) as [-> | [-> | ->]]; reflexivity.
  - apply is_V_eq in Vc; subst c.
    destruct (tok_value_I (a ++ ["V"%char])) as [N | E]; [| | right; eauto].
    + change ("I"%char :: a ++ ["V"%char]) with (("I"%char :: a) ++ ["V"%char]).
      rewrite last_last. reflexivity.
    + left. apply (numeral_V ("I"%char :: a)) in N. injection N as ->. reflexivity.
  - destruct (tok_value_I a Hrun) as [N | E]; [left | right; eauto].
    cbn [stops] in Hr.
    destruct (numeral_Is a Ha N) as [-> | [-> | ->]]; cbn [app]; unfold match_tok;
      change (is_I "I"%char) with true; change (is_V "I"%char) with false; cbv iota;
      rewrite ?Vc, ?Hr; reflexivity.
Qed.

(* both keys are computed with the same fuel *)
Lemma split_fuel_new_extends_old : forall fuel x acc k,
  split_fuel match_tok_legacy fuel x acc = Ok k -> split_fuel match_tok fuel x acc = Ok k.
Proof.
  induction fuel as [|fuel IH]; intros x acc k; cbn [split_fuel]; [discriminate|].
  destruct x as [|c t]; [auto|].
  destruct (legacy_tok_case (c :: t)) as [-> | (tok & rest & -> & ->)]; [|cbn [bind]; discriminate].
  destruct (match_tok (c :: t)) as [[tok rest]|]; [|apply IH].
  destruct (tok_value tok) as [v|]; cbn [bind]; [|discriminate].
  destruct (split_fuel match_tok_legacy fuel rest []) as [k'|] eqn:EL; cbn [bind]; [|discriminate].
  rewrite (IH _ _ _ EL). auto.
Qed.

Theorem new_key_extends_old : forall x k,
  natural_key_legacy x = Ok k -> natural_key x = Ok k.
Proof. intros x k. apply split_fuel_new_extends_old. Qed.

Lemma with_keys_total {A} (name_of : A -> str) (l : list A) :
  exists kl, with_keys name_of l = Ok kl /\ map snd kl = l.
Proof.
  unfold with_keys. induction l as [|x l (kl & E & M)]; [exists []; split; reflexivity|].
  destruct (natural_key_total (name_of x)) as [k Hk].
  exists ((k, x) :: kl). cbn [mapM]. rewrite Hk. cbn [bind]. rewrite E. cbn [bind map snd].
  rewrite M. split; reflexivity.
Qed.

Theorem sorted_by_name_total {A} (name_of : A -> str) (l : list A) :
  exists r, sorted_by_name name_of l = Ok r /\ Permutation r l.
Proof.
  destruct (with_keys_total name_of l) as (kl & E & M).
  unfold sorted_by_name. rewrite E. cbn [bind]. eexists. split; [reflexivity|].
  rewrite <- M. apply Permutation_map, sort_perm.
Qed.

Theorem smart_sort_total {A} (rank_of : A -> Z) (name_of : A -> str) (l : list A) :
  exists r, smart_sort rank_of name_of l = Ok r /\ Permutation r l.
Proof.
  destruct (with_keys_total name_of l) as (kl & E & M).
  unfold smart_sort. rewrite E. cbn [bind]. eexists. split; [reflexivity|].
  rewrite <- M. apply Permutation_map, smart_sort_perm.
Qed.

Print Assumptions natural_key_total.
Print Assumptions natural_key_shape.
Print Assumptions alternating_no_mixed.
Print Assumptions key_cmp_eq.
Print Assumptions key_le_refl.
Print Assumptions key_le_trans.
Print Assumptions key_le_total.
Print Assumptions key_le_antisym.
Print Assumptions sort_consistent.
Print Assumptions sort_perm.
Print Assumptions sort_sorted.
Print Assumptions sort_stable.
Print Assumptions smart_sort_consistent.
Print Assumptions smart_sort_perm.
Print Assumptions smart_sort_sorted.
Print Assumptions smart_sort_stable.
Print Assumptions key_prefix_number.
Print Assumptions numeric_order.
Print Assumptions key_unloc.
Print Assumptions unloc_between.
Print Assumptions unloc_before_later_suffix.
Print Assumptions roman_order.
Print Assumptions new_key_extends_old.
Print Assumptions natural_key_legacy_refuted.
Print Assumptions sorted_by_name_total.
Print Assumptions smart_sort_total.
