(* C10: when are the scaffold names within one output assembly pairwise
   distinct?  The fused scaffolds have distinct fusion keys; what can still
   collide inside one assembly, the side conditions that exclude it, and runs
   of [remap] showing that each is needed; rank-2 prefixing and ChrNamer keep
   the names distinct under a namespace hypothesis on the fused scaffolds,
   which an invariant of the labels through the first half of the pipeline
   moves to the names in the input and in the map. *)
From Tola Require Import Py.Base Py.Dec Py.Sort Model.Fragment Model.Scaffold Model.OverlapResult
  Model.Namer Model.Remap.
From Tola Require Import Proofs.BaseLemmas Proofs.JoinGaps Proofs.Dec Proofs.NaturalKey Proofs.Routing Proofs.Naming.
From Tola Require Proofs.OverlapResult Proofs.RemapTail Proofs.RemapHead Proofs.StoreInv Proofs.Junctions.
From Coq Require Import Lia ZifyBool Permutation Sorted.

Section Assoc0.
  Context {K V : Type} (keqb : K -> K -> bool).
  Hypothesis Hk : forall a b, keqb a b = true <-> a = b.

  (* [aset] either rewrites the value at the (unique) place of the key or
     appends a new entry *)
  Lemma aset_cases (d : list (K * V)) k v :
    (exists l1 v0 l2, d = l1 ++ (k, v0) :: l2 /\ aset keqb d k v = l1 ++ (k, v) :: l2
                      /\ aget keqb d k = Some v0)
    \/ (aget keqb d k = None /\ aset keqb d k v = d ++ [(k, v)]).
  Proof.
    induction d as [|[k0 v0] d IH]; cbn [aget aset app].
    - right. split; reflexivity.
    - destruct (keqb k k0) eqn:E.
      + apply Hk in E. subst k0. left. exists [], v0, d. repeat split.
      + destruct IH as [(l1 & w & l2 & E1 & E2 & E3)|[E1 E2]].
        * left. exists ((k0, v0) :: l1), w, l2. cbn [app]. rewrite <- E1, E2. repeat split. exact E3.
        * right. rewrite E2. split; [exact E1 | reflexivity].
  Qed.

  Lemma aset_keys_nodup (d : list (K * V)) k v : NoDup (map fst d) -> NoDup (map fst (aset keqb d k v)).
  Proof.
    intro N. destruct (aset_cases d k v) as [(l1 & w & l2 & E1 & E2 & _)|[E1 E2]].
    - rewrite E2. rewrite E1 in N. rewrite map_app in *. exact N.
    - rewrite E2, map_app. cbn [map fst]. apply NoDup_snoc; [exact N|].
      apply (aget_None keqb Hk). exact E1.
  Qed.

  Lemma in_aset (d : list (K * V)) k v e : In e (aset keqb d k v) -> In e d \/ e = (k, v).
  Proof.
    destruct (aset_cases d k v) as [(l1 & v0 & l2 & E1 & E2 & E3)|[E1 E2]]; rewrite E2; intro I.
    - rewrite E1. apply in_app_or in I as [I|[<-|I]]; [left; apply in_or_app; auto | auto |].
      left. apply in_or_app. right. right. exact I.
    - apply in_app_or in I as [I|[<-|[]]]; auto.
  Qed.
End Assoc0.

Definition labs := (str * option str * option str * Z * option str)%type.
Definition o_labs (r : ovr) : labs := (o_name r, o_tag r, o_hap r, o_rank r, o_orig r).
Definition sc_labs (sc : scaffold) : labs := (sc_name sc, sc_tag sc, sc_hap sc, sc_rank sc, sc_orig sc).

(* fuse_step files a piece under its key and gives the entry the labels (name,
   tag, haplotype, rank, original name) of the first piece filed there: a
   property of keys and labels that holds of every piece holds of every entry *)
Lemma fuse_fold_entries (P : fuse_key -> labs -> Prop) c g : forall pieces acc,
  Forall (fun p : scaffold * bool => P (piece_key c (fst p)) (sc_labs (fst p))) pieces ->
  Forall (fun kb : fuse_key * scaffold => P (fst kb) (sc_labs (snd kb))) acc ->
  Forall (fun kb : fuse_key * scaffold => P (fst kb) (sc_labs (snd kb))) (fold_left (fuse_step c g) pieces acc).
Proof.
  induction pieces as [|[sc isr] pieces IH]; intros acc Fp F; cbn [fold_left]; [exact F|].
  inversion Fp as [|? ? Pp Fp']; subst. apply (IH _ Fp'). cbn [fst] in Pp.
  destruct (sc_rows sc) eqn:R; [rewrite fuse_step_empty by exact R; exact F|].
  rewrite fuse_step_spec by congruence. rewrite Forall_forall in *. intros e I.
  apply (in_aset _ fuse_key_eqb_eq) in I as [I| ->]; [exact (F e I)|].
  destruct (aget fuse_key_eqb acc (piece_key c sc)) as [b|] eqn:G; [|exact Pp].
  exact (F _ (aget_In _ fuse_key_eqb_eq _ _ _ G)).
Qed.

Lemma fuse_fold_keys_nodup c g : forall pieces acc,
  NoDup (map fst acc) -> NoDup (map fst (fold_left (fuse_step c g) pieces acc)).
Proof.
  induction pieces as [|[sc isr] pieces IH]; intros acc N; cbn [fold_left]; [exact N|]. apply IH.
  destruct (sc_rows sc) eqn:R; [rewrite fuse_step_empty by exact R; exact N|].
  rewrite fuse_step_spec by congruence. apply (aset_keys_nodup _ fuse_key_eqb_eq), N.
Qed.

Definition fuse_key_of : scaffold -> fuse_key := key_of_piece.

Lemma NoDup_map_factor {A B C} (f : A -> B) (h : B -> C) l : NoDup (map (fun x => h (f x)) l) -> NoDup (map f l).
Proof. rewrite <- (map_map f h). apply NoDup_map_inv. Qed.

(* the key actually used is a function of (tag, haplotype, name): distinct
   keys under either setting of the flag give distinct triples *)
Theorem fuse_keys_nodup_cfg : forall c g rs fused,
  fuse_all c g rs = Ok fused ->
  NoDup (map (piece_key c) fused) /\ NoDup (map fuse_key_of fused).
Proof.
  intros c g rs fused H. unfold fuse_all in H.
  destruct (mapM _ _) as [results|]; cbn [bind] in H; [|discriminate]. injection H as <-.
  set (pieces := map piece_of_result results ++ map (fun sc => (sc, false)) (rs_left rs)).
  pose proof (fuse_fold_keys_nodup c g pieces [] (NoDup_nil _)) as N.
  pose proof (fuse_fold_entries (fun k l => let '(n, t, h, _, _) := l in (if fix_tag_key c then t else None, h, n) = k)
                c g pieces [] (proj2 (Forall_forall _ _) (fun p _ => eq_refl)) (Forall_nil _)) as F.
  set (acc := fold_left (fuse_step c g) pieces []) in *. clearbody acc.
  assert (E : map (piece_key c) (map snd acc) = map fst acc).
  { rewrite map_map. apply map_ext_in. intros kb I. rewrite Forall_forall in F. exact (F kb I). }
  assert (N1 : NoDup (map (piece_key c) (map snd acc))) by (rewrite E; exact N).
  split; [exact N1|].
  apply (NoDup_map_factor fuse_key_of
           (fun k : fuse_key => let '(t, h, n) := k in (if fix_tag_key c then t else None, h, n))).
  exact N1.
Qed.

Theorem fuse_keys_nodup : forall g rs fused,
  fuse_all repaired g rs = Ok fused -> NoDup (map fuse_key_of fused).
Proof. intros g rs fused H. exact (proj2 (fuse_keys_nodup_cfg repaired g rs fused H)). Qed.

(* with the legacy key the statement is even stronger: (haplotype, name) alone is duplicate-free *)
Corollary fuse_keys_nodup_legacy : forall c g rs fused, fix_tag_key c = false ->
  fuse_all c g rs = Ok fused -> NoDup (map (fun sc => (sc_hap sc, sc_name sc)) fused).
Proof.
  intros c g rs fused Hc H. destruct (fuse_keys_nodup_cfg c g rs fused H) as [N _].
  unfold piece_key in N. rewrite Hc in N.
  apply (NoDup_map_factor (fun sc => (sc_hap sc, sc_name sc)) (fun p => (@None str, fst p, snd p))). exact N.
Qed.

Definition asm_k (sc : scaffold) : option str := fst (asm_key_of sc).

Definition asm_distinct (l : list scaffold) : Prop :=
  forall i j a b, i <> j -> nth_error l i = Some a -> nth_error l j = Some b ->
    asm_k a = asm_k b -> sc_name a <> sc_name b.

Lemma NoDup_map_nth {A B} (f : A -> B) l i j a b :
  NoDup (map f l) -> i <> j -> nth_error l i = Some a -> nth_error l j = Some b -> f a <> f b.
Proof.
  intros N Hij Ha Hb E. apply Hij.
  assert (Li : (i < length (map f l))%nat) by (rewrite map_length; apply nth_error_Some; congruence).
  apply (proj1 (NoDup_nth_error (map f l)) N i j Li).
  rewrite (map_nth_error f i l Ha), (map_nth_error f j l Hb). f_equal. exact E.
Qed.

Lemma truthy_false_cases o : truthy o = false -> o = None \/ o = Some [].
Proof. destruct o as [[|c t]|]; cbn; intro H; auto; discriminate. Qed.

(* The exact list of what can collide.  Two scaffolds with different fusion
   keys, the same assembly and the same name are in one of three situations:
   (A) the same non-empty tag and different haplotypes (col_tag_hap);
   (B) one is tagged, the other is not and its haplotype is spelled like the tag
       (col_tag_is_hap_l, col_tag_is_hap_r);
   (C) both untagged, and the difference is None against the empty string, in
       the tag (col_empty_tag) or in the haplotype when neither has one
       (col_empty_hap). *)
Inductive collision (a b : scaffold) : Prop :=
  | col_tag_hap : truthy (sc_tag a) = true -> sc_tag a = sc_tag b -> sc_hap a <> sc_hap b -> collision a b
  | col_tag_is_hap_l : truthy (sc_tag a) = true -> truthy (sc_tag b) = false -> sc_hap b = sc_tag a -> collision a b
  | col_tag_is_hap_r : truthy (sc_tag b) = true -> truthy (sc_tag a) = false -> sc_hap a = sc_tag b -> collision a b
  | col_empty_tag : truthy (sc_tag a) = false -> truthy (sc_tag b) = false -> sc_tag a <> sc_tag b -> collision a b
  | col_empty_hap : truthy (sc_tag a) = false -> truthy (sc_tag b) = false ->
                    truthy (sc_hap a) = false -> truthy (sc_hap b) = false -> sc_hap a <> sc_hap b -> collision a b.

Theorem same_name_in_assembly_cases : forall l i j a b,
  NoDup (map fuse_key_of l) -> i <> j -> nth_error l i = Some a -> nth_error l j = Some b ->
  asm_k a = asm_k b -> sc_name a = sc_name b -> collision a b.
Proof.
  intros l i j a b N Hij Ha Hb K En.
  pose proof (NoDup_map_nth fuse_key_of l i j a b N Hij Ha Hb) as D.
  unfold fuse_key_of, key_of_piece in D. rewrite En in D.
  unfold asm_k, asm_key_of in K.
  destruct (truthy (sc_tag a)) eqn:Ta, (truthy (sc_tag b)) eqn:Tb.
  - cbn [fst] in K. apply col_tag_hap; [exact Ta | exact K|]. intro Eh. apply D. rewrite K, Eh. reflexivity.
  - destruct (truthy (sc_hap b)) eqn:Hb'; cbn [fst] in K.
    + apply col_tag_is_hap_l; auto.
    + rewrite K in Ta. discriminate.
  - destruct (truthy (sc_hap a)) eqn:Ha'; cbn [fst] in K.
    + apply col_tag_is_hap_r; auto.
    + rewrite <- K in Tb. discriminate.
  - destruct (opt_eqb str_eqb (sc_tag a) (sc_tag b)) eqn:Et;
      [apply opt_str_eqb_eq in Et
      |apply col_empty_tag; auto; intro X; apply opt_str_eqb_eq in X; congruence].
    assert (Dh : sc_hap a <> sc_hap b) by (intro Eh; apply D; rewrite Et, Eh; reflexivity).
    destruct (truthy (sc_hap a)) eqn:Ha', (truthy (sc_hap b)) eqn:Hb'; cbn [fst] in K.
    + contradiction.
    + rewrite K in Ha'. discriminate.
    + rewrite <- K in Hb'. discriminate.
    + apply col_empty_hap; auto.
Qed.

(* (A) the one that matters: pieces with the same tag and the same name have the same haplotype *)
Definition tagged_same_hap (l : list scaffold) : Prop :=
  forall s1 s2, In s1 l -> In s2 l -> sc_tag s1 = sc_tag s2 -> sc_tag s1 <> None ->
    sc_name s1 = sc_name s2 -> sc_hap s1 = sc_hap s2.
(* (B) no untagged scaffold has a haplotype spelled like a tag in use *)
Definition no_tag_hap_clash (l : list scaffold) : Prop :=
  forall s1 s2, In s1 l -> In s2 l -> truthy (sc_tag s1) = true -> truthy (sc_tag s2) = false ->
    sc_hap s2 <> sc_tag s1.
(* (C) Python's "" never stands for "no tag" / "no haplotype" *)
Definition labels_normal (sc : scaffold) : Prop := sc_tag sc <> Some [] /\ sc_hap sc <> Some [].

Theorem asm_distinct_before_renaming : forall l,
  NoDup (map fuse_key_of l) -> Forall labels_normal l -> no_tag_hap_clash l -> tagged_same_hap l ->
  asm_distinct l.
Proof.
  intros l N LN NC TS i j a b Hij Ha Hb K En.
  pose proof (nth_error_In _ _ Ha) as Ia. pose proof (nth_error_In _ _ Hb) as Ib.
  rewrite Forall_forall in LN. destruct (LN a Ia) as [Na1 Na2]. destruct (LN b Ib) as [Nb1 Nb2].
  destruct (same_name_in_assembly_cases l i j a b N Hij Ha Hb K En)
    as [T E D | T1 T2 E | T1 T2 E | T1 T2 D | T1 T2 H1 H2 D].
  - apply D. apply TS; auto. intro X. rewrite X in T. discriminate.
  - exact (NC a b Ia Ib T1 T2 E).
  - exact (NC b a Ib Ia T1 T2 E).
  - apply truthy_false_cases in T1, T2. destruct T1, T2; congruence.
  - apply truthy_false_cases in H1, H2. destruct H1, H2; congruence.
Qed.

Import Proofs.RemapTail.

Definition has_key (k : option str) (sc : scaffold) : bool := opt_eqb str_eqb (asm_k sc) k.
Definition members (acc : list (option str * (bool * list scaffold))) (k : option str) : list scaffold :=
  match aget (opt_eqb str_eqb) acc k with Some (_, scs) => scs | None => [] end.

Lemma members_step acc sc k :
  members (group_step acc sc) k = members acc k ++ (if has_key k sc then [sc] else []).
Proof.
  unfold group_step, members, has_key, asm_k.
  destruct (asm_key_of sc) as [k0 cur0]. cbn [fst].
  destruct (opt_eqb str_eqb k0 k) eqn:E.
  - apply opt_str_eqb_eq in E. subst k0.
    destruct (aget (opt_eqb str_eqb) acc k) as [[cur scs]|] eqn:G.
    + rewrite (aget_aset_same _ opt_str_eqb_eq). reflexivity.
    + rewrite (aget_app_None _ _ _ _ G). cbn [fst snd]. rewrite (proj2 (opt_str_eqb_eq k k) eq_refl). reflexivity.
  - assert (NE : k <> k0) by (intro X; subst; rewrite (proj2 (opt_str_eqb_eq k0 k0) eq_refl) in E; discriminate).
    rewrite app_nil_r.
    destruct (aget (opt_eqb str_eqb) acc k0) as [[cur scs]|] eqn:G.
    + rewrite (aget_aset_other _ opt_str_eqb_eq) by exact NE. reflexivity.
    + destruct (aget (opt_eqb str_eqb) acc k) as [v|] eqn:G2.
      * rewrite (aget_app_Some _ _ _ _ _ G2). reflexivity.
      * rewrite (aget_app_None _ _ _ _ G2). cbn [fst snd].
        destruct (opt_eqb str_eqb k k0) eqn:E2; [apply opt_str_eqb_eq in E2; congruence | reflexivity].
Qed.

Lemma members_fold : forall l acc k,
  members (fold_left group_step l acc) k = members acc k ++ filter (has_key k) l.
Proof.
  induction l as [|sc l IH]; intros acc k; cbn [fold_left filter]; [rewrite app_nil_r; reflexivity|].
  rewrite IH, members_step, <- app_assoc. destruct (has_key k sc); reflexivity.
Qed.

Lemma group_step_keys acc sc : NoDup (map fst acc) -> NoDup (map fst (group_step acc sc)).
Proof.
  intro N. unfold group_step. destruct (asm_key_of sc) as [k0 cur0].
  destruct (aget (opt_eqb str_eqb) acc k0) as [[cur scs]|] eqn:G.
  - apply (aset_keys_nodup _ opt_str_eqb_eq). exact N.
  - rewrite map_app. cbn [map fst]. apply NoDup_snoc; [exact N|].
    apply (aget_None _ opt_str_eqb_eq). exact G.
Qed.

Lemma group_fold_keys : forall l acc, NoDup (map fst acc) -> NoDup (map fst (fold_left group_step l acc)).
Proof.
  induction l as [|sc l IH]; intros acc N; cbn [fold_left]; [exact N|]. apply IH, group_step_keys, N.
Qed.

Theorem grouping_spec : forall l k cur scs,
  In (k, (cur, scs)) (fold_left group_step l []) -> scs = filter (has_key k) l.
Proof.
  intros l k cur scs I.
  pose proof (In_aget _ opt_str_eqb_eq _ k (cur, scs) (group_fold_keys l [] (NoDup_nil _)) I) as G.
  pose proof (members_fold l [] k) as M. unfold members at 1 in M. rewrite G in M. exact M.
Qed.

Lemma asm_distinct_tail x l : asm_distinct (x :: l) -> asm_distinct l.
Proof.
  intros H i j a b Hij Ha Hb. apply (H (S i) (S j)); [congruence | exact Ha | exact Hb].
Qed.

Lemma asm_distinct_filter_nodup k : forall l, asm_distinct l -> NoDup (map sc_name (filter (has_key k) l)).
Proof.
  induction l as [|x l IH]; intro H; cbn [filter map]; [constructor|].
  pose proof (IH (asm_distinct_tail x l H)) as N.
  destruct (has_key k x) eqn:Kx; [|exact N]. cbn [map]. constructor; [|exact N].
  intro I. apply in_map_iff in I as (y & En & Iy). apply filter_In in Iy as [Iy Ky].
  apply In_nth_error in Iy as [j Hj].
  apply (H 0%nat (S j) x y); [discriminate | reflexivity | exact Hj | | symmetry; exact En].
  unfold has_key in *. apply opt_str_eqb_eq in Kx, Ky. congruence.
Qed.

(* the grouping applied to ANY list with duplicate-free fusion keys *)
Theorem assembly_names_nodup_before_renaming : forall l,
  NoDup (map fuse_key_of l) -> Forall labels_normal l -> no_tag_hap_clash l -> tagged_same_hap l ->
  forall k cur scs, In (k, (cur, scs)) (fold_left group_step l []) -> NoDup (map sc_name scs).
Proof.
  intros l N LN NC TS k cur scs I. rewrite (grouping_spec l k cur scs I).
  apply asm_distinct_filter_nodup, asm_distinct_before_renaming; assumption.
Qed.

Theorem assembly_duplicate_is_collision : forall l, NoDup (map fuse_key_of l) ->
  forall k cur scs, In (k, (cur, scs)) (fold_left group_step l []) ->
  forall i j a b, i <> j -> nth_error scs i = Some a -> nth_error scs j = Some b ->
    sc_name a = sc_name b -> collision a b.
Proof.
  intros l N k cur scs I i j a b Hij Ha Hb En.
  rewrite (grouping_spec l k cur scs I) in Ha, Hb.
  assert (Ka : has_key k a = true) by (apply nth_error_In, filter_In in Ha; tauto).
  assert (Kb : has_key k b = true) by (apply nth_error_In, filter_In in Hb; tauto).
  pose proof (NoDup_map_filter fuse_key_of (has_key k) l N) as NF.
  apply (same_name_in_assembly_cases _ i j a b NF Hij Ha Hb); [|exact En].
  unfold has_key in *. apply opt_str_eqb_eq in Ka, Kb. congruence.
Qed.

(* assembly_names_nodup_before_renaming with [tagged_same_hap] as its ONLY side condition is
   false for arbitrary lists: duplicate-free fusion keys and [tagged_same_hap]
   hold, and still one assembly gets the same name twice -- (C) None against
   the empty string, (B) a haplotype spelled like a tag.  Hence the two extra
   side conditions [labels_normal] and [no_tag_hap_clash] above; the two
   examples below ("item2" in their names is this statement about one
   assembly before the renaming) are the witnesses. *)
Definition assemblies_of (l : list scaffold) : list (option str * list str) :=
  map (fun e : option str * (bool * list scaffold) => (fst e, map sc_name (snd (snd e))))
      (fold_left group_step l []).

Example item2_needs_labels_normal :
  let l := [mkScaffold (s "x") [] None None 3 None []; mkScaffold (s "x") [] (Some []) None 3 None []] in
  NoDup (map fuse_key_of l) /\ tagged_same_hap l /\ assemblies_of l = [(None, [s "x"; s "x"])].
Proof.
  cbv zeta. split; [|split; [|vm_compute; reflexivity]].
  - repeat constructor; cbn; intuition discriminate.
  - intros s1 s2 [<-|[<-|[]]] [<-|[<-|[]]]; cbn; intros; congruence.
Qed.

Example item2_needs_no_tag_hap_clash :
  let l := [mkScaffold (s "x") [] None (Some (s "Contaminant")) 3 None [];
            mkScaffold (s "x") [] (Some (s "Contaminant")) None 3 None []] in
  NoDup (map fuse_key_of l) /\ tagged_same_hap l /\ Forall labels_normal l
  /\ assemblies_of l = [(Some (s "Contaminant"), [s "x"; s "x"])].
Proof.
  cbv zeta. split; [|split; [|split; [|vm_compute; reflexivity]]].
  - repeat constructor; cbn; intuition discriminate.
  - intros s1 s2 [<-|[<-|[]]] [<-|[<-|[]]]; cbn; intros; congruence.
  - repeat constructor; cbn; discriminate.
Qed.

(* The side condition [tagged_same_hap] IS needed, and [remap] itself violates
   it (the known finding recorded for C10, reproduced on /repo/src).

   Input: one scaffold, scaffold_7 = ctg7:1-2000.
   Map:   scaffold_7 is not painted; its first half is shown in Pretext
          Scaffold_1 with the tags HAP1 Contaminant, its second half in
          Scaffold_2 with the tags HAP2 Contaminant.
   The fusion keys (Contaminant, HAP1, scaffold_7) and (Contaminant, HAP2,
   scaffold_7) differ, so the two halves stay two scaffolds; both have the tag
   Contaminant, so both go to the assembly "Contaminant" -- under the same
   name scaffold_7. *)
Definition ex_gap : gap := mkGap 200 (s "scaffold").
Definition exF (n : str) (a b : Z) (tags : list str) : row := RF (mkFrag 0 n a b 1 tags).

Definition names_of (r : res outputs) : list (option str * list str) :=
  match r with
  | Ok o => map (fun a => (oa_key a, map sc_name (oa_scaffolds a))) (out_asms o)
  | Err _ => []
  end.
Definition labels_of (r : res outputs) : list (str * option str * option str) :=
  match r with
  | Ok o => flat_map (fun a => map (fun sc => (sc_name sc, sc_tag sc, sc_hap sc)) (oa_scaffolds a)) (out_asms o)
  | Err _ => []
  end.

Definition dup_input : list (str * list row) := [(s "scaffold_7", [exF (s "ctg7") 1 2000 []])].
Definition dup_pretext : list (str * list row) :=
  [(s "Scaffold_1", [exF (s "scaffold_7") 1 1000 [s "HAP1"; s "Contaminant"]]);
   (s "Scaffold_2", [exF (s "scaffold_7") 1001 2000 [s "HAP2"; s "Contaminant"]])].

Example duplicate_names_in_contaminants :
  let r := remap repaired ex_gap (s "SUPER_") (10, 1) dup_input dup_pretext in
  names_of r = [(Some (s "Contaminant"), [s "scaffold_7"; s "scaffold_7"])]
  /\ labels_of r = [(s "scaffold_7", Some (s "Contaminant"), Some (s "HAP1"));
                    (s "scaffold_7", Some (s "Contaminant"), Some (s "HAP2"))].
Proof. vm_compute. split; reflexivity. Qed.

(* the same thing without any cut: chromosome X of both haplotypes, each with
   a fragment tagged Contaminant.  The contaminant pieces keep the name "X". *)
Definition dupX_input : list (str * list row) :=
  [(s "scaffold_1", [exF (s "c1") 1 1000 []; RG ex_gap; exF (s "c2") 1 500 []]);
   (s "scaffold_2", [exF (s "c3") 1 1000 []; RG ex_gap; exF (s "c4") 1 500 []])].
Definition dupX_pretext : list (str * list row) :=
  [(s "Scaffold_1", [exF (s "scaffold_1") 1 1000 [s "X"; s "HAP1"]; RG ex_gap;
                     exF (s "scaffold_1") 1201 1700 [s "Contaminant"]]);
   (s "Scaffold_2", [exF (s "scaffold_2") 1 1000 [s "X"; s "HAP2"]; RG ex_gap;
                     exF (s "scaffold_2") 1201 1700 [s "Contaminant"]])].

Example duplicate_names_in_contaminants_chrX :
  names_of (remap repaired ex_gap (s "SUPER_") (10, 1) dupX_input dupX_pretext)
  = [(Some (s "HAP1"), [s "SUPER_X"]);
     (Some (s "Contaminant"), [s "X"; s "X"]);
     (Some (s "HAP2"), [s "SUPER_X"])].
Proof. vm_compute. reflexivity. Qed.

(* and without any haplotype TAG on the contaminant: the two halves of
   HAP1_x_1 get their haplotype from the name, but between them a scaffold
   tagged Primary makes HAP1 the primary haplotype, and from then on HAP1 is
   written "Primary" *)
Example duplicate_names_in_contaminants_primary_switch :
  let r := remap repaired ex_gap (s "SUPER_") (10, 1)
             [(s "HAP1_x_1", [exF (s "c1") 1 2000 []]); (s "HAP1_y_2", [exF (s "c2") 1 3000 []])]
             [(s "Scaffold_1", [exF (s "HAP1_x_1") 1 1000 [s "Contaminant"]]);
              (s "Scaffold_2", [exF (s "HAP1_y_2") 1 3000 [s "Painted"; s "Primary"]]);
              (s "Scaffold_3", [exF (s "HAP1_x_1") 1001 2000 [s "Contaminant"]])] in
  names_of r = [(Some (s "Contaminant"), [s "HAP1_x_1"; s "HAP1_x_1"]); (Some (s "Primary"), [s "SUPER_1"])]
  /\ labels_of r = [(s "HAP1_x_1", Some (s "Contaminant"), Some (s "HAP1"));
                    (s "HAP1_x_1", Some (s "Contaminant"), Some (s "Primary"));
                    (s "SUPER_1", None, Some (s "Primary"))].
Proof. vm_compute. split; reflexivity. Qed.

(* [no_tag_hap_clash] is needed too: an input scaffold called Contaminant_x_1
   gives the haplotype "Contaminant" to its untagged half, which then shares
   the assembly (and the name) with its half tagged Contaminant -- and the
   assembly is flagged curated, because the untagged half came first *)
Example duplicate_names_by_tag_haplotype_clash :
  let r := remap repaired ex_gap (s "SUPER_") (10, 1)
             [(s "Contaminant_x_1", [exF (s "ctg7") 1 2000 []])]
             [(s "Scaffold_1", [exF (s "Contaminant_x_1") 1 1000 []]);
              (s "Scaffold_2", [exF (s "Contaminant_x_1") 1001 2000 [s "Contaminant"]])] in
  names_of r = [(Some (s "Contaminant"), [s "Contaminant_x_1"; s "Contaminant_x_1"])]
  /\ labels_of r = [(s "Contaminant_x_1", None, Some (s "Contaminant"));
                    (s "Contaminant_x_1", Some (s "Contaminant"), Some (s "Contaminant"))]
  /\ match r with Ok o => map oa_curated (out_asms o) = [true] | Err _ => False end.
Proof. vm_compute. repeat split; reflexivity. Qed.

(* other ways to a repeated name; (i) and (ii) are excluded by the property's
   namespace clause, (iii) and (iv) come from a chromosome TAG, not from an input NAME *)
(* (i) an unpainted input scaffold called like a generated chromosome name *)
Example duplicate_input_named_like_chromosome :
  names_of (remap repaired ex_gap (s "SUPER_") (10, 1)
              [(s "SUPER_1", [exF (s "c1") 1 1000 []]); (s "scaffold_2", [exF (s "c2") 1 1000 []])]
              [(s "Scaffold_1", [exF (s "scaffold_2") 1 1000 [s "Painted"]])])
  = [(None, [s "SUPER_1"; s "SUPER_1"])].
Proof. vm_compute. reflexivity. Qed.

(* (ii) an unpainted input scaffold called like a Pretext scaffold is not
   duplicated but FUSED with the painted chromosome of that name *)
Example input_named_like_pretext_scaffold_is_fused :
  match remap repaired ex_gap (s "SUPER_") (10, 1)
          [(s "Scaffold_1", [exF (s "c1") 1 1000 []]); (s "scaffold_2", [exF (s "c2") 1 1000 []])]
          [(s "Scaffold_1", [exF (s "scaffold_2") 1 1000 [s "Painted"]])] with
  | Ok o => map (fun a => map (fun sc => (sc_name sc, map f_name (frags_of (sc_rows sc)))) (oa_scaffolds a))
                (out_asms o)
  | Err _ => []
  end = [[(s "SUPER_1", [s "c2"; s "c1"])]].
Proof. vm_compute. reflexivity. Qed.

(* (iii) a chromosome tag of the form digits+letters against the letters that
   ChrNamer gives to homologues: "1A" becomes SUPER_1A, and so does the first
   of two HAP2 homologues in group 1 *)
Example duplicate_chr_tag_1A :
  names_of (remap repaired ex_gap (s "SUPER_") (10, 1)
              [(s "a", [exF (s "c1") 1 3000 []]); (s "b", [exF (s "c2") 1 2000 []]);
               (s "c", [exF (s "c3") 1 1000 []]); (s "d", [exF (s "c4") 1 1000 []])]
              [(s "Scaffold_1", [exF (s "a") 1 3000 [s "Painted"; s "HAP1"]]);
               (s "Scaffold_2", [exF (s "b") 1 2000 [s "Painted"; s "HAP2"]]);
               (s "Scaffold_3", [exF (s "c") 1 1000 [s "Painted"; s "HAP2"]]);
               (s "Scaffold_4", [exF (s "d") 1 1000 [s "1A"; s "HAP2"]])])
  = [(Some (s "HAP1"), [s "SUPER_1"]);
     (Some (s "HAP2"), [s "SUPER_1A"; s "SUPER_1B"; s "SUPER_1A"])].
Proof. vm_compute. reflexivity. Qed.

(* (iv) an autosome prefix that a chromosome tag can start with: with the
   prefix "X" the tags I and XI both end up as XI *)
Example duplicate_prefix_inside_tag :
  names_of (remap repaired ex_gap (s "X") (10, 1)
              [(s "a", [exF (s "c1") 1 3000 []]); (s "b", [exF (s "c2") 1 2000 []])]
              [(s "Scaffold_1", [exF (s "a") 1 3000 [s "I"]]);
               (s "Scaffold_2", [exF (s "b") 1 2000 [s "XI"]])])
  = [(None, [s "XI"; s "XI"])].
Proof. vm_compute. reflexivity. Qed.

Section AssocPerm.
  Context {K V X : Type} (keqb : K -> K -> bool).
  Hypothesis Hk : forall a b, keqb a b = true <-> a = b.

  Lemma flat_map_aset_perm (F : K * V -> list X) (d : list (K * V)) k v dflt x :
    F (k, dflt) = [] ->
    Permutation (F (k, v)) (x :: F (k, match aget keqb d k with Some v0 => v0 | None => dflt end)) ->
    Permutation (flat_map F (aset keqb d k v)) (x :: flat_map F d).
  Proof.
    intros Hd P. destruct (aset_cases keqb Hk d k v) as [(l1 & v0 & l2 & E1 & E2 & E3)|[E1 E2]]; rewrite E2.
    - rewrite E3 in P. rewrite E1. rewrite !flat_map_app. cbn [flat_map].
      eapply perm_trans; [apply Permutation_app_head, Permutation_app_tail, P|].
      cbn [app]. symmetry. apply Permutation_middle.
    - rewrite E1, Hd in P. rewrite flat_map_app. cbn [flat_map]. rewrite app_nil_r.
      eapply perm_trans; [apply Permutation_app_head, P|]. symmetry. apply Permutation_cons_append.
  Qed.
End AssocPerm.

(* (haplotype, original name, index) of every member of a group *)
Definition slots_d (h : str) (d : list (str * list nat)) : list (str * str * nat) :=
  flat_map (fun oi : str * list nat => map (fun i => (h, fst oi, i)) (snd oi)) d.
Definition slots_g (g : chr_group) : list (str * str * nat) :=
  flat_map (fun hd : str * list (str * list nat) => slots_d (fst hd) (snd hd)) g.
Definition slots (gs : list chr_group) : list (str * str * nat) := flat_map slots_g gs.

Definition hapset_wf (d : list (str * list nat)) : Prop :=
  NoDup (map fst d) /\ Forall (fun oi => snd oi <> []) d.
Definition group_wf (g : chr_group) : Prop :=
  NoDup (map fst g) /\ Forall (fun hd => hapset_wf (snd hd)) g.

Lemma new_group_wf haps : NoDup haps -> group_wf (new_group haps).
Proof.
  intro N. unfold new_group. split.
  - rewrite map_map. cbn [fst]. rewrite map_id. exact N.
  - apply Forall_forall. intros hd I. apply in_map_iff in I as (h & <- & _). split; constructor.
Qed.

Lemma new_group_slots haps : slots_g (new_group haps) = [].
Proof. unfold slots_g, new_group. induction haps as [|h haps IH]; cbn; [reflexivity | exact IH]. Qed.

Lemma group_add_wf g h o i : group_wf g -> group_wf (group_add g h o i).
Proof.
  intros [N F]. unfold group_add. split; [apply (aset_keys_nodup _ str_eqb_eq); exact N|].
  apply Forall_forall. intros hd I. apply (in_aset _ str_eqb_eq) in I as [I | ->].
  - rewrite Forall_forall in F. exact (F hd I).
  - cbn [snd].
    assert (W : hapset_wf (group_hap g h)).
    { unfold group_hap. destruct (aget str_eqb g h) as [d|] eqn:G; [|split; constructor].
      apply (aget_In _ str_eqb_eq) in G. rewrite Forall_forall in F. exact (F _ G). }
    destruct W as [Nd Fd]. split; [apply (aset_keys_nodup _ str_eqb_eq); exact Nd|].
    apply Forall_forall. intros oi Io. apply (in_aset _ str_eqb_eq) in Io as [Io | ->].
    + rewrite Forall_forall in Fd. exact (Fd oi Io).
    + cbn [snd]. intro X. apply app_eq_nil in X as [_ X]. discriminate.
Qed.

Lemma group_add_slots g h o i : Permutation (slots_g (group_add g h o i)) ((h, o, i) :: slots_g g).
Proof.
  unfold slots_g, group_add.
  apply (flat_map_aset_perm _ str_eqb_eq (fun hd : str * list (str * list nat) => slots_d (fst hd) (snd hd))
           g h _ []); [reflexivity|].
  cbn [fst snd]. fold (group_hap g h). unfold slots_d.
  apply (flat_map_aset_perm _ str_eqb_eq (fun oi : str * list nat => map (fun i => (h, fst oi, i)) (snd oi))
           (group_hap g h) o _ []); [reflexivity|].
  cbn [fst snd]. rewrite map_app. cbn [map]. symmetry. apply Permutation_cons_append.
Qed.

Definition orig_of (fused : list scaffold) (i : nat) : str :=
  match nth_error fused i with
  | Some sc => match sc_orig sc with Some o => o | None => [] end
  | None => []
  end.

Lemma slots_app a b : slots (a ++ b) = slots a ++ slots b.
Proof. unfold slots. apply flat_map_app. Qed.

Lemma build_groups_step_spec fused haps mh st h i st' :
  NoDup haps -> cg_groups st <> [] -> Forall group_wf (cg_groups st) ->
  build_groups_step fused haps mh st (h, i) = Ok st' ->
  cg_groups st' <> [] /\ Forall group_wf (cg_groups st')
  /\ Permutation (slots (cg_groups st')) ((h, orig_of fused i, i) :: slots (cg_groups st)).
Proof.
  intros Nh NE W H. unfold build_groups_step in H. unfold orig_of.
  destruct (nth_error fused i) as [sc|]; [|discriminate].
  destruct (sc_orig sc) as [[|c o]|]; try discriminate.
  set (orig := c :: o) in *.
  match type of H with context [if ?b then cg_groups st ++ [new_group haps] else cg_groups st] =>
    set (need_new := b) in H end.
  set (groups := if need_new then cg_groups st ++ [new_group haps] else cg_groups st) in H.
  assert (G : groups <> [] /\ Forall group_wf groups /\ slots groups = slots (cg_groups st)).
  { unfold groups. destruct need_new.
    - split; [intro X; apply app_eq_nil in X as [_ X]; discriminate|]. split.
      + apply Forall_app. split; [exact W|]. constructor; [apply new_group_wf, Nh | constructor].
      + rewrite slots_app. unfold slots at 2. cbn [flat_map]. rewrite new_group_slots. rewrite !app_nil_r. reflexivity.
    - auto. }
  clearbody groups. destruct G as (G1 & G2 & G3).
  destruct (exists_last G1) as (init & cur' & ->).
  rewrite last_opt_snoc, set_last_group_snoc in H. injection H as <-. cbn [cg_groups].
  apply Forall_app in G2 as [G2 G4]. inversion G4 as [|? ? G5 _]; subst.
  split; [intro X; apply app_eq_nil in X as [_ X]; discriminate|]. split.
  - apply Forall_app. split; [exact G2|]. constructor; [apply group_add_wf, G5 | constructor].
  - rewrite <- G3, !slots_app. unfold slots at 2 4. cbn [flat_map]. rewrite !app_nil_r.
    eapply perm_trans; [apply Permutation_app_head, group_add_slots|].
    symmetry. apply Permutation_middle.
Qed.

Lemma build_groups_fold_spec fused haps mh : NoDup haps -> forall items st st',
  cg_groups st <> [] -> Forall group_wf (cg_groups st) ->
  foldM (build_groups_step fused haps mh) items st = Ok st' ->
  Forall group_wf (cg_groups st')
  /\ Permutation (slots (cg_groups st'))
                 (map (fun it : str * nat => (fst it, orig_of fused (snd it), snd it)) items ++ slots (cg_groups st)).
Proof.
  intros Nh. induction items as [|[h i] items IH]; intros st st' NE W H; cbn [foldM] in H.
  - injection H as <-. split; [exact W | apply Permutation_refl].
  - destruct (build_groups_step fused haps mh st (h, i)) as [st1|] eqn:E; cbn [bind] in H; [|discriminate].
    destruct (build_groups_step_spec _ _ _ _ _ _ _ Nh NE W E) as (NE1 & W1 & P1).
    destruct (IH st1 st' NE1 W1 H) as (W2 & P2). split; [exact W2|].
    eapply perm_trans; [exact P2|]. cbn [map fst snd app].
    eapply perm_trans; [apply Permutation_app_head, P1|]. symmetry. apply Permutation_middle.
Qed.

Definition letter (q count : nat) : str :=
  match count with 1%nat => [] | _ => [ascii_of_N (65 + N.of_nat q)] end.

Lemma in_combine_nth {A B} : forall (a : list A) (b : list B) x y,
  In (x, y) (combine a b) -> exists q, nth_error a q = Some x /\ nth_error b q = Some y.
Proof.
  induction a as [|x0 a IH]; intros [|y0 b] x y I; cbn [combine In] in I; try contradiction.
  destruct I as [I|I].
  - injection I as <- <-. exists 0%nat. split; reflexivity.
  - destruct (IH b x y I) as (q & H1 & H2). exists (S q). split; assumption.
Qed.

Lemma combine_nth_in {A B} : forall (a : list A) (b : list B) q x y,
  nth_error a q = Some x -> nth_error b q = Some y -> In (x, y) (combine a b).
Proof.
  induction a as [|x0 a IH]; intros [|y0 b] [|q] x y Ha Hb; cbn [nth_error combine In] in *; try discriminate.
  - injection Ha as <-. injection Hb as <-. left. reflexivity.
  - right. exact (IH b q x y Ha Hb).
Qed.

Lemma multi_chr_list_at name count q : (q < count)%nat ->
  nth_error (multi_chr_list name count) q = Some (name ++ letter q count).
Proof.
  intro Q. destruct (multi_chr_list_spec name count) as (_ & H1 & H2). unfold letter.
  destruct (Nat.eq_dec count 1) as [->|NE].
  - rewrite (H1 eq_refl). destruct q as [|q]; [|lia]. cbn. rewrite app_nil_r. reflexivity.
  - rewrite (H2 NE q Q). destruct count as [|[|count]]; [lia | congruence | reflexivity].
Qed.

Lemma multi_chr_list_nth name count q c :
  nth_error (multi_chr_list name count) q = Some c -> (q < count)%nat /\ c = name ++ letter q count.
Proof.
  intro H.
  assert (Q : (q < count)%nat).
  { rewrite <- (proj1 (multi_chr_list_spec name count)). apply nth_error_Some. congruence. }
  rewrite (multi_chr_list_at name count q Q) in H. injection H as <-. auto.
Qed.

Lemma group_ops_decode prefix n g i o c : In (i, o, c) (group_ops prefix n g) ->
  exists h d q idxs, In (h, d) g /\ nth_error d q = Some (o, idxs) /\ In i idxs
    /\ c = (prefix ++ str_of_Z n) ++ letter q (length d).
Proof.
  intro I. unfold group_ops in I. apply in_flat_map in I as ([h d] & Ig & I). cbn [snd] in I.
  unfold hapset_ops in I. apply in_flat_map in I as ([[o' idxs] c'] & Ic & I). cbn [fst snd] in I.
  apply in_map_iff in I as (i' & [= -> -> ->] & Ii).
  apply in_combine_nth in Ic as (q & Hq & Hc). apply multi_chr_list_nth in Hc as [_ Hc].
  exists h, d, q, idxs. auto.
Qed.

Lemma all_ops_decode prefix sorted i o c : In (i, o, c) (all_ops prefix sorted) ->
  exists k g h d q idxs, nth_error sorted k = Some g /\ In (h, d) g /\ nth_error d q = Some (o, idxs)
    /\ In i idxs /\ c = (prefix ++ str_of_Z (Z.of_nat k + 1)) ++ letter q (length d).
Proof.
  intro I. unfold all_ops in I. apply in_flat_map in I as ([k g] & Ik & I). cbn [fst snd] in I.
  apply in_combine_nth in Ik as (p & Hs & Hg).
  assert (p = k).
  { assert (P : (p < length (seq 0 (length sorted)))%nat) by (apply nth_error_Some; congruence).
    rewrite seq_length in P. rewrite nth_error_seq in Hs by exact P. injection Hs as <-. reflexivity. }
  subst p. destruct (group_ops_decode _ _ _ _ _ _ I) as (h & d & q & idxs & H1 & H2 & H3 & H4).
  exists k, g, h, d, q, idxs. auto.
Qed.

Lemma group_ops_intro prefix n g h d q o idxs i :
  In (h, d) g -> nth_error d q = Some (o, idxs) -> In i idxs ->
  In (i, o, (prefix ++ str_of_Z n) ++ letter q (length d)) (group_ops prefix n g).
Proof.
  intros Hd Hq Hi. unfold group_ops. apply in_flat_map. exists (h, d). split; [exact Hd|]. cbn [snd].
  unfold hapset_ops. apply in_flat_map. exists ((o, idxs), (prefix ++ str_of_Z n) ++ letter q (length d)). split.
  - apply (combine_nth_in _ _ q); [exact Hq|]. apply multi_chr_list_at. apply nth_error_Some. rewrite Hq. discriminate.
  - cbn [fst snd]. apply in_map_iff. exists i. auto.
Qed.

Lemma all_ops_intro prefix (sorted : list chr_group) k (g : chr_group) h d q o idxs i :
  nth_error sorted k = Some g -> In (h, d) g -> nth_error d q = Some (o, idxs) -> In i idxs ->
  In (i, o, (prefix ++ str_of_Z (Z.of_nat k + 1)) ++ letter q (length d)) (all_ops prefix sorted).
Proof.
  intros Hg Hd Hq Hi. unfold all_ops. apply in_flat_map. exists (k, g). split.
  - apply (combine_nth_in _ _ k); [|exact Hg]. apply (nth_error_seq 0). apply nth_error_Some. rewrite Hg. discriminate.
  - exact (group_ops_intro prefix _ g h d q o idxs i Hd Hq Hi).
Qed.

Lemma map_flat_map {A B C} (f : B -> C) (F : A -> list B) l :
  map f (flat_map F l) = flat_map (fun x => map f (F x)) l.
Proof. induction l as [|x l IH]; cbn [flat_map map]; [reflexivity|]. rewrite map_app, IH. reflexivity. Qed.

Definition slot_idx (t : str * str * nat) : nat := snd t.

Lemma hapset_ops_idx names h d : length names = length d ->
  map rop_idx (hapset_ops names d) = map slot_idx (slots_d h d).
Proof.
  intro L. unfold hapset_ops, slots_d. rewrite !map_flat_map.
  transitivity (flat_map (fun oi : str * list nat => snd oi) (map fst (combine d names))).
  - rewrite RemapTail.flat_map_map. apply flat_map_ext. intros [[o idxs] c]. cbn [fst snd].
    rewrite map_map. cbn. apply map_id.
  - rewrite map_fst_combine by (symmetry; exact L). apply flat_map_ext. intros [o idxs]. cbn [fst snd].
    rewrite map_map. cbn. symmetry. apply map_id.
Qed.

Lemma group_ops_idx prefix n g : map rop_idx (group_ops prefix n g) = map slot_idx (slots_g g).
Proof.
  unfold group_ops, slots_g. rewrite !map_flat_map. apply flat_map_ext. intros [h d]. cbn [fst snd].
  apply hapset_ops_idx. apply (proj1 (multi_chr_list_spec _ _)).
Qed.

Lemma all_ops_idx prefix sorted : map rop_idx (all_ops prefix sorted) = map slot_idx (slots sorted).
Proof.
  unfold all_ops, slots. rewrite !map_flat_map.
  transitivity (flat_map (fun g => map slot_idx (slots_g g)) (map snd (combine (seq 0 (length sorted)) sorted))).
  - rewrite RemapTail.flat_map_map. apply flat_map_ext. intros [k g]. cbn [fst snd]. apply group_ops_idx.
  - rewrite map_snd_combine by apply seq_length. reflexivity.
Qed.

Lemma dedup_nil_inv (l : list str) : dedup str_eqb l = [] -> l = [].
Proof.
  destruct l as [|x l]; [reflexivity|]. intro H.
  assert (I : In x (dedup str_eqb (x :: l))) by (apply (Junctions.dedup_in _ str_eqb_eq); left; reflexivity).
  rewrite H in I. destruct I.
Qed.

Definition slot_of (fused : list scaffold) (it : str * nat) : str * str * nat :=
  (fst it, orig_of fused (snd it), snd it).

Theorem name_chromosomes_as_ops : forall prefix fused1 items fused,
  name_chromosomes prefix fused1 items = Ok fused ->
  exists sorted, fused = fold_left apply_rop (all_ops prefix sorted) fused1
    /\ Forall group_wf sorted
    /\ Permutation (slots sorted) (map (slot_of fused1) items).
Proof.
  intros prefix fused1 items fused H. unfold name_chromosomes in H.
  destruct (dedup str_eqb (map fst items)) as [|h0 haps'] eqn:D.
  - injection H as <-. apply dedup_nil_inv in D. destruct items; [|discriminate].
    exists []. split; [reflexivity|]. split; [constructor | apply perm_nil].
  - set (haps := h0 :: haps') in *.
    assert (Nh : NoDup haps) by (rewrite <- D; apply (Junctions.dedup_nodup _ str_eqb_eq)).
    destruct (foldM _ items _) as [st|] eqn:E; cbn [bind] in H; [|discriminate].
    destruct (existsb _ _); [discriminate|]. injection H as <-.
    destruct (build_groups_fold_spec fused1 haps (1 <? zlen haps) Nh items
                (mkCg [new_group haps] None None) st) as (W & P); [| |exact E|].
    { cbn [cg_groups]. discriminate. }
    { cbn [cg_groups]. constructor; [apply new_group_wf, Nh | constructor]. }
    cbn [cg_groups] in P. unfold slots at 2 in P. cbn [flat_map] in P. rewrite new_group_slots in P.
    cbn [app] in P. rewrite app_nil_r in P.
    set (sorted := sort_by_Z_desc (group_length fused1 haps) (cg_groups st)).
    assert (PS : Permutation sorted (cg_groups st)) by apply sort_desc_perm.
    exists sorted. split; [apply name_groups_as_ops|]. split.
    + apply Forall_forall. intros g Ig. rewrite Forall_forall in W. apply W.
      apply (Permutation_in _ PS). exact Ig.
    + eapply perm_trans; [|exact P]. unfold slots. apply RemapTail.flat_map_perm. exact PS.
Qed.

Lemma starts_with_split : forall p x, starts_with p x = true -> x = p ++ skipn (length p) x.
Proof.
  induction p as [|c p IH]; intros x H; [reflexivity|].
  destruct x as [|d x]; cbn [starts_with] in H; [discriminate|].
  apply andb_prop in H as [H1 H2]. apply Ascii.eqb_eq in H1. subst d.
  cbn [length skipn app]. f_equal. apply IH. exact H2.
Qed.

(* "" or "_unloc_<digits>" *)
Definition unloc_sfx (x : str) : bool :=
  match x with
  | [] => true
  | _ => starts_with (s "_unloc_") x && forallb is_digit (skipn 7 x)
  end.

Definition no_digit_first (x : str) : Prop := match x with [] => True | c :: _ => is_digit c = false end.

Lemma unloc_sfx_cases x : unloc_sfx x = true ->
  x = [] \/ exists d, x = s "_unloc_" ++ d /\ forallb is_digit d = true.
Proof.
  destruct x as [|c x]; [auto|]. intro H. right. cbn [unloc_sfx] in H.
  apply andb_prop in H as [H1 H2]. exists (skipn 7 (c :: x)). split; [|exact H2].
  exact (starts_with_split _ _ H1).
Qed.

Lemma unloc_sfx_no_upper x : unloc_sfx x = true -> forallb (fun d => negb (is_upper d)) x = true.
Proof.
  intro H. destruct (unloc_sfx_cases x H) as [->|(d & -> & Hd)]; [reflexivity|].
  rewrite forallb_app. apply andb_true_intro. split; [reflexivity|].
  rewrite forallb_forall in *. intros c Ic. specialize (Hd c Ic).
  unfold is_digit, is_upper in *. lia.
Qed.

Lemma unloc_sfx_no_digit_first x : unloc_sfx x = true -> no_digit_first x.
Proof. intro H. destruct (unloc_sfx_cases x H) as [->|(d & -> & _)]; [exact I | reflexivity]. Qed.

Lemma digits_split : forall d1 d2 r1 r2,
  forallb is_digit d1 = true -> forallb is_digit d2 = true -> no_digit_first r1 -> no_digit_first r2 ->
  d1 ++ r1 = d2 ++ r2 -> d1 = d2 /\ r1 = r2.
Proof.
  induction d1 as [|c d1 IH]; intros [|c' d2] r1 r2 H1 H2 N1 N2 E; cbn [app forallb] in *.
  - auto.
  - subst r1. apply andb_prop in H2 as [H2 _]. cbn in N1. congruence.
  - subst r2. apply andb_prop in H1 as [H1 _]. cbn in N2. congruence.
  - injection E as -> E. apply andb_prop in H1 as [_ H1]. apply andb_prop in H2 as [_ H2].
    destruct (IH d2 r1 r2 H1 H2 N1 N2 E) as [-> ->]. auto.
Qed.

(* 191 = 256 - 65: beyond it the model's one-byte chr(65 + q) wraps (see namespace_ok) *)
Lemma letter_code q : (q < 191)%nat -> code (ascii_of_N (65 + N.of_nat q)) = (65 + N.of_nat q)%N.
Proof. intro H. unfold code. apply N_ascii_embedding. lia. Qed.

Lemma letter_sfx_no_digit q count x : (q < 191)%nat -> unloc_sfx x = true ->
  no_digit_first (letter q count ++ x).
Proof.
  intros H U. unfold letter. destruct count as [|[|count]];
    [| exact (unloc_sfx_no_digit_first x U) |]; cbn [app no_digit_first];
    unfold is_digit; rewrite (letter_code q H); lia.
Qed.

Lemma letter_inj q q' count : (q < 191)%nat -> (q' < 191)%nat -> (q < count)%nat -> (q' < count)%nat ->
  letter q count = letter q' count -> q = q'.
Proof.
  intros H H' Hc Hc' E. unfold letter in E. destruct count as [|[|count]]; [lia | lia |].
  assert (E' : code (ascii_of_N (65 + N.of_nat q)) = code (ascii_of_N (65 + N.of_nat q'))) by congruence.
  rewrite !letter_code in E' by assumption. lia.
Qed.

Lemma letter_sfx_split q q' count count' x x' :
  unloc_sfx x = true -> unloc_sfx x' = true ->
  letter q count ++ x = letter q' count' ++ x' -> letter q count = letter q' count' /\ x = x'.
Proof.
  intros U U' E.
  assert (K : forall c y y', unloc_sfx y = true -> unloc_sfx y' = true -> y = c :: y' -> False).
  { intros c y y' Hy Hy' Ey. destruct (unloc_sfx_cases y Hy) as [->|(d & -> & _)]; [discriminate|].
    cbn in Ey. injection Ey as <- <-. cbn in Hy'. discriminate. }
  assert (S : forall q count, letter q count = [] \/ exists ch, letter q count = [ch]).
  { intros q0 [|[|c0]]; cbn [letter]; eauto. }
  destruct (S q count) as [L|[ch L]], (S q' count') as [L'|[ch' L']]; rewrite L, L' in *; cbn [app] in E.
  - auto.
  - exfalso. exact (K _ _ _ U U' E).
  - exfalso. exact (K _ _ _ U' U (eq_sym E)).
  - injection E as -> ->. auto.
Qed.

(* What the generated names need from the names that come out of the fusion:
   rank 1 (painted, to be numbered): the name is <Pretext scaffold name> or
     <Pretext scaffold name>_unloc_<digits>, the Pretext scaffold name starts
     with an upper-case letter (Scaffold_7) and is recorded as original name;
   rank 2 (chromosome named by a tag): the name does not start with the
     autosome prefix already, and does not start with a digit (so it cannot be
     mistaken for <number><letter>);
   every other rank: the name does not start with the autosome prefix. *)
Definition rank1_ok (sc : scaffold) : bool :=
  match sc_orig sc with
  | Some (c :: o) =>
      is_upper c && starts_with (c :: o) (sc_name sc) && unloc_sfx (skipn (length (c :: o)) (sc_name sc))
  | _ => false
  end.
Definition first_not_digit (x : str) : bool := match x with c :: _ => negb (is_digit c) | [] => false end.
Definition name_ok (prefix : str) (sc : scaffold) : bool :=
  if sc_rank sc =? 1 then rank1_ok sc
  else if sc_rank sc =? 2 then negb (starts_with prefix (sc_name sc)) && first_not_digit (sc_name sc)
  else negb (starts_with prefix (sc_name sc)).
Definition is_rank1 (sc : scaffold) : bool := sc_rank sc =? 1.
(* the different original (Pretext scaffold) names of the rank-1 scaffolds *)
Definition rank1_origs (l : list scaffold) : list str :=
  dedup str_eqb (flat_map (fun sc => if is_rank1 sc then match sc_orig sc with Some o => [o] | None => [] end
                                     else []) l).
(* 191 = 256 - 65: the model's characters are bytes, so its chr(65 + k) wraps
   at k = 191 (Python's does not); k < number of painted Pretext scaffolds *)
Definition namespace_ok (prefix : str) (l : list scaffold) : Prop :=
  forallb (name_ok prefix) l = true /\ (length (rank1_origs l) <= 191)%nat.

Lemma rank1_ok_inv sc : rank1_ok sc = true ->
  exists c o sfx, sc_orig sc = Some (c :: o) /\ is_upper c = true /\ sc_name sc = (c :: o) ++ sfx
                  /\ unloc_sfx sfx = true.
Proof.
  unfold rank1_ok. destruct (sc_orig sc) as [[|c o]|]; try discriminate. intro H.
  apply andb_prop in H as [H H3]. apply andb_prop in H as [H1 H2].
  exists c, o, (skipn (length (c :: o)) (sc_name sc)). repeat split; auto.
  apply starts_with_split. exact H2.
Qed.

Lemma replace_orig_sfx c o new sfx : is_upper c = true -> unloc_sfx sfx = true ->
  replace (c :: o) new ((c :: o) ++ sfx) None = new ++ sfx.
Proof.
  intros Hc Hs. apply replace_prefix_head.
  pose proof (unloc_sfx_no_upper sfx Hs) as F. rewrite forallb_forall in *.
  intros d Id. specialize (F d Id). destruct (Ascii.eqb c d) eqn:E; [|reflexivity].
  apply Ascii.eqb_eq in E. subst d. rewrite Hc in F. discriminate.
Qed.

Definition prefix_rank2 (prefix : str) (sc : scaffold) : scaffold :=
  if (sc_rank sc =? 2) && negb (starts_with prefix (sc_name sc))
  then with_name sc (prefix ++ sc_name sc) else sc.
Definition chr_items_from (a : nat) (l : list scaffold) : list (str * nat) :=
  flat_map (fun '(i, sc) => if sc_rank sc =? 1 then [(hap_str (fst (asm_key_of sc)), i)] else [])
           (combine (seq a (length l)) l).
Definition chr_items (l : list scaffold) : list (str * nat) := chr_items_from 0 l.

Lemma chr_items_in : forall l a h i, In (h, i) (chr_items_from a l) <->
  (a <= i)%nat /\ exists sc, nth_error l (i - a) = Some sc /\ sc_rank sc = 1 /\ h = hap_str (asm_k sc).
Proof.
  induction l as [|x l IH]; intros a h i; unfold chr_items_from; cbn [length seq combine flat_map].
  - split; [intros [] | intros (_ & sc & H & _)]. destruct (i - a)%nat; discriminate.
  - rewrite in_app_iff. fold (chr_items_from (S a) l). rewrite IH. split.
    + intros [I|(L & sc & H1 & H2 & H3)].
      * destruct (sc_rank x =? 1) eqn:R; [|destruct I]. destruct I as [[= <- <-]|[]].
        split; [lia|]. exists x. rewrite Nat.sub_diag. repeat split. lia.
      * split; [lia|]. exists sc. replace (i - a)%nat with (S (i - S a)) by lia. auto.
    + intros (L & sc & H1 & H2 & H3). destruct (Nat.eq_dec i a) as [->|NE].
      * left. rewrite Nat.sub_diag in H1. cbn in H1. injection H1 as ->.
        rewrite (proj2 (Z.eqb_eq _ _) H2). left. rewrite H3. reflexivity.
      * right. split; [lia|]. exists sc. replace (i - a)%nat with (S (i - S a)) in H1 by lia. auto.
Qed.

Lemma chr_items_nodup : forall l a, NoDup (map snd (chr_items_from a l)).
Proof.
  induction l as [|x l IH]; intro a; unfold chr_items_from; cbn [length seq combine flat_map]; [constructor|].
  fold (chr_items_from (S a) l). destruct (sc_rank x =? 1); [|apply IH].
  cbn [app map snd]. constructor; [|apply IH].
  intro I. apply in_map_iff in I as ([h i] & E & I). cbn [snd] in E. subst i.
  apply chr_items_in in I as [L _]. lia.
Qed.

Lemma slots_intro gs k g h d q o idxs i :
  nth_error gs k = Some g -> In (h, d) g -> nth_error d q = Some (o, idxs) -> In i idxs ->
  In (h, o, i) (slots gs).
Proof.
  intros Hg Hd Hq Hi. unfold slots. apply in_flat_map. exists g. split; [eapply nth_error_In; exact Hg|].
  unfold slots_g. apply in_flat_map. exists (h, d). split; [exact Hd|]. cbn [fst snd].
  unfold slots_d. apply in_flat_map. exists (o, idxs). split; [eapply nth_error_In; exact Hq|].
  cbn [fst snd]. apply in_map. exact Hi.
Qed.

Lemma nodup_keys_same_value {K V} (l : list (K * V)) k v v' :
  NoDup (map fst l) -> In (k, v) l -> In (k, v') l -> v = v'.
Proof.
  induction l as [|[k0 v0] l IH]; cbn [map fst In]; [tauto|]. intros N I I'.
  inversion N as [|? ? N1 N2]; subst.
  destruct I as [E|I], I' as [E'|I'].
  - congruence.
  - exfalso. apply N1. apply (in_map fst) in I'. cbn [fst] in I'. congruence.
  - exfalso. apply N1. apply (in_map fst) in I. cbn [fst] in I. congruence.
  - exact (IH N2 I I').
Qed.

Lemma asm_k_with_name sc n : asm_k (with_name sc n) = asm_k sc.
Proof. reflexivity. Qed.

Lemma same_but_name_asm_k a b : same_but_name a b -> asm_k b = asm_k a.
Proof. intros (_ & T & H & _). unfold asm_k, asm_key_of. rewrite T, H. reflexivity. Qed.

Lemma prefix_rank2_sbn prefix sc : same_but_name sc (prefix_rank2 prefix sc).
Proof. unfold prefix_rank2. destruct (_ && _); repeat split. Qed.

Inductive new_name (prefix : str) (sorted : list chr_group) (a0 a' : scaffold) : Prop :=
  | nn_chr k g d q idxs c o sfx :
      sc_rank a0 = 1 -> nth_error sorted k = Some g -> In (hap_str (asm_k a0), d) g ->
      nth_error d q = Some (c :: o, idxs) -> sc_name a0 = (c :: o) ++ sfx -> unloc_sfx sfx = true ->
      sc_name a' = (prefix ++ str_of_Z (Z.of_nat k + 1)) ++ letter q (length d) ++ sfx ->
      new_name prefix sorted a0 a'
  | nn_tag : sc_rank a0 = 2 -> sc_name a' = prefix ++ sc_name a0 -> first_not_digit (sc_name a0) = true ->
      new_name prefix sorted a0 a'
  | nn_other : sc_rank a0 <> 1 -> sc_name a' = sc_name a0 -> starts_with prefix (sc_name a0) = false ->
      new_name prefix sorted a0 a'.

Section Renaming.
  Variables (prefix : str) (fused0 fused : list scaffold) (sorted : list chr_group).
  Let fused1 := map (prefix_rank2 prefix) fused0.
  Let items := chr_items fused1.
  Hypothesis NS : namespace_ok prefix fused0.
  Hypothesis EQ : fused = fold_left apply_rop (all_ops prefix sorted) fused1.
  Hypothesis W : Forall group_wf sorted.
  Hypothesis P : Permutation (slots sorted) (map (slot_of fused1) items).

  Let ops := all_ops prefix sorted.

  Lemma ops_nodup : NoDup (map rop_idx ops).
  Proof.
    unfold ops. rewrite all_ops_idx.
    apply (Permutation_NoDup (Permutation_sym (Permutation_map slot_idx P))).
    rewrite map_map. cbn [slot_idx slot_of snd]. apply chr_items_nodup.
  Qed.

  Lemma fused1_nth i a0 : nth_error fused0 i = Some a0 -> nth_error fused1 i = Some (prefix_rank2 prefix a0).
  Proof. intro H. unfold fused1. apply map_nth_error. exact H. Qed.

  Lemma name_ok_at i a0 : nth_error fused0 i = Some a0 -> name_ok prefix a0 = true.
  Proof. intro H. destruct NS as [F _]. rewrite forallb_forall in F. apply F. eapply nth_error_In; exact H. Qed.

  Lemma slot_is_item h o i : In (h, o, i) (slots sorted) ->
    exists a0, nth_error fused0 i = Some a0 /\ sc_rank a0 = 1 /\ h = hap_str (asm_k a0) /\ o = orig_of fused1 i.
  Proof.
    intro S. apply (Permutation_in _ P) in S. apply in_map_iff in S as ([h' i'] & E & It).
    unfold slot_of in E. cbn [fst snd] in E. injection E as -> Eo ->.
    apply chr_items_in in It as (_ & sc & Hn & R & ->). rewrite Nat.sub_0_r in Hn.
    unfold fused1 in Hn. rewrite nth_error_map in Hn.
    destruct (nth_error fused0 i) as [a0|] eqn:H0; [|discriminate]. cbn in Hn. injection Hn as <-.
    exists a0. repeat split; auto.
    - destruct (prefix_rank2_sbn prefix a0) as (_ & _ & _ & R' & _). congruence.
    - rewrite (same_but_name_asm_k _ _ (prefix_rank2_sbn prefix a0)). reflexivity.
  Qed.

  Lemma op_is_item i o c : In (i, o, c) ops ->
    exists k g d q idxs a0,
      nth_error sorted k = Some g /\ In (hap_str (asm_k a0), d) g /\ nth_error d q = Some (o, idxs)
      /\ c = (prefix ++ str_of_Z (Z.of_nat k + 1)) ++ letter q (length d)
      /\ nth_error fused0 i = Some a0 /\ sc_rank a0 = 1 /\ o = orig_of fused1 i.
  Proof.
    intro I. destruct (all_ops_decode _ _ _ _ _ I) as (k & g & h & d & q & idxs & Hg & Hd & Hq & Hi & Hc).
    pose proof (slots_intro _ _ _ _ _ _ _ _ _ Hg Hd Hq Hi) as S.
    destruct (slot_is_item _ _ _ S) as (a0 & H0 & R & -> & Eo).
    exists k, g, d, q, idxs, a0. repeat split; auto.
  Qed.

  Lemma rank1_has_op i a0 : nth_error fused0 i = Some a0 -> sc_rank a0 = 1 -> exists o c, In (i, o, c) ops.
  Proof.
    intros H0 R.
    assert (It : In (hap_str (asm_k (prefix_rank2 prefix a0)), i) items).
    { apply chr_items_in. split; [lia|]. exists (prefix_rank2 prefix a0). rewrite Nat.sub_0_r.
      split; [apply fused1_nth, H0|]. split; [|reflexivity].
      destruct (prefix_rank2_sbn prefix a0) as (_ & _ & _ & R' & _). congruence. }
    apply (in_map (slot_of fused1)) in It. apply (Permutation_in _ (Permutation_sym P)) in It.
    apply (in_map slot_idx) in It. cbn [slot_idx slot_of snd] in It.
    rewrite <- (all_ops_idx prefix) in It. apply in_map_iff in It as ([[i' o] c] & E & I).
    cbn in E. subst i'. exists o, c. exact I.
  Qed.

  Lemma rank1_renamed i a0 : nth_error fused0 i = Some a0 -> sc_rank a0 = 1 ->
    exists k g d q idxs c o sfx,
      nth_error sorted k = Some g /\ In (hap_str (asm_k a0), d) g /\ nth_error d q = Some (c :: o, idxs)
      /\ sc_orig a0 = Some (c :: o) /\ sc_name a0 = (c :: o) ++ sfx /\ unloc_sfx sfx = true
      /\ nth_error fused i
         = Some (with_name a0 ((prefix ++ str_of_Z (Z.of_nat k + 1)) ++ letter q (length d) ++ sfx)).
  Proof.
    intros H0 R1. pose proof (name_ok_at i a0 H0) as OK. pose proof (fused1_nth i a0 H0) as H1.
    unfold name_ok in OK. rewrite (proj2 (Z.eqb_eq _ _) R1) in OK.
    destruct (rank1_ok_inv a0 OK) as (c & o & sfx & Ho & Hc & Hn & Hs).
    assert (E1 : prefix_rank2 prefix a0 = a0) by (unfold prefix_rank2; rewrite R1; reflexivity).
    rewrite E1 in H1.
    destruct (rank1_has_op i a0 H0 R1) as (o' & c' & I).
    destruct (op_is_item _ _ _ I) as (k & g & d & q & idxs & a0' & Hg & Hd & Hq & Hc' & H0' & _ & Eo).
    rewrite H0 in H0'. injection H0' as <-.
    assert (Eo' : o' = c :: o) by (rewrite Eo; unfold orig_of; rewrite H1, Ho; reflexivity).
    clear Eo. subst o'.
    pose proof (apply_ops_at ops fused1 (i, c :: o, c') a0 ops_nodup I H1) as A.
    fold ops in EQ. rewrite <- EQ in A. cbn [rop_idx fst snd] in A.
    rewrite Hn, (replace_orig_sfx c o c' sfx Hc Hs), Hc', <- app_assoc in A.
    exists k, g, d, q, idxs, c, o, sfx. auto 8.
  Qed.

  Lemma name_after i a0 : nth_error fused0 i = Some a0 ->
    exists a', nth_error fused i = Some a' /\ asm_k a' = asm_k a0 /\ new_name prefix sorted a0 a'.
  Proof.
    intro H0. destruct (Z.eq_dec (sc_rank a0) 1) as [R1|R1].
    - destruct (rank1_renamed i a0 H0 R1) as (k & g & d & q & idxs & c & o & sfx & Hg & Hd & Hq & _ & Hn & Hs & A).
      eexists. split; [exact A|]. split; [reflexivity|]. eapply nn_chr; eauto.
    - pose proof (name_ok_at i a0 H0) as OK. pose proof (fused1_nth i a0 H0) as H1.
      destruct (apply_ops_upd_ok ops fused1) as [F2 U]. fold ops in EQ. rewrite <- EQ in F2, U.
      unfold name_ok in OK. rewrite (proj2 (Z.eqb_neq _ _) R1) in OK.
      assert (NI : ~ In i (map rop_idx ops)).
      { intro X. apply in_map_iff in X as ([[i' o'] c'] & E & I). cbn in E. subst i'.
        destruct (op_is_item _ _ _ I) as (k & g & d & q & idxs & a0' & _ & _ & _ & _ & H0' & R & _).
        rewrite H0 in H0'. injection H0' as <-. contradiction. }
      rewrite <- (U i NI) in H1. eexists. split; [exact H1|].
      split; [apply same_but_name_asm_k, prefix_rank2_sbn|].
      unfold prefix_rank2. destruct (sc_rank a0 =? 2) eqn:R2.
      + apply Z.eqb_eq in R2. apply andb_prop in OK as [O1 O2]. rewrite O1. cbn [andb].
        apply nn_tag; auto.
      + cbn [andb]. apply nn_other; auto. apply negb_true_iff. exact OK.
  Qed.

  Lemma fused_length : length fused = length fused0.
  Proof.
    destruct (apply_ops_upd_ok ops fused1) as [F2 _]. fold ops in EQ. rewrite <- EQ in F2.
    rewrite <- (Forall2_length _ _ _ F2). unfold fused1. apply map_length.
  Qed.

  Lemma orig_of_rank1 i a0 : nth_error fused0 i = Some a0 -> sc_rank a0 = 1 ->
    sc_orig a0 = Some (orig_of fused1 i).
  Proof.
    intros H0 R. pose proof (name_ok_at i a0 H0) as OK. unfold name_ok in OK.
    rewrite (proj2 (Z.eqb_eq _ _) R) in OK. destruct (rank1_ok_inv a0 OK) as (c & o & sfx & Ho & _).
    unfold orig_of. rewrite (fused1_nth i a0 H0).
    destruct (prefix_rank2_sbn prefix a0) as (_ & _ & _ & _ & O' & _). rewrite O', Ho. reflexivity.
  Qed.

  Lemma slot_bound k g h d q x : nth_error sorted k = Some g -> In (h, d) g -> nth_error d q = Some x ->
    (q < 191)%nat /\ (q < length d)%nat.
  Proof.
    intros Hg Hd Hq.
    assert (Q : (q < length d)%nat) by (apply nth_error_Some; congruence). split; [|exact Q].
    pose proof (nth_error_In _ _ Hg) as Ig. rewrite Forall_forall in W. destruct (W g Ig) as [_ Wg].
    rewrite Forall_forall in Wg. destruct (Wg _ Hd) as [Nd Fd]. cbn [snd] in Nd, Fd.
    assert (I : incl (map fst d) (rank1_origs fused0)).
    { intros o Io. apply in_map_iff in Io as ([o' idxs] & <- & Io). cbn [fst].
      rewrite Forall_forall in Fd. pose proof (Fd _ Io) as NE. cbn [snd] in NE.
      destruct idxs as [|i idxs]; [congruence|].
      apply In_nth_error in Io as [q' Hq'].
      pose proof (slots_intro sorted k g h d q' o' (i :: idxs) i Hg Hd Hq' (or_introl eq_refl)) as S.
      destruct (slot_is_item _ _ _ S) as (a0 & H0 & R & _ & Eo).
      unfold rank1_origs. apply (Junctions.dedup_in _ str_eqb_eq). apply in_flat_map.
      exists a0. split; [eapply nth_error_In; exact H0|]. unfold is_rank1.
      rewrite (proj2 (Z.eqb_eq _ _) R), (orig_of_rank1 i a0 H0 R), <- Eo. left. reflexivity. }
    pose proof (NoDup_incl_length Nd I) as L. rewrite map_length in L.
    destruct NS as [_ B]. lia.
  Qed.
End Renaming.

Lemma str_of_Z_first_digit n x y : 0 <= n -> first_not_digit y = true -> str_of_Z n ++ x <> y.
Proof.
  intros Hn F E. destruct (str_of_Z_digits n Hn) as [NE D].
  destruct (str_of_Z n) as [|c t]; [congruence|]. cbn [forallb] in D. apply andb_prop in D as [D _].
  subst y. cbn in F. rewrite D in F. discriminate.
Qed.

Lemma chr_vs_tag prefix k (L sfx y : str) : first_not_digit y = true ->
  (prefix ++ str_of_Z (Z.of_nat k + 1)) ++ L ++ sfx <> prefix ++ y.
Proof.
  intros F E. rewrite <- app_assoc in E. apply app_inv_head in E.
  assert (Hk : 0 <= Z.of_nat k + 1) by lia.
  exact (str_of_Z_first_digit _ _ _ Hk F E).
Qed.

Lemma prefixed_vs_other prefix (x y : str) : starts_with prefix y = false -> prefix ++ x <> y.
Proof. intros F E. subst y. rewrite starts_with_app in F. discriminate. Qed.

Theorem renaming_keeps_distinct : forall prefix fused0 fused,
  namespace_ok prefix fused0 -> asm_distinct fused0 ->
  name_chromosomes prefix (map (prefix_rank2 prefix) fused0) (chr_items (map (prefix_rank2 prefix) fused0))
    = Ok fused ->
  asm_distinct fused.
Proof.
  intros prefix fused0 fused NS AD H.
  destruct (name_chromosomes_as_ops _ _ _ _ H) as (sorted & EQ & W & P).
  intros i j a' b' Hij Ha Hb K.
  assert (Li : (i < length fused0)%nat)
    by (rewrite <- (fused_length prefix fused0 fused sorted EQ); apply nth_error_Some; congruence).
  assert (Lj : (j < length fused0)%nat)
    by (rewrite <- (fused_length prefix fused0 fused sorted EQ); apply nth_error_Some; congruence).
  destruct (nth_error fused0 i) as [a0|] eqn:Ha0; [|apply nth_error_None in Ha0; lia].
  destruct (nth_error fused0 j) as [b0|] eqn:Hb0; [|apply nth_error_None in Hb0; lia].
  destruct (name_after prefix fused0 fused sorted NS EQ P i a0 Ha0) as (a'' & Ha'' & Ka & Na).
  destruct (name_after prefix fused0 fused sorted NS EQ P j b0 Hb0) as (b'' & Hb'' & Kb & Nb).
  rewrite Ha in Ha''. injection Ha'' as <-. rewrite Hb in Hb''. injection Hb'' as <-.
  assert (K0 : asm_k a0 = asm_k b0) by congruence.
  pose proof (AD i j a0 b0 Hij Ha0 Hb0 K0) as D0.
  destruct Na as [ka ga da qa ia ca oa sa Ra Hga Hda Hqa Hna Hsa Ea | Ra Ea Fa | Ra Ea Fa],
           Nb as [kb gb db qb ib cb ob sb Rb Hgb Hdb Hqb Hnb Hsb Eb | Rb Eb Fb | Rb Eb Fb];
    rewrite Ea, Eb.
  - (* two numbered chromosomes *)
    intro E. rewrite <- !app_assoc in E. apply app_inv_head in E.
    destruct (slot_bound prefix fused0 sorted NS W P _ _ _ _ _ _ Hga Hda Hqa) as [Ba Qa].
    destruct (slot_bound prefix fused0 sorted NS W P _ _ _ _ _ _ Hgb Hdb Hqb) as [Bb Qb].
    pose proof (letter_sfx_no_digit qa (length da) sa Ba Hsa) as NDa.
    pose proof (letter_sfx_no_digit qb (length db) sb Bb Hsb) as NDb.
    assert (Pa : 0 <= Z.of_nat ka + 1) by (clear; lia). assert (Pb : 0 <= Z.of_nat kb + 1) by (clear; lia).
    destruct (digits_split _ _ _ _ (proj2 (str_of_Z_digits _ Pa)) (proj2 (str_of_Z_digits _ Pb)) NDa NDb E)
      as [E1 E2].
    apply str_of_Z_inj in E1. assert (ka = kb) by (clear -E1; lia). subst kb.
    rewrite Hga in Hgb. injection Hgb as <-.
    rewrite K0 in Hda.
    assert (da = db).
    { rewrite Forall_forall in W. destruct (W ga (nth_error_In _ _ Hga)) as [Ng _].
      exact (nodup_keys_same_value ga _ da db Ng Hda Hdb). }
    subst db. destruct (letter_sfx_split _ _ _ _ _ _ Hsa Hsb E2) as [E3 E4].
    assert (qa = qb) by (eapply letter_inj; eassumption). subst qb.
    rewrite Hqa in Hqb. injection Hqb as <- <- _. apply D0. rewrite Hna, Hnb, E4. reflexivity.
  - apply chr_vs_tag. exact Fb.
  - rewrite <- app_assoc. apply prefixed_vs_other. exact Fb.
  - apply not_eq_sym, chr_vs_tag. exact Fa.
  - intro E. apply app_inv_head in E. contradiction.
  - apply prefixed_vs_other. exact Fb.
  - rewrite <- app_assoc. apply not_eq_sym, prefixed_vs_other. exact Fa.
  - apply not_eq_sym, prefixed_vs_other. exact Fa.
  - exact D0.
Qed.

Lemma assemblies_stages : forall c g prefix input rs o,
  assemblies_with_scaffolds_fused c g prefix input rs = Ok o ->
  exists fused0 fused,
    fuse_all c g rs = Ok fused0
    /\ name_chromosomes prefix (map (prefix_rank2 prefix) fused0) (chr_items (map (prefix_rank2 prefix) fused0))
       = Ok fused
    /\ forall a, In a (out_asms o) -> exists cur scs,
         In (oa_key a, (cur, scs)) (fold_left group_step fused []) /\ Permutation (oa_scaffolds a) scs.
Proof.
  intros c g prefix input rs o H. unfold assemblies_with_scaffolds_fused in H.
  destruct (fuse_all c g rs) as [fused0|]; cbn [bind] in H; [|discriminate].
  change (map (fun sc => if (sc_rank sc =? 2) && negb (starts_with prefix (sc_name sc))
                         then with_name sc (prefix ++ sc_name sc) else sc) fused0)
    with (map (prefix_rank2 prefix) fused0) in H.
  set (fused1 := map (prefix_rank2 prefix) fused0) in *.
  change (flat_map _ (combine (seq 0 (length fused1)) fused1)) with (chr_items fused1) in H.
  destruct (name_chromosomes prefix fused1 (chr_items fused1)) as [fused|] eqn:NC; cbn [bind] in H; [|discriminate].
  match type of H with context [mapM ?f ?a0] =>
    destruct (mapM f a0) as [asms|] eqn:MM end; cbn [bind] in H; [|discriminate].
  destruct (make_stats _ _ _) as [[[breaks joins] per]|]; cbn [bind] in H; [|discriminate].
  injection H as <-. cbn [out_asms].
  exists fused0, fused. split; [reflexivity|]. split; [exact NC|].
  intros a Ia. destruct (mapM_In _ _ _ MM a Ia) as ([k [cur scs]] & I & E).
  destruct (smart_sort_total sc_rank sc_name scs) as (r & Er & Pr). rewrite Er in E. cbn [bind] in E.
  injection E as <-. cbn [oa_key oa_scaffolds]. exists cur, scs. split; [exact I | exact Pr].
Qed.

(* on the second half of the pipeline: for ANY run state, under the
   hypotheses on the scaffolds that come out of the fusion *)
Theorem names_nodup_after_renaming_tail : forall g prefix input rs o fused0,
  assemblies_with_scaffolds_fused repaired g prefix input rs = Ok o ->
  fuse_all repaired g rs = Ok fused0 ->
  Forall labels_normal fused0 -> no_tag_hap_clash fused0 -> tagged_same_hap fused0 ->
  namespace_ok prefix fused0 ->
  forall a, In a (out_asms o) -> NoDup (map sc_name (oa_scaffolds a)).
Proof.
  intros g prefix input rs o fused0 H HF LN NC TS NS a Ia.
  destruct (assemblies_stages _ _ _ _ _ _ H) as (fused0' & fused & HF' & NCh & G).
  rewrite HF in HF'. injection HF' as <-.
  destruct (G a Ia) as (cur & scs & I & Pm).
  apply (Permutation_NoDup (Permutation_sym (Permutation_map sc_name Pm))).
  rewrite (grouping_spec fused _ cur scs I). apply asm_distinct_filter_nodup.
  apply (renaming_keeps_distinct prefix fused0 fused NS); [|exact NCh].
  apply asm_distinct_before_renaming; auto. exact (fuse_keys_nodup g rs fused0 HF).
Qed.

(* ... and for a whole run *)
Theorem names_nodup_after_renaming : forall g prefix bpt input pretext o,
  remap repaired g prefix bpt input pretext = Ok o ->
  (forall rs fused0, remap_to_input repaired g prefix bpt input pretext = Ok rs ->
     fuse_all repaired g rs = Ok fused0 ->
     Forall labels_normal fused0 /\ no_tag_hap_clash fused0 /\ tagged_same_hap fused0
     /\ namespace_ok prefix fused0) ->
  forall a, In a (out_asms o) -> NoDup (map sc_name (oa_scaffolds a)).
Proof.
  intros g prefix bpt input pretext o H Hyp a Ia.
  destruct (RemapTail.remap_stages _ _ _ _ _ _ _ H) as (rs & R & H').
  destruct (assemblies_stages _ _ _ _ _ _ H') as (fused0 & _ & HF & _).
  destruct (Hyp rs fused0 R HF) as (LN & NC & TS & NS).
  exact (names_nodup_after_renaming_tail g prefix input rs o fused0 H' HF LN NC TS NS a Ia).
Qed.

Definition labels_normal_b (sc : scaffold) : bool :=
  negb (opt_eqb str_eqb (sc_tag sc) (Some [])) && negb (opt_eqb str_eqb (sc_hap sc) (Some [])).
Definition no_tag_hap_clash_b (l : list scaffold) : bool :=
  forallb (fun s1 => forallb (fun s2 =>
    negb (truthy (sc_tag s1) && negb (truthy (sc_tag s2)) && opt_eqb str_eqb (sc_hap s2) (sc_tag s1))) l) l.
Definition tagged_same_hap_b (l : list scaffold) : bool :=
  forallb (fun s1 => forallb (fun s2 =>
    implb (opt_eqb str_eqb (sc_tag s1) (sc_tag s2) && negb (opt_eqb str_eqb (sc_tag s1) None)
           && str_eqb (sc_name s1) (sc_name s2))
          (opt_eqb str_eqb (sc_hap s1) (sc_hap s2))) l) l.
Definition namespace_ok_b (prefix : str) (l : list scaffold) : bool :=
  forallb (name_ok prefix) l && (length (rank1_origs l) <=? 191)%nat.
Definition unique_names_hyps_b (prefix : str) (l : list scaffold) : bool :=
  forallb labels_normal_b l && no_tag_hap_clash_b l && tagged_same_hap_b l && namespace_ok_b prefix l.

Lemma opt_str_eqb_false a b : opt_eqb str_eqb a b = false <-> a <> b.
Proof.
  split.
  - intros H E. apply opt_str_eqb_eq in E. congruence.
  - intro N. destruct (opt_eqb str_eqb a b) eqn:E; [apply opt_str_eqb_eq in E; contradiction | reflexivity].
Qed.

Lemma unique_names_hyps_b_sound prefix l : unique_names_hyps_b prefix l = true ->
  Forall labels_normal l /\ no_tag_hap_clash l /\ tagged_same_hap l /\ namespace_ok prefix l.
Proof.
  unfold unique_names_hyps_b. rewrite !andb_true_iff. intros [[[H1 H2] H3] H4]. repeat split.
  - apply Forall_forall. intros sc I. rewrite forallb_forall in H1. specialize (H1 sc I).
    unfold labels_normal_b in H1. apply andb_prop in H1 as [A B].
    apply negb_true_iff in A, B. split; apply opt_str_eqb_false; assumption.
  - intros s1 s2 I1 I2 T1 T2 E. unfold no_tag_hap_clash_b in H2. rewrite forallb_forall in H2.
    specialize (H2 s1 I1). rewrite forallb_forall in H2. specialize (H2 s2 I2).
    rewrite T1, T2, (proj2 (opt_str_eqb_eq _ _) E) in H2. discriminate.
  - intros s1 s2 I1 I2 Et Nt En. unfold tagged_same_hap_b in H3. rewrite forallb_forall in H3.
    specialize (H3 s1 I1). rewrite forallb_forall in H3. specialize (H3 s2 I2).
    rewrite (proj2 (opt_str_eqb_eq _ _) Et), (proj2 (opt_str_eqb_false _ _) Nt),
      (proj2 (str_eqb_eq _ _) En) in H3.
    cbn in H3. apply opt_str_eqb_eq. exact H3.
  - unfold namespace_ok_b in H4. apply andb_prop in H4 as [A _]. exact A.
  - unfold namespace_ok_b in H4. apply andb_prop in H4 as [_ B]. apply Nat.leb_le. exact B.
Qed.

(* the scaffolds that come out of the fusion in a run, [] if the run fails *)
Definition fused_of_run (g : gap) (prefix : str) (bpt : Z * Z)
           (input pretext : list (str * list row)) : list scaffold :=
  match remap_to_input repaired g prefix bpt input pretext with
  | Ok rs => match fuse_all repaired g rs with Ok f => f | Err _ => [] end
  | Err _ => []
  end.

Corollary names_nodup_checked : forall g prefix bpt input pretext o,
  remap repaired g prefix bpt input pretext = Ok o ->
  unique_names_hyps_b prefix (fused_of_run g prefix bpt input pretext) = true ->
  forall a, In a (out_asms o) -> NoDup (map sc_name (oa_scaffolds a)).
Proof.
  intros g prefix bpt input pretext o H C. apply (names_nodup_after_renaming _ _ _ _ _ _ H).
  intros rs fused0 R F. unfold fused_of_run in C. rewrite R, F in C.
  apply unique_names_hyps_b_sound. exact C.
Qed.

(* two painted chromosomes (Scaffold_1 with an unloc), a haplotig, a
   contaminant and a scaffold left over from the input *)
Definition nv_input : list (str * list row) :=
  [(s "scaffold_1", [exF (s "c1") 1 5000 []; RG ex_gap; exF (s "c2") 1 800 []]);
   (s "scaffold_2", [exF (s "c3") 1 9000 []]);
   (s "scaffold_3", [exF (s "c4") 1 700 []]);
   (s "scaffold_4", [exF (s "c5") 1 600 []]);
   (s "scaffold_5", [exF (s "c6") 1 300 []])].
Definition nv_pretext : list (str * list row) :=
  [(s "Scaffold_1", [exF (s "scaffold_1") 1 5000 [s "Painted"]; RG ex_gap;
                     exF (s "scaffold_1") 5201 6000 [s "Painted"; s "Unloc"]]);
   (s "Scaffold_2", [exF (s "scaffold_2") 1 9000 [s "Painted"]]);
   (s "Scaffold_3", [exF (s "scaffold_3") 1 700 [s "Haplotig"]]);
   (s "Scaffold_4", [exF (s "scaffold_4") 1 600 [s "Contaminant"]])].

Example unique_names_example :
  let r := remap repaired ex_gap (s "SUPER_") (10, 1) nv_input nv_pretext in
  names_of r = [(None, [s "SUPER_1"; s "SUPER_2"; s "SUPER_2_unloc_1"; s "scaffold_5"]);
                (Some (s "Haplotig"), [s "H_1"]);
                (Some (s "Contaminant"), [s "scaffold_4"])]
  /\ map sc_name (fused_of_run ex_gap (s "SUPER_") (10, 1) nv_input nv_pretext)
     = [s "Scaffold_1"; s "Scaffold_1_unloc_1"; s "Scaffold_2"; s "H_1"; s "scaffold_4"; s "scaffold_5"]
  /\ unique_names_hyps_b (s "SUPER_") (fused_of_run ex_gap (s "SUPER_") (10, 1) nv_input nv_pretext) = true.
Proof. vm_compute. repeat split; reflexivity. Qed.

(* the theorem applied to the example (not by computation on the output) *)
Example unique_names_example_by_theorem : forall o,
  remap repaired ex_gap (s "SUPER_") (10, 1) nv_input nv_pretext = Ok o ->
  forall a, In a (out_asms o) -> NoDup (map sc_name (oa_scaffolds a)).
Proof.
  intros o H. apply (names_nodup_checked _ _ _ _ _ _ H). exact (proj2 (proj2 unique_names_example)).
Qed.

(* the hypotheses fail, as they must, on the runs with repeated names *)
Example hyps_fail_on_duplicates :
  unique_names_hyps_b (s "SUPER_") (fused_of_run ex_gap (s "SUPER_") (10, 1) dup_input dup_pretext) = false
  /\ tagged_same_hap_b (fused_of_run ex_gap (s "SUPER_") (10, 1) dup_input dup_pretext) = false
  /\ tagged_same_hap_b (fused_of_run ex_gap (s "SUPER_") (10, 1) dupX_input dupX_pretext) = false.
Proof. vm_compute. repeat split; reflexivity. Qed.


Lemma trim_large_labs r e r' : trim_large_overhangs r e = Ok r' -> o_labs r' = o_labs r.
Proof. exact (StoreInv.kept_trim_large o_labs (fun _ _ _ _ => eq_refl) r e r'). Qed.

Lemma discard_loop_labs err : forall fuel b b', discard_loop fuel err b = Ok b' ->
  map o_labs (b_store b') = map o_labs (b_store b) /\ b_added b' = b_added b /\ b_namer b' = b_namer b.
Proof. exact (StoreInv.discard_loop_kept o_labs (fun _ _ _ _ => eq_refl) err). Qed.

Lemma cut_remaining_labs c b b' : cut_remaining_overhangs c b = Ok b' ->
  map o_labs (b_store b') = map o_labs (b_store b) /\ b_added b' = b_added b /\ b_namer b' = b_namer b.
Proof. exact (StoreInv.cut_remaining_kept o_labs (fun _ _ _ _ => eq_refl) c b b'). Qed.

Lemma mapM_id_result_In store ids rs id r :
  mapM (fun id => do r <- get_ovr store id; Ok (id, r)) ids = Ok rs -> In (id, r) rs ->
  In id ids /\ get_ovr store id = Ok r.
Proof.
  intros M I. destruct (mapM_In _ _ _ M _ I) as (x & Ix & E).
  destruct (get_ovr store x) as [r0|] eqn:G; cbn [bind] in E; [|discriminate].
  injection E as -> ->. auto.
Qed.

Lemma rename_results_spec store ids store' : rename_results store ids = Ok store' ->
  (forall B (f : ovr -> B), (forall r n, f (set_name r n) = f r) -> map f store' = map f store)
  /\ (forall x, In x store' -> In x store \/
        exists id r id2 r2, In id ids /\ get_ovr store id = Ok r /\ In id2 ids /\ get_ovr store id2 = Ok r2
                            /\ x = set_name r (o_name r2)).
Proof.
  intro H. unfold rename_results in H.
  destruct (mapM _ ids) as [rs|] eqn:M; cbn [bind] in H; [|discriminate]. injection H as <-.
  set (pairs := rename_by_size rs (fun p => o_name (snd p)) (fun p => o_length (snd p))).
  assert (F : forall id r n, In ((id, r), n) pairs ->
            In id ids /\ get_ovr store id = Ok r
            /\ exists id2 r2, In id2 ids /\ get_ovr store id2 = Ok r2 /\ n = o_name r2).
  { intros id r n I. unfold pairs, rename_by_size in I.
    pose proof (in_combine_l _ _ _ _ I) as I1. pose proof (in_combine_r _ _ _ _ I) as I2.
    apply (Permutation_in _ (sort_desc_perm _ rs)) in I1.
    apply in_map_iff in I2 as ([id2 r2] & <- & I2).
    destruct (mapM_id_result_In _ _ _ _ _ M I1) as [J1 G1]. destruct (mapM_id_result_In _ _ _ _ _ M I2) as [J2 G2].
    split; [exact J1|]. split; [exact G1|]. exists id2, r2. auto. }
  clearbody pairs. set (fin := fold_left _ pairs store). pattern fin. subst fin.
  apply fold_left_inv_In; [|split; [reflexivity | auto]].
  intros cur [[id r] n] I [C1 C2]. destruct (F id r n I) as (Hi & Hg & id2 & r2 & Hi2 & Hg2 & ->). split.
  - intros B f Hf. unfold put_ovr. rewrite map_set_nth, (C1 B f Hf), Hf.
    apply RemapTail.set_nth_same. rewrite nth_error_map, (RemapHead.get_ovr_nth _ _ _ Hg). reflexivity.
  - intros x Ix. apply RemapHead.put_ovr_In in Ix as [->|Ix]; [|exact (C2 x Ix)].
    right. exists id, r, id2, r2. auto.
Qed.

Definition scan_inv (S : list str) (st : tagscan) : Prop :=
  (ts_painted st = true -> In (s "Painted") S)
  /\ ((ts_name st = None /\ ts_rank st = None)
      \/ exists n, ts_name st = Some n /\ ts_rank st = Some 2 /\ In n S /\ looks_like_chr_name n = true).

Lemma scan_tag_inv S st tag st' : In tag S -> scan_inv S st -> scan_tag st tag = Ok st' -> scan_inv S st'.
Proof.
  intros I (H3 & H4) H. rewrite scan_tag_cls in H. pose proof (cls_cases tag) as C.
  destruct (cls tag); cbn [scan_cls] in H.
  - injection H as <-. split; [|exact H4]. intros _. rewrite <- C. exact I.
  - injection H as <-. split; assumption.
  - injection H as <-. split; assumption.
  - assert (K : scan_inv S (mkScan (Some tag) (ts_hap st) (ts_painted st) (Some 2) (ts_primary st) (ts_target st) (ts_lc st))).
    { split; [exact H3|]. right. exists tag. repeat split; auto. }
    destruct (ts_name st) as [n|]; [destruct (negb (str_eqb tag n)); [discriminate|]|]; injection H as <-; exact K.
  - destruct (truthy (ts_hap st)); [discriminate|].
    destruct (get_set_haplotype (ts_lc st) tag) as [h lc]. injection H as <-. split; assumption.
  - injection H as <-. split; assumption.
Qed.

Lemma msn_spec nm pname rows tags nm' : lc_ok (nm_hap_lc nm) ->
  make_scaffold_name nm pname rows tags = Ok nm' ->
  lc_ok (nm_hap_lc nm') /\ nm_cur_hap nm' <> Some []
  /\ nm_hap_n nm' = nm_hap_n nm /\ nm_hap_scaffolds nm' = nm_hap_scaffolds nm
  /\ nm_unloc_n nm' = 0 /\ nm_unloc_scaffolds nm' = []
  /\ exists name, nm_cur_name nm' = Some name
       /\ ((In name (eff_tags rows tags) /\ looks_like_chr_name name = true /\ nm_cur_rank nm' = 2)
           \/ (name = pname /\ nm_cur_rank nm' = 1 /\ In (s "Painted") (eff_tags rows tags))
           \/ (first_row_name rows = Ok name /\ nm_cur_rank nm' = 3)).
Proof.
  intros L H. pose proof (make_scaffold_name_lc_ok _ _ _ _ _ L H) as L'.
  destruct (make_scaffold_name_inv _ _ _ _ _ H) as (sc & hap & lc1 & prim & lc2 & name & rank & E & E1 & E2 & E3 & ->).
  assert (V0 : scan_inv (eff_tags rows tags) (scan0 nm)) by (split; [discriminate | left; split; reflexivity]).
  destruct (foldM_inv_In scan_tag (scan_inv (eff_tags rows tags)) (eff_tags rows tags)
              (fun s0 t s1 It V Et => scan_tag_inv _ _ _ _ It V Et) _ _ V0 E) as (V3 & V4).
  cbn [nm_hap_lc nm_cur_hap nm_hap_n nm_hap_scaffolds nm_unloc_n nm_unloc_scaffolds nm_cur_name nm_cur_rank].
  pose proof (proj2 (fin_hap_ok _ _ _ _ (foldM_scan_lc_ok _ (scan0 nm) _ L E) E1)) as Hh.
  split; [exact L'|]. split.
  { destruct (truthy prim); [|exact Hh]. destruct (opt_eqb str_eqb hap prim); [discriminate | exact Hh]. }
  repeat (split; [reflexivity|]).
  exists name. split; [reflexivity|]. unfold fin_name in E3.
  destruct V4 as [[N R]|(n & N & R & I & Lk)]; rewrite N, R in E3.
  - destruct (ts_painted sc) eqn:Pt.
    + injection E3 as <- <-. right. left. auto.
    + unfold bind in E3. destruct (first_row_name rows) as [fn|]; [|discriminate].
      injection E3 as <- <-. right. right. auto.
  - injection E3 as <- <-. left. auto.
Qed.

Lemma label_spec nm id ft st nm' l : label_scaffold nm id ft st = Ok (nm', l) ->
  nm_cur_name nm' = nm_cur_name nm /\ nm_cur_rank nm' = nm_cur_rank nm /\ nm_cur_hap nm' = nm_cur_hap nm
  /\ nm_hap_lc nm' = nm_hap_lc nm /\ lb_hap l = nm_cur_hap nm /\ lb_tag l <> Some []
  /\ let name0 := match nm_cur_name nm with Some n => n | None => [] end in
     ((nm_hap_n nm' = nm_hap_n nm /\ nm_hap_scaffolds nm' = nm_hap_scaffolds nm
       /\ nm_unloc_n nm' = nm_unloc_n nm /\ nm_unloc_scaffolds nm' = nm_unloc_scaffolds nm
       /\ lb_name l = name0 /\ (lb_rank l = 3 \/ lb_rank l = nm_cur_rank nm))
      \/ (nm_hap_n nm' = nm_hap_n nm + 1 /\ nm_hap_scaffolds nm' = nm_hap_scaffolds nm ++ [id]
          /\ nm_unloc_n nm' = nm_unloc_n nm /\ nm_unloc_scaffolds nm' = nm_unloc_scaffolds nm
          /\ lb_name l = s "H_" ++ str_of_Z (nm_hap_n nm + 1) /\ lb_rank l = 3)
      \/ (nm_hap_n nm' = nm_hap_n nm /\ nm_hap_scaffolds nm' = nm_hap_scaffolds nm
          /\ nm_unloc_n nm' = nm_unloc_n nm + 1 /\ nm_unloc_scaffolds nm' = nm_unloc_scaffolds nm ++ [id]
          /\ lb_name l = name0 ++ s "_unloc_" ++ str_of_Z (nm_unloc_n nm + 1)
          /\ (lb_rank l = 3 \/ lb_rank l = nm_cur_rank nm))).
Proof.
  intro H.
  assert (T : forall c : bool, (if c then Some (s "Contaminant") else None) <> Some []) by (intros [|]; discriminate).
  assert (R : forall c : bool, (if c then 3 else nm_cur_rank nm) = 3 \/ (if c then 3 else nm_cur_rank nm) = nm_cur_rank nm)
    by (intros [|]; auto).
  destruct (label_scaffold_inv _ _ _ _ _ _ H); cbn; fold (cur_name nm); repeat split; try discriminate; auto.
  - left. repeat split; auto.
  - right. left. repeat split; auto.
  - right. right. repeat split; auto.
  - left. repeat split; auto.
Qed.

(* every left-over scaffold is made by make_scaffold_name from the missing rows
   of one input scaffold: an invariant [I] of the namer and a property [Q] of
   the scaffolds made go through the fold *)
Lemma add_missing_fold_inv (I : namer -> Prop) (Q : scaffold -> Prop) c g found input :
  (forall nm name rows nm' tag, In (name, rows) input -> I nm ->
     missing_rows c found g rows [] 0 None <> [] ->
     make_scaffold_name nm name (missing_rows c found g rows [] 0 None) [] = Ok nm' ->
     tag = None \/ tag = Some (s "Contaminant") ->
     I nm' /\ Q (mkScaffold name (missing_rows c found g rows [] 0 None) tag (nm_cur_hap nm') 3 None [])) ->
  forall nm left nm' left', I nm -> Forall Q left ->
  foldM (add_missing_one c g found) input (nm, left) = Ok (nm', left') -> I nm' /\ Forall Q left'.
Proof.
  intros Step nm left nm' left' HI F H.
  refine (foldM_inv_In _ (fun acc => I (fst acc) /\ Forall Q (snd acc)) input _ (nm, left) (nm', left') (conj HI F) H).
  clear nm left nm' left' HI F H. intros [nm0 left0] [name rows] [nm1 left1] Iin [HI0 F0] E. cbn [fst snd] in *.
  destruct (add_missing_one_spec _ _ _ _ _ _ _ _ E) as [[_ [= -> ->]]|(nm2 & NE & EM & [= -> ->])]; [auto|].
  assert (T : forall x : bool, (if x then Some (s "Contaminant") else None) = None
                               \/ (if x then Some (s "Contaminant") else None) = Some (s "Contaminant"))
    by (intros [|]; auto).
  destruct (Step nm0 name rows nm2 _ Iin HI0 NE EM
              (T (nm_target nm2 && negb (mem_str (s "Target") (fragment_tags rows))))) as [A B].
  split; [exact A|]. apply Forall_app. split; [exact F0 | constructor; [exact B | constructor]].
Qed.

Lemma Forall_map_eq {A B} (f : A -> B) (Q : B -> Prop) : forall l l', map f l' = map f l ->
  Forall (fun x => Q (f x)) l -> Forall (fun x => Q (f x)) l'.
Proof.
  intros l l' M F. rewrite <- Forall_map in *. rewrite M. exact F.
Qed.

Lemma zlen_map_eq {A B} (f : A -> B) l l' : map f l' = map f l -> zlen l' = zlen l.
Proof. intro M. unfold zlen. rewrite <- (map_length f l'), M, map_length. reflexivity. Qed.

Lemma get_ovr_map_eq {B} (f : ovr -> B) st st' id r' : map f st' = map f st -> get_ovr st' id = Ok r' ->
  exists r, get_ovr st id = Ok r /\ f r = f r'.
Proof.
  intros M G. apply RemapHead.get_ovr_nth in G. pose proof (map_nth_error f _ _ G) as G1.
  rewrite M, nth_error_map in G1. unfold get_ovr.
  destruct (nth_error st (Z.to_nat id)) as [r|]; [|discriminate]. injection G1 as G1. exists r. auto.
Qed.

Lemma map_labs_proj {B} (g : labs -> B) st st' :
  map o_labs st' = map o_labs st -> map (fun r => g (o_labs r)) st' = map (fun r => g (o_labs r)) st.
Proof. intro M. rewrite <- !(map_map o_labs g), M. reflexivity. Qed.

Definition hap_of_labs (l : labs) : option str := let '(_, _, h, _, _) := l in h.
Lemma map_hap_labs st st' : map o_labs st' = map o_labs st -> map o_hap st' = map o_hap st.
Proof. exact (map_labs_proj hap_of_labs st st'). Qed.

Lemma unloc_sfx_intro d : forallb is_digit d = true -> unloc_sfx (s "_unloc_" ++ d) = true.
Proof. intro H. cbn. exact H. Qed.

Lemma first_not_digit_app x y : first_not_digit x = true -> first_not_digit (x ++ y) = true.
Proof. destruct x; [discriminate | auto]. Qed.

Section HeadLabels.
  Variables (prefix : str) (pretext input : list (str * list row)).

  (* neither is a prefix of the other: both ways, so that no extension of a
     clear name starts with the prefix either (clear_app) *)
  Definition clear (x : str) : Prop := starts_with prefix x = false /\ starts_with x prefix = false.
  Definition painted (prows : list row) : Prop := mem_str (s "Painted") (fragment_tags prows) = true.

  Lemma clear_app x y : clear x -> starts_with prefix (x ++ y) = false.
  Proof.
    unfold clear. revert x. induction prefix as [|c p IH]; intros x [H1 H2]; [discriminate|].
    destruct x as [|d x]; [discriminate|]. cbn [starts_with app] in *.
    destruct (Ascii.eqb c d) eqn:E; [|reflexivity]. cbn [andb] in *.
    rewrite Ascii.eqb_sym, E in H2. cbn [andb] in H2. apply IH. split; assumption.
  Qed.

  (* what name_ok and labels_normal need of the labels of a result (RL) or of a
     left-over scaffold (PL) *)
  Definition lab_ok (l : labs) : Prop :=
    let '(name, tag, hap, rank, orig) := l in
    tag <> Some [] /\ hap <> Some [] /\ starts_with prefix name = false
    /\ (rank = 1 -> exists c o prows, orig = Some (c :: o) /\ is_upper c = true
                      /\ starts_with (c :: o) name = true /\ unloc_sfx (skipn (length (c :: o)) name) = true
                      /\ In (c :: o, prows) pretext /\ painted prows)
    /\ (rank = 2 -> first_not_digit name = true).
  Definition RL (r : ovr) : Prop := lab_ok (o_labs r).

  (* NI: the namer's haplotype is not "" and its counters are not negative, so
     that str_of_Z of the next one is a run of digits *)
  Definition NI (nm : namer) : Prop :=
    nm_cur_hap nm <> Some [] /\ lc_ok (nm_hap_lc nm) /\ 0 <= nm_hap_n nm /\ 0 <= nm_unloc_n nm.
  (* CurOk: the name under which the baits of the Pretext scaffold [pname] are
     labelled suits lab_ok, for the rank it is given *)
  Definition CurOk (nm : namer) (pname : str) : Prop :=
    exists name0, nm_cur_name nm = Some name0 /\ clear name0
      /\ (nm_cur_rank nm = 1 -> name0 = pname /\ exists c o prows, pname = c :: o /\ is_upper c = true
                                   /\ In (pname, prows) pretext /\ painted prows)
      /\ (nm_cur_rank nm = 2 -> first_not_digit name0 = true).
  (* SI: every stored result has good labels, and the haplotigs all have rank 3:
     the last rename_results permutes names among them, which is harmless only
     because lab_ok asks nothing more of a rank-3 name than not to start with
     the prefix *)
  Definition SI (st : list ovr) (nm : namer) : Prop :=
    Forall RL st
    /\ forall id, In id (nm_hap_scaffolds nm) ->
         0 <= id < zlen st /\ forall r, get_ovr st id = Ok r -> o_rank r = 3.
  (* UI: the unlocs of the current Pretext scaffold are all named
     <current name>_unloc_<digits> with the same original name: rename_results
     permutes names among them at the end of the scaffold, and any of these
     names suits any of them (unloc_name_ok) *)
  Definition UI (st : list ovr) (nm : namer) (pname : str) : Prop :=
    forall id, In id (nm_unloc_scaffolds nm) ->
      0 <= id < zlen st /\ forall r, get_ovr st id = Ok r ->
        exists name0 d, nm_cur_name nm = Some name0 /\ o_name r = name0 ++ s "_unloc_" ++ d
          /\ forallb is_digit d = true /\ o_orig r = Some pname
          /\ (o_rank r = 3 \/ o_rank r = nm_cur_rank nm).

  (* the current name, with nothing or _unloc_<digits> behind it, suits every
     member of the current group *)
  Lemma cur_name_ok nm pname tag hap rank name0 sfx :
    CurOk nm pname -> nm_cur_name nm = Some name0 -> unloc_sfx sfx = true ->
    tag <> Some [] -> hap <> Some [] -> (rank = 3 \/ rank = nm_cur_rank nm) ->
    lab_ok (name0 ++ sfx, tag, hap, rank, Some pname).
  Proof.
    intros (n0 & E0 & C & C1 & C2) E D T Hh R. rewrite E in E0. injection E0 as <-.
    unfold lab_ok. split; [exact T|]. split; [exact Hh|]. split; [apply clear_app, C|]. split.
    - intro R1. destruct R as [R|R]; [lia|]. rewrite R1 in R. symmetry in R.
      destruct (C1 R) as (-> & c & o & prows & -> & U & I & Pt).
      exists c, o, prows. split; [reflexivity|]. split; [exact U|]. split; [apply starts_with_app|].
      split; [|auto]. rewrite skipn_length_app. exact D.
    - intro R2. destruct R as [R|R]; [lia|]. rewrite R2 in R. symmetry in R.
      apply first_not_digit_app, C2, R.
  Qed.

  Lemma unloc_name_ok nm pname tag hap rank name0 d :
    CurOk nm pname -> nm_cur_name nm = Some name0 -> forallb is_digit d = true ->
    tag <> Some [] -> hap <> Some [] -> (rank = 3 \/ rank = nm_cur_rank nm) ->
    lab_ok (name0 ++ s "_unloc_" ++ d, tag, hap, rank, Some pname).
  Proof. intros HC E D. exact (cur_name_ok nm pname tag hap rank name0 _ HC E (unloc_sfx_intro d D)). Qed.

  Hypothesis Hhap : clear (s "H_").

  (* the invariant while the baits of the Pretext scaffold [pname] are looked up *)
  Definition BI (pname : str) (b : bstate) : Prop :=
    NI (b_namer b) /\ CurOk (b_namer b) pname /\ SI (b_store b) (b_namer b) /\ UI (b_store b) (b_namer b) pname.

  (* A bait adds at most one result at the end of the store, with the labels
     label_scaffold gave (trimming keeps them).  By the three cases of
     label_spec the new result is a plain member of the current group, a
     haplotig (recorded in nm_hap_scaffolds) or an unloc (recorded in
     nm_unloc_scaffolds); old ids keep their results. *)
  Lemma one_bait_labels err sc_tags pname b bait b' :
    BI pname b -> one_bait input err sc_tags pname b bait = Ok b' -> BI pname b'.
  Proof.
    intros (HN & HC & HS & HU) H. unfold BI.
    destruct (RemapHead.one_bait_spec _ _ _ _ _ _ _ H)
      as (rows & _ & [[_ ->]|(fo & nm & lab & r1 & _ & EL & ET & -> & -> & _)]); [auto|]. clear H.
    pose proof (trim_large_labs _ _ _ ET) as L1. unfold o_labs in L1. cbn [set_labels o_name o_tag o_hap o_rank o_orig] in L1.
    injection L1 as Ln Lt Lh Lr Lo.
    destruct (label_spec _ _ _ _ _ _ EL) as (K1 & K2 & K3 & K4 & K5 & K6 & K7).
    destruct HN as (N1 & N2 & N3 & N4). destruct HS as [S1 S2].
    pose proof HC as HC'. destruct HC' as (name0 & E0 & C0 & C1 & C2).
    rewrite E0 in K7. cbv zeta in K7.
    assert (HC1 : CurOk nm pname).
    { exists name0. rewrite K1, K2. auto. }
    assert (Old : forall id, 0 <= id < zlen (b_store b) ->
              get_ovr (b_store b ++ [r1]) id = get_ovr (b_store b) id)
      by (intros; apply RemapHead.get_ovr_app; assumption).
    assert (New : get_ovr (b_store b ++ [r1]) (zlen (b_store b)) = Ok r1) by apply RemapHead.get_ovr_app_new.
    assert (Rng : forall id, 0 <= id < zlen (b_store b) -> 0 <= id < zlen (b_store b ++ [r1]))
      by (clear; intros id B; rewrite zlen_snoc; lia).
    assert (RngNew : 0 <= zlen (b_store b) < zlen (b_store b ++ [r1]))
      by (clear; rewrite zlen_snoc; pose proof (zlen_nonneg (b_store b)); lia).
    assert (RL1 : RL r1).
    { unfold RL, o_labs. rewrite Ln, Lt, Lh, Lr, Lo, K5.
      destruct K7 as [(_ & _ & _ & _ & A5 & A6)|[(_ & _ & _ & _ & A5 & A6)|(_ & _ & _ & _ & A5 & A6)]]; rewrite A5.
      - rewrite <- (app_nil_r name0).
        exact (cur_name_ok (b_namer b) pname _ _ _ name0 [] HC E0 eq_refl K6 N1 A6).
      - unfold lab_ok. rewrite A6. split; [exact K6|]. split; [exact N1|].
        split; [apply clear_app, Hhap|]. split; intro; lia.
      - assert (Pn : 0 <= nm_unloc_n (b_namer b) + 1) by lia.
        exact (unloc_name_ok (b_namer b) pname _ _ _ name0 _ HC E0 (proj2 (str_of_Z_digits _ Pn)) K6 N1 A6). }
    split; [|split; [exact HC1|split]].
    - unfold NI. rewrite K3, K4.
      destruct K7 as [(A1 & _ & A3 & _)|[(A1 & _ & A3 & _)|(A1 & _ & A3 & _)]]; rewrite A1, A3; repeat split; auto; lia.
    - split; [apply Forall_app; split; [exact S1 | constructor; [exact RL1 | constructor]]|].
      intros id I.
      assert (Cases : In id (nm_hap_scaffolds (b_namer b)) \/ (id = zlen (b_store b) /\ o_rank r1 = 3)).
      { destruct K7 as [(_ & A2 & _)|[(_ & A2 & _ & _ & _ & A6)|(_ & A2 & _)]]; rewrite A2 in I; auto.
        apply in_app_or in I as [I|[<-|[]]]; auto. right. split; [reflexivity | congruence]. }
      destruct Cases as [I0|[-> R3]].
      + destruct (S2 id I0) as [B R]. split; [exact (Rng id B)|]. rewrite (Old id B). exact R.
      + split; [exact RngNew|]. rewrite New. intros r [= <-]. exact R3.
    - intros id I.
      assert (Cases : In id (nm_unloc_scaffolds (b_namer b))
                      \/ (id = zlen (b_store b) /\ exists d, o_name r1 = name0 ++ s "_unloc_" ++ d
                            /\ forallb is_digit d = true /\ (o_rank r1 = 3 \/ o_rank r1 = nm_cur_rank (b_namer b)))).
      { destruct K7 as [(_ & _ & _ & A4 & _)|[(_ & _ & _ & A4 & _)|(_ & _ & _ & A4 & A5 & A6)]]; rewrite A4 in I; auto.
        apply in_app_or in I as [I|[<-|[]]]; auto. right. split; [reflexivity|].
        assert (Pn : 0 <= nm_unloc_n (b_namer b) + 1) by lia.
        eexists. split; [rewrite Ln; exact A5|]. split; [apply (proj2 (str_of_Z_digits _ Pn))|].
        rewrite Lr. exact A6. }
      destruct Cases as [I0|(-> & d & Dn & Dd & Dr)].
      + destruct (HU id I0) as [B R]. split; [exact (Rng id B)|]. rewrite (Old id B). intros r G.
        destruct (R r G) as (n0 & d & Q1 & Q2 & Q3 & Q4 & Q5). exists n0, d. rewrite K1, K2. auto.
      + split; [exact RngNew|]. rewrite New. intros r [= <-]. exists name0, d. rewrite K1, K2, Lo. auto.
  Qed.

  Hypothesis Hpre : forall pname prows, In (pname, prows) pretext ->
    clear pname /\ exists c o, pname = c :: o /\ is_upper c = true.
  Hypothesis Hin : forall iname rows, In (iname, rows) input -> clear iname.
  Hypothesis Htag : forall pname prows f t, In (pname, prows) pretext -> In f (frags_of prows) ->
    In t (f_tags f) -> looks_like_chr_name t = true -> clear t /\ first_not_digit t = true.

  Lemma one_bait_ok_input err sc_tags orig b bait b' :
    one_bait input err sc_tags orig b bait = Ok b' -> exists rows, In (f_name bait, rows) input.
  Proof.
    intro H. destruct (RemapHead.one_bait_spec _ _ _ _ _ _ _ H) as (rows & E & _). exists rows.
    unfold input_rows in E. destruct (aget str_eqb input (f_name bait)) as [rows0|] eqn:G; [|discriminate].
    injection E as <-. exact (aget_In _ str_eqb_eq _ _ _ G).
  Qed.

  Lemma SI_ranks st st' nm : Forall RL st' -> map o_rank st' = map o_rank st -> SI st nm -> SI st' nm.
  Proof.
    intros F M [_ S2]. split; [exact F|]. intros id I. destruct (S2 id I) as [B R].
    split; [rewrite (zlen_map_eq _ _ _ M); exact B|]. intros r' G.
    destruct (get_ovr_map_eq o_rank _ _ _ _ M G) as (r & G0 & L). rewrite <- L. exact (R r G0).
  Qed.

  Lemma SI_labs st st' nm : map o_labs st' = map o_labs st -> SI st nm -> SI st' nm.
  Proof.
    intros M S. apply (SI_ranks st); [|exact (map_labs_proj (fun '(_, _, _, k, _) => k) st st' M)|exact S].
    exact (Forall_map_eq o_labs lab_ok st st' M (proj1 S)).
  Qed.

  (* the invariant between two Pretext scaffolds *)
  Definition OI (b : bstate) : Prop := NI (b_namer b) /\ SI (b_store b) (b_namer b).

  Lemma in_fragment_tags t prows : In t (fragment_tags prows) -> exists f, In f (frags_of prows) /\ In t (f_tags f).
  Proof.
    unfold fragment_tags. intro I. apply (proj1 (Junctions.dedup_in _ str_eqb_eq _ _)) in I.
    apply in_flat_map in I. exact I.
  Qed.

  (* make_scaffold_name gives a current name that suits lab_ok (msn_spec and
     the namespace hypotheses: a chromosome tag, the Pretext scaffold name, or
     an input scaffold name), the baits keep BI, and the renaming of the unlocs
     at the end only permutes names that UI allows *)
  Lemma one_pretext_scaffold_labels err b pname prows b' :
    In (pname, prows) pretext -> OI b -> one_pretext_scaffold input err b (pname, prows) = Ok b' -> OI b'.
  Proof.
    intros Ip [HN HS] H.
    destruct (RemapHead.one_pretext_spec _ _ _ _ _ _ H) as (nm & b1 & st & EM & EF & ER & ->).
    destruct HN as (N1 & N2 & N3 & N4).
    destruct (msn_spec _ _ _ _ _ N2 EM) as (M1 & M2 & M3 & M4 & M5 & M6 & name & M7 & M8).
    assert (ET : eff_tags prows (fragment_tags prows) = fragment_tags prows).
    { unfold eff_tags. destruct (fragment_tags prows); reflexivity. }
    rewrite ET in M8.
    assert (NI1 : NI nm) by (unfold NI; rewrite M3, M5; repeat split; auto; lia).
    assert (HC : CurOk nm pname).
    { exists name. split; [exact M7|].
      destruct M8 as [(I & Lk & R)|[(-> & R & I)|(Fr & R)]].
      - destruct (in_fragment_tags _ _ I) as (f & If & It).
        destruct (Htag _ _ _ _ Ip If It Lk) as [C F]. split; [exact C|]. split; intro; [lia | exact F].
      - destruct (Hpre _ _ Ip) as (C & c & o & E & U). split; [exact C|]. split; [|intro; lia].
        intros _. split; [reflexivity|]. exists c, o, prows. repeat split; auto.
        unfold painted, mem_str. apply existsb_exists. exists (s "Painted"). split; [exact I | apply str_eqb_refl].
      - split; [|split; intro; lia].
        unfold first_row_name in Fr. destruct prows as [|[f|gp] rest]; try discriminate. injection Fr as <-.
        cbn [frags_of flat_map app foldM] in EF. unfold bind in EF.
        destruct (one_bait input err (fragment_tags (RF f :: rest)) pname (with_namer b nm) f) as [bx|] eqn:EB; [|discriminate].
        destruct (one_bait_ok_input _ _ _ _ _ _ EB) as (rows & Ir). exact (Hin _ _ Ir). }
    assert (Inner : BI pname b1).
    { apply (foldM_inv_In _ (BI pname)) with (3 := EF).
      - intros s0 a s1 _ A E. exact (one_bait_labels _ _ _ _ _ _ A E).
      - unfold BI. cbn [with_namer b_namer b_store]. split; [exact NI1|]. split; [exact HC|]. split.
        + destruct HS as [S1 S2]. split; [exact S1|]. rewrite M4. exact S2.
        + intros id I. rewrite M6 in I. destruct I. }
    destruct Inner as (I1 & I2 & I3 & I4).
    destruct (rename_results_spec _ _ _ ER) as [R1 R2].
    unfold OI. cbn [with_store b_namer b_store]. split; [exact I1|].
    apply (SI_ranks (b_store b1)); [|apply R1; reflexivity|exact I3].
    destruct I3 as [I3 _].
    apply Forall_forall. intros x Ix. destruct (R2 x Ix) as [I0|(id & r & id2 & r2 & J1 & G1 & J2 & G2 & ->)].
    - rewrite Forall_forall in I3. exact (I3 x I0).
    - destruct (I4 id J1) as [_ Q1]. destruct (Q1 r G1) as (n0 & d & Qa & Qb & Qc & Qd & Qe).
      destruct (I4 id2 J2) as [_ Q2]. destruct (Q2 r2 G2) as (n0' & d2 & Qa' & Qb' & Qc' & _).
      rewrite Qa in Qa'. injection Qa' as <-.
      rewrite Forall_forall in I3. pose proof (I3 r (RemapHead.get_ovr_In _ _ _ G1)) as Rr.
      unfold RL, o_labs in Rr. cbn [lab_ok] in Rr. destruct Rr as (T & Hh & _).
      unfold RL, o_labs. cbn [set_name o_name o_tag o_hap o_rank o_orig]. rewrite Qb', Qd.
      exact (unloc_name_ok (b_namer b1) pname _ _ _ n0 d2 I2 Qa Qc' T Hh Qe).
  Qed.
End HeadLabels.

Definition PL (prefix : str) (pretext : list (str * list row)) (sc : scaffold) : Prop :=
  lab_ok prefix pretext (sc_labs sc).

(* the hypotheses on the names in the input and in the map *)
Record input_namespace_ok (prefix : str) (input pretext : list (str * list row)) : Prop := {
  (* Pretext scaffold names: Scaffold_7 -- an upper-case first letter, not comparable with the prefix *)
  ins_pretext : forall pname prows, In (pname, prows) pretext ->
    clear prefix pname /\ exists c o, pname = c :: o /\ is_upper c = true;
  (* input scaffold names *)
  ins_input : forall iname, In iname (map fst input) -> clear prefix iname;
  (* chromosome tags: not <digits><letters>, not comparable with the prefix *)
  ins_tags : forall pname prows f t, In (pname, prows) pretext -> In f (frags_of prows) ->
    In t (f_tags f) -> looks_like_chr_name t = true -> clear prefix t /\ first_not_digit t = true;
  (* the haplotig names H_<n> *)
  ins_hap : clear prefix (s "H_")
}.

Section RunLabels.
  Variables (prefix : str) (input0 pretext : list (str * list row)).
  Hypothesis INS : input_namespace_ok prefix input0 pretext.

  Let Hin n : forall iname rows, In (iname, rows) (number_input input0 n) -> clear prefix iname.
  Proof.
    intros iname rows I. apply (ins_input _ _ _ INS). rewrite <- (RemapTail.number_input_names input0 n).
    apply (in_map fst) in I. exact I.
  Qed.

  Lemma pretext_fold_labels err n b b' :
    OI prefix pretext b -> foldM (one_pretext_scaffold (number_input input0 n) err) pretext b = Ok b' ->
    OI prefix pretext b'.
  Proof.
    apply (foldM_inv_In _ (OI prefix pretext)). intros b0 [pname prows] b1 Ip HO E.
    exact (one_pretext_scaffold_labels prefix pretext (number_input input0 n) (ins_hap _ _ _ INS)
             (ins_pretext _ _ _ INS) (Hin n) (ins_tags _ _ _ INS) err b0 pname prows b1 Ip HO E).
  Qed.

  Lemma leftovers_labels c g found : forall input nm left nm' left',
    (forall iname rows, In (iname, rows) input -> clear prefix iname) ->
    lc_ok (nm_hap_lc nm) -> Forall (PL prefix pretext) left ->
    foldM (add_missing_one c g found) input (nm, left) = Ok (nm', left') ->
    Forall (PL prefix pretext) left'.
  Proof.
    intros input nm left nm' left' Hi L F H.
    refine (proj2 (add_missing_fold_inv (fun x => lc_ok (nm_hap_lc x)) (PL prefix pretext) c g found input _
                     nm left nm' left' L F H)).
    intros nm0 name rows nm1 tag Iin L0 _ EM Htag. destruct (msn_spec _ _ _ _ _ L0 EM) as (M1 & M2 & _).
    split; [exact M1|]. unfold PL, sc_labs, lab_ok. cbn [sc_name sc_tag sc_hap sc_rank sc_orig].
    split; [destruct Htag as [->| ->]; discriminate|]. split; [exact M2|].
    split; [exact (proj1 (Hi name rows Iin))|]. split; intro; lia.
  Qed.

  Theorem remap_to_input_labels : forall c g bpt rs,
    remap_to_input c g prefix bpt input0 pretext = Ok rs ->
    Forall (RL prefix pretext) (b_store (rs_b rs)) /\ Forall (PL prefix pretext) (rs_left rs).
  Proof.
    intros c g bpt rs H.
    destruct (RemapHead.remap_to_input_stages _ _ _ _ _ _ _ H)
      as (_ & b1 & b2 & b3 & st & [nm' left] & E1 & E2 & E3 & E4 & E5 & ->).
    cbn [rs_b rs_left with_namer with_store b_store b_namer fst snd] in *.
    assert (O1 : OI prefix pretext b1).
    { apply (pretext_fold_labels _ 0) with (2 := E1).
      split; [repeat split; try discriminate; try lia; constructor|].
      split; [constructor | intros id []]. }
    destruct (discard_loop_labs _ _ _ _ E2) as (L2 & _ & N2).
    destruct (cut_remaining_labs _ _ _ E3) as (L3 & _ & N3).
    destruct O1 as [NI1 SI1].
    assert (SI3 : SI prefix pretext (b_store b3) (b_namer b3)).
    { rewrite N3, N2. eapply SI_labs; [|exact SI1]. congruence. }
    assert (NI3 : NI (b_namer b3)) by (rewrite N3, N2; exact NI1).
    destruct SI3 as [F3 H3]. destruct (rename_results_spec _ _ _ E4) as [_ R2].
    assert (F4 : Forall (RL prefix pretext) st).
    { apply Forall_forall. intros x Ix. rewrite Forall_forall in F3.
      destruct (R2 x Ix) as [I0|(id & r & id2 & r2 & J1 & G1 & J2 & G2 & ->)]; [exact (F3 x I0)|].
      pose proof (F3 r (RemapHead.get_ovr_In _ _ _ G1)) as Rr.
      pose proof (F3 r2 (RemapHead.get_ovr_In _ _ _ G2)) as Rr2.
      destruct (H3 id J1) as [_ Rk]. specialize (Rk r G1).
      unfold RL, o_labs, lab_ok in *. cbn [set_name o_name o_tag o_hap o_rank o_orig].
      destruct Rr as (T & Hh & _). destruct Rr2 as (_ & _ & Sn & _).
      split; [exact T|]. split; [exact Hh|]. split; [exact Sn|]. split; intro; lia. }
    split; [exact F4|].
    eapply (leftovers_labels c g _ (number_input input0 0) (b_namer b3) [] nm' left);
      [exact (Hin 0) | exact (proj1 (proj2 NI3)) | constructor | exact E5].
  Qed.
End RunLabels.

Lemma mapM_get_in store : forall ids rs, mapM (get_ovr store) ids = Ok rs -> Forall (fun r => In r store) rs.
Proof.
  induction ids as [|id ids IH]; intros rs H; cbn [mapM] in H.
  - injection H as <-. constructor.
  - unfold bind in H. destruct (get_ovr store id) as [r|] eqn:G; [|discriminate].
    destruct (mapM (get_ovr store) ids) as [rs'|]; [|discriminate]. injection H as <-.
    constructor; [exact (RemapHead.get_ovr_In _ _ _ G) | apply IH; reflexivity].
Qed.

Lemma fuse_fold_labs (Q : labs -> Prop) c g : forall pieces acc,
  Forall (fun p : scaffold * bool => Q (sc_labs (fst p))) pieces ->
  Forall (fun kb : fuse_key * scaffold => Q (sc_labs (snd kb))) acc ->
  Forall (fun kb : fuse_key * scaffold => Q (sc_labs (snd kb))) (fold_left (fuse_step c g) pieces acc).
Proof. exact (fuse_fold_entries (fun _ => Q) c g). Qed.

(* every fused scaffold has the labels (name, tag, haplotype, rank, original
   name) of one of the pieces *)
Lemma fuse_all_labs (Q : labs -> Prop) c g rs fused :
  Forall (fun r => Q (o_labs r)) (b_store (rs_b rs)) -> Forall (fun sc => Q (sc_labs sc)) (rs_left rs) ->
  fuse_all c g rs = Ok fused -> Forall (fun sc => Q (sc_labs sc)) fused.
Proof.
  intros FR FL H. unfold fuse_all, bind in H.
  destruct (mapM (get_ovr (b_store (rs_b rs))) (b_added (rs_b rs))) as [results|] eqn:M; [|discriminate].
  injection H as <-. apply Forall_map.
  apply fuse_fold_labs; [|constructor].
  apply Forall_app. split; apply Forall_map.
  - pose proof (mapM_get_in _ _ _ M) as I. rewrite Forall_forall in *. intros r Ir.
    cbn [piece_of_result fst]. exact (FR r (I r Ir)).
  - cbn [fst]. exact FL.
Qed.

Lemma fuse_all_PL prefix pretext c g rs fused :
  Forall (RL prefix pretext) (b_store (rs_b rs)) -> Forall (PL prefix pretext) (rs_left rs) ->
  fuse_all c g rs = Ok fused -> Forall (PL prefix pretext) fused.
Proof. exact (fuse_all_labs (lab_ok prefix pretext) c g rs fused). Qed.

Lemma PL_name_ok prefix pretext sc : PL prefix pretext sc -> labels_normal sc /\ name_ok prefix sc = true.
Proof.
  unfold PL, sc_labs, lab_ok. intros (T & Hh & S & R1 & R2). split; [split; assumption|].
  unfold name_ok. destruct (sc_rank sc =? 1) eqn:E1.
  - apply Z.eqb_eq in E1. destruct (R1 E1) as (c & o & prows & Eo & U & Sw & Us & _).
    unfold rank1_ok. rewrite Eo, U, Sw, Us. reflexivity.
  - destruct (sc_rank sc =? 2) eqn:E2.
    + apply Z.eqb_eq in E2. rewrite S, (R2 E2). reflexivity.
    + rewrite S. reflexivity.
Qed.

Definition painted_b (p : str * list row) : bool := mem_str (s "Painted") (fragment_tags (snd p)).

Lemma PL_namespace prefix pretext fused :
  Forall (PL prefix pretext) fused -> (length (filter painted_b pretext) <= 191)%nat ->
  Forall labels_normal fused /\ namespace_ok prefix fused.
Proof.
  intros F B. split; [|split].
  - eapply Forall_impl; [|exact F]. intros sc Psc. exact (proj1 (PL_name_ok _ _ _ Psc)).
  - apply forallb_forall. intros sc I. rewrite Forall_forall in F. exact (proj2 (PL_name_ok _ _ _ (F sc I))).
  - assert (I : incl (rank1_origs fused) (map fst (filter painted_b pretext))).
    { intros o Io. unfold rank1_origs in Io. apply (proj1 (Junctions.dedup_in _ str_eqb_eq _ _)) in Io.
      apply in_flat_map in Io as (sc & Isc & Io). rewrite Forall_forall in F.
      pose proof (F sc Isc) as Psc. unfold PL, sc_labs, lab_ok in Psc. destruct Psc as (_ & _ & _ & R1 & _).
      unfold is_rank1 in Io. destruct (sc_rank sc =? 1) eqn:E1; [|destruct Io]. apply Z.eqb_eq in E1.
      destruct (R1 E1) as (c & o' & prows & Eo & _ & _ & _ & Ip & Pt). rewrite Eo in Io.
      destruct Io as [<-|[]]. apply in_map_iff. exists (c :: o', prows). split; [reflexivity|].
      apply filter_In. split; [exact Ip | exact Pt]. }
    pose proof (NoDup_incl_length (Junctions.dedup_nodup _ str_eqb_eq _) I) as L.
    rewrite map_length in L. unfold rank1_origs. lia.
Qed.

(* with the namespace hypothesis on the input and the map; the two haplotype
   conditions stay on the scaffolds that come out of the fusion *)
Theorem names_nodup_observable : forall g prefix bpt input pretext o,
  remap repaired g prefix bpt input pretext = Ok o ->
  input_namespace_ok prefix input pretext ->
  (length (filter painted_b pretext) <= 191)%nat ->
  no_tag_hap_clash (fused_of_run g prefix bpt input pretext) ->
  tagged_same_hap (fused_of_run g prefix bpt input pretext) ->
  forall a, In a (out_asms o) -> NoDup (map sc_name (oa_scaffolds a)).
Proof.
  intros g prefix bpt input pretext o H INS B NC TS.
  apply (names_nodup_after_renaming _ _ _ _ _ _ H). intros rs fused0 R F.
  unfold fused_of_run in NC, TS. rewrite R, F in NC, TS.
  destruct (remap_to_input_labels prefix input pretext INS _ _ _ _ R) as [FR FL].
  destruct (PL_namespace prefix pretext fused0 (fuse_all_PL _ _ _ _ _ _ FR FL F) B) as [LN NS].
  auto.
Qed.

Definition clear_b (prefix x : str) : bool := negb (starts_with prefix x) && negb (starts_with x prefix).
Definition input_namespace_ok_b (prefix : str) (input pretext : list (str * list row)) : bool :=
  forallb (fun p : str * list row =>
             clear_b prefix (fst p) && match fst p with c :: _ => is_upper c | [] => false end) pretext
  && forallb (fun p : str * list row => clear_b prefix (fst p)) input
  && forallb (fun p : str * list row =>
                forallb (fun f => forallb (fun t => implb (looks_like_chr_name t)
                                                          (clear_b prefix t && first_not_digit t)) (f_tags f))
                        (frags_of (snd p))) pretext
  && clear_b prefix (s "H_").

Lemma clear_b_sound prefix x : clear_b prefix x = true -> clear prefix x.
Proof. unfold clear_b, clear. intro H. apply andb_prop in H as [A B]. apply negb_true_iff in A, B. auto. Qed.

Lemma input_namespace_ok_b_sound prefix input pretext :
  input_namespace_ok_b prefix input pretext = true -> input_namespace_ok prefix input pretext.
Proof.
  unfold input_namespace_ok_b. rewrite !andb_true_iff. intros [[[H1 H2] H3] H4]. constructor.
  - intros pname prows I. rewrite forallb_forall in H1. specialize (H1 _ I). cbn [fst] in H1.
    apply andb_prop in H1 as [A B]. split; [apply clear_b_sound, A|].
    destruct pname as [|c o]; [discriminate|]. exists c, o. auto.
  - intros iname I. apply in_map_iff in I as ([n rows] & <- & I). rewrite forallb_forall in H2.
    apply clear_b_sound. exact (H2 _ I).
  - intros pname prows f t I If It Lk. rewrite forallb_forall in H3. specialize (H3 _ I). cbn [snd] in H3.
    rewrite forallb_forall in H3. specialize (H3 _ If). rewrite forallb_forall in H3. specialize (H3 _ It).
    rewrite Lk in H3. cbn [implb] in H3. apply andb_prop in H3 as [A B]. split; [apply clear_b_sound, A | exact B].
  - apply clear_b_sound, H4.
Qed.

(* non-vacuity of the observable form, on nv_input and nv_pretext *)
Lemma nv_namespace_ok : input_namespace_ok (s "SUPER_") nv_input nv_pretext.
Proof. apply input_namespace_ok_b_sound. vm_compute. reflexivity. Qed.

Lemma nv_painted_bound : (length (filter painted_b nv_pretext) <= 191)%nat.
Proof. vm_compute. lia. Qed.

Example unique_names_example_observable : forall o,
  remap repaired ex_gap (s "SUPER_") (10, 1) nv_input nv_pretext = Ok o ->
  forall a, In a (out_asms o) -> NoDup (map sc_name (oa_scaffolds a)).
Proof.
  intros o H.
  destruct (unique_names_hyps_b_sound _ _ (proj2 (proj2 unique_names_example))) as (_ & NC & TS & _).
  exact (names_nodup_observable _ _ _ _ _ _ H nv_namespace_ok nv_painted_bound NC TS).
Qed.

(* no fragment of the input or of the map says anything about a haplotype:
   no tag that would be taken for a haplotype name, no name of the form
   <hap>_..._<n> *)
Definition no_hap_frag (f : frag) : Prop :=
  haplotype_prefix_of_name (f_name f) = None /\ forall t, In t (f_tags f) -> cls t <> CHap.
Definition no_haplotypes (l : list (str * list row)) : Prop :=
  forall name rows f, In (name, rows) l -> In f (frags_of rows) -> no_hap_frag f.

Lemma number_rows_frag : forall rows n f', In f' (frags_of (fst (number_rows rows n))) ->
  exists f, In f (frags_of rows) /\ f_name f' = f_name f /\ f_tags f' = f_tags f.
Proof.
  induction rows as [|r rows IH]; intros n f' I; cbn [number_rows] in I; [destruct I|].
  destruct r as [f|gp]; destruct (number_rows rows (n + 1)) as [t' n1] eqn:E; cbn [fst] in I.
  - change (frags_of (RF ?x :: ?t)) with (x :: frags_of t) in *. destruct I as [<-|I].
    + exists f. split; [left; reflexivity | split; reflexivity].
    + specialize (IH (n + 1) f'). rewrite E in IH. destruct (IH I) as (f0 & I0 & E0).
      exists f0. split; [right; exact I0 | exact E0].
  - change (frags_of (RG gp :: ?t)) with (frags_of t) in *.
    specialize (IH (n + 1) f'). rewrite E in IH. exact (IH I).
Qed.

Lemma number_input_no_hap : forall input n, no_haplotypes input -> no_haplotypes (number_input input n).
Proof.
  induction input as [|[name rows] input IH]; intros n H; cbn [number_input]; [intros ? ? ? []|].
  destruct (number_rows rows n) as [rows' n'] eqn:E. intros nm rs f [[= <- <-]|I] If.
  - pose proof (number_rows_frag rows n f) as K. rewrite E in K. destruct (K If) as (f0 & I0 & En & Et).
    destruct (H name rows f0 (or_introl eq_refl) I0) as [A B]. split; [rewrite En; exact A | rewrite Et; exact B].
  - apply (IH n' (fun a b c Ia => H a b c (or_intror Ia)) nm rs f I If).
Qed.

Lemma scan_no_hap : forall tags st st', (forall t, In t tags -> cls t <> CHap) -> ts_hap st = None ->
  foldM scan_tag tags st = Ok st' -> ts_hap st' = None.
Proof.
  induction tags as [|t tags IH]; intros st st' Ht H0 H; cbn [foldM] in H.
  - injection H as <-. exact H0.
  - unfold bind in H. destruct (scan_tag st t) as [st1|] eqn:E; [|discriminate].
    apply (IH st1 st' (fun x Ix => Ht x (or_intror Ix))); [|exact H].
    rewrite scan_tag_cls in E. pose proof (Ht t (or_introl eq_refl)) as C.
    destruct (cls t); cbn [scan_cls] in E; try congruence; try (injection E as <-; exact H0).
    destruct (ts_name st) as [n|]; [destruct (negb (str_eqb t n)); [discriminate|]|]; injection E as <-; exact H0.
Qed.

Lemma msn_no_hap nm n rows tags nm' :
  (forall t, In t (eff_tags rows tags) -> cls t <> CHap) ->
  (forall fn, first_row_name rows = Ok fn -> haplotype_prefix_of_name fn = None) ->
  make_scaffold_name nm n rows tags = Ok nm' -> nm_cur_hap nm' = None.
Proof.
  intros Ht Hf H.
  destruct (make_scaffold_name_inv _ _ _ _ _ H) as (sc & hap & lc1 & prim & lc2 & name & rank & E & E1 & _ & _ & ->).
  pose proof (scan_no_hap _ (scan0 nm) _ Ht eq_refl E) as S0. cbn [nm_cur_hap].
  assert (hap = None).
  { unfold fin_hap, bind in E1. rewrite S0 in E1. cbn [truthy] in E1.
    destruct (first_row_name rows) as [fn|]; [|discriminate]. rewrite (Hf fn eq_refl) in E1.
    injection E1 as <- _. reflexivity. }
  subst hap. destruct prim as [[|c p]|]; reflexivity.
Qed.

(* no haplotype so far: in the namer and in every stored result *)
Definition HNone (b : bstate) : Prop :=
  nm_cur_hap (b_namer b) = None /\ Forall (fun r => o_hap r = None) (b_store b).

Section NoHap.
  Variables (input pretext : list (str * list row)).
  Hypothesis NHi : no_haplotypes input.
  Hypothesis NHp : no_haplotypes pretext.

  Lemma one_bait_no_hap err sc_tags orig b bait b' :
    HNone b -> one_bait input err sc_tags orig b bait = Ok b' -> HNone b'.
  Proof.
    intros [H1 H2] H.
    destruct (RemapHead.one_bait_spec _ _ _ _ _ _ _ H)
      as (rows & _ & [[_ ->]|(fo & nm & lab & r1 & _ & EL & ET & E1 & E2 & _)]); [split; auto|].
    unfold HNone. rewrite E1, E2.
    destruct (label_spec _ _ _ _ _ _ EL) as (_ & _ & K3 & _ & K5 & _).
    split; [congruence|]. apply Forall_app. split; [exact H2|]. constructor; [|constructor].
    pose proof (trim_large_labs _ _ _ ET) as L. unfold o_labs in L. cbn [set_labels o_hap] in L.
    injection L as _ _ L _ _. congruence.
  Qed.

  Lemma one_pretext_scaffold_no_hap err b pname prows b' :
    In (pname, prows) pretext -> HNone b -> one_pretext_scaffold input err b (pname, prows) = Ok b' -> HNone b'.
  Proof.
    intros Ip [H1 H2] H.
    destruct (RemapHead.one_pretext_spec _ _ _ _ _ _ H) as (nm & b1 & st & EM & EF & ER & ->).
    assert (C : nm_cur_hap nm = None).
    { apply (msn_no_hap _ _ _ _ _) with (3 := EM).
      - intros t It. assert (It' : In t (fragment_tags prows)) by (unfold eff_tags in It; destruct (fragment_tags prows); exact It).
        destruct (in_fragment_tags _ _ It') as (f & If & Itf). exact (proj2 (NHp _ _ _ Ip If) t Itf).
      - intros fn Fr. unfold first_row_name in Fr. destruct prows as [|[f|gp] rest]; try discriminate.
        injection Fr as <-. apply (proj1 (NHp _ _ f Ip (or_introl eq_refl))). }
    assert (I1 : HNone b1).
    { apply (foldM_inv_In _ HNone) with (3 := EF).
      - intros s0 a s1 _ Hs E. exact (one_bait_no_hap _ _ _ _ _ _ Hs E).
      - split; [exact C | exact H2]. }
    destruct I1 as [J1 J2]. destruct (rename_results_spec _ _ _ ER) as [R1 _].
    split; [exact J1|]. cbn [with_store b_store].
    apply (Forall_map_eq o_hap (fun h => h = None) (b_store b1)); [apply R1; reflexivity | exact J2].
  Qed.

  Lemma leftovers_no_hap c g found : forall inp nm left nm' left',
    (forall name rows f, In (name, rows) inp -> In f (frags_of rows) -> no_hap_frag f) ->
    Forall (fun sc => sc_hap sc = None) left ->
    foldM (add_missing_one c g found) inp (nm, left) = Ok (nm', left') ->
    Forall (fun sc => sc_hap sc = None) left'.
  Proof.
    intros inp nm left nm' left' Hi F H.
    refine (proj2 (add_missing_fold_inv (fun _ => True) (fun sc => sc_hap sc = None) c g found inp _
                     nm left nm' left' I F H)).
    intros nm0 name rows nm1 tag Iin _ _ EM _. split; [exact I|]. cbn [sc_hap].
    assert (Sub : forall f, In f (frags_of (missing_rows c found g rows [] 0 None)) -> no_hap_frag f).
    { intros f If. rewrite RemapTail.missing_rows_frags in If. apply filter_In in If as [If _].
      exact (Hi name rows f Iin If). }
    apply (msn_no_hap _ _ _ _ _) with (3 := EM).
    + intros t It. cbn [eff_tags] in It. destruct (in_fragment_tags _ _ It) as (f & If & Itf).
      exact (proj2 (Sub f If) t Itf).
    + intros fn Fr. unfold first_row_name in Fr.
      destruct (missing_rows c found g rows [] 0 None) as [|[f|gp] t]; try discriminate. injection Fr as <-.
      exact (proj1 (Sub f (or_introl eq_refl))).
  Qed.
End NoHap.

Theorem no_haplotypes_fused : forall c g prefix bpt input pretext rs fused,
  no_haplotypes input -> no_haplotypes pretext ->
  remap_to_input c g prefix bpt input pretext = Ok rs -> fuse_all c g rs = Ok fused ->
  Forall (fun sc => sc_hap sc = None) fused.
Proof.
  intros c g prefix bpt input pretext rs fused NHi NHp H HF.
  destruct (RemapHead.remap_to_input_stages _ _ _ _ _ _ _ H)
    as (_ & b1 & b2 & b3 & st & [nm' left] & E1 & E2 & E3 & E4 & E5 & ->).
  pose proof (number_input_no_hap input 0 NHi) as NHn.
  assert (O1 : HNone b1).
  { apply (foldM_inv_In _ HNone) with (3 := E1); [|split; [reflexivity | constructor]].
    intros b0 [pname prows] bx Ip HO E.
    exact (one_pretext_scaffold_no_hap (number_input input 0) pretext NHp _ _ _ _ _ Ip HO E). }
  pose proof (StoreInv.kept_map o_hap _ _
    (proj1 (StoreInv.store_kept o_hap (fun _ _ _ _ => eq_refl) (fun _ _ => eq_refl) _ _ _ _ _ _ _ _ E2 E3 E4))) as M.
  pose proof (Forall_map_eq o_hap (fun h => h = None) (b_store b1) st M (proj2 O1)) as F4.
  pose proof (leftovers_no_hap c g _ _ _ _ _ _ NHn (Forall_nil _) E5) as FL.
  apply (fuse_all_labs (fun l => hap_of_labs l = None) c g _ fused) with (3 := HF).
  - cbn [rs_b with_namer with_store b_store]. exact F4.
  - cbn [rs_left]. exact FL.
Qed.

(* without haplotypes the two haplotype conditions hold trivially *)
Lemma no_hap_conditions l : Forall (fun sc => sc_hap sc = None) l -> Forall labels_normal l ->
  no_tag_hap_clash l /\ tagged_same_hap l.
Proof.
  intros F LN. rewrite Forall_forall in F. split.
  - intros s1 s2 I1 I2 T1 T2 E. rewrite (F s2 I2) in E. rewrite <- E in T1. discriminate.
  - intros s1 s2 I1 I2 _ _ _. rewrite (F s1 I1), (F s2 I2). reflexivity.
Qed.

(* every hypothesis on the input and the map *)
Theorem names_nodup_no_haplotypes : forall g prefix bpt input pretext o,
  remap repaired g prefix bpt input pretext = Ok o ->
  input_namespace_ok prefix input pretext ->
  (length (filter painted_b pretext) <= 191)%nat ->
  no_haplotypes input -> no_haplotypes pretext ->
  forall a, In a (out_asms o) -> NoDup (map sc_name (oa_scaffolds a)).
Proof.
  intros g prefix bpt input pretext o H INS B NHi NHp.
  apply (names_nodup_after_renaming _ _ _ _ _ _ H). intros rs fused0 R F.
  destruct (remap_to_input_labels prefix input pretext INS _ _ _ _ R) as [FR FL].
  destruct (PL_namespace prefix pretext fused0 (fuse_all_PL _ _ _ _ _ _ FR FL F) B) as [LN NS].
  destruct (no_hap_conditions fused0 (no_haplotypes_fused _ _ _ _ _ _ _ _ NHi NHp R F) LN) as [NC TS].
  auto.
Qed.

Definition is_CHap (c : tcls) : bool := match c with CHap => true | _ => false end.
Definition no_hap_frag_b (f : frag) : bool :=
  match haplotype_prefix_of_name (f_name f) with None => true | Some _ => false end
  && forallb (fun t => negb (is_CHap (cls t))) (f_tags f).
Definition no_haplotypes_b (l : list (str * list row)) : bool :=
  forallb (fun p : str * list row => forallb no_hap_frag_b (frags_of (snd p))) l.

Lemma no_haplotypes_b_sound l : no_haplotypes_b l = true -> no_haplotypes l.
Proof.
  intros H name rows f I If. unfold no_haplotypes_b in H. rewrite forallb_forall in H.
  specialize (H _ I). cbn [snd] in H. rewrite forallb_forall in H. specialize (H f If).
  unfold no_hap_frag_b in H. apply andb_prop in H as [A B]. split.
  - destruct (haplotype_prefix_of_name (f_name f)); [discriminate | reflexivity].
  - intros t It C. rewrite forallb_forall in B. specialize (B t It). rewrite C in B. discriminate.
Qed.

(* non-vacuity: every hypothesis of names_nodup_no_haplotypes holds for nv_input and nv_pretext *)
Example unique_names_example_no_haplotypes : forall o,
  remap repaired ex_gap (s "SUPER_") (10, 1) nv_input nv_pretext = Ok o ->
  forall a, In a (out_asms o) -> NoDup (map sc_name (oa_scaffolds a)).
Proof.
  intros o H. apply (names_nodup_no_haplotypes _ _ _ _ _ _ H nv_namespace_ok nv_painted_bound).
  - apply no_haplotypes_b_sound. vm_compute. reflexivity.
  - apply no_haplotypes_b_sound. vm_compute. reflexivity.
Qed.

Print Assumptions fuse_keys_nodup_cfg.
Print Assumptions fuse_keys_nodup.
Print Assumptions fuse_keys_nodup_legacy.
Print Assumptions same_name_in_assembly_cases.
Print Assumptions asm_distinct_before_renaming.
Print Assumptions grouping_spec.
Print Assumptions assembly_names_nodup_before_renaming.
Print Assumptions assembly_duplicate_is_collision.
Print Assumptions item2_needs_labels_normal.
Print Assumptions item2_needs_no_tag_hap_clash.
Print Assumptions duplicate_names_in_contaminants.
Print Assumptions duplicate_names_in_contaminants_chrX.
Print Assumptions duplicate_names_in_contaminants_primary_switch.
Print Assumptions duplicate_names_by_tag_haplotype_clash.
Print Assumptions duplicate_input_named_like_chromosome.
Print Assumptions input_named_like_pretext_scaffold_is_fused.
Print Assumptions duplicate_chr_tag_1A.
Print Assumptions duplicate_prefix_inside_tag.
Print Assumptions name_chromosomes_as_ops.
Print Assumptions renaming_keeps_distinct.
Print Assumptions names_nodup_after_renaming_tail.
Print Assumptions names_nodup_after_renaming.
Print Assumptions names_nodup_checked.
Print Assumptions unique_names_example.
Print Assumptions unique_names_example_by_theorem.
Print Assumptions hyps_fail_on_duplicates.
Print Assumptions remap_to_input_labels.
Print Assumptions names_nodup_observable.
Print Assumptions unique_names_example_observable.
Print Assumptions no_haplotypes_fused.
Print Assumptions names_nodup_no_haplotypes.
Print Assumptions unique_names_example_no_haplotypes.
