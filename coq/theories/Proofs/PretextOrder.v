(* C02, the Pretext-order clause and the layout of the output: every output
   scaffold is the join -- with the join gap between consecutive pieces -- of
   the pieces that carry its key, IN THE ORDER OF THE PRETEXT FILE: first the
   results of the baits in the order in which the map lists them (Pretext
   scaffolds in file order, baits in row order; a bait whose result came out
   empty contributes nothing), each as [to_scaffold_rows] presents it, then
   the left-over scaffolds as [rs_left] lists them. *)
From Tola Require Import Py.Base Model.Fragment Model.Scaffold
  Model.OverlapResult Model.Namer Model.Remap
  Proofs.BaseLemmas Proofs.Lookup Proofs.OverlapResult Proofs.RemapHead Proofs.JoinGaps
  Proofs.PipelineInv Proofs.CoreKept.
From Coq Require Import Lia ZifyBool Permutation.

(* sub-sequence: l1 is obtained from l2 by deleting elements *)
Inductive subseq {A} : list A -> list A -> Prop :=
| ss_nil : subseq [] []
| ss_skip x l1 l2 : subseq l1 l2 -> subseq l1 (x :: l2)
| ss_keep x l1 l2 : subseq l1 l2 -> subseq (x :: l1) (x :: l2).

Definition pretext_order_statement : Prop :=
  forall g prefix bpt input pretext rs fused,
  remap_to_input repaired g prefix bpt input pretext = Ok rs ->
  fuse_all repaired g rs = Ok fused ->
  exists results,
    (* the results that take part, in store order ... *)
    mapM (get_ovr (b_store (rs_b rs))) (b_added (rs_b rs)) = Ok results
    (* ... whose baits are a sub-sequence of the baits of the map in FILE ORDER *)
    /\ subseq (map o_bait results) (baits_of pretext)
    (* every fused scaffold = join, in that order, of the pieces carrying its key *)
    /\ let pieces := map piece_of_result results ++ map (fun sc => (sc, false)) (rs_left rs) in
       forall b, In b fused ->
         sc_rows b = join_rows g (map (fun p => sc_rows (fst p))
                                      (filter (fun p => match sc_rows (fst p) with
                                                        | [] => false
                                                        | _ => fuse_key_eqb (piece_key repaired (fst p))
                                                                            (piece_key repaired b)
                                                        end) pieces)).

From Tola Require Proofs.Routing.
From Tola Require Import Proofs.CoreKeptGood Proofs.CoreKeptResolver Proofs.CoreKeptLookup.

Lemma subseq_nil_l {A} : forall l : list A, subseq [] l.
Proof. induction l as [|x l IH]; [apply ss_nil | apply ss_skip; exact IH]. Qed.

Lemma subseq_refl {A} : forall l : list A, subseq l l.
Proof. induction l as [|x l IH]; [apply ss_nil | apply ss_keep; exact IH]. Qed.

Lemma subseq_app {A} : forall (a b c d : list A),
  subseq a b -> subseq c d -> subseq (a ++ c) (b ++ d).
Proof.
  intros a b c d Hab Hcd. induction Hab as [|x l1 l2 Hs IH|x l1 l2 Hs IH]; cbn [app].
  - exact Hcd.
  - apply ss_skip. exact IH.
  - apply ss_keep. exact IH.
Qed.

Lemma subseq_trans {A} : forall (a b c : list A), subseq a b -> subseq b c -> subseq a c.
Proof.
  intros a b c Hab Hbc. revert a Hab.
  induction Hbc as [|x l1 l2 Hs IH|x l1 l2 Hs IH]; intros a Hab.
  - exact Hab.
  - apply ss_skip. apply IH. exact Hab.
  - inversion Hab as [|y m1 m2 Hm|y m1 m2 Hm]; subst.
    + apply ss_skip. apply IH. exact Hm.
    + apply ss_keep. apply IH. exact Hm.
Qed.

Lemma subseq_map {A B} (g : A -> B) : forall l1 l2, subseq l1 l2 -> subseq (map g l1) (map g l2).
Proof.
  intros l1 l2 H. induction H as [|x l1 l2 Hs IH|x l1 l2 Hs IH]; cbn [map].
  - apply ss_nil.
  - apply ss_skip. exact IH.
  - apply ss_keep. exact IH.
Qed.

(* a sub-sequence keeps the relative order: a split of the short list is a
   split of the long one *)
Lemma subseq_split {A} : forall (l1 l2 : list A), subseq l1 l2 ->
  forall p x q, l1 = p ++ x :: q ->
  exists p' q', l2 = p' ++ x :: q' /\ subseq p p' /\ subseq q q'.
Proof.
  intros l1 l2 H. induction H as [|y l1 l2 Hs IH|y l1 l2 Hs IH]; intros p x q E.
  - destruct p; discriminate.
  - destruct (IH p x q E) as (p' & q' & -> & H1 & H2).
    exists (y :: p'), q'. split; [reflexivity|]. split; [apply ss_skip; exact H1 | exact H2].
  - destruct p as [|z p]; cbn [app] in E.
    + injection E as -> ->. exists [], l2. split; [reflexivity|]. split; [apply ss_nil | exact Hs].
    + injection E as -> ->. destruct (IH p x q eq_refl) as (p' & q' & -> & H1 & H2).
      exists (z :: p'), q'. split; [reflexivity|]. split; [apply ss_keep; exact H1 | exact H2].
Qed.

Fixpoint asc (lo hi : Z) (l : list Z) : Prop :=
  match l with [] => True | x :: t => lo <= x < hi /\ asc (x + 1) hi t end.

Lemma asc_weaken lo lo' hi hi' : forall l, lo' <= lo -> hi <= hi' -> asc lo hi l -> asc lo' hi' l.
Proof.
  intros l. revert lo lo'. induction l as [|x t IH]; intros lo lo' Hlo Hhi H; cbn [asc] in *; [exact I|].
  destruct H as [Hx Ht]. split; [lia|]. apply (IH (x + 1) (x + 1)); [lia | exact Hhi | exact Ht].
Qed.

Lemma asc_snoc hi : forall l lo, lo <= hi -> asc lo hi l -> asc lo (hi + 1) (l ++ [hi]).
Proof.
  induction l as [|x t IH]; intros lo Hlo H; cbn [asc app] in *.
  - split; [lia | exact I].
  - destruct H as [Hx Ht]. split; [lia|]. apply IH; [lia | exact Ht].
Qed.

Lemma asc_lower lo hi : forall l, asc lo hi l -> Forall (fun x => lo <= x) l.
Proof.
  intros l. revert lo. induction l as [|x t IH]; intros lo H; cbn [asc] in H; constructor.
  - lia.
  - destruct H as [Hx Ht]. eapply Forall_impl; [|apply (IH (x + 1)); exact Ht].
    cbv beta. intros a Ha. lia.
Qed.

Lemma subseq_skipn_nth {A} : forall (l : list A) n m x, (m <= n)%nat -> nth_error l n = Some x ->
  subseq (x :: skipn (S n) l) (skipn m l).
Proof.
  induction l as [|a l IH]; intros n m x Hmn Hn; [destruct n; discriminate|].
  destruct n as [|n], m as [|m]; cbn [nth_error skipn] in *; try lia.
  - injection Hn as ->. apply subseq_refl.
  - apply ss_skip. exact (IH n 0%nat x (Nat.le_0_l n) Hn).
  - apply IH; [lia | exact Hn].
Qed.

(* ascending ids from lo on select a sub-sequence of the store from lo on *)
Lemma asc_subseq_from store hi : forall ids lo rs,
  0 <= lo -> asc lo hi ids -> mapM (get_ovr store) ids = Ok rs ->
  subseq rs (skipn (Z.to_nat lo) store).
Proof.
  induction ids as [|x t IH]; intros lo rs Hlo Ha H; cbn [mapM] in H.
  - injection H as <-. apply subseq_nil_l.
  - bind_inv H r Hr. bind_inv H rs' Hrs. injection H as <-.
    cbn [asc] in Ha. destruct Ha as [Hx Ht]. apply get_ovr_nth in Hr.
    eapply subseq_trans; [|apply (subseq_skipn_nth store (Z.to_nat x) (Z.to_nat lo) r); [lia | exact Hr]].
    apply ss_keep. replace (S (Z.to_nat x)) with (Z.to_nat (x + 1)) by lia.
    apply (IH (x + 1)); [lia | exact Ht | exact Hrs].
Qed.

Lemma asc_results_subseq store ids rs hi :
  asc 0 hi ids -> mapM (get_ovr store) ids = Ok rs -> subseq rs store.
Proof. intros Ha H. exact (asc_subseq_from store hi ids 0 rs (Z.le_refl 0) Ha H). Qed.

Definition SBo (b : bstate) : list frag := map o_bait (b_store b).
Definition OKA (b : bstate) : Prop := asc 0 (zlen (b_store b)) (b_added b).

Lemma one_bait_order inp err tags orig b bait b' :
  one_bait inp err tags orig b bait = Ok b' -> OKA b ->
  exists ext, SBo b' = SBo b ++ ext /\ subseq ext [bait] /\ OKA b'.
Proof.
  intros H HA. destruct (one_bait_spec _ _ _ _ _ _ _ H)
    as (rows & _ & [[_ ->] | (fo & nm & lab & r1 & _ & _ & Hr1 & Hst & _ & _ & Hcase)]).
  - exists []. rewrite app_nil_r. split; [reflexivity|]. split; [apply subseq_nil_l | exact HA].
  - pose proof (kept_trim_large o_bait (fun _ _ _ _ => eq_refl) _ _ _ Hr1) as B1.
    unfold kept in B1. cbn [set_labels ovr_of_found o_bait] in B1.
    exists [bait]. unfold SBo, OKA in *. rewrite Hst, map_app, zlen_snoc. cbn [map]. rewrite B1.
    split; [reflexivity|]. split; [apply subseq_refl|].
    destruct Hcase as [(_ & -> & _) | (_ & -> & _)].
    + eapply asc_weaken; [| |exact HA]; lia.
    + apply asc_snoc; [apply zlen_nonneg | exact HA].
Qed.

Lemma baits_fold_order inp err tags orig : forall l b b',
  foldM (one_bait inp err tags orig) l b = Ok b' -> OKA b ->
  exists ext, SBo b' = SBo b ++ ext /\ subseq ext l /\ OKA b'.
Proof.
  induction l as [|bait l IH]; intros b b' H HA; cbn [foldM] in H.
  - injection H as <-. exists []. rewrite app_nil_r. split; [reflexivity|]. split; [apply ss_nil | exact HA].
  - bind_inv H b1 Hb1.
    destruct (one_bait_order _ _ _ _ _ _ _ Hb1 HA) as (e1 & E1 & S1 & A1).
    destruct (IH _ _ H A1) as (e2 & E2 & S2 & A2).
    exists (e1 ++ e2). rewrite E2, E1, <- app_assoc. split; [reflexivity|].
    split; [|exact A2]. change (bait :: l) with ([bait] ++ l). apply subseq_app; assumption.
Qed.

Lemma map_eq_zlen {A B} (g : A -> B) (l l' : list A) : map g l = map g l' -> zlen l = zlen l'.
Proof.
  intros E. unfold zlen. f_equal. rewrite <- (map_length g l), <- (map_length g l'), E. reflexivity.
Qed.

Lemma one_pretext_order inp err b psc b' :
  one_pretext_scaffold inp err b psc = Ok b' -> OKA b ->
  exists ext, SBo b' = SBo b ++ ext /\ subseq ext (frags_of (snd psc)) /\ OKA b'.
Proof.
  intros H HA. destruct psc as [pname prows]. cbn [snd].
  destruct (one_pretext_spec _ _ _ _ _ _ H) as (nm & b1 & st & Hnm & Hb1 & Hst & ->).
  assert (HA0 : OKA (with_namer b nm)) by exact HA.
  destruct (baits_fold_order _ _ _ _ _ _ _ Hb1 HA0) as (ext & E & S & A1).
  pose proof (rename_results_baits _ _ _ Hst) as HB.
  exists ext. unfold SBo, OKA in *. cbn [with_store with_namer b_store b_added] in *.
  rewrite HB. split; [exact E|]. split; [exact S|].
  rewrite (map_eq_zlen _ _ _ HB). exact A1.
Qed.

Lemma pretext_fold_order inp err : forall pretext b b',
  foldM (one_pretext_scaffold inp err) pretext b = Ok b' -> OKA b ->
  exists ext, SBo b' = SBo b ++ ext /\ subseq ext (baits_of pretext) /\ OKA b'.
Proof.
  induction pretext as [|psc pretext IH]; intros b b' H HA; cbn [foldM] in H.
  - injection H as <-. exists []. rewrite app_nil_r. split; [reflexivity|]. split; [apply ss_nil | exact HA].
  - bind_inv H b1 Hb1.
    destruct (one_pretext_order _ _ _ _ _ Hb1 HA) as (e1 & E1 & S1 & A1).
    destruct (IH _ _ H A1) as (e2 & E2 & S2 & A2).
    exists (e1 ++ e2). rewrite E2, E1, <- app_assoc. split; [reflexivity|].
    split; [|exact A2]. unfold baits_of. cbn [flat_map]. apply subseq_app; assumption.
Qed.

(* all stages: the final store has the baits of the store after the lookups,
   a sub-sequence of the baits of the map, and b_added is ascending *)
Lemma remap_order c g prefix bpt input pretext rs :
  remap_to_input c g prefix bpt input pretext = Ok rs ->
  subseq (SBo (rs_b rs)) (baits_of pretext) /\ OKA (rs_b rs).
Proof.
  intros H. destruct (remap_to_input_stages _ _ _ _ _ _ _ H)
    as (_ & b1 & b2 & b3 & st & nl & Hb1 & Hb2 & Hb3 & Hst & _ & ->).
  assert (HA0 : OKA (mkB [] [] [] [] (new_namer prefix) 0)) by exact I.
  destruct (pretext_fold_order _ _ _ _ _ Hb1 HA0) as (ext & E1 & S1 & A1).
  cbn [SBo b_store map app] in E1.
  destruct (discard_loop_kept o_bait (fun _ _ _ _ => eq_refl) _ _ _ _ Hb2) as (E2 & D2 & _).
  destruct (cut_remaining_kept o_bait (fun _ _ _ _ => eq_refl) _ _ _ Hb3) as (E3 & D3 & _).
  pose proof (rename_results_baits _ _ _ Hst) as E4.
  unfold SBo, OKA in *. cbn [rs_b with_namer with_store b_store b_added].
  assert (EB : map o_bait st = map o_bait (b_store b1)) by congruence.
  split.
  - rewrite EB. unfold SBo in E1. rewrite E1. exact S1.
  - rewrite (map_eq_zlen _ _ _ EB), D3, D2. exact A1.
Qed.

Lemma aset_fst_In {K V} (keqb : K -> K -> bool) : forall (d : list (K * V)) k v x,
  In x (map fst (aset keqb d k v)) -> x = k \/ In x (map fst d).
Proof.
  induction d as [|[k0 v0] d IH]; intros k v x H; cbn [aset] in H.
  - cbn [map fst In] in H. destruct H as [H | []]. left. symmetry. exact H.
  - destruct (keqb k k0) eqn:E; cbn [map fst In] in *.
    + right. exact H.
    + destruct H as [H | H]; [right; left; exact H|].
      destruct (IH _ _ _ H) as [H1 | H1]; [left; exact H1 | right; right; exact H1].
Qed.

Lemma aset_fst_nodup {K V} (keqb : K -> K -> bool) :
  (forall a b, keqb a b = true <-> a = b) ->
  forall (d : list (K * V)) k v, NoDup (map fst d) -> NoDup (map fst (aset keqb d k v)).
Proof.
  intros Heq. induction d as [|[k0 v0] d IH]; intros k v Hnd; cbn [aset].
  - cbn [map fst]. constructor; [intros []|constructor].
  - cbn [map fst] in Hnd. inversion Hnd as [|? ? Hn Hnd']; subst.
    destruct (keqb k k0) eqn:E; cbn [map fst].
    + constructor; assumption.
    + constructor; [|apply IH; exact Hnd'].
      intros Hin. apply aset_fst_In in Hin. destruct Hin as [Hin | Hin]; [|contradiction].
      subst k0. assert (E' : keqb k k = true) by (apply Heq; reflexivity). congruence.
Qed.

Lemma fuse_step_nodup c g acc p :
  NoDup (map fst acc) -> NoDup (map fst (fuse_step c g acc p)).
Proof.
  intros H. destruct p as [sc isr]. unfold fuse_step.
  destruct (sc_rows sc) as [|r0 rows0]; [exact H|].
  apply (aset_fst_nodup fuse_key_eqb JoinGaps.fuse_key_eqb_eq). exact H.
Qed.

Lemma fuse_fold_nodup c g : forall pieces acc,
  NoDup (map fst acc) -> NoDup (map fst (fold_left (fuse_step c g) pieces acc)).
Proof.
  induction pieces as [|p t IH]; intros acc H; cbn [fold_left]; [exact H|].
  apply IH. apply fuse_step_nodup. exact H.
Qed.

Lemma piece_key_repaired sc : piece_key repaired sc = Routing.key_of_piece sc.
Proof. reflexivity. Qed.

(* a scaffold of the fused list is stored under its own key *)
Lemma fused_In_aget g pieces b :
  In b (map snd (fold_left (fuse_step repaired g) pieces [])) ->
  aget fuse_key_eqb (fold_left (fuse_step repaired g) pieces []) (piece_key repaired b) = Some b.
Proof.
  intros Hin. apply in_map_iff in Hin. destruct Hin as ([k b0] & E & Hin). cbn [snd] in E. subst b0.
  assert (Hnd : NoDup (map fst (fold_left (fuse_step repaired g) pieces [])))
    by (apply fuse_fold_nodup; constructor).
  pose proof (In_aget fuse_key_eqb JoinGaps.fuse_key_eqb_eq _ _ _ Hnd Hin) as Hget.
  pose proof (Routing.fold_fuse_keeps_keys g pieces [] Routing.fused_ok_nil k b Hget) as Hk.
  rewrite piece_key_repaired, Hk. exact Hget.
Qed.

Theorem pretext_order : pretext_order_statement.
Proof.
  intros g prefix bpt input pretext rs fused H HF.
  destruct (remap_order _ _ _ _ _ _ _ H) as [HS HA].
  unfold fuse_all in HF. bind_inv HF results Hres. cbv zeta in HF. injection HF as <-.
  exists results. split; [exact Hres|]. split.
  - eapply subseq_trans; [|exact HS]. unfold SBo. apply subseq_map.
    eapply asc_results_subseq; [exact HA | exact Hres].
  - cbv zeta. intros b Hb. apply fused_In_aget in Hb.
    apply (fuse_fold_is_join g _ _ _ Hb).
Qed.

(* the fusion key of a stored result: tag, haplotype, name *)
Definition result_key (r : ovr) : fuse_key := piece_key repaired (fst (piece_of_result r)).

Lemma result_key_eq r : result_key r = (o_tag r, o_hap r, o_name r).
Proof. reflexivity. Qed.

Lemma mapM_app_inv {A B} (f : A -> res B) : forall a b rs,
  mapM f (a ++ b) = Ok rs -> exists ra rb, rs = ra ++ rb /\ mapM f a = Ok ra /\ mapM f b = Ok rb.
Proof.
  induction a as [|x a IH]; intros b rs H; cbn [app mapM] in H.
  - exists [], rs. split; [reflexivity|]. split; [reflexivity | exact H].
  - bind_inv H y Hy. bind_inv H ys Hys. injection H as <-.
    destruct (IH _ _ Hys) as (ra & rb & -> & Ha & Hb).
    exists (y :: ra), rb. split; [reflexivity|]. split; [|exact Hb].
    cbn [mapM]. rewrite Hy. cbn [bind]. rewrite Ha. reflexivity.
Qed.

Lemma mapM_cons_inv {A B} (f : A -> res B) x t rs :
  mapM f (x :: t) = Ok rs -> exists y ys, rs = y :: ys /\ f x = Ok y /\ mapM f t = Ok ys.
Proof.
  intros H. cbn [mapM] in H. bind_inv H y Hy. bind_inv H ys Hys. injection H as <-.
  exists y, ys. split; [reflexivity|]. split; assumption.
Qed.

Lemma join_rows_app_r g : forall X Y, Y <> [] -> exists pre, join_rows g (X ++ Y) = pre ++ join_rows g Y.
Proof.
  induction X as [|a X IH]; intros Y HY; cbn [app].
  - exists []. reflexivity.
  - destruct (IH Y HY) as (pre & E).
    destruct (X ++ Y) as [|q t] eqn:EXY.
    + exfalso. apply app_eq_nil in EXY. destruct EXY as [_ EY]. contradiction.
    + rewrite join_rows_cons2, E. exists (a ++ RG g :: pre). rewrite <- app_assoc. reflexivity.
Qed.

Lemma join_rows_cons_ne g x T : T <> [] -> join_rows g (x :: T) = x ++ RG g :: join_rows g T.
Proof. intros HT. destruct T as [|q t]; [congruence | reflexivity]. Qed.

Lemma join_rows_cons_hd g x T : exists suf, join_rows g (x :: T) = x ++ suf.
Proof.
  destruct T as [|q t].
  - exists []. cbn [join_rows]. rewrite app_nil_r. reflexivity.
  - exists (RG g :: join_rows g (q :: t)). reflexivity.
Qed.

Lemma join_rows_two g X x Y y Z :
  exists pre mid post, join_rows g (X ++ x :: Y ++ y :: Z) = pre ++ x ++ mid ++ y ++ post.
Proof.
  destruct (join_rows_app_r g X (x :: Y ++ y :: Z)) as (pre & E1); [discriminate|].
  assert (HT : Y ++ y :: Z <> []) by (destruct Y; discriminate).
  destruct (join_rows_app_r g Y (y :: Z)) as (pre2 & E2); [discriminate|].
  destruct (join_rows_cons_hd g y Z) as (suf & E3).
  exists pre, (RG g :: pre2), suf.
  rewrite E1, (join_rows_cons_ne g x _ HT), E2, E3. reflexivity.
Qed.

Lemma join_two_taken {P} g (f : P -> bool) (rw : P -> list row) A x B y C :
  f x = true -> f y = true ->
  exists pre mid post,
    join_rows g (map rw (filter f (A ++ x :: B ++ y :: C))) = pre ++ rw x ++ mid ++ rw y ++ post.
Proof.
  intros Hx Hy.
  rewrite filter_app. cbn [filter]. rewrite Hx. rewrite filter_app. cbn [filter]. rewrite Hy.
  rewrite map_app. cbn [map]. rewrite map_app. cbn [map].
  apply join_rows_two.
Qed.

Lemma takes_result r K : o_rows r <> [] -> result_key r = K -> takes K (piece_of_result r) = true.
Proof.
  intros Hne <-. unfold takes.
  assert (Hn : to_scaffold_rows r <> []) by (rewrite to_scaffold_rows_nil_iff; exact Hne).
  change (sc_rows (fst (piece_of_result r))) with (to_scaffold_rows r).
  destruct (to_scaffold_rows r) as [|x0 t0]; [congruence|]. apply fuse_key_eqb_refl.
Qed.

(* the user-facing form: two results that go to the same output scaffold
   appear there in the order of their baits in the Pretext file *)
Theorem pretext_order_pairs :
  forall g prefix bpt input pretext rs fused l1 id1 l2 id2 l3 r1 r2,
  remap_to_input repaired g prefix bpt input pretext = Ok rs ->
  fuse_all repaired g rs = Ok fused ->
  (* id1 precedes id2 in b_added *)
  b_added (rs_b rs) = l1 ++ id1 :: l2 ++ id2 :: l3 ->
  get_ovr (b_store (rs_b rs)) id1 = Ok r1 ->
  get_ovr (b_store (rs_b rs)) id2 = Ok r2 ->
  o_rows r1 <> [] -> o_rows r2 <> [] ->
  result_key r1 = result_key r2 ->
  exists results b,
    mapM (get_ovr (b_store (rs_b rs))) (b_added (rs_b rs)) = Ok results
    (* the output scaffold with that key ... *)
    /\ In b fused /\ piece_key repaired b = result_key r1
    (* ... presents r1 before r2 *)
    /\ (exists pre mid post,
          sc_rows b = pre ++ to_scaffold_rows r1 ++ mid ++ to_scaffold_rows r2 ++ post)
    (* the bait of r1 precedes the bait of r2 among the baits of the results, at
       the positions of id1 and id2 in b_added ... *)
    /\ (exists p1 p2 p3,
          map o_bait results = p1 ++ o_bait r1 :: p2 ++ o_bait r2 :: p3
          /\ length p1 = length l1 /\ length p2 = length l2)
    (* ... which are a sub-sequence of the baits of the map in file order, so the
       bait of r1 is listed before the bait of r2 in the Pretext file *)
    /\ subseq (map o_bait results) (baits_of pretext)
    /\ (exists q1 q2 q3, baits_of pretext = q1 ++ o_bait r1 :: q2 ++ o_bait r2 :: q3).
Proof.
  intros g prefix bpt input pretext rs fused l1 id1 l2 id2 l3 r1 r2 H HF Hadd Hg1 Hg2 Hn1 Hn2 HK.
  destruct (pretext_order g prefix bpt input pretext rs fused H HF) as (results & Hres & Hsub & Hjoin).
  cbv zeta in Hjoin.
  (* the results split like b_added *)
  pose proof Hres as Hres'. rewrite Hadd in Hres'.
  destruct (mapM_app_inv _ _ _ _ Hres') as (R1 & T1 & ER & HR1 & HT1).
  destruct (mapM_cons_inv _ _ _ _ HT1) as (r1' & T2 & ET1 & Hg1' & HT2).
  destruct (mapM_app_inv _ _ _ _ HT2) as (R2 & T3 & ET2 & HR2 & HT3).
  destruct (mapM_cons_inv _ _ _ _ HT3) as (r2' & R3 & ET3 & Hg2' & HR3).
  assert (E1 : r1' = r1) by congruence. assert (E2 : r2' = r2) by congruence.
  subst r1' r2' T3 T2 T1.
  set (L := map (fun sc => (sc, false)) (rs_left rs)) in *.
  assert (EP : map piece_of_result results ++ L
               = map piece_of_result R1 ++ piece_of_result r1
                 :: map piece_of_result R2 ++ piece_of_result r2 :: (map piece_of_result R3 ++ L)).
  { rewrite ER, map_app. cbn [map]. rewrite map_app. cbn [map].
    rewrite <- app_assoc. cbn [app]. rewrite <- app_assoc. reflexivity. }
  (* the fused scaffold with the key of r1 *)
  pose proof HF as HF'. unfold fuse_all in HF'. rewrite Hres in HF'. cbn [bind] in HF'. cbv zeta in HF'.
  fold L in HF'. injection HF' as HF'.
  assert (Hin1 : In (fst (piece_of_result r1), true) (map piece_of_result results ++ L)).
  { rewrite EP. apply in_or_app. right. left. reflexivity. }
  assert (Hne1 : sc_rows (fst (piece_of_result r1)) <> []).
  { change (to_scaffold_rows r1 <> []). rewrite to_scaffold_rows_nil_iff. exact Hn1. }
  destruct (Routing.routing_gen g _ [] _ _ Routing.fused_ok_nil Hin1 Hne1)
    as (b & _ & _ & Hget & _).
  pose proof (Routing.fold_fuse_keeps_keys g _ [] Routing.fused_ok_nil _ _ Hget) as Hkb.
  assert (Hb : In b fused).
  { rewrite <- HF'. apply (aget_In fuse_key_eqb JoinGaps.fuse_key_eqb_eq) in Hget.
    apply in_map_iff. exists (Routing.key_of_piece (fst (piece_of_result r1)), b).
    split; [reflexivity | exact Hget]. }
  assert (Hkey : piece_key repaired b = result_key r1) by exact Hkb.
  exists results, b. split; [exact Hres|]. split; [exact Hb|]. split; [exact Hkey|].
  split; [|split; [|split; [exact Hsub|]]].
  - specialize (Hjoin b Hb). fold L in Hjoin.
    change (sc_rows b = join_rows g (map (fun p => sc_rows (fst p))
                                         (filter (takes (piece_key repaired b))
                                                 (map piece_of_result results ++ L)))) in Hjoin.
    rewrite EP, Hkey in Hjoin.
    destruct (join_two_taken g (takes (result_key r1)) (fun p => sc_rows (fst p))
                (map piece_of_result R1) (piece_of_result r1)
                (map piece_of_result R2) (piece_of_result r2)
                (map piece_of_result R3 ++ L))
      as (pre & mid & post & EJ).
    + apply takes_result; [exact Hn1 | reflexivity].
    + apply takes_result; [exact Hn2 | symmetry; exact HK].
    + exists pre, mid, post. rewrite Hjoin. exact EJ.
  - exists (map o_bait R1), (map o_bait R2), (map o_bait R3).
    split; [|split].
    + rewrite ER, map_app. cbn [map]. rewrite map_app. reflexivity.
    + rewrite map_length. apply (mapM_length _ _ _ HR1).
    + rewrite map_length. apply (mapM_length _ _ _ HR2).
  - assert (EB : map o_bait results
                 = map o_bait R1 ++ o_bait r1 :: (map o_bait R2 ++ o_bait r2 :: map o_bait R3)).
    { rewrite ER, map_app. cbn [map]. rewrite map_app. reflexivity. }
    destruct (subseq_split _ _ Hsub _ _ _ EB) as (q1 & q' & Eq & _ & Hq').
    destruct (subseq_split _ _ Hq' _ _ _ eq_refl) as (q2 & q3 & Eq' & _ & _).
    exists q1, q2, q3. rewrite Eq, Eq'. reflexivity.
Qed.

(* A concrete run.  The input scaffold_1 is ctg1 (1..100), a gap (101..300),
   ctg2 (301..400).  The map has ONE Pretext scaffold that lists the piece
   301..400 FIRST and the piece 1..100 second.  Both results get the same
   key, so they are fused into one output scaffold; by [pretext_order_pairs]
   the rows of the piece listed first in the map (ctg2, the SECOND in the
   input's coordinate order) come before the rows of the other (ctg1). *)
Definition po_F (nm : string) (id a b st : Z) : row := RF (mkFrag id (list_ascii_of_string nm) a b st []).
Arguments po_F nm%string_scope id a b st.
Definition po_dg : gap := mkGap 200 (s "scaffold").
Definition po_inp : list (str * list row) :=
  [(s "scaffold_1", [po_F "ctg1" (-1) 1 100 1; RG (mkGap 200 (s "scaffold")); po_F "ctg2" (-1) 1 100 1])].
Definition po_ptx : list (str * list row) :=
  [(s "Scaffold_1", [po_F "scaffold_1" (-1) 301 400 1; RG (mkGap 100 (s "scaffold"));
                     po_F "scaffold_1" (-1) 1 100 1])].

Example pretext_order_example :
  exists rs fused ra rb b,
    remap_to_input repaired po_dg (s "SUPER_") (1, 1) po_inp po_ptx = Ok rs
    /\ fuse_all repaired po_dg rs = Ok fused
    /\ b_added (rs_b rs) = [0; 1]
    /\ get_ovr (b_store (rs_b rs)) 0 = Ok ra /\ get_ovr (b_store (rs_b rs)) 1 = Ok rb
    (* ra: looked up at 301..400 = ctg2; rb: looked up at 1..100 = ctg1 *)
    /\ (f_start (o_bait ra), f_end (o_bait ra)) = (301, 400)
    /\ (f_start (o_bait rb), f_end (o_bait rb)) = (1, 100)
    /\ to_scaffold_rows ra = [po_F "ctg2" 2 1 100 1]
    /\ to_scaffold_rows rb = [po_F "ctg1" 0 1 100 1]
    /\ In b fused
    /\ (exists pre mid post,
          sc_rows b = pre ++ to_scaffold_rows ra ++ mid ++ to_scaffold_rows rb ++ post)
    /\ (exists q1 q2 q3, baits_of po_ptx = q1 ++ o_bait ra :: q2 ++ o_bait rb :: q3).
Proof.
  assert (Erun0 : exists rs, remap_to_input repaired po_dg (s "SUPER_") (1, 1) po_inp po_ptx = Ok rs)
    by (vm_compute; eexists; reflexivity).
  destruct Erun0 as (rs & Erun).
  pose proof Erun as Ev. vm_compute in Ev. injection Ev as Ev. subst rs.
  match type of Erun with _ = Ok ?v => set (rs := v) in * end.
  destruct (fuse_all repaired po_dg rs) as [fused|e] eqn:Efuse; [|vm_compute in Efuse; discriminate].
  assert (G1 : exists ra, get_ovr (b_store (rs_b rs)) 0 = Ok ra) by (vm_compute; eexists; reflexivity).
  assert (G2 : exists rb, get_ovr (b_store (rs_b rs)) 1 = Ok rb) by (vm_compute; eexists; reflexivity).
  destruct G1 as (ra & Hga). destruct G2 as (rb & Hgb).
  assert (Hadd : b_added (rs_b rs) = [] ++ 0 :: [] ++ 1 :: []) by reflexivity.
  assert (Fa : Ok ra = get_ovr (b_store (rs_b rs)) 0) by (symmetry; exact Hga).
  assert (Fb : Ok rb = get_ovr (b_store (rs_b rs)) 1) by (symmetry; exact Hgb).
  vm_compute in Fa. vm_compute in Fb. injection Fa as Fa. injection Fb as Fb.
  assert (Hn1 : o_rows ra <> []) by (rewrite Fa; discriminate).
  assert (Hn2 : o_rows rb <> []) by (rewrite Fb; discriminate).
  assert (HK : result_key ra = result_key rb) by (rewrite Fa, Fb; reflexivity).
  destruct (pretext_order_pairs po_dg (s "SUPER_") (1, 1) po_inp po_ptx rs fused
              [] 0 [] 1 [] ra rb Erun Efuse Hadd Hga Hgb Hn1 Hn2 HK)
    as (results & b & _ & Hb & _ & Hrows & _ & _ & Hfile).
  exists rs, fused, ra, rb, b.
  split; [exact Erun|]. split; [exact Efuse|]. split; [reflexivity|].
  split; [exact Hga|]. split; [exact Hgb|].
  split; [rewrite Fa; reflexivity|]. split; [rewrite Fb; reflexivity|].
  split; [rewrite Fa; reflexivity|]. split; [rewrite Fb; reflexivity|].
  split; [exact Hb|]. split; [exact Hrows | exact Hfile].
Qed.

Print Assumptions pretext_order.
Print Assumptions pretext_order_pairs.
Print Assumptions pretext_order_example.
