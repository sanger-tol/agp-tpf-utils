(* Naming of output scaffolds: rename_by_size, the H_n / _unloc_n counters of
   label_scaffold, multi_chr_list, one step of ChrNamer's grouping, ChrNamer
   (name_chromosomes) for a single haplotype, and its numbering loop read as a
   list of renamings (index, original name, chromosome name). *)
From Tola Require Import Py.Base Py.Dec Py.Sort Model.Fragment Model.Scaffold Model.Namer Model.Remap.
From Tola Require Import Proofs.BaseLemmas Proofs.Dec Proofs.Sort Proofs.Routing.
From Coq Require Import Lia ZifyBool Permutation Sorted.

Lemma map_fst_combine {A B} : forall (a : list A) (b : list B),
  length a = length b -> map fst (combine a b) = a.
Proof.
  induction a as [|x a IH]; intros [|y b] H; cbn in *; try reflexivity; try discriminate.
  f_equal. apply IH. lia.
Qed.

Lemma map_snd_combine {A B} : forall (a : list A) (b : list B),
  length a = length b -> map snd (combine a b) = b.
Proof.
  induction a as [|x a IH]; intros [|y b] H; cbn in *; try reflexivity; try discriminate.
  f_equal. apply IH. lia.
Qed.

Lemma Zgeb_trans a b c : (a >=? b) = true -> (b >=? c) = true -> (a >=? c) = true.
Proof. lia. Qed.
Lemma Zgeb_total a b : (a >=? b) = true \/ (b >=? a) = true.
Proof. lia. Qed.

Lemma StronglySorted_weaken {A} (R R' : A -> A -> Prop) :
  (forall a b, R a b -> R' a b) -> forall l, StronglySorted R l -> StronglySorted R' l.
Proof.
  intros H l; induction 1 as [|x l Hs IH Hx]; constructor; [exact IH|].
  eapply Forall_impl; [|exact Hx]. intros; apply H; assumption.
Qed.

Section DescSort.
  Context {A : Type} (key : A -> Z).

  Lemma sort_desc_perm l : Permutation (sort_by_Z_desc key l) l.
  Proof. exact (stable_sort_perm key Z.geb l). Qed.

  Lemma sort_desc_sorted l :
    StronglySorted (fun a b => key a >= key b) (sort_by_Z_desc key l).
  Proof.
    eapply StronglySorted_weaken; [|exact (stable_sort_sorted key Z.geb Zgeb_trans Zgeb_total l)].
    cbv beta. intros a b H. lia.
  Qed.

  Lemma sort_desc_stable z l :
    filter (fun a => key a =? z) (sort_by_Z_desc key l) = filter (fun a => key a =? z) l.
  Proof.
    apply (stable_sort_filter key Z.geb (fun a => key a =? z)).
    intros x y Hx Hy. lia.
  Qed.
End DescSort.

Theorem rename_by_size_spec : forall (A : Type) (ids : list A) (name_of : A -> str) (length_of : A -> Z),
  let r := rename_by_size ids name_of length_of in
  map snd r = map name_of ids
  /\ Permutation (map fst r) ids
  /\ StronglySorted (fun a b => length_of a >= length_of b) (map fst r)
  /\ (forall z, filter (fun a => length_of a =? z) (map fst r) = filter (fun a => length_of a =? z) ids).
Proof.
  intros A ids name_of length_of r. subst r. unfold rename_by_size.
  assert (L : length (sort_by_Z_desc length_of ids) = length (map name_of ids)).
  { rewrite map_length. apply Permutation_length, sort_desc_perm. }
  rewrite (map_snd_combine _ _ L), (map_fst_combine _ _ L).
  split; [reflexivity|]. split; [apply sort_desc_perm|].
  split; [apply sort_desc_sorted|]. intro z. apply sort_desc_stable.
Qed.

Corollary rename_by_size_length : forall (A : Type) (ids : list A) name_of length_of,
  length (rename_by_size ids name_of length_of) = length ids.
Proof.
  intros. unfold rename_by_size. rewrite combine_length, map_length.
  rewrite (Permutation_length (sort_desc_perm length_of ids)). lia.
Qed.

Theorem haplotig_names_sequential : forall nm id ft st nm' l,
  label_scaffold nm id ft st = Ok (nm', l) -> mem_str (s "FalseDuplicate") ft = false -> mem_str (s "Haplotig") ft = true ->
  nm_hap_n nm' = nm_hap_n nm + 1 /\ lb_name l = s "H_" ++ str_of_Z (nm_hap_n nm + 1)
  /\ nm_hap_scaffolds nm' = nm_hap_scaffolds nm ++ [id].
Proof.
  intros nm id ft st nm' l H Hfd Hh.
  destruct (label_scaffold_inv _ _ _ _ _ _ H); try congruence. repeat split.
Qed.

Theorem unloc_names_sequential : forall nm id ft st nm' l n0,
  label_scaffold nm id ft st = Ok (nm', l) -> mem_str (s "FalseDuplicate") ft = false -> mem_str (s "Haplotig") ft = false ->
  mem_str (s "Unloc") ft = true -> nm_cur_name nm = Some n0 ->
  nm_unloc_n nm' = nm_unloc_n nm + 1 /\ lb_name l = n0 ++ s "_unloc_" ++ str_of_Z (nm_unloc_n nm + 1)
  /\ nm_unloc_scaffolds nm' = nm_unloc_scaffolds nm ++ [id].
Proof.
  intros nm id ft st nm' l n0 H Hfd Hh Hu Hn.
  destruct (label_scaffold_inv _ _ _ _ _ _ H); try congruence. unfold cur_name. rewrite Hn. repeat split.
Qed.

Theorem other_labels_keep_counters : forall nm id ft st nm' l,
  label_scaffold nm id ft st = Ok (nm', l) ->
  (mem_str (s "FalseDuplicate") ft = true \/ (mem_str (s "Haplotig") ft = false /\ mem_str (s "Unloc") ft = false)) -> nm' = nm.
Proof.
  intros nm id ft st nm' l H C.
  destruct (label_scaffold_inv _ _ _ _ _ _ H); try reflexivity; destruct C as [C|[C1 C2]]; congruence.
Qed.

Lemma unloc_label_ok_iff : forall nm id ft st,
  mem_str (s "FalseDuplicate") ft = false -> mem_str (s "Haplotig") ft = false ->
  mem_str (s "Unloc") ft = true ->
  (exists r, label_scaffold nm id ft st = Ok r) <-> mem_str (s "Painted") st = true.
Proof.
  intros nm id ft st Hfd Hh Hu. unfold label_scaffold. rewrite Hfd, Hh, Hu.
  destruct (mem_str (s "Painted") st); cbn [negb]; split; intro H;
    try reflexivity; try (destruct H; discriminate); try discriminate.
  eexists; reflexivity.
Qed.

Lemma nth_error_seq a : forall n k, (k < n)%nat -> nth_error (seq a n) k = Some (a + k)%nat.
Proof.
  intros n; revert a. induction n as [|n IH]; intros a k H; [lia|].
  destruct k as [|k]; cbn [seq nth_error]; [f_equal; lia|].
  rewrite IH by lia. f_equal; lia.
Qed.

Theorem multi_chr_list_spec : forall name n, length (multi_chr_list name n) = n
  /\ (n = 1%nat -> multi_chr_list name n = [name])
  /\ (n <> 1%nat -> forall k, (k < n)%nat -> nth_error (multi_chr_list name n) k = Some (name ++ [ascii_of_N (65 + N.of_nat k)])).
Proof.
  intros name n.
  assert (E : n <> 1%nat ->
              multi_chr_list name n = map (fun k => name ++ [ascii_of_N (65 + N.of_nat k)]) (seq 0 n)).
  { intro H. destruct n as [|[|n]]; [reflexivity | congruence | reflexivity]. }
  split; [|split].
  - destruct (Nat.eq_dec n 1) as [->|H]; [reflexivity|].
    rewrite (E H), map_length, seq_length. reflexivity.
  - intros ->. reflexivity.
  - intros H k Hk. rewrite (E H).
    erewrite map_nth_error; [reflexivity|]. rewrite nth_error_seq by exact Hk. reflexivity.
Qed.

Theorem groups_sorted_desc : forall fused haps (groups : list chr_group),
  StronglySorted (fun a b => group_length fused haps a >= group_length fused haps b)
                 (sort_by_Z_desc (group_length fused haps) groups)
  /\ Permutation (sort_by_Z_desc (group_length fused haps) groups) groups.
Proof.
  intros. split; [apply sort_desc_sorted | apply sort_desc_perm].
Qed.

Theorem groups_sorted_stable : forall fused haps (groups : list chr_group) z,
  filter (fun g => group_length fused haps g =? z) (sort_by_Z_desc (group_length fused haps) groups)
  = filter (fun g => group_length fused haps g =? z) groups.
Proof. intros. apply sort_desc_stable. Qed.

Lemma skipn_app_ge {A} (a b : list A) k : skipn (length a + k) (a ++ b) = skipn k b.
Proof. induction a as [|x a IH]; cbn [length app skipn Nat.add]; [reflexivity | exact IH]. Qed.

(* general form: only occurrences inside the suffix matter *)
Theorem replace_prefix_gen : forall old new sfx, old <> [] ->
  (forall j, (j < length sfx)%nat -> starts_with old (skipn j sfx) = false) ->
  replace old new (old ++ sfx) None = new ++ sfx.
Proof.
  intros old new sfx Hne H. unfold replace. destruct old as [|c old'] eqn:E; [congruence|]. rewrite <- E in *.
  rewrite replace_fuel_prefix by (assumption || discriminate). f_equal.
  apply replace_fuel_no_occurrence. exact H.
Qed.

Theorem replace_prefix : forall old new sfx, old <> [] ->
  (forall k, (0 < k)%nat -> (k < length (old ++ sfx))%nat -> starts_with old (skipn k (old ++ sfx)) = false) ->
  replace old new (old ++ sfx) None = new ++ sfx.
Proof.
  intros old new sfx Hne H. apply replace_prefix_gen; [exact Hne|].
  intros j Hj. rewrite <- (skipn_app_ge old sfx j). apply H.
  - destruct old; [congruence | cbn [length]; lia].
  - rewrite app_length. lia.
Qed.

(* a sufficient condition that is easy to check: the first character of
   [old] does not occur in the suffix *)
Lemma starts_with_head_absent c old' x :
  forallb (fun d => negb (Ascii.eqb c d)) x = true -> forall j, starts_with (c :: old') (skipn j x) = false.
Proof.
  revert x. intros x; induction x as [|d x IH]; intros H j.
  - destruct j; reflexivity.
  - cbn [forallb] in H. apply andb_prop in H as [Hd Hx].
    destruct j as [|j]; cbn [skipn]; [|apply IH; exact Hx].
    cbn [starts_with]. destruct (Ascii.eqb c d); [discriminate | reflexivity].
Qed.

Theorem replace_prefix_head : forall c old' new sfx,
  forallb (fun d => negb (Ascii.eqb c d)) sfx = true ->
  replace (c :: old') new ((c :: old') ++ sfx) None = new ++ sfx.
Proof.
  intros. apply replace_prefix_gen; [discriminate|].
  intros j _. apply starts_with_head_absent. assumption.
Qed.

Corollary replace_whole : forall old new, old <> [] -> replace old new old None = new.
Proof.
  intros old new H. rewrite <- (app_nil_r old) at 2. rewrite replace_prefix_gen; [apply app_nil_r | exact H |].
  intros j Hj. cbn in Hj. lia.
Qed.

(* old = <letter-initial name>, suffix = "_unloc_" ++ str(m) *)
Corollary replace_prefix_unloc : forall c old' new m,
  is_alpha c = true -> c <> "u"%char -> c <> "n"%char -> c <> "l"%char -> c <> "o"%char -> c <> "c"%char ->
  0 <= m ->
  replace (c :: old') new ((c :: old') ++ s "_unloc_" ++ str_of_Z m) None = new ++ s "_unloc_" ++ str_of_Z m.
Proof.
  intros c old' new m Ha Hu Hn Hl Ho Hc Hm. apply replace_prefix_head.
  rewrite forallb_app. apply andb_true_intro. split.
  - cbn [s list_ascii_of_string forallb].
    repeat match goal with
    | |- context [Ascii.eqb c ?d] =>
        let E := fresh in destruct (Ascii.eqb c d) eqn:E;
        [apply Ascii.eqb_eq in E; subst c; try congruence; try discriminate Ha|]
    end. reflexivity.
  - destruct (str_of_Z_digits m Hm) as [_ D].
    rewrite forallb_forall in *. intros d Hd. specialize (D d Hd).
    destruct (Ascii.eqb c d) eqn:E; [|reflexivity]. apply Ascii.eqb_eq in E. subst d.
    exfalso. unfold is_alpha, is_upper, is_lower, is_digit in *. lia.
Qed.

Example replace_ex1 :
  replace (s "Scaffold_10") (s "SUPER_9A") (s "Scaffold_10_unloc_2") None = s "SUPER_9A_unloc_2".
Proof. vm_compute. reflexivity. Qed.
Example replace_ex2 :
  replace (s "Scaffold_10") (s "SUPER_9A") (s "Scaffold_10") None = s "SUPER_9A".
Proof. vm_compute. reflexivity. Qed.
(* why a side condition is needed: Python's replace is not anchored at the front *)
Example replace_ex3 :
  replace (s "Scaffold_1") (s "SUPER_2") (s "Scaffold_1_Scaffold_1") None = s "SUPER_2_SUPER_2".
Proof. vm_compute. reflexivity. Qed.
(* and the name need not start with the original name: Scaffold_1 inside Scaffold_10 *)
Example replace_ex4 :
  replace (s "Scaffold_1") (s "SUPER_2") (s "Scaffold_10") None = s "SUPER_20".
Proof. vm_compute. reflexivity. Qed.

Lemma set_last_group_snoc gs g g' : set_last_group (gs ++ [g]) g' = gs ++ [g'].
Proof.
  unfold set_last_group. destruct (gs ++ [g]) eqn:E; [destruct gs; discriminate|].
  rewrite <- E, removelast_last. reflexivity.
Qed.

(* the test of build_groups that opens a new ChrGroup: "Do we already have a
   scaffold in this haplotype in the ChrGroup?" (build_utils.py), and if so,
   does this scaffold belong to the next chromosome *)
Definition need_new_group (fused : list scaffold) (multi_hap : bool) (cur : chr_group) (hap orig : str)
           (last_hap last_orig : option str) : bool :=
  match group_hap cur hap with
  | [] => false
  | _ =>
      if multi_hap then
        if negb (opt_eqb str_eqb (Some hap) last_hap) then true
        else
          negb (opt_eqb str_eqb (Some orig) last_orig)
          && (match last_orig with
              | Some lo =>
                  match aget str_eqb (group_hap cur hap) lo with
                  | Some (j :: _) =>
                      match nth_error fused j with
                      | Some sj => mem_str (s "Singleton") (sc_orig_tags sj)
                      | None => false
                      end
                  | _ => false
                  end
              | None => false
              end)
      else negb (opt_eqb str_eqb (Some orig) last_orig)
  end.

(* one step of build_groups on a scaffold with an original name: it joins the
   last group, or a new group opened behind it *)
Lemma build_groups_step_eq fused haps multi_hap init cur lh lo hap i sc orig :
  nth_error fused i = Some sc -> sc_orig sc = Some orig -> orig <> [] ->
  build_groups_step fused haps multi_hap (mkCg (init ++ [cur]) lh lo) (hap, i)
  = Ok (mkCg (if need_new_group fused multi_hap cur hap orig lh lo
              then (init ++ [cur]) ++ [group_add (new_group haps) hap orig i]
              else init ++ [group_add cur hap orig i])
             (Some hap) (Some orig)).
Proof.
  intros Hn Ho Hne. unfold build_groups_step. rewrite Hn, Ho.
  destruct orig as [|c o]; [congruence|]. cbn [cg_groups cg_last_hap cg_last_orig].
  rewrite last_opt_snoc. cbv beta iota zeta. fold (need_new_group fused multi_hap cur hap (c :: o) lh lo).
  destruct (need_new_group fused multi_hap cur hap (c :: o) lh lo).
  - rewrite last_opt_snoc, set_last_group_snoc. reflexivity.
  - rewrite last_opt_snoc, set_last_group_snoc. reflexivity.
Qed.

Definition has_orig (fused : list scaffold) (it : str * nat) : Prop :=
  exists sc o, nth_error fused (snd it) = Some sc /\ sc_orig sc = Some o /\ o <> [].

Section SingleHap.
  Variable fused : list scaffold.
  Variable h : str.

  (* a group of a single-haplotype run: one original name, its indices *)
  Definition one_group (o : str) (idxs : list nat) : chr_group := [(h, [(o, idxs)])].
  Definition good_group (g : chr_group) : Prop := exists o idxs, g = one_group o idxs /\ idxs <> [].
  Definition gidx (g : chr_group) : list nat := flat_map snd (group_hap g h).

  Lemma group_hap_single d : group_hap [(h, d)] h = d.
  Proof. unfold group_hap. cbn [aget]. rewrite str_eqb_refl. reflexivity. Qed.

  Lemma group_add_single d o i :
    group_add [(h, d)] h o i
    = [(h, aset str_eqb d o ((match aget str_eqb d o with Some l => l | None => [] end) ++ [i]))].
  Proof. unfold group_add. rewrite group_hap_single. cbn [aset]. rewrite str_eqb_refl. reflexivity. Qed.

  Lemma gidx_one o idxs : gidx (one_group o idxs) = idxs.
  Proof. unfold gidx, one_group. rewrite group_hap_single. cbn [flat_map snd]. apply app_nil_r. Qed.

  Definition inv (st : cg_state) : Prop :=
    exists gs o idxs, cg_groups st = gs ++ [one_group o idxs] /\ idxs <> []
                      /\ cg_last_orig st = Some o /\ Forall good_group gs.

  Lemma inv_all_good st : inv st -> Forall good_group (cg_groups st).
  Proof.
    intros (gs & o & idxs & -> & Hne & _ & Hgs). apply Forall_app. split; [exact Hgs|].
    constructor; [|constructor]. exists o, idxs. split; [reflexivity | exact Hne].
  Qed.

  Lemma need_new_single d o lh lo :
    need_new_group fused false [(h, d)] h o lh lo
    = match d with [] => false | _ => negb (opt_eqb str_eqb (Some o) lo) end.
  Proof. unfold need_new_group. rewrite group_hap_single. reflexivity. Qed.

  Lemma step_first i sc o' : nth_error fused i = Some sc -> sc_orig sc = Some o' -> o' <> [] ->
    exists st', build_groups_step fused [h] false (mkCg [new_group [h]] None None) (h, i) = Ok st'
                /\ inv st' /\ flat_map gidx (cg_groups st') = [i].
  Proof.
    intros Hn Ho Hne. change [new_group [h]] with ([] ++ [[(h, @nil (str * list nat))]]).
    rewrite (build_groups_step_eq _ _ _ _ _ _ _ _ _ _ _ Hn Ho Hne), need_new_single, group_add_single.
    cbn [aget aset app]. fold (one_group o' [i]).
    eexists. split; [reflexivity|]. cbn [cg_groups]. split.
    - exists [], o', [i]. repeat split; [discriminate | constructor].
    - cbn [flat_map]. rewrite gidx_one. reflexivity.
  Qed.

  Lemma step_inv st i sc o' : inv st -> nth_error fused i = Some sc -> sc_orig sc = Some o' -> o' <> [] ->
    exists st', build_groups_step fused [h] false st (h, i) = Ok st'
                /\ inv st' /\ flat_map gidx (cg_groups st') = flat_map gidx (cg_groups st) ++ [i].
  Proof.
    intros (gs & o & idxs & Eg & Hidx & Elo & Hgs) Hn Ho Hne.
    destruct st as [groups lh lo]. cbn [cg_groups cg_last_orig] in *. subst groups lo.
    unfold one_group at 1.
    rewrite (build_groups_step_eq _ _ _ _ _ _ _ _ _ _ _ Hn Ho Hne), need_new_single. cbn [opt_eqb].
    eexists. split; [reflexivity|]. cbn [cg_groups].
    destruct (str_eqb o' o) eqn:E; cbn [negb].
    - apply str_eqb_eq in E. subst o'. rewrite group_add_single. cbn [aget aset].
      rewrite str_eqb_refl. fold (one_group o (idxs ++ [i])). split.
      + exists gs, o, (idxs ++ [i]). repeat split; [destruct idxs; discriminate | exact Hgs].
      + rewrite !flat_map_app. cbn [flat_map]. rewrite !gidx_one, !app_nil_r, app_assoc. reflexivity.
    - cbn [new_group map]. rewrite group_add_single. cbn [aget aset app]. fold (one_group o' [i]). split.
      + exists (gs ++ [one_group o idxs]), o', [i]. repeat split; [discriminate|].
        apply Forall_app. split; [exact Hgs|]. constructor; [|constructor].
        exists o, idxs. split; [reflexivity | exact Hidx].
      + rewrite (flat_map_app _ (gs ++ [one_group o idxs])). cbn [flat_map].
        rewrite gidx_one, app_nil_r. reflexivity.
  Qed.

  Lemma fold_inv : forall items st, inv st ->
    Forall (fun it => fst it = h) items -> Forall (has_orig fused) items ->
    exists st', foldM (build_groups_step fused [h] false) items st = Ok st'
                /\ inv st' /\ flat_map gidx (cg_groups st') = flat_map gidx (cg_groups st) ++ map snd items.
  Proof.
    induction items as [|[h' i] items IH]; intros st Hinv Hh Ho.
    - exists st. cbn [foldM map]. rewrite app_nil_r. repeat split. exact Hinv.
    - inversion Hh as [|? ? Hh1 Hh2]; subst. inversion Ho as [|? ? Ho1 Ho2]; subst.
      cbn [fst] in Hh1. subst h'. destruct Ho1 as (sc & o & Hn & Hor & Hne). cbn [snd] in Hn.
      destruct (step_inv st i sc o Hinv Hn Hor Hne) as (st1 & E1 & Hinv1 & F1).
      destruct (IH st1 Hinv1 Hh2 Ho2) as (st2 & E2 & Hinv2 & F2).
      exists st2. cbn [foldM]. rewrite E1. cbn [bind]. split; [exact E2|]. split; [exact Hinv2|].
      rewrite F2, F1. cbn [map snd]. rewrite <- app_assoc. reflexivity.
  Qed.

  Lemma fold_from_start : forall items, items <> [] ->
    Forall (fun it => fst it = h) items -> Forall (has_orig fused) items ->
    exists st', foldM (build_groups_step fused [h] false) items (mkCg [new_group [h]] None None) = Ok st'
                /\ inv st' /\ flat_map gidx (cg_groups st') = map snd items.
  Proof.
    intros [|[h' i] items] Hne Hh Ho; [congruence|].
    inversion Hh as [|? ? Hh1 Hh2]; subst. inversion Ho as [|? ? Ho1 Ho2]; subst.
    cbn [fst] in Hh1. subst h'. destruct Ho1 as (sc & o & Hn & Hor & Hne'). cbn [snd] in Hn.
    destruct (step_first i sc o Hn Hor Hne') as (st1 & E1 & Hinv1 & F1).
    destruct (fold_inv items st1 Hinv1 Hh2 Ho2) as (st2 & E2 & Hinv2 & F2).
    exists st2. cbn [foldM]. rewrite E1. cbn [bind]. split; [exact E2|]. split; [exact Hinv2|].
    rewrite F2, F1. reflexivity.
  Qed.

  Lemma good_not_bad g : good_group g -> group_bad [h] g = false.
  Proof. intros (o & idxs & -> & _). unfold group_bad, one_group. rewrite group_hap_single. reflexivity. Qed.

  Lemma good_groups_not_bad gs : Forall good_group gs -> existsb (group_bad [h]) gs = false.
  Proof.
    intro G. destruct (existsb (group_bad [h]) gs) eqn:B; [|reflexivity].
    apply existsb_exists in B as (g & Hg & Hb). rewrite Forall_forall in G.
    rewrite (good_not_bad g (G g Hg)) in Hb. discriminate.
  Qed.
End SingleHap.

(* No assumption that equal original names are consecutive is needed: going
   back to an earlier original name just opens a new group. *)
Theorem single_hap_groups : forall fused h items st,
  Forall (fun it => fst it = h) items -> items <> [] ->
  Forall (fun it => exists sc o, nth_error fused (snd it) = Some sc /\ sc_orig sc = Some o /\ o <> []) items ->
  foldM (build_groups_step fused [h] false) items (mkCg [new_group [h]] None None) = Ok st ->
  Forall (fun g => exists o idxs, group_hap g h = [(o, idxs)] /\ idxs <> []) (cg_groups st)
  /\ flat_map (fun g => flat_map snd (group_hap g h)) (cg_groups st) = map snd items
  /\ existsb (group_bad [h]) (cg_groups st) = false.
Proof.
  intros fused h items st Hh Hne Ho E.
  destruct (fold_from_start fused h items Hne Hh Ho) as (st' & E' & Hinv & F).
  rewrite E in E'. injection E' as <-. pose proof (inv_all_good h st Hinv) as G.
  split; [|split].
  - eapply Forall_impl; [|exact G]. intros g (o & idxs & -> & Hi). exists o, idxs.
    unfold one_group. rewrite group_hap_single. split; [reflexivity | exact Hi].
  - exact F.
  - exact (good_groups_not_bad h _ G).
Qed.

Definition same_but_name (a b : scaffold) : Prop :=
  sc_rows b = sc_rows a /\ sc_tag b = sc_tag a /\ sc_hap b = sc_hap a /\ sc_rank b = sc_rank a
  /\ sc_orig b = sc_orig a /\ sc_orig_tags b = sc_orig_tags a.

(* fs' is fs with some names changed, and only at positions listed in T *)
Definition upd_ok (T : list nat) (fs fs' : list scaffold) : Prop :=
  Forall2 same_but_name fs fs' /\ forall i, ~ In i T -> nth_error fs' i = nth_error fs i.

Lemma same_but_name_refl a : same_but_name a a.
Proof. repeat split. Qed.

Lemma same_but_name_trans a b c : same_but_name a b -> same_but_name b c -> same_but_name a c.
Proof. unfold same_but_name. intros (?&?&?&?&?&?) (?&?&?&?&?&?). repeat split; congruence. Qed.

Lemma Forall2_sbn_refl fs : Forall2 same_but_name fs fs.
Proof. induction fs; constructor; [apply same_but_name_refl | assumption]. Qed.

Lemma Forall2_sbn_trans : forall a b c,
  Forall2 same_but_name a b -> Forall2 same_but_name b c -> Forall2 same_but_name a c.
Proof.
  intros a b c H; revert c. induction H as [|x y a b Hxy Hab IH]; intros c Hc; inversion Hc; subst; constructor.
  - eapply same_but_name_trans; eassumption.
  - apply IH. assumption.
Qed.

Lemma Forall2_nth_error {A B} (R : A -> B -> Prop) : forall a b, Forall2 R a b ->
  forall i x, nth_error a i = Some x -> exists y, nth_error b i = Some y /\ R x y.
Proof.
  induction 1 as [|x y a b Hxy Hab IH]; intros [|i] z Hz; cbn [nth_error] in *; try discriminate.
  - injection Hz as <-. exists y. split; [reflexivity | exact Hxy].
  - apply IH. exact Hz.
Qed.

Lemma upd_ok_refl T fs : upd_ok T fs fs.
Proof. split; [apply Forall2_sbn_refl | reflexivity]. Qed.

Lemma upd_ok_trans T1 T2 a b c : upd_ok T1 a b -> upd_ok T2 b c -> upd_ok (T1 ++ T2) a c.
Proof.
  intros [F1 N1] [F2 N2]. split; [eapply Forall2_sbn_trans; eassumption|].
  intros i Hi. rewrite N2, N1; [reflexivity | |]; intro; apply Hi, in_or_app; tauto.
Qed.

Lemma upd_ok_incl T T' a b : incl T T' -> upd_ok T a b -> upd_ok T' a b.
Proof. intros Hi [F N]. split; [exact F|]. intros i H. apply N. intro; apply H, Hi; assumption. Qed.

Lemma set_nth_upd_ok : forall fs i sc n, nth_error fs i = Some sc ->
  upd_ok [i] fs (set_nth fs i (with_name sc n)).
Proof.
  induction fs as [|x fs IH]; intros [|i] sc n H; cbn [nth_error] in H; try discriminate.
  - injection H as ->. cbn [set_nth]. split.
    + constructor; [repeat split | apply Forall2_sbn_refl].
    + intros [|j] Hj; [exfalso; apply Hj; left; reflexivity | reflexivity].
  - cbn [set_nth]. destruct (IH i sc n H) as [F N]. split.
    + constructor; [apply same_but_name_refl | exact F].
    + intros [|j] Hj; [reflexivity|]. cbn [nth_error]. apply N.
      intros [E|[]]. apply Hj. left. congruence.
Qed.

Lemma fold_upd_ok {X} (f : list scaffold -> X -> list scaffold) (T : X -> list nat) :
  (forall fs x, upd_ok (T x) fs (f fs x)) ->
  forall l fs, upd_ok (flat_map T l) fs (fold_left f l fs).
Proof.
  intros H. induction l as [|x l IH]; intro fs; cbn [flat_map fold_left]; [apply upd_ok_refl|].
  eapply upd_ok_trans; [apply H | apply IH].
Qed.

(* all the indices stored in a group *)
Definition gall (g : chr_group) : list nat := flat_map (fun p => flat_map snd (snd p)) g.

Lemma name_group_upd_ok prefix n fs g : upd_ok (gall g) fs (name_group prefix n fs g).
Proof.
  unfold name_group, gall. apply fold_upd_ok. clear fs g. intros fs [hap hap_set]. cbn [snd].
  set (names := multi_chr_list _ _). clearbody names.
  eapply upd_ok_incl;
    [| apply (fold_upd_ok _ (fun p : (str * list nat) * str => snd (fst p))) ].
  - intros i Hi. apply in_flat_map in Hi as (p & Hp & Hi). apply in_flat_map.
    destruct p as [[o idxs] nm]. exists (o, idxs). split; [eapply in_combine_l; exact Hp | exact Hi].
  - clear fs. intros fs [[orig idxs] this_chr]. cbn [fst snd].
    eapply upd_ok_incl; [| apply (fold_upd_ok _ (fun i : nat => [i])) ].
    + intros i Hi. apply in_flat_map in Hi as (j & Hj & [<-|[]]). exact Hj.
    + clear fs. intros fs i. destruct (nth_error fs i) as [sc|] eqn:E.
      * apply set_nth_upd_ok. exact E.
      * apply upd_ok_refl.
Qed.

Lemma name_groups_upd_ok prefix : forall gs fs n,
  upd_ok (flat_map gall gs) fs
         (fst (fold_left (fun '(fs, n) g => (name_group prefix n fs g, n + 1)) gs (fs, n))).
Proof.
  induction gs as [|g gs IH]; intros fs n; cbn [flat_map fold_left fst]; [apply upd_ok_refl|].
  eapply upd_ok_trans; [apply name_group_upd_ok | apply IH].
Qed.

Lemma dedup_acc_all_seen h : forall l, Forall (fun x => x = h) l -> dedup_acc str_eqb [h] l = [].
Proof.
  induction 1 as [|x l -> _ IH]; cbn [dedup_acc existsb]; [reflexivity|].
  rewrite str_eqb_refl. exact IH.
Qed.

Lemma dedup_all_same h : forall l, l <> [] -> Forall (fun x => x = h) l -> dedup str_eqb l = [h].
Proof.
  intros [|x l] Hne H; [congruence|]. inversion H as [|? ? H1 H2]; subst.
  unfold dedup. cbn [dedup_acc existsb]. f_equal. apply dedup_acc_all_seen. exact H2.
Qed.

Theorem name_chromosomes_single_total : forall prefix fused h items,
  Forall (fun it => fst it = h) items ->
  Forall (fun it => exists sc o, nth_error fused (snd it) = Some sc /\ sc_orig sc = Some o /\ o <> []) items ->
  exists fused', name_chromosomes prefix fused items = Ok fused'
    /\ length fused' = length fused
    /\ (forall i sc, nth_error fused i = Some sc -> exists sc', nth_error fused' i = Some sc'
          /\ sc_rows sc' = sc_rows sc /\ sc_tag sc' = sc_tag sc /\ sc_hap sc' = sc_hap sc /\ sc_rank sc' = sc_rank sc /\ sc_orig sc' = sc_orig sc)
    /\ (forall i, ~ In i (map snd items) -> nth_error fused' i = nth_error fused i).
Proof.
  intros prefix fused h items Hh Ho.
  assert (K : exists fused', name_chromosomes prefix fused items = Ok fused'
                             /\ upd_ok (map snd items) fused fused').
  { destruct items as [|it items'].
    - exists fused. split; [reflexivity | apply upd_ok_refl].
    - assert (Hne : it :: items' <> []) by discriminate.
      set (items := it :: items') in *. clearbody items.
      unfold name_chromosomes.
      assert (D : dedup str_eqb (map fst items) = [h]).
      { apply dedup_all_same; [destruct items; [congruence | discriminate]|].
        apply Forall_map. exact Hh. }
      rewrite D. change (1 <? zlen [h]) with false.
      destruct (fold_from_start fused h items Hne Hh Ho) as (st & E & Hinv & F).
      rewrite E. cbn [bind].
      pose proof (inv_all_good h st Hinv) as G.
      rewrite (good_groups_not_bad h _ G). eexists. split; [reflexivity|].
      eapply upd_ok_incl; [|apply name_groups_upd_ok].
      intros i Hi. apply in_flat_map in Hi as (g & Hg & Hi).
      apply (Permutation_in _ (sort_desc_perm _ _)) in Hg.
      rewrite <- F. apply in_flat_map. exists g. split; [exact Hg|].
      rewrite Forall_forall in G. destruct (G g Hg) as (o & idxs & -> & _).
      rewrite gidx_one. unfold gall, one_group in Hi. cbn [flat_map snd] in Hi.
      rewrite !app_nil_r in Hi. exact Hi. }
  destruct K as (fused' & E & F & N). exists fused'. split; [exact E|].
  split; [symmetry; eapply Forall2_length; exact F|]. split; [|exact N].
  intros i sc Hi. destruct (Forall2_nth_error _ _ _ F i sc Hi) as (sc' & Hs & R).
  exists sc'. split; [exact Hs|]. destruct R as (?&?&?&?&?&?). repeat split; assumption.
Qed.

(* the number handed to each group is its 1-based position in the size-sorted
   list; [a] is the offset of [seq], left free for the induction *)
Lemma name_groups_numbered prefix : forall gs fs n a,
  fold_left (fun '(fs, n) g => (name_group prefix n fs g, n + 1)) gs (fs, n)
  = (fold_left (fun fs '(k, g) => name_group prefix (n - Z.of_nat a + Z.of_nat k) fs g)
               (combine (seq a (length gs)) gs) fs,
     n + Z.of_nat (length gs)).
Proof.
  induction gs as [|g gs IH]; intros fs n a; cbn [fold_left length seq combine].
  - f_equal. lia.
  - rewrite (IH _ (n + 1) (S a)).
    replace (n - Z.of_nat a + Z.of_nat a) with n by lia.
    replace (n + 1 - Z.of_nat (S a)) with (n - Z.of_nat a) by lia.
    f_equal. lia.
Qed.

Theorem name_chromosomes_numbering : forall prefix fused haps (groups : list chr_group),
  let sorted := sort_by_Z_desc (group_length fused haps) groups in
  fst (fold_left (fun '(fs, n) g => (name_group prefix n fs g, n + 1)) sorted (fused, 1))
  = fold_left (fun fs '(k, g) => name_group prefix (Z.of_nat k + 1) fs g)
              (combine (seq 0 (length sorted)) sorted) fused.
Proof.
  intros. rewrite (name_groups_numbered prefix sorted fused 1 0). cbn [fst].
  (* the two step functions agree *)
  assert (E : forall k, 1 - Z.of_nat 0 + Z.of_nat k = Z.of_nat k + 1) by (intro; lia).
  generalize (combine (seq 0 (length sorted)) sorted) as l. intro l. clear -E. revert fused.
  induction l as [|[k g] l IH]; intro fs; cbn [fold_left]; [reflexivity|].
  rewrite E. apply IH.
Qed.

Lemma nth_error_set_nth_same {A} : forall (l : list A) i x y,
  nth_error l i = Some y -> nth_error (set_nth l i x) i = Some x.
Proof.
  induction l as [|z l IH]; intros [|i] x y H; cbn [nth_error set_nth] in *; try discriminate; [reflexivity|].
  eapply IH; exact H.
Qed.

(* name_group and the numbering loop of name_chromosomes as a list of renamings
   (index, original name, chromosome name) *)
Definition rop := (nat * str * str)%type.
Definition rop_idx (p : rop) : nat := fst (fst p).

Definition apply_rop (fs : list scaffold) (p : rop) : list scaffold :=
  match nth_error fs (fst (fst p)) with
  | Some sc => set_nth fs (fst (fst p)) (with_name sc (replace (snd (fst p)) (snd p) (sc_name sc) None))
  | None => fs
  end.

Definition hapset_ops (names : list str) (d : list (str * list nat)) : list rop :=
  flat_map (fun p : (str * list nat) * str => map (fun i => (i, fst (fst p), snd p)) (snd (fst p)))
           (combine d names).
Definition group_ops (prefix : str) (n : Z) (g : chr_group) : list rop :=
  flat_map (fun hd : str * list (str * list nat) =>
              hapset_ops (multi_chr_list (prefix ++ str_of_Z n) (length (snd hd))) (snd hd)) g.

Lemma fold_left_flat_map {A B S} (f : S -> B -> S) (F : A -> list B) : forall l a,
  fold_left f (flat_map F l) a = fold_left (fun a x => fold_left f (F x) a) l a.
Proof. induction l as [|x l IH]; intro a; cbn [flat_map fold_left]; [reflexivity|]. rewrite fold_left_app. apply IH. Qed.

Lemma fold_left_map {A B S} (f : S -> B -> S) (g : A -> B) : forall l a,
  fold_left f (map g l) a = fold_left (fun a x => f a (g x)) l a.
Proof. induction l as [|x l IH]; intro a; cbn [map fold_left]; [reflexivity | apply IH]. Qed.

Lemma fold_left_ext' {A S} (f g : S -> A -> S) : (forall a x, f a x = g a x) ->
  forall l a, fold_left f l a = fold_left g l a.
Proof. intros H l. induction l as [|x l IH]; intro a; cbn [fold_left]; [reflexivity|]. rewrite H. apply IH. Qed.

Lemma name_group_as_ops prefix n fs g : name_group prefix n fs g = fold_left apply_rop (group_ops prefix n g) fs.
Proof.
  unfold name_group, group_ops. rewrite fold_left_flat_map. apply fold_left_ext'.
  intros fs1 [h d]. cbn [snd]. unfold hapset_ops. rewrite fold_left_flat_map. apply fold_left_ext'.
  intros fs2 [[orig idxs] c]. cbn [fst snd]. rewrite fold_left_map. apply fold_left_ext'.
  intros fs3 i. reflexivity.
Qed.

Definition all_ops (prefix : str) (sorted : list chr_group) : list rop :=
  flat_map (fun kg : nat * chr_group => group_ops prefix (Z.of_nat (fst kg) + 1) (snd kg))
           (combine (seq 0 (length sorted)) sorted).

Lemma name_groups_as_ops prefix fused sorted :
  fst (fold_left (fun '(fs, n) g => (name_group prefix n fs g, n + 1)) sorted (fused, 1))
  = fold_left apply_rop (all_ops prefix sorted) fused.
Proof.
  rewrite (name_groups_numbered prefix sorted fused 1 0). cbn [fst].
  unfold all_ops. rewrite fold_left_flat_map. apply fold_left_ext'.
  intros fs [k g]. cbn [fst snd]. rewrite name_group_as_ops. f_equal. f_equal. lia.
Qed.

Lemma apply_op_upd_ok fs p : upd_ok [rop_idx p] fs (apply_rop fs p).
Proof.
  unfold apply_rop, rop_idx. destruct (nth_error fs (fst (fst p))) eqn:E;
    [apply set_nth_upd_ok; exact E | apply upd_ok_refl].
Qed.

Lemma apply_ops_upd_ok ops fs : upd_ok (map rop_idx ops) fs (fold_left apply_rop ops fs).
Proof.
  eapply upd_ok_incl; [|apply (fold_upd_ok apply_rop (fun p => [rop_idx p]) apply_op_upd_ok)].
  intros i I. apply in_flat_map in I as (p & Ip & [<-|[]]). apply in_map. exact Ip.
Qed.

Lemma apply_ops_at : forall ops fs p sc, NoDup (map rop_idx ops) -> In p ops ->
  nth_error fs (rop_idx p) = Some sc ->
  nth_error (fold_left apply_rop ops fs) (rop_idx p)
  = Some (with_name sc (replace (snd (fst p)) (snd p) (sc_name sc) None)).
Proof.
  induction ops as [|q ops IH]; intros fs p sc N I Hn; [destruct I|].
  cbn [map] in N. inversion N as [|? ? N1 N2]; subst. cbn [fold_left].
  destruct I as [->|I].
  - destruct (apply_ops_upd_ok ops (apply_rop fs p)) as [_ U]. rewrite (U _ N1).
    unfold apply_rop. fold (rop_idx p). rewrite Hn. eapply nth_error_set_nth_same; exact Hn.
  - apply IH; [exact N2 | exact I|].
    destruct (apply_op_upd_ok fs q) as [_ U]. rewrite U; [exact Hn|].
    intros [E|[]]. apply N1. rewrite E. apply in_map. exact I.
Qed.

(* A member of group number n whose current name is <orig><sfx> is renamed
   <prefix><n><sfx>, provided <orig> does not occur inside <sfx>. *)
Theorem name_group_single_effect : forall prefix n fs h o idxs i sc sfx,
  NoDup idxs -> In i idxs -> nth_error fs i = Some sc ->
  o <> [] -> sc_name sc = o ++ sfx ->
  (forall j, (j < length sfx)%nat -> starts_with o (skipn j sfx) = false) ->
  nth_error (name_group prefix n fs [(h, [(o, idxs)])]) i
  = Some (with_name sc (prefix ++ str_of_Z n ++ sfx)).
Proof.
  intros prefix n fs h o idxs i sc sfx Hnd Hin Hn Ho Hname Hocc.
  rewrite name_group_as_ops.
  assert (E : group_ops prefix n [(h, [(o, idxs)])] = map (fun j => (j, o, prefix ++ str_of_Z n)) idxs).
  { unfold group_ops, hapset_ops. cbn. rewrite !app_nil_r. reflexivity. }
  rewrite E, (apply_ops_at _ fs (i, o, prefix ++ str_of_Z n) sc); cbn [rop_idx fst snd].
  - rewrite Hname, (replace_prefix_gen o _ sfx Ho Hocc), <- app_assoc. reflexivity.
  - rewrite map_map. cbn. rewrite map_id. exact Hnd.
  - apply (in_map (fun j => (j, o, prefix ++ str_of_Z n))). exact Hin.
  - exact Hn.
Qed.

Definition ex_frag (name : str) (len : Z) : row := RF (mkFrag 0 name 1 len 1 []).
Definition ex_fused : list scaffold :=
  [ mkScaffold (s "Scaffold_1") [ex_frag (s "ctg1") 100] None None 1 (Some (s "Scaffold_1")) [s "Painted"];
    mkScaffold (s "Scaffold_2") [ex_frag (s "ctg2") 500] None None 1 (Some (s "Scaffold_2")) [s "Painted"];
    mkScaffold (s "Scaffold_2_unloc_1") [ex_frag (s "ctg3") 50] None None 1 (Some (s "Scaffold_2")) [s "Painted"; s "Unloc"] ].
Definition ex_items : list (str * nat) := [(s "None", 0%nat); (s "None", 1%nat); (s "None", 2%nat)].

(* Scaffold_2 with its unloc (500 + 50 bp) is bigger than Scaffold_1 (100 bp):
   it becomes SUPER_1 although it comes second *)
Example name_chromosomes_ex :
  match name_chromosomes (s "SUPER_") ex_fused ex_items with
  | Ok fs => map sc_name fs
  | Err _ => []
  end = [s "SUPER_2"; s "SUPER_1"; s "SUPER_1_unloc_1"].
Proof. vm_compute. reflexivity. Qed.

(* the hypotheses of name_chromosomes_single_total / single_hap_groups hold here *)
Example ex_items_ok :
  Forall (fun it => fst it = s "None") ex_items
  /\ Forall (fun it => exists sc o, nth_error ex_fused (snd it) = Some sc /\ sc_orig sc = Some o /\ o <> []) ex_items.
Proof.
  split; repeat constructor; cbn [snd ex_fused nth_error]; eexists; eexists;
    (split; [reflexivity | split; [reflexivity | discriminate]]).
Qed.

(* going back to an earlier original name opens a new group (no error, three groups) *)
Example back_to_earlier_name :
  let fused := [ mkScaffold (s "a") [ex_frag (s "c1") 10] None None 1 (Some (s "a")) [];
                 mkScaffold (s "b") [ex_frag (s "c2") 30] None None 1 (Some (s "b")) [];
                 mkScaffold (s "a") [ex_frag (s "c3") 20] None None 1 (Some (s "a")) [] ] in
  match name_chromosomes (s "S") fused [(s "h", 0%nat); (s "h", 1%nat); (s "h", 2%nat)] with
  | Ok fs => map sc_name fs
  | Err _ => []
  end = [s "S3"; s "S1"; s "S2"].
Proof. vm_compute. reflexivity. Qed.

(* rename_by_size: H_1, H_2, H_3 handed out again by non-increasing length, ties in input order *)
Example rename_by_size_ex :
  map (fun p => (fst (fst p), snd p))
      (rename_by_size [(1, (s "H_1", 10)); (2, (s "H_2", 30)); (3, (s "H_3", 30)); (4, (s "H_4", 5))]
                      (fun p => fst (snd p)) (fun p => snd (snd p)))
  = [(2, s "H_1"); (3, s "H_2"); (1, s "H_3"); (4, s "H_4")].
Proof. vm_compute. reflexivity. Qed.

Example label_scaffold_ex :
  let nm := mkNamer (s "SUPER_") (Some (s "Scaffold_7")) 1 None 4 [10; 11] None false 2 [20; 21] [] in
  (match label_scaffold nm 30 [s "Haplotig"] [s "Painted"] with Ok (nm', l) => (lb_name l, nm_hap_scaffolds nm') | Err _ => ([], []) end,
   match label_scaffold nm 31 [s "Unloc"] [s "Painted"] with Ok (nm', l) => (lb_name l, nm_unloc_scaffolds nm') | Err _ => ([], []) end)
  = ((s "H_5", [10; 11; 30]), (s "Scaffold_7_unloc_3", [20; 21; 31])).
Proof. vm_compute. reflexivity. Qed.

Print Assumptions rename_by_size_spec.
Print Assumptions haplotig_names_sequential.
Print Assumptions unloc_names_sequential.
Print Assumptions other_labels_keep_counters.
Print Assumptions multi_chr_list_spec.
Print Assumptions single_hap_groups.
Print Assumptions name_chromosomes_single_total.
Print Assumptions groups_sorted_desc.
Print Assumptions groups_sorted_stable.
Print Assumptions name_chromosomes_numbering.
Print Assumptions replace_prefix.
Print Assumptions replace_prefix_gen.
Print Assumptions replace_prefix_unloc.
Print Assumptions name_group_single_effect.
Print Assumptions name_chromosomes_ex.
