(* C02, first clause: "for every edit script PretextView can produce remapping
   completes without error".  Maps that TILE every scaffold they show:
   the baits naming one input scaffold, in ascending order, cover 1..E without
   hole or overlap, E within one texel of the scaffold length, and -- when the
   scaffold is shown in more than one piece -- every piece at least two texels
   long; any order, orientation and grouping of the pieces into Pretext
   scaffolds; any subset of scaffolds absent. *)
From Tola Require Import Py.Base Py.Sort Model.Fragment Model.Scaffold Model.Lookup
  Model.OverlapResult Model.Namer Model.Remap Model.RemapSpec
  Proofs.BaseLemmas Proofs.Rows Proofs.OverlapResult Proofs.RemapHead Proofs.PipelineInv
  Proofs.CoreKept.
From Coq Require Import Lia ZifyBool Permutation.

Fixpoint tiling (bs : list frag) (from E : Z) : Prop :=
  match bs with
  | [] => False
  | [b] => f_start b = from /\ f_end b = E /\ from <= E
  | b :: t => f_start b = from /\ from <= f_end b /\ tiling t (f_end b + 1) E
  end.

Definition scaffold_tiled (n d : Z) (baits : list frag) (isc : str * list row) : Prop :=
  let mine := filter (fun b => str_eqb (f_name b) (fst isc)) baits in
  mine = []
  \/ exists sorted E, Permutation mine sorted /\ tiling sorted 1 E
       /\ d * Z.abs (E - rows_len (snd isc)) < n
       /\ (length sorted = 1%nat \/ Forall (fun b => 2 * n <= d * f_len b) sorted).

(* input scaffolds: rows, every row >= 1 bp, first and last row a contig,
   contigs well formed *)
Definition input_ok (isc : str * list row) : Prop :=
  snd isc <> [] /\ pos_rows (snd isc)
  /\ (exists f t, snd isc = RF f :: t) /\ (exists f t, snd isc = t ++ [RF f])
  /\ Forall (fun f => (f_strand f = 1 \/ f_strand f = -1 \/ f_strand f = 0) /\ f_start f <= f_end f)
            (frags_of (snd isc)).

Definition completion_statement : Prop :=
  forall g prefix n d input pretext,
  0 < d -> d <= n ->                                   (* texel size n/d >= 1 bp *)
  Forall input_ok input ->
  NoDup (map fst input) ->
  NoDup (map key_of (in_frags input)) ->
  (* every Pretext scaffold begins with a bait; baits are untagged, on strand +-1 and name an input scaffold *)
  Forall (fun p => exists b t, snd p = RF b :: t) pretext ->
  Forall (fun b => f_tags b = [] /\ (f_strand b = 1 \/ f_strand b = -1)
                   /\ In (f_name b) (map fst input)) (baits_of pretext) ->
  Forall (scaffold_tiled n d (baits_of pretext)) input ->
  exists rs, remap_to_input repaired g prefix (n, d) input pretext = Ok rs.

(* ======================================================================
   [completion_statement] as written above is FALSE: nothing in it stops an
   input contig from carrying AGP tags, and a contig that no bait finds (for
   instance a last contig shorter than the rounding of E) is appended by
   add_missing_scaffolds_from_input under a scaffold whose name is made by
   make_scaffold_name from the contig's OWN tags -- two chromosome-like tags
   raise TaggingError ([completion_statement_refuted] below).  The theorem is
   proved with one more hypothesis: the input contigs are untagged. *)
Definition completion_statement' : Prop :=
  forall g prefix n d input pretext,
  0 < d -> d <= n ->                                   (* texel size n/d >= 1 bp *)
  Forall input_ok input ->
  NoDup (map fst input) ->
  NoDup (map key_of (in_frags input)) ->
  Forall (fun f => f_tags f = []) (in_frags input) ->  (* ADDED: input contigs are untagged *)
  Forall (fun p => exists b t, snd p = RF b :: t) pretext ->
  Forall (fun b => f_tags b = [] /\ (f_strand b = 1 \/ f_strand b = -1)
                   /\ In (f_name b) (map fst input)) (baits_of pretext) ->
  Forall (scaffold_tiled n d (baits_of pretext)) input ->
  exists rs, remap_to_input repaired g prefix (n, d) input pretext = Ok rs.

(* Baits that tile the scaffolds they show are valid, pairwise disjoint per name,
   gap free (every non-last piece has a successor, every non-first piece a
   predecessor) and every piece that does not start its scaffold is at least
   one error length long. *)
Lemma tiling_cons2 x y t from E :
  tiling (x :: y :: t) from E
  <-> f_start x = from /\ from <= f_end x /\ tiling (y :: t) (f_end x + 1) E.
Proof. reflexivity. Qed.

Lemma tiling_one x from E :
  tiling [x] from E <-> f_start x = from /\ f_end x = E /\ from <= E.
Proof. reflexivity. Qed.

Lemma tiling_head x t from E : tiling (x :: t) from E -> f_start x = from.
Proof.
  destruct t as [|y t]; intro H.
  - apply (proj1 (tiling_one _ _ _)) in H. tauto.
  - apply (proj1 (tiling_cons2 _ _ _ _ _)) in H. tauto.
Qed.

Lemma tiling_bounds l : forall from E, tiling l from E ->
  Forall (fun x => from <= f_start x /\ f_start x <= f_end x /\ f_end x <= E) l.
Proof.
  induction l as [|x l IH]; intros from E H.
  - contradiction.
  - destruct l as [|y t].
    + apply (proj1 (tiling_one _ _ _)) in H. constructor; [lia | constructor].
    + apply (proj1 (tiling_cons2 _ _ _ _ _)) in H. destruct H as (H1 & H2 & H3).
      apply IH in H3. constructor.
      * pose proof (Forall_inv H3) as Hy. cbn beta in Hy. lia.
      * eapply Forall_impl; [| exact H3]. cbn beta. intros a Ha. lia.
Qed.

Lemma tiling_sorted l : forall from E, tiling l from E ->
  ForallOrdPairs (fun a b => f_end a < f_start b) l.
Proof.
  induction l as [|x l IH]; intros from E H.
  - constructor.
  - destruct l as [|y t].
    + constructor; constructor.
    + apply (proj1 (tiling_cons2 _ _ _ _ _)) in H. destruct H as (H1 & H2 & H3).
      constructor.
      * apply tiling_bounds in H3.
        eapply Forall_impl; [| exact H3]. cbn beta. intros a Ha. lia.
      * eapply IH. exact H3.
Qed.

Lemma tiling_next l : forall from E x, tiling l from E -> In x l -> f_end x < E ->
  exists t, In t l /\ f_start t = f_end x + 1.
Proof.
  induction l as [|x l IH]; intros from E z H Hin Hlt.
  - contradiction.
  - destruct l as [|y t].
    + apply (proj1 (tiling_one _ _ _)) in H. destruct Hin as [Hz | []]. subst z. lia.
    + apply (proj1 (tiling_cons2 _ _ _ _ _)) in H. destruct H as (H1 & H2 & H3).
      destruct Hin as [Hz | Hin].
      * subst z. exists y. split; [right; left; reflexivity |].
        apply tiling_head in H3. exact H3.
      * destruct (IH _ _ _ H3 Hin Hlt) as (u & Hu & Hs).
        exists u. split; [right; exact Hu | exact Hs].
Qed.

Lemma tiling_prev l : forall from E x, tiling l from E -> In x l -> from < f_start x ->
  exists t, In t l /\ f_end t + 1 = f_start x.
Proof.
  induction l as [|x l IH]; intros from E z H Hin Hlt.
  - contradiction.
  - destruct l as [|y t].
    + apply (proj1 (tiling_one _ _ _)) in H. destruct Hin as [Hz | []]. subst z. lia.
    + apply (proj1 (tiling_cons2 _ _ _ _ _)) in H. destruct H as (H1 & H2 & H3).
      destruct Hin as [Hz | Hin].
      * subst z. lia.
      * destruct (Z.eq_dec (f_start z) (f_end x + 1)) as [He | Hne].
        -- exists x. split; [left; reflexivity | lia].
        -- pose proof (tiling_bounds _ _ _ H3) as Hb.
           rewrite Forall_forall in Hb. specialize (Hb z Hin). cbn beta in Hb.
           assert (Hlt' : f_end x + 1 < f_start z) by lia.
           destruct (IH _ _ _ H3 Hin Hlt') as (u & Hu & Hs).
           exists u. split; [right; exact Hu | exact Hs].
Qed.

Lemma FOP_by_name (R : frag -> frag -> Prop) l :
  (forall x, In x l ->
     ForallOrdPairs R (filter (fun b => str_eqb (f_name b) (f_name x)) l)) ->
  ForallOrdPairs (fun a b => f_name a = f_name b -> R a b) l.
Proof.
  induction l as [|x l IH]; intro H.
  - constructor.
  - constructor.
    + rewrite Forall_forall. intros y Hy Hname.
      pose proof (H x (or_introl eq_refl)) as Hx.
      cbn [filter] in Hx. rewrite str_eqb_refl in Hx.
      inversion Hx as [| a m Hxa Hxl]; subst.
      rewrite Forall_forall in Hxa. apply Hxa.
      apply filter_In. split; [exact Hy |].
      apply str_eqb_eq. symmetry. exact Hname.
    + apply IH. intros z Hz.
      pose proof (H z (or_intror Hz)) as Hz'.
      cbn [filter] in Hz'.
      destruct (str_eqb (f_name x) (f_name z)).
      * eapply FOP_tail. exact Hz'.
      * exact Hz'.
Qed.

Section Tiling.
  Variables (n d : Z) (input : list (str * list row)) (all : list frag).
  Hypothesis Hd : 0 < d.
  Hypothesis Hdn : d <= n.
  Hypothesis Hnamed : Forall (fun b => In (f_name b) (map fst input)) all.
  Hypothesis Htiled : Forall (scaffold_tiled n d all) input.

  Lemma tiled_get : forall b, In b all ->
    exists sorted E,
      Permutation (filter (fun c => str_eqb (f_name c) (f_name b)) all) sorted
      /\ tiling sorted 1 E
      /\ (length sorted = 1%nat \/ Forall (fun c => 2 * n <= d * f_len c) sorted)
      /\ (forall c, In c sorted <-> In c all /\ f_name c = f_name b).
  Proof.
    intros b Hb.
    rewrite Forall_forall in Hnamed. pose proof (Hnamed b Hb) as Hin.
    apply in_map_iff in Hin. destruct Hin as (isc & Hfst & Hisc).
    rewrite Forall_forall in Htiled. pose proof (Htiled isc Hisc) as Ht.
    unfold scaffold_tiled in Ht. cbv zeta in Ht. rewrite Hfst in Ht.
    destruct Ht as [Hnil | (sorted & E & HP & HT & _ & Hbig)].
    - exfalso.
      assert (Hm : In b (filter (fun c => str_eqb (f_name c) (f_name b)) all)).
      { apply filter_In. split; [exact Hb | apply str_eqb_refl]. }
      rewrite Hnil in Hm. contradiction.
    - exists sorted, E. split; [exact HP|]. split; [exact HT|]. split; [exact Hbig|].
      intros c. split.
      + intros Hc. apply (Permutation_in c (Permutation_sym HP)) in Hc. apply filter_In in Hc.
        destruct Hc as (Hc & Hn). apply str_eqb_eq in Hn. split; assumption.
      + intros (Hc & Hn). apply (Permutation_in c HP). apply filter_In.
        split; [exact Hc | apply str_eqb_eq; exact Hn].
  Qed.

  Theorem tiled_valid : Forall (fun b => 1 <= f_start b <= f_end b) all.
  Proof.
    rewrite Forall_forall. intros b Hb.
    destruct (tiled_get b Hb) as (sorted & E & _ & HT & _ & Hmem).
    pose proof (tiling_bounds _ _ _ HT) as Hbd.
    rewrite Forall_forall in Hbd. specialize (Hbd b (proj2 (Hmem b) (conj Hb eq_refl))). cbn beta in Hbd. lia.
  Qed.

  Theorem tiled_disjoint :
    ForallOrdPairs (fun a b => f_name a = f_name b -> f_end a < f_start b \/ f_end b < f_start a) all.
  Proof.
    apply (FOP_by_name (fun a b => f_end a < f_start b \/ f_end b < f_start a)).
    intros x Hx.
    destruct (tiled_get x Hx) as (sorted & E & HP & HT & _).
    eapply FOP_perm; [| apply Permutation_sym; exact HP |].
    - intros a b [H | H]; [right | left]; exact H.
    - eapply FOP_impl; [| eapply tiling_sorted; exact HT].
      intros a b H. left. exact H.
  Qed.

  Theorem tiled_next : forall b b', In b all -> In b' all -> f_name b = f_name b' ->
    f_end b < f_start b' -> exists t, In t all /\ f_name t = f_name b /\ f_start t = f_end b + 1.
  Proof.
    intros b b' Hb Hb' Hname Hlt.
    destruct (tiled_get b Hb) as (sorted & E & _ & HT & _ & Hmem).
    pose proof (tiling_bounds _ _ _ HT) as Hbd. rewrite Forall_forall in Hbd.
    pose proof (Hbd b' (proj2 (Hmem b') (conj Hb' (eq_sym Hname)))) as Hbd'. cbn beta in Hbd'.
    destruct (tiling_next _ _ _ _ HT (proj2 (Hmem b) (conj Hb eq_refl)) ltac:(lia)) as (t & Ht & Hs).
    exists t. destruct (proj1 (Hmem t) Ht) as (A & B). split; [exact A | split; [exact B | exact Hs]].
  Qed.

  Theorem tiled_prev : forall b b', In b all -> In b' all -> f_name b = f_name b' ->
    f_end b' < f_start b -> exists t, In t all /\ f_name t = f_name b /\ f_end t + 1 = f_start b.
  Proof.
    intros b b' Hb Hb' Hname Hlt.
    destruct (tiled_get b Hb) as (sorted & E & _ & HT & _ & Hmem).
    pose proof (tiling_bounds _ _ _ HT) as Hbd. rewrite Forall_forall in Hbd.
    pose proof (Hbd b' (proj2 (Hmem b') (conj Hb' (eq_sym Hname)))) as Hbd'. cbn beta in Hbd'.
    destruct (tiling_prev _ _ _ _ HT (proj2 (Hmem b) (conj Hb eq_refl)) ltac:(lia)) as (t & Ht & Hs).
    exists t. destruct (proj1 (Hmem t) Ht) as (A & B). split; [exact A | split; [exact B | exact Hs]].
  Qed.

  (* a piece that does not start its scaffold is one of several, hence at least 2 texels,
     which is >= 1 error length as a texel is >= 1 bp (Hdn) *)
  Theorem tiled_big : forall b, In b all -> 1 < f_start b -> error_length (n, d) <= f_len b.
  Proof.
    intros b Hb Hlt.
    destruct (tiled_get b Hb) as (sorted & E & _ & HT & Hbig & Hmem).
    pose proof (proj2 (Hmem b) (conj Hb eq_refl)) as Hin.
    destruct Hbig as [Hone | Hbig].
    - exfalso. destruct sorted as [|x [|y t]]; try discriminate Hone.
      destruct Hin as [Hx | []]. subst x.
      apply (proj1 (tiling_one _ _ _)) in HT. lia.
    - rewrite Forall_forall in Hbig. specialize (Hbig b Hin). cbn beta in Hbig.
      unfold error_length. cbn [fst snd].
      apply (Z.mul_le_mono_pos_l _ _ d Hd).
      rewrite Z.mul_add_distr_l.
      pose proof (Z.mul_div_le n d Hd) as Hdiv. lia.
  Qed.
End Tiling.

From Tola Require Import Proofs.CoreKeptResolver Proofs.CoreKeptLookup
  Proofs.CoreKeptHeld Proofs.Fuel Proofs.CompletionLookup Proofs.CompletionTail
  Proofs.CompletionResolver Proofs.CompletionCut.

Lemma number_input_frags (P : frag -> Prop) :
  (forall f id, P f -> P (mkFrag id (f_name f) (f_start f) (f_end f) (f_strand f) (f_tags f))) ->
  forall input n, Forall P (in_frags input) -> Forall P (in_frags (number_input input n)).
Proof.
  intros HP input n. generalize (number_input_Forall2 input n). generalize (number_input input n).
  induction 1 as [|p q l l' (_ & R) _ IH]; [intros; constructor|].
  unfold in_frags in *. cbn [flat_map]. intros H. apply Forall_app in H. destruct H as [H1 H2].
  apply Forall_app. split; [|exact (IH H2)]. clear IH H2.
  induction R as [|r r' a a' Hr _ IHr]; [constructor|].
  destruct r as [f|g0], r' as [f'|g1]; try contradiction; cbn [renumbered] in Hr.
  - rewrite frags_of_RF in *. inversion H1; subst.
    constructor; [rewrite Hr; apply HP; assumption | apply IHr; assumption].
  - rewrite !frags_of_RG in *. apply IHr. exact H1.
Qed.

Lemma in_frags_Forall (P : frag -> Prop) input :
  Forall (fun isc => Forall P (frags_of (snd isc))) input -> Forall P (in_frags input).
Proof.
  induction 1 as [|isc input H _ IH]; [constructor|].
  unfold in_frags in *. cbn [flat_map]. apply Forall_app. split; assumption.
Qed.

Lemma error_length_ge1 n d : 0 < d -> d <= n -> 1 <= error_length (n, d).
Proof.
  intros Hd Hdn. unfold error_length. cbn [fst snd].
  pose proof (Z.div_pos n d ltac:(lia) Hd). lia.
Qed.

(* The hypotheses on the input and on the geometry of the map, decided by
   evaluation for a concrete map (the instances and refutations below and in
   the files that follow). *)
Definition input_okb (isc : str * list row) : bool :=
  match snd isc, rev (snd isc) with
  | RF _ :: _, RF _ :: _ =>
      forallb (fun r => 1 <=? row_len r) (snd isc)
      && forallb (fun f => ((f_strand f =? 1) || (f_strand f =? -1) || (f_strand f =? 0))
                           && (f_start f <=? f_end f)) (frags_of (snd isc))
  | _, _ => false
  end.

Lemma input_okb_sound isc : input_okb isc = true -> input_ok isc.
Proof.
  unfold input_okb, input_ok. destruct (snd isc) as [|[f|g0] t]; try discriminate.
  destruct (rev (RF f :: t)) as [|[fl|g1] tl] eqn:Er; try discriminate.
  intro H. apply andb_prop in H. destruct H as [H1 H2].
  split; [discriminate|]. split; [|split; [|split]].
  - apply (forallb_Forall _ _ _ H1 (fun r Hr => proj1 (Z.leb_le _ _) Hr)).
  - eexists _, _. reflexivity.
  - exists fl, (rev tl). rewrite <- (rev_involutive (RF f :: t)), Er. reflexivity.
  - apply (forallb_Forall _ _ _ H2). intros g Hg. lia.
Qed.

(* the end of the tiling that starts at [from], if [bs] is one *)
Fixpoint tiling_end (bs : list frag) (from : Z) : option Z :=
  match bs with
  | [] => None
  | b :: t =>
      if (f_start b =? from) && (from <=? f_end b)
      then match t with [] => Some (f_end b) | _ :: _ => tiling_end t (f_end b + 1) end
      else None
  end.

Lemma tiling_end_sound : forall bs from E, tiling_end bs from = Some E -> tiling bs from E.
Proof.
  induction bs as [|b t IH]; intros from E H; cbn [tiling_end] in H; [discriminate|].
  destruct ((f_start b =? from) && (from <=? f_end b)) eqn:C; [|discriminate].
  destruct t as [|y t].
  - injection H as <-. cbn [tiling]. lia.
  - apply IH in H.
    change (f_start b = from /\ from <= f_end b /\ tiling (y :: t) (f_end b + 1) E).
    split; [lia|]. split; [lia | exact H].
Qed.

Definition scaffold_tiledb (n d : Z) (baits : list frag) (isc : str * list row) : bool :=
  match sort_by_Z f_start (filter (fun b => str_eqb (f_name b) (fst isc)) baits) with
  | [] => true
  | x :: t =>
      match tiling_end (x :: t) 1 with
      | Some E => (d * Z.abs (E - rows_len (snd isc)) <? n)
                  && (Nat.eqb (length (x :: t)) 1 || forallb (fun b => 2 * n <=? d * f_len b) (x :: t))
      | None => false
      end
  end.

Lemma scaffold_tiledb_sound n d baits isc :
  scaffold_tiledb n d baits isc = true -> scaffold_tiled n d baits isc.
Proof.
  unfold scaffold_tiledb, scaffold_tiled. cbv zeta.
  set (mine := filter _ baits).
  assert (HP : Permutation (sort_by_Z f_start mine) mine) by apply RemapTail.ssort_perm.
  destruct (sort_by_Z f_start mine) as [|x t].
  - intros _. left. apply Permutation_nil. exact HP.
  - destruct (tiling_end (x :: t) 1) as [E|] eqn:ET; [|discriminate].
    intro H. apply andb_prop in H. destruct H as [H1 H2]. right. exists (x :: t), E.
    split; [apply Permutation_sym; exact HP|]. split; [apply tiling_end_sound; exact ET|]. split; [lia|].
    apply Bool.orb_true_iff in H2. destruct H2 as [H2|H2].
    + left. apply Nat.eqb_eq. exact H2.
    + right. apply (forallb_Forall _ _ _ H2 (fun b Hb => proj1 (Z.leb_le _ _) Hb)).
Qed.

Definition tiling_map_okb (n d : Z) (input pretext : list (str * list row)) : bool :=
  (0 <? d) && (d <=? n) && forallb input_okb input
  && nodupb str_eqb (map fst input) && nodupb key_eqb (map key_of (in_frags input))
  && forallb (fun p => match snd p with RF _ :: _ => true | _ => false end) pretext
  && forallb (fun b => ((f_strand b =? 1) || (f_strand b =? -1)) && mem_str (f_name b) (map fst input))
             (baits_of pretext)
  && forallb (scaffold_tiledb n d (baits_of pretext)) input.

Lemma tiling_map_okb_sound n d input pretext : tiling_map_okb n d input pretext = true ->
  0 < d /\ d <= n /\ Forall input_ok input
  /\ NoDup (map fst input) /\ NoDup (map key_of (in_frags input))
  /\ Forall (fun p => exists b t, snd p = RF b :: t) pretext
  /\ Forall (fun b => (f_strand b = 1 \/ f_strand b = -1) /\ In (f_name b) (map fst input)) (baits_of pretext)
  /\ Forall (scaffold_tiled n d (baits_of pretext)) input.
Proof.
  unfold tiling_map_okb. intro H.
  apply andb_prop in H. destruct H as [H H9]. apply andb_prop in H. destruct H as [H H8].
  apply andb_prop in H. destruct H as [H H7].
  apply andb_prop in H. destruct H as [H H5]. apply andb_prop in H. destruct H as [H H4].
  apply andb_prop in H. destruct H as [H H3]. apply andb_prop in H. destruct H as [H1 H2].
  split; [apply Z.ltb_lt; exact H1|]. split; [apply Z.leb_le; exact H2|].
  split; [exact (forallb_Forall _ _ _ H3 input_okb_sound)|].
  split; [exact (nodupb_ok _ str_eqb_refl _ H4)|].
  split; [exact (nodupb_ok _ key_eqb_refl _ H5)|].
  split; [|split].
  - apply (forallb_Forall _ _ _ H7). intros p Hp.
    destruct (snd p) as [|[b|g0] t]; try discriminate. eexists _, _. reflexivity.
  - apply (forallb_Forall _ _ _ H8). intros b Hb. apply andb_prop in Hb. destruct Hb as [S M].
    split; [clear - S; lia | apply mem_str_in; exact M].
  - exact (forallb_Forall _ _ _ H9 (scaffold_tiledb_sound n d _)).
Qed.

(* The geometric part never looks at tags: the theorem is proved from the
   PROGRESS of the lookup fold (hypothesis [Hprog]: the namer calls succeed and
   every registered haplotig id is an index of the store), which is
   [CompletionLookup.pretext_progress]: instantiated below for baits untagged
   or tagged "Painted" only ([completion_core]), in Proofs/CompletionTagged.v
   for consistently tagged scaffolds.  [Hprog] is an implication: its two premises
   (non-empty positive numbered input, valid baits) are proved inside and handed to it. *)
Lemma completion_core_gen : forall g prefix n d input pretext,
  0 < d -> d <= n ->
  Forall input_ok input ->
  NoDup (map fst input) ->
  NoDup (map key_of (in_frags input)) ->
  Forall (fun f => f_tags f = []) (in_frags input) ->
  Forall (fun b => In (f_name b) (map fst input)) (baits_of pretext) ->
  Forall (scaffold_tiled n d (baits_of pretext)) input ->
  ((forall name rows, In (name, rows) (number_input input 0) -> rows <> [] /\ pos_rows rows) ->
   Forall (fun b => 1 <= f_start b <= f_end b) (baits_of pretext) ->
   exists b1, foldM (one_pretext_scaffold (number_input input 0) (error_length (n, d))) pretext
                    (mkB [] [] [] [] (new_namer prefix) 0) = Ok b1
              /\ Forall (fun id => 0 <= id < zlen (b_store b1)) (nm_hap_scaffolds (b_namer b1))) ->
  exists rs, remap_to_input repaired g prefix (n, d) input pretext = Ok rs.
Proof.
  intros g prefix n d input pretext Hd Hdn Hin Hnm Hkeys0 Hunt Hnamed Htile Hprog.
  set (all := baits_of pretext) in *.
  pose proof (tiled_valid n d input all Hnamed Htile) as Hvalid.
  assert (Hdisj : ForallOrdPairs Rdisj all)
    by exact (tiled_disjoint n d input all Hnamed Htile).
  pose proof (tiled_next n d input all Hnamed Htile) as Hnext.
  pose proof (tiled_prev n d input all Hnamed Htile) as Hprev.
  pose proof (tiled_big n d input all Hd Hdn Hnamed Htile) as Hbig.
  unfold remap_to_input. rewrite (RemapTail.has_dup_names_nodup _ Hnm). cbv zeta.
  set (inp := number_input input 0). set (err := error_length (n, d)) in *.
  assert (Herr : 1 <= err) by (apply error_length_ge1; assumption).
  destruct (number_input_spec input 0) as (Ek & Hidpos & Hids). fold inp in Ek, Hidpos, Hids.
  assert (Hkeys : NoDup (map key_of (in_frags inp))) by (rewrite Ek; exact Hkeys0).
  assert (Hnames : NoDup (map fst inp)) by (unfold inp; rewrite RemapTail.number_input_names; exact Hnm).
  assert (Hpos0 : Forall (fun isc => pos_rows (snd isc)) input).
  { eapply Forall_impl; [|exact Hin]. intros isc (_ & H & _). exact H. }
  pose proof (number_input_pos input 0 Hpos0) as Hposr. fold inp in Hposr.
  assert (Hne0 : Forall (fun q : str * list row => snd q <> []) inp).
  { apply (Forall2_Forall_lr _ _ _ _ _) with (2 := Hin) (3 := number_input_Forall2 input 0).
    intros p q (Hp & _) (_ & F) E. rewrite E in F. inversion F as [E0|]. symmetry in E0. exact (Hp E0). }
  assert (Hne : forall name rows, In (name, rows) inp -> rows <> [] /\ pos_rows rows).
  { intros name rows H. rewrite Forall_forall in Hne0. split; [exact (Hne0 _ H) | eapply Hposr; exact H]. }
  assert (Hwf : Forall (fun f => strand_ok (f_strand f) = true /\ f_start f <= f_end f) (in_frags inp)).
  { apply number_input_frags; [intros f id H; exact H|].
    apply in_frags_Forall. eapply Forall_impl; [|exact Hin]. intros isc (_ & _ & _ & _ & H).
    eapply Forall_impl; [|exact H]. intros f ([-> | [-> | ->]] & Hw); split; auto. }
  assert (Hunt' : Forall (fun f => f_tags f = []) (in_frags inp)).
  { apply number_input_frags; [intros f id H; exact H | exact Hunt]. }
  set (b0 := mkB [] [] [] [] (new_namer prefix) 0).
  destruct (Hprog Hne) as (b1 & Hs1 & Hn1).
  { exact Hvalid. }
  fold inp err b0 in Hs1.
  rewrite Hs1. cbn [bind].
  assert (L1 : LInv inp err all (KIn inp) b1 []).
  { eapply (pretext_LInv inp err all Hkeys Hnames Hposr Herr Hvalid (KIn inp)); [| | | | |exact Hs1].
    - apply KIn_ext.
    - exact (KIn_ds inp err all Hposr Herr Hvalid Hbig).
    - exact (KIn_de inp err all Hposr Herr Hvalid Hbig).
    - exact (KIn_init inp all Hids Hnames Hposr Hvalid).
    - apply LInv_init. exact Hdisj. }
  assert (L3 : IL inp b1) by (eapply (pretext_Lst inp Hkeys); [apply IL_init | exact Hs1]).
  destruct L1 as (HI1 & HS1 & HF1 & _ & Hnd1 & _ & HK1 & Ht1). rewrite app_nil_r in HF1. unfold SB in HF1.
  destruct L3 as (_ & HL1).
  pose proof (pretext_Held _ _ _ (mkB [] [] [] [] _ 0) _ (Held_nil _) Hs1) as HH1.
  match goal with |- context [discard_loop ?F err b1] => set (fuel := F) end.
  destruct (discard_loop_ok inp err Hids fuel b1) as (b2 & Hs2 & _ & HL2 & _).
  { split; [exact HI1|]. split; [exact HL1 | exact Hnd1]. }
  { unfold fuel, total_result_rows. lia. }
  rewrite Hs2. cbn [bind].
  destruct (discard_loop_plus inp err all Hids Hkeys Hposr Herr Hvalid (KIn inp)
              (KIn_ds inp err all Hposr Herr Hvalid Hbig) (KIn_de inp err all Hposr Herr Hvalid Hbig)
              _ _ _ HI1 HS1 HF1 Hnd1 HK1 HH1 Hs2) as (HI2 & HS2 & HB2 & HK2 & HH2 & Hnd2).
  assert (HF2 : ForallOrdPairs Rdisj (map o_bait (b_store b2))) by (rewrite HB2; exact HF1).
  assert (Ht2 : forall bait, In bait all -> must inp bait -> In bait (map o_bait (b_store b2))).
  { intros bait Hba Hm. rewrite HB2. destruct (Ht1 bait Hba Hm) as [[] | X]. exact X. }
  destruct (discard_loop_pointwise (fun _ _ => True) (fun _ => I) (fun _ _ _ _ _ => I) (fun _ _ _ => I)
              (fun _ _ _ => I) _ _ _ _ Hs2) as (S2 & _ & Hn2).
  destruct (cut_remaining_progress inp repaired eq_refl Hids Hidpos Hwf (bt_of (b_store b2)) b2)
    as (b3 & Hs3 & Hn3).
  { destruct HI2 as (_ & _ & (_ & F2 & _) & _). exact F2. }
  { exact (ready_at_cut inp err all Hids Hposr Hvalid Hdisj Hnext Hprev b2 HI2 HS2 HF2 Hnd2 HL2 HH2 HK2 Ht2). }
  rewrite Hs3. cbn [bind].
  destruct (cut_remaining_pointwise (fun _ _ => True) (fun _ => I) (fun _ _ _ _ _ => I)
              (fun _ _ _ _ _ _ _ => I) _ _ _ Hs3) as (S3 & _).
  assert (Eh : Forall (fun id => 0 <= id < zlen (b_store b3)) (nm_hap_scaffolds (b_namer b3))).
  { rewrite Hn3, Hn2. unfold zlen.
    rewrite <- (Forall2_length _ _ _ S3), <- (Forall2_length _ _ _ S2). exact Hn1. }
  destruct (rename_results_ok _ _ Eh) as (st & Hst & _). rewrite Hst. cbn [bind].
  destruct (add_missing_fold_ok repaired g (b_found (with_store b3 st)) inp
              (b_namer (with_store b3 st)) [] Hunt') as (nl & Hnl).
  rewrite Hnl. cbn [bind]. eexists. reflexivity.
Qed.

(* proved for baits that are untagged OR tagged "Painted" only (the tag changes
   what the namer does, not the geometry); the untagged statement is the
   corollary below, the Painted one is Proofs/CompletionPainted.v *)
Lemma completion_core : forall g prefix n d input pretext,
  0 < d -> d <= n ->
  Forall input_ok input ->
  NoDup (map fst input) ->
  NoDup (map key_of (in_frags input)) ->
  Forall (fun f => f_tags f = []) (in_frags input) ->
  Forall (fun p => exists b t, snd p = RF b :: t) pretext ->
  Forall (fun b => (f_tags b = [] \/ f_tags b = [s "Painted"]) /\ (f_strand b = 1 \/ f_strand b = -1)
                   /\ In (f_name b) (map fst input)) (baits_of pretext) ->
  Forall (scaffold_tiled n d (baits_of pretext)) input ->
  exists rs, remap_to_input repaired g prefix (n, d) input pretext = Ok rs.
Proof.
  intros g prefix n d input pretext Hd Hdn Hin Hnm Hkeys0 Hunt Hpre Hb Htile.
  apply completion_core_gen; try assumption.
  - eapply Forall_impl; [|exact Hb]. intros b (_ & _ & H). exact H.
  - intros Hne Hvalid.
    assert (Hb' : Forall (fun p => Forall (fun b => tags_ok (f_tags b) /\ bait_geo (number_input input 0) b)
                                          (frags_of (snd p))) pretext).
    { apply Forall_flat_map. rewrite Forall_forall in *. intros b Hbin. destruct (Hb b Hbin) as (T & _ & N).
      split; [exact T|]. split; [apply Hvalid; exact Hbin|]. rewrite RemapTail.number_input_names. exact N. }
    destruct (pretext_progress (number_input input 0) (error_length (n, d)) pretext Hne
                (mkB [] [] [] [] (new_namer prefix) 0)) as (b1 & Hs1 & _ & Hids).
    + rewrite Forall_forall in *. intros p Hp. apply tags_ok_msn_ok; [exact (Hpre p Hp)|].
      eapply Forall_impl; [|exact (Hb' p Hp)]. intros b (T & _). exact T.
    + eapply Forall_impl; [|exact Hb']. intros p Hp. eapply Forall_impl; [|exact Hp].
      intros b (T & G). split; [exact G | apply tags_ok_label_ok; exact T].
    + split; [apply Routing.lc_ok_new_namer | constructor].
    + exists b1. split; assumption.
Qed.

Theorem completion_of_tiling_maps : completion_statement'.
Proof.
  intros g prefix n d input pretext Hd Hdn Hin Hnm Hkeys0 Hunt Hpre Hb Htile.
  apply completion_core; try assumption.
  eapply Forall_impl; [|exact Hb]. intros b (T & H). split; [left; exact T | exact H].
Qed.

Module Refutation.
  Definition g10 := mkGap 10 (s "scaffold").
  Definition A := mkFrag 0 (s "cA") 1 100 1 [].
  (* a 1 bp last contig, beyond the (rounded) end of the map, carrying two chromosome-like tags *)
  Definition C := mkFrag 0 (s "cC") 1 1 1 [s "A1"; s "B2"].
  Definition input := [(s "scaf1", [RF A; RF C])].
  Definition bt := mkFrag 0 (s "scaf1") 1 100 1 [].
  Definition pretext := [(s "P1", [RF bt])].

  Lemma run : remap_to_input repaired g10 (s "SUPER_") (2, 1) input pretext = Err TaggingError.
  Proof. vm_compute. reflexivity. Qed.
End Refutation.

Theorem completion_statement_refuted : ~ completion_statement.
Proof.
  intros H.
  destruct (tiling_map_okb_sound 2 1 Refutation.input Refutation.pretext)
    as (H1 & H2 & H3 & H4 & H5 & H7 & H8 & H9); [vm_compute; reflexivity|].
  destruct (H Refutation.g10 (s "SUPER_") 2 1 _ _ H1 H2 H3 H4 H5 H7) as (rs & Hrs); [|exact H9|].
  - apply Forall_and; [repeat constructor | exact H8].
  - rewrite Refutation.run in Hrs. discriminate.
Qed.

(* One scaffold  A(100,+) gap(10) B(300,-) gap(10) C(100,+), 520 bp, texel 3.5 bp
   (error length 4).  The map shows it in three pieces 1-200 | 201-350 | 351-520;
   the reverse-strand contig B (scaffold 111-410) spans all three, the middle
   piece lies wholly inside it.  The pieces are shown out of order, two of
   them reversed, grouped into two Pretext scaffolds. *)
Module ThreePieces.
  Definition g10 := mkGap 10 (s "scaffold").
  Definition A := mkFrag 0 (s "cA") 1 100 1 [].
  Definition B := mkFrag 0 (s "cB") 1 300 (-1) [].
  Definition C := mkFrag 0 (s "cC") 1 100 1 [].
  Definition input := [(s "scaf1", [RF A; RG g10; RF B; RG g10; RF C])].
  Definition b1 := mkFrag 0 (s "scaf1") 1 200 (-1) [].
  Definition b2 := mkFrag 0 (s "scaf1") 201 350 1 [].
  Definition b3 := mkFrag 0 (s "scaf1") 351 520 (-1) [].
  Definition pretext := [(s "P1", [RF b3]); (s "P2", [RF b2; RF b1])].
End ThreePieces.

Lemma three_pieces_hyps :
  0 < 2 /\ 2 <= 7 /\ Forall input_ok ThreePieces.input
  /\ NoDup (map fst ThreePieces.input) /\ NoDup (map key_of (in_frags ThreePieces.input))
  /\ Forall (fun f => f_tags f = []) (in_frags ThreePieces.input)
  /\ Forall (fun f => f_strand f = 1 \/ f_strand f = -1) (in_frags ThreePieces.input)
  /\ Forall (fun p => exists b t, snd p = RF b :: t) ThreePieces.pretext
  /\ Forall (fun b => f_tags b = [] /\ (f_strand b = 1 \/ f_strand b = -1)
                      /\ In (f_name b) (map fst ThreePieces.input)) (baits_of ThreePieces.pretext)
  /\ Forall (scaffold_tiled 7 2 (baits_of ThreePieces.pretext)) ThreePieces.input.
Proof.
  destruct (tiling_map_okb_sound 7 2 ThreePieces.input ThreePieces.pretext)
    as (H1 & H2 & H3 & H4 & H5 & H7 & H8 & H9); [vm_compute; reflexivity|].
  repeat (split; [assumption|]).
  split; [repeat constructor|]. split; [cbn; repeat (apply Forall_cons; [cbn; lia|]); apply Forall_nil|].
  split; [exact H7|]. split; [|exact H9].
  apply Forall_and; [repeat constructor | exact H8].
Qed.

Example three_piece_map_completes :
  exists rs, remap_to_input repaired ThreePieces.g10 (s "SUPER_") (7, 2)
                            ThreePieces.input ThreePieces.pretext = Ok rs.
Proof.
  destruct three_pieces_hyps as (H1 & H2 & H3 & H4 & H5 & H6 & _ & H7 & H8 & H9).
  apply completion_of_tiling_maps; assumption.
Qed.

(* the same run, by computation: two cuts, nothing left over *)
Example three_piece_map_by_computation :
  exists rs, remap_to_input repaired ThreePieces.g10 (s "SUPER_") (7, 2)
                            ThreePieces.input ThreePieces.pretext = Ok rs
             /\ b_cuts (rs_b rs) = 2 /\ rs_left rs = [].
Proof. eexists. split; [vm_compute; reflexivity|]. split; vm_compute; reflexivity. Qed.

Print Assumptions completion_of_tiling_maps.
Print Assumptions completion_statement_refuted.
Print Assumptions three_piece_map_completes.
Print Assumptions tiled_valid.
Print Assumptions tiled_disjoint.
Print Assumptions tiled_next.
Print Assumptions tiled_prev.
Print Assumptions tiled_big.
