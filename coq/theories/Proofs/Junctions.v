(* Junction tuples (Fragment.junction_tuple), their canonical form
   (canon_junction, the C11 repair), the junction set of a scaffold and the
   set operations used by AssemblyStats.make_stats. *)
From Coq Require Import Lia ZifyBool Permutation.
From Tola Require Import Py.Base Model.Fragment Model.Scaffold Model.Remap
  Proofs.BaseLemmas Proofs.Rows Proofs.NaturalKey.

Lemma eqb4_spec p1 q1 p2 q2 n1 m1 n2 m2 :
  (if p1 =? q1 then if p2 =? q2 then if str_eqb n1 m1 then str_eqb n2 m2 else false else false else false) = true
  <-> p1 = q1 /\ p2 = q2 /\ n1 = m1 /\ n2 = m2.
Proof.
  destruct (Z.eqb_spec p1 q1) as [->|N1]; [|split; [discriminate | intros (E & _); contradiction]].
  destruct (Z.eqb_spec p2 q2) as [->|N2]; [|split; [discriminate | intros (_ & E & _); contradiction]].
  destruct (str_eqb n1 m1) eqn:E1.
  - apply str_eqb_eq in E1. subst m1. rewrite str_eqb_eq. tauto.
  - apply str_eqb_neq in E1. split; [discriminate | intros (_ & _ & E & _); contradiction].
Qed.

Theorem junction_eqb_eq : forall a b, junction_eqb a b = true <-> a = b.
Proof.
  intros [n1 p1 n2 p2|n1 p1 p2 n2|p1 n1 n2 p2] [m1 q1 m2 q2|m1 q1 q2 m2|q1 m1 m2 q2];
    cbn [junction_eqb]; try (split; discriminate);
    rewrite eqb4_spec; (split; [intros (-> & -> & -> & ->); reflexivity | intro E; injection E; auto]).
Qed.

Lemma junction_eqb_refl j : junction_eqb j j = true.
Proof. apply junction_eqb_eq. reflexivity. Qed.

Lemma junction_eq_dec (a b : junction) : {a = b} + {a <> b}.
Proof.
  destruct (junction_eqb a b) eqn:E.
  - left. apply junction_eqb_eq. exact E.
  - right. intro H. apply junction_eqb_eq in H. congruence.
Qed.

(* the other reading direction of a junction tuple: tuple reversal for the
   two mixed shapes; JSISI already encodes rev,rev as fwd,fwd from the other side *)
Definition junction_swap (j : junction) : junction :=
  match j with
  | JSISI _ _ _ _ => j
  | JSIIS n1 p1 p2 n2 => JSIIS n2 p2 p1 n1
  | JISSI p1 n1 n2 p2 => JISSI p2 n2 n1 p1
  end.

Lemma junction_swap_involutive j : junction_swap (junction_swap j) = j.
Proof. destruct j; reflexivity. Qed.

Lemma canon_cases j : canon_junction j = j \/ canon_junction j = junction_swap j.
Proof.
  destruct j as [n1 p1 n2 p2|n1 p1 p2 n2|p1 n1 n2 p2]; unfold canon_junction, junction_swap.
  - left; reflexivity.
  - destruct (str_cmp n1 n2); [destruct (p1 <=? p2)| |]; auto.
  - destruct (p1 <? p2); [auto|]. destruct (p2 <? p1); [auto|]. destruct (str_cmp n1 n2); auto.
Qed.

Lemma canon_swap j : canon_junction (junction_swap j) = canon_junction j.
Proof.
  destruct j as [n1 p1 n2 p2|n1 p1 p2 n2|p1 n1 n2 p2]; unfold canon_junction, junction_swap.
  - reflexivity.
  - rewrite (str_cmp_sym n1 n2). destruct (str_cmp n1 n2) eqn:E; cbn [CompOpp]; try reflexivity.
    apply str_cmp_eq in E. subst n2.
    destruct (Z.leb_spec p1 p2), (Z.leb_spec p2 p1); try reflexivity; try lia.
    assert (p1 = p2) by lia. subst. reflexivity.
  - rewrite (str_cmp_sym n1 n2).
    destruct (Z.ltb_spec p1 p2), (Z.ltb_spec p2 p1); try reflexivity; try lia.
    assert (p1 = p2) by lia. subst p2.
    destruct (str_cmp n1 n2) eqn:E; cbn [CompOpp]; try reflexivity.
    apply str_cmp_eq in E. subst. reflexivity.
Qed.

Theorem canon_idempotent : forall j, canon_junction (canon_junction j) = canon_junction j.
Proof.
  intro j. destruct (canon_cases j) as [E|E]; rewrite E; [exact E|].
  rewrite canon_swap. exact E.
Qed.

Lemma canon_eq_iff j1 j2 :
  canon_junction j1 = canon_junction j2 <-> j1 = j2 \/ j1 = junction_swap j2.
Proof.
  split.
  - intro E.
    destruct (canon_cases j1) as [H1|H1], (canon_cases j2) as [H2|H2]; rewrite H1, H2 in E.
    + auto.
    + auto.
    + right. rewrite <- E. symmetry. apply junction_swap_involutive.
    + left. rewrite <- (junction_swap_involutive j1), E. apply junction_swap_involutive.
  - intros [->| ->]; [reflexivity | apply canon_swap].
Qed.

Section Dedup.
  Context {A : Type} (eqb : A -> A -> bool).
  Hypothesis eqb_eq : forall x y, eqb x y = true <-> x = y.

  Lemma existsb_eqb_in x l : existsb (eqb x) l = true <-> In x l.
  Proof.
    rewrite existsb_exists. split.
    - intros (y & Hy & E). apply eqb_eq in E. subst. exact Hy.
    - intro H. exists x. split; [exact H | apply eqb_eq; reflexivity].
  Qed.

  Lemma existsb_eqb_notin x l : existsb (eqb x) l = false <-> ~ In x l.
  Proof.
    rewrite <- existsb_eqb_in. destruct (existsb (eqb x) l); split; congruence.
  Qed.

  Lemma dedup_acc_in seen l x : In x (dedup_acc eqb seen l) <-> In x l /\ ~ In x seen.
  Proof.
    revert seen. induction l as [|a l IH]; intro seen; cbn [dedup_acc In].
    - tauto.
    - destruct (existsb (eqb a) seen) eqn:E.
      + apply existsb_eqb_in in E. rewrite IH. split.
        * intros [H1 H2]. auto.
        * intros [[->|H1] H2]; [contradiction | auto].
      + apply existsb_eqb_notin in E. cbn [In]. rewrite IH. cbn [In]. split.
        * intros [->|[H1 H2]]; [auto | split; [auto | tauto]].
        * intros [[->|H1] H2]; [auto|].
          destruct (eqb a x) eqn:Eax.
          -- apply eqb_eq in Eax. auto.
          -- right. split; [exact H1|]. intros [->|H3]; [|contradiction].
             assert (eqb x x = true) by (apply eqb_eq; reflexivity). congruence.
  Qed.

  Lemma dedup_acc_nodup seen l : NoDup (dedup_acc eqb seen l).
  Proof.
    revert seen. induction l as [|a l IH]; intro seen; cbn [dedup_acc].
    - constructor.
    - destruct (existsb (eqb a) seen); [apply IH|].
      constructor; [|apply IH].
      rewrite dedup_acc_in. cbn [In]. tauto.
  Qed.

  Lemma dedup_in l x : In x (dedup eqb l) <-> In x l.
  Proof. unfold dedup. rewrite dedup_acc_in. cbn [In]. tauto. Qed.

  Lemma dedup_nodup l : NoDup (dedup eqb l).
  Proof. apply dedup_acc_nodup. Qed.
End Dedup.

Lemma existsb_jeqb_in x l : existsb (junction_eqb x) l = true <-> In x l.
Proof. apply existsb_eqb_in, junction_eqb_eq. Qed.

Lemma negb_existsb_jeqb x l : negb (existsb (junction_eqb x) l) = true <-> ~ In x l.
Proof.
  rewrite negb_true_iff. apply existsb_eqb_notin, junction_eqb_eq.
Qed.

Lemma in_j_dec (x : junction) l : In x l \/ ~ In x l.
Proof.
  destruct (existsb (junction_eqb x) l) eqn:E.
  - left. apply existsb_jeqb_in. exact E.
  - right. apply (existsb_eqb_notin _ junction_eqb_eq). exact E.
Qed.

Theorem union_j_in : forall a b x, In x (union_j a b) <-> In x a \/ In x b.
Proof.
  intros a b x. unfold union_j. rewrite in_app_iff, filter_In, negb_existsb_jeqb.
  destruct (in_j_dec x a); tauto.
Qed.

Theorem diff_j_in : forall a b x, In x (diff_j a b) <-> In x a /\ ~ In x b.
Proof. intros a b x. unfold diff_j. rewrite filter_In, negb_existsb_jeqb. tauto. Qed.

Theorem inter_j_in : forall a b x, In x (inter_j a b) <-> In x a /\ In x b.
Proof. intros a b x. unfold inter_j. rewrite filter_In, existsb_jeqb_in. tauto. Qed.

Theorem union_j_nodup : forall a b, NoDup a -> NoDup b -> NoDup (union_j a b).
Proof.
  intros a b Ha Hb. unfold union_j. apply NoDup_app_intro; [exact Ha | apply NoDup_filter; exact Hb|].
  intros x Hx. rewrite filter_In, negb_existsb_jeqb. tauto.
Qed.

Theorem diff_j_nodup : forall a b, NoDup a -> NoDup (diff_j a b).
Proof. intros a b Ha. apply NoDup_filter. exact Ha. Qed.

Theorem inter_j_nodup : forall a b, NoDup a -> NoDup (inter_j a b).
Proof. intros a b Ha. apply NoDup_filter. exact Ha. Qed.

Theorem junction_set_nodup : forall c rows js, junction_set c rows = Ok js -> NoDup js.
Proof.
  intros c rows js. unfold junction_set.
  destruct (scaffold_junctions rows) as [l|e]; cbn [bind]; [|discriminate].
  intro E. injection E as <-. apply dedup_nodup, junction_eqb_eq.
Qed.

Lemma junction_set_in c rows js :
  junction_set c rows = Ok js ->
  exists l, scaffold_junctions rows = Ok l /\
    forall x, In x js <-> In x (if fix_canon_junction c then map canon_junction l else l).
Proof.
  unfold junction_set.
  destruct (scaffold_junctions rows) as [l|e]; cbn [bind]; [|discriminate].
  intro E. injection E as <-. exists l. split; [reflexivity|].
  intro x. apply dedup_in, junction_eqb_eq.
Qed.

(* a contig end: name, coordinate, side (true = the contig's end
   coordinate, false = its start coordinate) *)
Definition cend := (str * Z * bool)%type.
(* the end of fragment f that faces the scaffold end / the scaffold start *)
Definition tail_end (f : frag) : cend :=
  if f_strand f =? 1 then (f_name f, f_end f, true) else (f_name f, f_start f, false).
Definition head_end (f : frag) : cend :=
  if f_strand f =? 1 then (f_name f, f_start f, false) else (f_name f, f_end f, true).
Definition pm (f : frag) : Prop := f_strand f = 1 \/ f_strand f = -1.

Lemma pm_reverse f : pm f -> pm (frag_reverse f).
Proof. unfold pm, frag_reverse. cbn [f_strand]. lia. Qed.

Lemma frag_reverse_involutive f : frag_reverse (frag_reverse f) = f.
Proof. exact (Rows.frag_reverse_involutive f). Qed.

Lemma tail_end_reverse f : pm f -> tail_end (frag_reverse f) = head_end f.
Proof.
  unfold tail_end, head_end, frag_reverse. cbn [f_strand f_name f_start f_end].
  intros [H|H]; rewrite H; reflexivity.
Qed.

Lemma head_end_reverse f : pm f -> head_end (frag_reverse f) = tail_end f.
Proof.
  unfold tail_end, head_end, frag_reverse. cbn [f_strand f_name f_start f_end].
  intros [H|H]; rewrite H; reflexivity.
Qed.

Lemma junction_tuple_ok a b : pm a -> pm b -> exists j, junction_tuple a b = Ok j.
Proof.
  unfold junction_tuple. intros [Ha|Ha] [Hb|Hb]; rewrite Ha, Hb; cbn; eexists; reflexivity.
Qed.

Lemma junction_tuple_ok_inv a b j : junction_tuple a b = Ok j -> pm a /\ pm b.
Proof.
  unfold junction_tuple, pm.
  destruct (Z.eqb_spec (f_strand a) 1), (Z.eqb_spec (f_strand a) (-1)),
    (Z.eqb_spec (f_strand b) 1), (Z.eqb_spec (f_strand b) (-1)); try discriminate; auto.
Qed.

Lemma junction_tuple_err a b e : junction_tuple a b = Err e -> e = ValueError.
Proof.
  unfold junction_tuple.
  destruct (f_strand a =? 1), (f_strand a =? -1), (f_strand b =? 1), (f_strand b =? -1);
    intro E; try discriminate; injection E as <-; reflexivity.
Qed.

Lemma junction_reverse_pair_swap a b ja jb : pm a -> pm b ->
  junction_tuple a b = Ok ja -> junction_tuple (frag_reverse b) (frag_reverse a) = Ok jb ->
  jb = junction_swap ja.
Proof.
  unfold junction_tuple, frag_reverse. cbn [f_strand f_name f_start f_end].
  intros [Ha|Ha] [Hb|Hb]; rewrite Ha, Hb; cbn; intros E1 E2;
    injection E1 as <-; injection E2 as <-; reflexivity.
Qed.

Theorem junction_reverse_pair : forall a b ja jb, pm a -> pm b ->
  junction_tuple a b = Ok ja -> junction_tuple (frag_reverse b) (frag_reverse a) = Ok jb ->
  canon_junction ja = canon_junction jb.
Proof.
  intros a b ja jb Ha Hb E1 E2.
  rewrite (junction_reverse_pair_swap a b ja jb Ha Hb E1 E2). symmetry. apply canon_swap.
Qed.

(* [adjacent l a b]: a is immediately followed by b in l *)
Definition adjacent {A} (l : list A) (a b : A) : Prop :=
  exists l1 l2, l = l1 ++ a :: b :: l2.

Lemma adjacent_rev_map {A B} (f : A -> B) l a b :
  adjacent l a b -> adjacent (map f (rev l)) (f b) (f a).
Proof.
  intros (l1 & l2 & ->). exists (map f (rev l2)), (map f (rev l1)).
  rewrite rev_app_distr. cbn [rev]. rewrite !map_app, <- !app_assoc. reflexivity.
Qed.

Lemma adjacent_in {A} (l : list A) a b : adjacent l a b -> In a l /\ In b l.
Proof.
  intros (l1 & l2 & ->). rewrite !in_app_iff. cbn [In]. auto.
Qed.

Lemma adjacent_cons {A} (x y : A) t a b :
  adjacent (x :: y :: t) a b <-> (x = a /\ y = b) \/ adjacent (y :: t) a b.
Proof.
  split.
  - intros (l1 & l2 & E). destruct l1 as [|z l1]; cbn [app] in E.
    + injection E as -> -> _. auto.
    + injection E as -> E. right. exists l1, l2. exact E.
  - intros [[-> ->]|(l1 & l2 & E)].
    + exists [], t. reflexivity.
    + exists (x :: l1), l2. cbn [app]. rewrite E. reflexivity.
Qed.

Lemma adjacent_single {A} (x a b : A) : ~ adjacent [x] a b.
Proof.
  intros (l1 & l2 & E). apply (f_equal (@length A)) in E.
  rewrite app_length in E. cbn [length] in E. lia.
Qed.

(* one pass over the fragments: every adjacent pair has strands +1/-1 and the
   result is the junctions of the adjacent pairs, or the pass stops with a
   ValueError *)
Lemma junctions_of_frags_spec t : forall f,
  match junctions_of_frags f t with
  | Ok js => (forall a b, adjacent (f :: t) a b -> pm a /\ pm b)
             /\ forall j, In j js <-> exists a b, adjacent (f :: t) a b /\ junction_tuple a b = Ok j
  | Err e => e = ValueError
  end.
Proof.
  induction t as [|g t IH]; intro f; cbn [junctions_of_frags].
  - split; [intros a b H | intro j; split; [intros [] | intros (a & b & H & _)]];
      exfalso; exact (adjacent_single _ _ _ H).
  - destruct (junction_tuple f g) as [j0|e] eqn:E0; cbn [bind]; [|exact (junction_tuple_err _ _ _ E0)].
    specialize (IH g). destruct (junctions_of_frags g t) as [js'|e]; cbn [bind]; [|exact IH].
    destruct IH as [P I]. split.
    + intros a b H. apply adjacent_cons in H as [[<- <-]|H];
        [exact (junction_tuple_ok_inv _ _ _ E0) | exact (P a b H)].
    + intro j. cbn [In]. rewrite (I j). split.
      * intros [->|(a & b & H & Hj)]; [exists f, g | exists a, b];
          (split; [apply adjacent_cons; auto | assumption]).
      * intros (a & b & H & Hj). apply adjacent_cons in H as [[-> ->]|H];
          [left; congruence | right; exists a, b; auto].
Qed.

Lemma junctions_of_frags_in t : forall f js, junctions_of_frags f t = Ok js ->
  forall j, In j js <-> exists a b, adjacent (f :: t) a b /\ junction_tuple a b = Ok j.
Proof. intros f js E. pose proof (junctions_of_frags_spec t f) as S. rewrite E in S. exact (proj2 S). Qed.

Lemma junctions_of_frags_ok t : forall f, Forall pm (f :: t) ->
  exists js, junctions_of_frags f t = Ok js.
Proof.
  induction t as [|g t IH]; intros f H; cbn [junctions_of_frags].
  - eexists; reflexivity.
  - inversion H as [|? ? Hf Ht]; subst. inversion Ht as [|? ? Hg _]; subst.
    destruct (junction_tuple_ok f g Hf Hg) as (j & ->).
    destruct (IH g Ht) as (js & ->). cbn [bind]. eexists; reflexivity.
Qed.

Lemma junctions_of_frags_ok_inv t : forall f js, junctions_of_frags f t = Ok js ->
  forall a b, adjacent (f :: t) a b -> pm a /\ pm b.
Proof. intros f js E. pose proof (junctions_of_frags_spec t f) as S. rewrite E in S. exact (proj1 S). Qed.

Lemma junctions_of_frags_err t : forall f e, junctions_of_frags f t = Err e -> e = ValueError.
Proof. intros f e E. pose proof (junctions_of_frags_spec t f) as S. rewrite E in S. exact S. Qed.

Lemma scaffold_junctions_in rows js : scaffold_junctions rows = Ok js ->
  forall j, In j js <-> exists a b, adjacent (frags_of rows) a b /\ junction_tuple a b = Ok j.
Proof.
  unfold scaffold_junctions. destruct (frags_of rows) as [|f t].
  - intros E j. injection E as <-. split; [intros []|].
    intros (a & b & (l1 & l2 & H) & _). destruct l1; discriminate.
  - apply junctions_of_frags_in.
Qed.

Lemma scaffold_junctions_ok rows : Forall pm (frags_of rows) ->
  exists js, scaffold_junctions rows = Ok js.
Proof.
  unfold scaffold_junctions. destruct (frags_of rows) as [|f t]; intro H.
  - eexists; reflexivity.
  - apply junctions_of_frags_ok. exact H.
Qed.

Theorem junction_set_ok : forall c rows, Forall pm (frags_of rows) ->
  exists js, junction_set c rows = Ok js.
Proof.
  intros c rows H. unfold junction_set.
  destruct (scaffold_junctions_ok rows H) as (js & ->). cbn [bind]. eexists; reflexivity.
Qed.

(* failure: a fragment with a neighbour whose strand is neither +1 nor -1
   (strand 0 in particular) makes junction_set raise ValueError *)
Theorem junction_set_err : forall c rows a b, adjacent (frags_of rows) a b ->
  ~ pm a \/ ~ pm b -> junction_set c rows = Err ValueError.
Proof.
  intros c rows a b H N. unfold junction_set, scaffold_junctions.
  destruct (frags_of rows) as [|f t].
  - destruct H as (l1 & l2 & H). destruct l1; discriminate.
  - destruct (junctions_of_frags f t) as [js|e] eqn:E; cbn [bind].
    + destruct (junctions_of_frags_ok_inv t f js E a b H). tauto.
    + rewrite (junctions_of_frags_err t f e E). reflexivity.
Qed.

Corollary junction_set_err_strand0 : forall c rows a b, adjacent (frags_of rows) a b ->
  f_strand a = 0 \/ f_strand b = 0 -> junction_set c rows = Err ValueError.
Proof.
  intros c rows a b H N. apply (junction_set_err c rows a b H). unfold pm. lia.
Qed.

Lemma Forall_pm_reverse rows : Forall pm (frags_of rows) -> Forall pm (frags_of (rows_reverse rows)).
Proof.
  rewrite frags_of_reverse, !Forall_forall. intros H x Hx.
  apply in_map_iff in Hx. destruct Hx as (y & <- & Hy). apply in_rev in Hy.
  apply pm_reverse, H, Hy.
Qed.

Lemma junction_set_reverse_incl rows js jr :
  Forall pm (frags_of rows) ->
  junction_set repaired rows = Ok js -> junction_set repaired (rows_reverse rows) = Ok jr ->
  forall j, In j js -> In j jr.
Proof.
  intros Hpm E1 E2 j Hj.
  destruct (junction_set_in _ _ _ E1) as (l1 & S1 & I1).
  destruct (junction_set_in _ _ _ E2) as (l2 & S2 & I2).
  cbn [repaired fix_canon_junction] in I1, I2.
  apply I1 in Hj. apply I2. apply in_map_iff in Hj. destruct Hj as (j0 & <- & Hj0).
  apply (scaffold_junctions_in _ _ S1) in Hj0. destruct Hj0 as (a & b & Hadj & Hab).
  destruct (adjacent_in _ _ _ Hadj) as [Ia Ib].
  rewrite Forall_forall in Hpm. pose proof (Hpm a Ia) as Pa. pose proof (Hpm b Ib) as Pb.
  destruct (junction_tuple_ok (frag_reverse b) (frag_reverse a) (pm_reverse b Pb) (pm_reverse a Pa))
    as (jb & Hjb).
  apply in_map_iff. exists jb. split.
  - symmetry. exact (junction_reverse_pair a b j0 jb Pa Pb Hab Hjb).
  - apply (scaffold_junctions_in _ _ S2). exists (frag_reverse b), (frag_reverse a).
    split; [|exact Hjb]. rewrite frags_of_reverse. apply adjacent_rev_map. exact Hadj.
Qed.

Theorem junction_set_reverse : forall rows js jr,
  Forall pm (frags_of rows) ->
  junction_set repaired rows = Ok js -> junction_set repaired (rows_reverse rows) = Ok jr ->
  forall j, In j js <-> In j jr.
Proof.
  intros rows js jr Hpm E1 E2 j. split.
  - exact (junction_set_reverse_incl rows js jr Hpm E1 E2 j).
  - apply (junction_set_reverse_incl (rows_reverse rows) jr js).
    + apply Forall_pm_reverse. exact Hpm.
    + exact E2.
    + rewrite rows_reverse_involutive. exact E1.
Qed.

(* both sides are duplicate-free, so the two sets are permutations of each
   other and in particular have the same size (what make_stats counts) *)
Corollary junction_set_reverse_perm : forall rows js jr,
  Forall pm (frags_of rows) ->
  junction_set repaired rows = Ok js -> junction_set repaired (rows_reverse rows) = Ok jr ->
  Permutation js jr.
Proof.
  intros rows js jr Hpm E1 E2. apply NoDup_Permutation.
  - exact (junction_set_nodup _ _ _ E1).
  - exact (junction_set_nodup _ _ _ E2).
  - exact (junction_set_reverse rows js jr Hpm E1 E2).
Qed.

Theorem junction_injective : forall a b c d j1 j2, pm a -> pm b -> pm c -> pm d ->
  junction_tuple a b = Ok j1 -> junction_tuple c d = Ok j2 ->
  (canon_junction j1 = canon_junction j2 <->
   (tail_end a = tail_end c /\ head_end b = head_end d) \/
   (tail_end a = head_end d /\ head_end b = tail_end c)).
Proof.
  intros a b c d j1 j2 Pa Pb Pc Pd. rewrite canon_eq_iff.
  unfold junction_tuple, tail_end, head_end.
  destruct Pa as [Ha|Ha], Pb as [Hb|Hb], Pc as [Hc|Hc], Pd as [Hd|Hd];
    rewrite Ha, Hb, Hc, Hd; cbn; intros E1 E2; injection E1 as <-; injection E2 as <-; cbn;
    (split;
     [ intros [E|E]; try discriminate; injection E; intros;
       solve [left; split; congruence | right; split; congruence]
     | intros [[E E']|[E E']]; try discriminate; injection E; injection E'; intros;
       solve [left; congruence | right; congruence] ]).
Qed.

Corollary junction_injective_ok : forall a b c d j1 j2,
  junction_tuple a b = Ok j1 -> junction_tuple c d = Ok j2 ->
  (canon_junction j1 = canon_junction j2 <->
   (tail_end a = tail_end c /\ head_end b = head_end d) \/
   (tail_end a = head_end d /\ head_end b = tail_end c)).
Proof.
  intros a b c d j1 j2 E1 E2.
  destruct (junction_tuple_ok_inv _ _ _ E1), (junction_tuple_ok_inv _ _ _ E2).
  apply junction_injective; assumption.
Qed.

(* corner cases: 1-bp contigs with one and the same
   name.  The shape of the tuple carries the sides, so the four strand
   combinations give three distinct canonical junctions; (+,+) and (-,-)
   coincide because for x = y the pair (x-, y-) is (reverse y, reverse x). *)
Definition ex_x (strand : Z) : frag := mkFrag 0 (s "x") 5 5 strand [].
Example junction_corner_1bp_same_name :
  junction_tuple (ex_x 1) (ex_x 1) = Ok (JSISI (s "x") 5 (s "x") 5) /\
  junction_tuple (ex_x (-1)) (ex_x (-1)) = Ok (JSISI (s "x") 5 (s "x") 5) /\
  junction_tuple (ex_x 1) (ex_x (-1)) = Ok (JSIIS (s "x") 5 5 (s "x")) /\
  junction_tuple (ex_x (-1)) (ex_x 1) = Ok (JISSI 5 (s "x") (s "x") 5) /\
  canon_junction (JSIIS (s "x") 5 5 (s "x")) <> canon_junction (JISSI 5 (s "x") (s "x") 5) /\
  canon_junction (JSISI (s "x") 5 (s "x") 5) <> canon_junction (JSIIS (s "x") 5 5 (s "x")) /\
  canon_junction (JSISI (s "x") 5 (s "x") 5) <> canon_junction (JISSI 5 (s "x") (s "x") 5) /\
  tail_end (ex_x 1) = head_end (ex_x (-1)) /\ head_end (ex_x 1) = tail_end (ex_x (-1)) /\
  tail_end (ex_x 1) <> head_end (ex_x 1).
Proof. repeat split; try (vm_compute; reflexivity); vm_compute; discriminate. Qed.

Definition legacy : cfg := mkCfg true true true false true.

Definition ex_A : frag := mkFrag 1 (s "A") 1 100 1 [].
Definition ex_B : frag := mkFrag 2 (s "B") 1 200 (-1) [].
Definition ex_rows2 : list row := [RF ex_A; RF ex_B].

Theorem legacy_junction_refuted : exists rows js jr,
  Forall pm (frags_of rows) /\ junction_set (mkCfg true true true false true) rows = Ok js
  /\ junction_set (mkCfg true true true false true) (rows_reverse rows) = Ok jr
  /\ ~ (forall j, In j js <-> In j jr).
Proof.
  exists ex_rows2, [JSIIS (s "A") 100 200 (s "B")], [JSIIS (s "B") 200 100 (s "A")].
  split; [|split; [|split]].
  - cbn. repeat apply Forall_cons; try apply Forall_nil; unfold pm; cbn; auto.
  - vm_compute. reflexivity.
  - vm_compute. reflexivity.
  - intro H. destruct (proj1 (H (JSIIS (s "A") 100 200 (s "B")))) as [E|[]].
    + left. reflexivity.
    + discriminate E.
Qed.

(* the repaired encoding on the same scaffold: one junction, the same from both sides *)
Example repaired_on_legacy_example :
  junction_set repaired ex_rows2 = Ok [JSIIS (s "A") 100 200 (s "B")] /\
  junction_set repaired (rows_reverse ex_rows2) = Ok [JSIIS (s "A") 100 200 (s "B")].
Proof. split; vm_compute; reflexivity. Qed.

Definition ex_rows4 : list row :=
  [ RF (mkFrag 1 (s "ctg_1") 1 1000 1 []);
    RF (mkFrag 2 (s "ctg_2") 1 500 (-1) []);
    RG (mkGap 200 (s "scaffold"));
    RF (mkFrag 3 (s "ctg_1") 1001 2000 (-1) [s "Painted"]);
    RF (mkFrag 4 (s "ctg_3") 7 7 1 []) ].

Definition ex_set4 : list junction :=
  [ JSIIS (s "ctg_1") 1000 500 (s "ctg_2");
    JSISI (s "ctg_1") 2000 (s "ctg_2") 1;
    JISSI 7 (s "ctg_3") (s "ctg_1") 1001 ].

Example junction_set_reverse_example :
  Forall pm (frags_of ex_rows4) /\
  junction_set repaired ex_rows4 = Ok ex_set4 /\
  junction_set repaired (rows_reverse ex_rows4) = Ok (rev ex_set4) /\
  (forall j, In j ex_set4 <-> In j (rev ex_set4)) /\
  (* the legacy encoding disagrees on the two mixed junctions of this scaffold *)
  junction_set legacy ex_rows4 =
    Ok [ JSIIS (s "ctg_1") 1000 500 (s "ctg_2"); JSISI (s "ctg_1") 2000 (s "ctg_2") 1;
         JISSI 1001 (s "ctg_1") (s "ctg_3") 7 ] /\
  junction_set legacy (rows_reverse ex_rows4) =
    Ok [ JISSI 7 (s "ctg_3") (s "ctg_1") 1001; JSISI (s "ctg_1") 2000 (s "ctg_2") 1;
         JSIIS (s "ctg_2") 500 1000 (s "ctg_1") ].
Proof.
  assert (P : Forall pm (frags_of ex_rows4))
    by (cbn; repeat apply Forall_cons; try apply Forall_nil; unfold pm; cbn; auto).
  assert (E1 : junction_set repaired ex_rows4 = Ok ex_set4) by (vm_compute; reflexivity).
  assert (E2 : junction_set repaired (rows_reverse ex_rows4) = Ok (rev ex_set4)) by (vm_compute; reflexivity).
  split; [exact P|]. split; [exact E1|]. split; [exact E2|].
  split; [exact (junction_set_reverse ex_rows4 _ _ P E1 E2)|].
  split; vm_compute; reflexivity.
Qed.

Print Assumptions junction_reverse_pair.
Print Assumptions junction_set_reverse.
Print Assumptions junction_set_reverse_perm.
Print Assumptions junction_set_ok.
Print Assumptions junction_set_err.
Print Assumptions junction_set_err_strand0.
Print Assumptions junction_injective.
Print Assumptions junction_injective_ok.
Print Assumptions junction_corner_1bp_same_name.
Print Assumptions canon_idempotent.
Print Assumptions canon_eq_iff.
Print Assumptions junction_eqb_eq.
Print Assumptions union_j_in.
Print Assumptions diff_j_in.
Print Assumptions inter_j_in.
Print Assumptions union_j_nodup.
Print Assumptions diff_j_nodup.
Print Assumptions inter_j_nodup.
Print Assumptions junction_set_nodup.
Print Assumptions legacy_junction_refuted.
Print Assumptions repaired_on_legacy_example.
Print Assumptions junction_set_reverse_example.
