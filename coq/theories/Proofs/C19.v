(* C19: the interval predicates and the all-against-all scan. *)
From Tola Require Import Py.Base Model.Fragment Model.Scaffold Proofs.BaseLemmas.
From Coq Require Import Lia ZifyBool.

Definition same_name (a b : frag) : Prop := f_name a = f_name b.
Definition wf (f : frag) : Prop := f_start f <= f_end f.
Definition in_frag (x : Z) (f : frag) : Prop := f_start f <= x <= f_end f.

Ltac name_cases a b :=
  let E := fresh "E" in
  destruct (str_eqb (f_name a) (f_name b)) eqn:E;
  [apply str_eqb_eq in E | apply str_eqb_neq in E].

Lemma overlaps_sym a b : overlaps a b = overlaps b a.
Proof.
  unfold overlaps. rewrite (str_eqb_sym (f_name b)).
  destruct (str_eqb (f_name a) (f_name b)); cbn; lia.
Qed.

Lemma overlaps_iff_common_base a b :
  wf a -> wf b ->
  (overlaps a b = true <-> same_name a b /\ exists x, in_frag x a /\ in_frag x b).
Proof.
  unfold wf, same_name, in_frag, overlaps. intros Ha Hb.
  name_cases a b; cbn [negb]; split.
  - intro H. split; [assumption|]. exists (Z.max (f_start a) (f_start b)). lia.
  - intros [_ [x Hx]]. lia.
  - discriminate.
  - intros [H _]. contradiction.
Qed.

Lemma overlap_length_spec a b :
  wf a -> wf b ->
  match overlap_length a b with
  | Some n => overlaps a b = true /\ n >= 1 /\
              (* n is the number of integers lying in both intervals *)
              n = Z.min (f_end a) (f_end b) - Z.max (f_start a) (f_start b) + 1 /\
              (forall x, in_frag x a /\ in_frag x b <->
                         Z.max (f_start a) (f_start b) <= x < Z.max (f_start a) (f_start b) + n)
  | None => overlaps a b = false
  end.
Proof.
  unfold wf, in_frag, overlap_length, overlaps. intros Ha Hb.
  name_cases a b; cbn [negb]; [|reflexivity].
  destruct (Z.max (f_start a) (f_start b) >? Z.min (f_end a) (f_end b)) eqn:C.
  - lia.
  - repeat split; try lia.
Qed.

Lemma overlap_length_sym a b : overlap_length a b = overlap_length b a.
Proof.
  unfold overlap_length. rewrite (str_eqb_sym (f_name b)).
  destruct (str_eqb (f_name a) (f_name b)); cbn [negb]; [|reflexivity].
  rewrite (Z.max_comm (f_start b)), (Z.min_comm (f_end b)). reflexivity.
Qed.

Lemma abuts_sym a b : abuts a b = abuts b a.
Proof.
  unfold abuts. rewrite (str_eqb_sym (f_name b)).
  destruct (str_eqb (f_name a) (f_name b)); cbn; lia.
Qed.

Lemma abuts_iff_gap0 a b :
  wf a -> wf b -> (abuts a b = true <-> gap_between a b = Some 0).
Proof.
  unfold wf, abuts, gap_between. intros Ha Hb.
  name_cases a b; cbn [negb]; [|split; discriminate].
  destruct (Z.min (f_end a) (f_end b) <? Z.max (f_start a) (f_start b)) eqn:C; split; intro H.
  - f_equal. lia.
  - injection H as H. lia.
  - lia.
  - discriminate.
Qed.

(* the gap is the number of bases strictly between the two intervals *)
Lemma gap_between_spec a b :
  wf a -> wf b ->
  match gap_between a b with
  | Some g => same_name a b /\ overlaps a b = false /\ g >= 0 /\
              (g = f_start b - f_end a - 1 \/ g = f_start a - f_end b - 1)
  | None => ~ same_name a b \/ overlaps a b = true
  end.
Proof.
  unfold wf, same_name, gap_between, overlaps. intros Ha Hb.
  name_cases a b; cbn [negb]; [|left; assumption].
  destruct (Z.min (f_end a) (f_end b) <? Z.max (f_start a) (f_start b)) eqn:C.
  - repeat split; try assumption; lia.
  - right. lia.
Qed.

(* exactly one of: overlap, abut, positive gap *)
Lemma trichotomy a b :
  wf a -> wf b -> same_name a b ->
  (overlaps a b = true /\ abuts a b = false /\ gap_between a b = None)
  \/ (overlaps a b = false /\ abuts a b = true /\ gap_between a b = Some 0)
  \/ (overlaps a b = false /\ abuts a b = false /\ exists g, g > 0 /\ gap_between a b = Some g).
Proof.
  unfold wf, same_name, overlaps, abuts, gap_between. intros Ha Hb Hn.
  rewrite Hn, str_eqb_refl. cbn [negb].
  destruct (Z.min (f_end a) (f_end b) <? Z.max (f_start a) (f_start b)) eqn:C.
  - destruct (Z.eq_dec (Z.max (f_start a) (f_start b) - Z.min (f_end a) (f_end b) - 1) 0) as [Z0|Z0].
    + right; left. rewrite Z0. repeat split; lia.
    + right; right. repeat split; try lia.
      eexists; split; [|reflexivity]. lia.
  - left. repeat split; lia.
Qed.

Lemma different_names a b :
  ~ same_name a b ->
  overlaps a b = false /\ abuts a b = false /\ overlap_length a b = None /\ gap_between a b = None.
Proof.
  unfold same_name, overlaps, abuts, overlap_length, gap_between. intro H.
  apply str_eqb_neq in H. rewrite H. cbn. repeat split.
Qed.

Lemma in_pairs_from {A} (l : list A) x y :
  In (x, y) (pairs_from l) <->
  exists i j, (i < j)%nat /\ nth_error l i = Some x /\ nth_error l j = Some y.
Proof.
  revert x y. induction l as [|h t IH]; intros x y; cbn [pairs_from].
  - split; [intros []|]. intros (i & j & _ & H & _). destruct i; discriminate.
  - rewrite in_app_iff, in_map_iff. split.
    + intros [(z & E & Hz) | H].
      * injection E as <- <-. apply In_nth_error in Hz as [j Hj].
        exists 0%nat, (S j). repeat split; [lia | assumption].
      * apply IH in H as (i & j & Lt & Hi & Hj).
        exists (S i), (S j). repeat split; [lia | assumption | assumption].
    + intros (i & j & Lt & Hi & Hj).
      destruct i as [|i].
      * injection Hi as <-. destruct j as [|j]; [lia|]. cbn in Hj.
        left. exists y. split; [reflexivity|]. eapply nth_error_In; eassumption.
      * destruct j as [|j]; [lia|]. right. apply IH.
        exists i, j. repeat split; [lia | assumption | assumption].
Qed.

Lemma NoDup_map_pair {A B} (h : A) (t : list B) : NoDup t -> NoDup (map (pair h) t).
Proof.
  induction 1 as [|x t Hx ND IH]; cbn; constructor; [|assumption].
  rewrite in_map_iff. intros (z & E & Hz). injection E as ->. contradiction.
Qed.

(* no pair is listed twice when the elements are pairwise different *)
Lemma pairs_from_NoDup {A} (l : list A) : NoDup l -> NoDup (pairs_from l).
Proof.
  induction l as [|h t IH]; intro ND; cbn [pairs_from]; [constructor|].
  inversion ND as [|? ? Hnot ND']; subst.
  apply NoDup_app_intro; [apply NoDup_map_pair; assumption | apply IH; assumption |].
  intros [a b] H1 H2.
  apply in_map_iff in H1 as (z & E & _). injection E as <- <-.
  apply in_pairs_from in H2 as (i & j & _ & Hi & _).
  apply Hnot. eapply nth_error_In; eassumption.
Qed.

Lemma scan_pairs_spec {B} (l : list (frag * B)) x y :
  In (x, y) (scan_pairs l) <->
  (exists i j, (i < j)%nat /\ nth_error l i = Some x /\ nth_error l j = Some y)
  /\ overlaps (fst x) (fst y) = true.
Proof.
  unfold scan_pairs. rewrite filter_In, in_pairs_from. cbn [fst snd]. reflexivity.
Qed.

Lemma scan_pairs_NoDup {B} (l : list (frag * B)) : NoDup l -> NoDup (scan_pairs l).
Proof. intro H. apply NoDup_filter, pairs_from_NoDup, H. Qed.

Lemma find_overlapping_none scs :
  find_overlapping_fragments scs = None <-> scan_pairs (flat_frags scs) = [].
Proof.
  unfold find_overlapping_fragments. destruct (scan_pairs (flat_frags scs)); split; congruence.
Qed.
