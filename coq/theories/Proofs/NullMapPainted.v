(* C08, last sentence: "Painting every scaffold changes only names (prefix +
   rank by size) and order, not content."

   A painted null map presents input scaffolds whole, forward and tagged
   [Painted] (nothing else): each present scaffold is one bait [1, E] under
   its own Pretext scaffold name; any subset of the input may be absent.
   Through the whole [remap]: one primary curated assembly, no cuts, no
   breaks, no joins, the multiset of row lists is the input's; the scaffolds
   present in the map become rank-1 chromosomes prefix1 .. prefixk numbered by
   non-increasing SEQUENCE length (sum of the contig lengths, gaps not
   counted), ties in Pretext order; the absent ones keep name and rank 3.

   The run up to the fusion by name is [remap_to_input_null] of Proofs.NullMap;
   that nothing is fused needs the Pretext names pairwise distinct and different
   from the name of every absent input scaffold (both necessary:
   [painted_dup_pname_refuted], [painted_name_clash_refuted]); the chromosome
   namer then makes one group per Pretext scaffold. *)
From Tola Require Import Py.Base Py.Dec Py.Sort Model.Fragment Model.Scaffold Model.Remap
  Proofs.BaseLemmas Proofs.Sort Proofs.Junctions Proofs.Naming Proofs.NullMap.
From Tola Require Proofs.RemapTail Proofs.Rows.
From Coq Require Import Lia ZifyBool Permutation Sorted.

Definition painted_bait (name : str) (E : Z) : row := RF (mkFrag (-1) name 1 E 1 [s "Painted"]).

(* like [null_map], every bait tagged Painted *)
Inductive painted_null_map (n d : Z) : list (str * list row) -> list (str * list row) -> Prop :=
  | pnm_nil : painted_null_map n d [] []
  | pnm_absent : forall sc input ptx,
      painted_null_map n d input ptx -> painted_null_map n d (sc :: input) ptx
  | pnm_present : forall name rows E pname input ptx,
      painted_null_map n d input ptx -> 1 <= E -> rows_len (removelast rows) < E ->
      d * (rows_len rows - E) < n -> pname <> [] ->
      painted_null_map n d ((name, rows) :: input) ((pname, [painted_bait name E]) :: ptx).

(* the same without tying the Pretext order to the input order *)
Definition painted_bait_ok (n d : Z) (input : list (str * list row)) (p : str * list row) : Prop :=
  exists name rows E, snd p = [painted_bait name E] /\ In (name, rows) input
    /\ 1 <= E /\ rows_len (removelast rows) < E /\ d * (rows_len rows - E) < n /\ fst p <> [].

(* the input scaffolds named by the baits *)
Definition bait_names (ptx : list (str * list row)) : list str :=
  map f_name (flat_map (fun p => frags_of (snd p)) ptx).

Definition painted_null_map_any (n d : Z) (input ptx : list (str * list row)) : Prop :=
  Forall (painted_bait_ok n d input) ptx /\ NoDup (bait_names ptx).

(* no Pretext scaffold is called like an input scaffold that no bait names
   (it would be fused with that left-over scaffold) *)
Definition pnames_fresh (input ptx : list (str * list row)) : Prop :=
  forall nm, In nm (map fst ptx) -> In nm (map fst input) -> In nm (bait_names ptx).

Definition seq_len (sc : scaffold) : Z := frags_length (sc_rows sc).
Definition Sorted_desc (l : list Z) : Prop := StronglySorted (fun a b => a >= b) l.


Lemma bait_names_ptx_of ps : bait_names (map (ptx_of true) ps) = map p_name ps.
Proof.
  unfold bait_names. induction ps as [|q ps IH]; [reflexivity|].
  cbn [map flat_map ptx_of snd frags_of app f_name] in *. rewrite IH. reflexivity.
Qed.

Lemma number_input_in : forall input k name rows, In (name, rows) input ->
  exists rows', In (name, rows') (number_input input k) /\ map erase_id rows' = map erase_id rows.
Proof.
  intros input k name rows I.
  apply (in_map (fun p : str * list row => (fst p, map erase_id (snd p)))) in I.
  rewrite <- (number_input_erase input k) in I. apply in_map_iff in I as ([nm rows'] & E & I).
  cbn [fst snd] in E. injection E as -> E. eauto.
Qed.

Lemma painted_any_pres n d input ptx k :
  Forall (painted_bait_ok n d input) ptx ->
  exists ps, ptx = map (ptx_of true) ps /\ Forall (pres_ok n d (number_input input k)) ps
    /\ Forall (fun q => p_pname q <> []) ps.
Proof.
  induction 1 as [|[pname prows] ptx (name & rows & E & H1 & H2 & H3 & H4 & H5 & H6) _ (ps & -> & F & NE)].
  - exists []. repeat split; constructor.
  - cbn [fst snd] in *. subst prows.
    destruct (number_input_in input k name rows H2) as (rows' & I & Er).
    exists (mkP pname name rows' E :: ps). split; [reflexivity|]. split; constructor; try assumption.
    unfold pres_ok. cbn [p_name p_rows p_E]. split; [exact I|]. split; [exact H3|]. split.
    + rewrite (rows_len_erase (removelast rows') (removelast rows)); [exact H4|].
      rewrite !map_removelast, Er. reflexivity.
    + rewrite (rows_len_erase rows' rows Er). exact H5.
Qed.

Lemma painted_null_map_is_any n d : forall input ptx,
  painted_null_map n d input ptx -> NoDup (map fst input) ->
  painted_null_map_any n d input ptx /\ incl (bait_names ptx) (map fst input).
Proof.
  induction 1 as [|sc input ptx H IH|name rows E pname input ptx H IH H1 H2 H3 H4]; intro N.
  - split; [split; constructor | intros x []].
  - cbn [map] in N. inversion N as [|? ? N1 N2]; subst. destruct (IH N2) as ((F & ND) & INC).
    split; [split; [|exact ND] | intros x Hx; right; apply INC, Hx].
    eapply Forall_impl; [|exact F]. intros p (nm & rw & E & Q1 & Q2 & Q3).
    exists nm, rw, E. split; [exact Q1|]. split; [right; exact Q2 | exact Q3].
  - cbn [map fst] in N. inversion N as [|? ? N1 N2]; subst. destruct (IH N2) as ((F & ND) & INC).
    split; [split|].
    + constructor.
      * exists name, rows, E. cbn [fst snd]. split; [reflexivity|]. split; [left; reflexivity|]. auto.
      * eapply Forall_impl; [|exact F]. intros p (nm & rw & E' & Q1 & Q2 & Q3).
        exists nm, rw, E'. split; [exact Q1|]. split; [right; exact Q2 | exact Q3].
    + unfold bait_names. cbn [flat_map snd painted_bait frags_of app map f_name].
      constructor; [|exact ND]. intro G. apply N1, INC, G.
    + unfold bait_names. cbn [flat_map snd painted_bait frags_of app map f_name].
      intros x [<-|Hx]; [left; reflexivity | right; apply INC, Hx].
Qed.

Lemma combine_seq_nth {A} : forall (l : list A) a i x,
  In (i, x) (combine (seq a (length l)) l) -> (a <= i)%nat /\ nth_error l (i - a) = Some x.
Proof.
  induction l as [|y l IH]; intros a i x H; cbn [length seq combine] in H; [destruct H|].
  destruct H as [H|H].
  - injection H as <- <-. split; [lia|]. rewrite Nat.sub_diag. reflexivity.
  - destruct (IH (S a) i x H) as (L & E). split; [lia|].
    replace (i - a)%nat with (S (i - S a)) by lia. exact E.
Qed.

Lemma nth_error_ext_eq {A} : forall (a b : list A), (forall i, nth_error a i = nth_error b i) -> a = b.
Proof.
  induction a as [|x a IH]; intros [|y b] H.
  - reflexivity.
  - specialize (H 0%nat). discriminate.
  - specialize (H 0%nat). discriminate.
  - pose proof (H 0%nat) as H0. cbn in H0. injection H0 as ->. f_equal.
    apply IH. intro i. exact (H (S i)).
Qed.

Lemma map_nth_seq {A} (d : A) : forall l1 pre l2,
  map (fun i => nth i (pre ++ l1 ++ l2) d) (seq (length pre) (length l1)) = l1.
Proof.
  induction l1 as [|x l1 IH]; intros pre l2; [reflexivity|].
  cbn [length seq map]. f_equal.
  - rewrite app_nth2 by lia. rewrite Nat.sub_diag. reflexivity.
  - specialize (IH (pre ++ [x]) l2). rewrite app_length in IH. cbn [length] in IH.
    rewrite Nat.add_1_r, <- app_assoc in IH. exact IH.
Qed.

Lemma map_by_index {X Y} (f : X -> Y) (g : nat -> Y) : forall (l : list X) a,
  (forall j x, nth_error l j = Some x -> f x = g (a + j)%nat) -> map f l = map g (seq a (length l)).
Proof.
  induction l as [|x l IH]; intros a H; [reflexivity|].
  cbn [map length seq]. f_equal.
  - rewrite (H 0%nat x eq_refl). f_equal. lia.
  - apply IH. intros j y Hj. rewrite (H (S j) y Hj). f_equal. lia.
Qed.

Lemma Forall2_map_same {X A B} (R : A -> B -> Prop) (f : X -> A) (g : X -> B) : forall l,
  (forall x, In x l -> R (f x) (g x)) -> Forall2 R (map f l) (map g l).
Proof.
  induction l as [|x l IH]; intro H; cbn [map]; constructor.
  - apply H. left. reflexivity.
  - apply IH. intros y Hy. apply H. right. exact Hy.
Qed.

Lemma StronglySorted_map_ge {A} (f : A -> Z) : forall l,
  StronglySorted (fun a b => f a >= f b) l -> StronglySorted (fun a b => a >= b) (map f l).
Proof.
  induction 1 as [|x l Hs IH Hx]; cbn [map]; constructor; [exact IH|].
  rewrite Forall_map. exact Hx.
Qed.

(* [hap_str None]: the haplotype key of a scaffold without tag or haplotype *)
Definition hN : str := s "None".
(* the chromosome group of the one scaffold at index [fst iq], made from the Pretext scaffold [snd iq] *)
Definition GG (iq : nat * pres) : chr_group := one_group hN (p_pname (snd iq)) [fst iq].

Section Groups.
  Variable fused : list scaffold.

  (* at index [fst iq] the fused list holds the piece of [snd iq]: Pretext name, same original name *)
  Definition at_piece (iq : nat * pres) : Prop :=
    exists sc, nth_error fused (fst iq) = Some sc /\ sc_name sc = p_pname (snd iq)
               /\ sc_orig sc = Some (p_pname (snd iq)) /\ p_pname (snd iq) <> [].

  Lemma groups_first i sc o' : nth_error fused i = Some sc -> sc_orig sc = Some o' -> o' <> [] ->
    build_groups_step fused [hN] false (mkCg [new_group [hN]] None None) (hN, i)
    = Ok (mkCg [one_group hN o' [i]] (Some hN) (Some o')).
  Proof.
    intros Hn Ho Hne.
    exact (build_groups_step_eq fused [hN] false [] (new_group [hN]) None None hN i sc o' Hn Ho Hne).
  Qed.

  Lemma groups_step gs o idxs lh i sc o' :
    nth_error fused i = Some sc -> sc_orig sc = Some o' -> o' <> [] -> o' <> o ->
    build_groups_step fused [hN] false (mkCg (gs ++ [one_group hN o idxs]) lh (Some o)) (hN, i)
    = Ok (mkCg ((gs ++ [one_group hN o idxs]) ++ [one_group hN o' [i]]) (Some hN) (Some o')).
  Proof.
    intros Hn Ho Hne Hd.
    rewrite (build_groups_step_eq fused [hN] false gs (one_group hN o idxs) lh (Some o) hN i sc o' Hn Ho Hne).
    unfold need_new_group, one_group. rewrite group_hap_single. cbn [opt_eqb].
    replace (str_eqb o' o) with false by (symmetry; apply str_eqb_neq, Hd). reflexivity.
  Qed.

  Lemma groups_fold : forall L gs o idxs lh,
    Forall at_piece L -> NoDup (o :: map (fun iq => p_pname (snd iq)) L) ->
    exists lh' lo',
      foldM (build_groups_step fused [hN] false) (map (fun iq : nat * pres => (hN, fst iq)) L)
            (mkCg (gs ++ [one_group hN o idxs]) lh (Some o))
      = Ok (mkCg ((gs ++ [one_group hN o idxs]) ++ map GG L) lh' lo').
  Proof.
    induction L as [|[i q] L IH]; intros gs o idxs lh F N.
    - exists lh, (Some o). cbn [map foldM]. rewrite app_nil_r. reflexivity.
    - inversion F as [|? ? (sc & F1 & _ & F2 & F3) F4]; subst. cbn [fst snd] in *.
      cbn [map fst snd] in N. inversion N as [|? ? N1 N2]; subst.
      assert (D : p_pname q <> o) by (intro X; apply N1; left; exact X).
      cbn [map foldM fst]. rewrite (groups_step gs o idxs lh i sc (p_pname q) F1 F2 F3 D). cbn [bind].
      destruct (IH (gs ++ [one_group hN o idxs]) (p_pname q) [i] (Some hN) F4) as (lh' & lo' & E).
      { inversion N2 as [|? ? M1 M2]; subst. constructor; assumption. }
      exists lh', lo'. rewrite E. unfold GG at 2. cbn [fst snd]. rewrite <- app_assoc. reflexivity.
  Qed.

  Lemma groups_from_start L : L <> [] ->
    Forall at_piece L -> NoDup (map (fun iq => p_pname (snd iq)) L) ->
    exists lh lo,
      foldM (build_groups_step fused [hN] false) (map (fun iq : nat * pres => (hN, fst iq)) L)
            (mkCg [new_group [hN]] None None)
      = Ok (mkCg (map GG L) lh lo).
  Proof.
    destruct L as [|[i q] L]; intros NE F N; [congruence|].
    inversion F as [|? ? (sc & F1 & _ & F2 & F3) F4]; subst. cbn [fst snd] in *.
    cbn [map foldM fst snd]. rewrite (groups_first i sc (p_pname q) F1 F2 F3). cbn [bind].
    destruct (groups_fold L [] (p_pname q) [i] (Some hN) F4 N) as (lh & lo & E).
    exists lh, lo. cbn [app] in E. rewrite E. reflexivity.
  Qed.

  Lemma GG_good iq : good_group hN (GG iq).
  Proof. exists (p_pname (snd iq)), [fst iq]. split; [reflexivity | discriminate]. Qed.

  Lemma group_length_GG iq sc : nth_error fused (fst iq) = Some sc ->
    group_length fused [hN] (GG iq) = frags_length (sc_rows sc).
  Proof.
    intro H. unfold group_length, GG, one_group. rewrite group_hap_single.
    cbn [map]. rewrite H. unfold sumZ. cbn [fold_left]. lia.
  Qed.
End Groups.

Lemma name_fold prefix : forall L a fs,
  NoDup (map fst L) ->
  Forall (fun iq : nat * pres => exists sc, nth_error fs (fst iq) = Some sc
             /\ sc_name sc = p_pname (snd iq) /\ p_pname (snd iq) <> []) L ->
  let fs' := fold_left (fun fs '(k, g) => name_group prefix (Z.of_nat k + 1) fs g)
                       (combine (seq a (length L)) (map GG L)) fs in
  upd_ok (map fst L) fs fs'
  /\ forall j iq, nth_error L j = Some iq ->
       exists sc', nth_error fs' (fst iq) = Some sc'
                   /\ sc_name sc' = prefix ++ str_of_Z (Z.of_nat (a + j) + 1).
Proof.
  induction L as [|[i q] L IH]; intros a fs N F fs'.
  - split; [apply upd_ok_refl|]. intros [|j] iq H; discriminate.
  - cbn [map fst] in N. inversion N as [|? ? N1 N2]; subst.
    inversion F as [|? ? (sc & F1 & F2 & F3) F4]; subst. cbn [fst snd] in *.
    subst fs'. cbn [length seq map combine fold_left].
    set (fs1 := name_group prefix (Z.of_nat a + 1) fs (GG (i, q))).
    assert (U1 : upd_ok [i] fs fs1).
    { pose proof (name_group_upd_ok prefix (Z.of_nat a + 1) fs (GG (i, q))) as U.
      unfold gall, GG, one_group in U. cbn [flat_map snd fst app] in U. exact U. }
    assert (E1 : nth_error fs1 i = Some (with_name sc (prefix ++ str_of_Z (Z.of_nat a + 1) ++ []))).
    { unfold fs1, GG, one_group. cbn [fst snd].
      apply name_group_single_effect; try assumption.
      - constructor; [intros [] | constructor].
      - left. reflexivity.
      - rewrite app_nil_r. exact F2.
      - intros j Hj. cbn [length] in Hj. lia. }
    destruct (IH (S a) fs1 N2) as (U2 & NM).
    { rewrite Forall_forall in *. intros iq Iq. destruct (F4 iq Iq) as (sc2 & G1 & G2).
      exists sc2. split; [|exact G2]. destruct U1 as (_ & U1). rewrite U1; [exact G1|].
      intros [X|[]]. apply N1. rewrite X. apply in_map, Iq. }
    split.
    + cbn [map fst]. change (i :: map fst L) with ([i] ++ map fst L). eapply upd_ok_trans; eassumption.
    + intros [|j] iq H; cbn [nth_error] in H.
      * injection H as <-. cbn [fst]. destruct U2 as (_ & U2). rewrite (U2 i N1), E1.
        eexists. split; [reflexivity|]. cbn [with_name sc_name]. rewrite app_nil_r.
        do 2 f_equal. lia.
      * destruct (NM j iq H) as (sc' & G1 & G2). exists sc'. split; [exact G1|].
        rewrite G2. do 2 f_equal. lia.
Qed.

Lemma name_chromosomes_painted prefix fused L :
  NoDup (map fst L) -> NoDup (map (fun iq : nat * pres => p_pname (snd iq)) L) ->
  Forall (at_piece fused) L ->
  let SL := sort_by_Z_desc (fun iq => group_length fused [hN] (GG iq)) L in
  exists fused', name_chromosomes prefix fused (map (fun iq : nat * pres => (hN, fst iq)) L) = Ok fused'
    /\ upd_ok (map fst L) fused fused'
    /\ forall j iq, nth_error SL j = Some iq ->
         exists sc', nth_error fused' (fst iq) = Some sc'
                     /\ sc_name sc' = prefix ++ str_of_Z (Z.of_nat j + 1).
Proof.
  intros N1 N2 F SL.
  assert (C : L = [] \/ L <> []) by (destruct L; [left; reflexivity | right; discriminate]).
  destruct C as [->|NE].
  - exists fused. split; [reflexivity|]. split; [apply upd_ok_refl|]. intros [|j] iq H; discriminate.
  - unfold name_chromosomes.
    assert (D : dedup str_eqb (map fst (map (fun iq : nat * pres => (hN, fst iq)) L)) = [hN]).
    { apply dedup_all_same; [destruct L; [congruence | discriminate]|].
      rewrite map_map. apply Forall_map. rewrite Forall_forall. intros; reflexivity. }
    rewrite D. change (1 <? zlen [hN]) with false.
    destruct (groups_from_start fused L NE F N2) as (lh & lo & E). rewrite E. cbn [bind cg_groups].
    assert (B : existsb (group_bad [hN]) (map GG L) = false).
    { destruct (existsb (group_bad [hN]) (map GG L)) eqn:B; [|reflexivity].
      apply existsb_exists in B as (g & Hg & Hb). apply in_map_iff in Hg as (iq & <- & _).
      rewrite (good_not_bad hN _ (GG_good iq)) in Hb. discriminate. }
    rewrite B. eexists. split; [reflexivity|].
    rewrite name_chromosomes_numbering.
    assert (ES : sort_by_Z_desc (group_length fused [hN]) (map GG L) = map GG SL).
    { unfold SL, sort_by_Z_desc. symmetry.
      apply (stable_sort_map GG (fun x y => group_length fused [hN] x >=? group_length fused [hN] y)). }
    rewrite ES, map_length.
    assert (PS : Permutation SL L) by apply sort_desc_perm.
    destruct (name_fold prefix SL 0 fused) as (U & NM).
    + eapply Permutation_NoDup; [apply Permutation_map, Permutation_sym, PS | exact N1].
    + eapply Permutation_Forall; [apply Permutation_sym, PS|].
      eapply Forall_impl; [|exact F]. intros iq (sc & G1 & G2 & _ & G4). eauto.
    + split.
      * eapply upd_ok_incl; [|exact U]. intros i Hi.
        eapply Permutation_in; [apply Permutation_map, PS | exact Hi].
      * exact NM.
Qed.

(* the scaffold a painted present scaffold becomes, and the present scaffolds with their indices in the fused list *)
Definition pc (q : pres) : scaffold := fst ((piece_of true) q).
Definition IPof (ps : list pres) : list (nat * pres) := combine (seq 0 (length ps)) ps.

Lemma IP_fst ps : map fst (IPof ps) = seq 0 (length ps).
Proof. apply map_fst_combine. apply seq_length. Qed.
Lemma IP_snd ps : map snd (IPof ps) = ps.
Proof. apply map_snd_combine. apply seq_length. Qed.

Lemma IP_at ps lf iq : In iq (IPof ps) -> nth_error (map pc ps ++ lf) (fst iq) = Some (pc (snd iq)).
Proof.
  destruct iq as [i q]. intro H. apply combine_seq_nth in H as (_ & H). rewrite Nat.sub_0_r in H.
  cbn [fst snd]. rewrite nth_error_app1.
  - apply map_nth_error, H.
  - rewrite map_length. apply nth_error_Some. congruence.
Qed.

Lemma IP_at_piece ps lf : Forall (fun q => p_pname q <> []) ps ->
  Forall (at_piece (map pc ps ++ lf)) (IPof ps).
Proof.
  intro NE. rewrite Forall_forall. intros iq I. exists (pc (snd iq)).
  split; [apply IP_at, I|]. split; [reflexivity|]. split; [reflexivity|].
  rewrite Forall_forall in NE. apply NE. rewrite <- (IP_snd ps). apply in_map, I.
Qed.

Lemma items_painted : forall ps a lf, Forall (fun sc => sc_rank sc = 3) lf ->
  flat_map (fun '(i, sc) => if sc_rank sc =? 1 then [(hap_str (fst (asm_key_of sc)), i)] else [])
           (combine (seq a (length (map pc ps ++ lf))) (map pc ps ++ lf))
  = map (fun iq : nat * pres => (hN, fst iq)) (combine (seq a (length ps)) ps).
Proof.
  induction ps as [|q ps IH]; intros a lf F.
  - cbn [map app length seq combine]. apply flat_map_nil_in. intros [i sc] I. apply in_combine_r in I.
    rewrite Forall_forall in F. rewrite (F sc I). reflexivity.
  - cbn [map app length seq combine flat_map fst]. rewrite (IH (S a) lf F). reflexivity.
Qed.

Lemma sbn_map {B} (f : scaffold -> B) : (forall a b, same_but_name a b -> f b = f a) ->
  forall l l', Forall2 same_but_name l l' -> map f l' = map f l.
Proof. intros H l l'. induction 1 as [|a b l l' R _ IH]; cbn [map]; [reflexivity|]. rewrite (H a b R), IH. reflexivity. Qed.

Lemma sbn_Forall (P : scaffold -> Prop) : (forall a b, same_but_name a b -> P a -> P b) ->
  forall l l', Forall2 same_but_name l l' -> Forall P l -> Forall P l'.
Proof.
  intros H l l'. induction 1 as [|a b l l' R _ IH]; intro F; [constructor|].
  inversion F; subst. constructor; [eapply H; eassumption | auto].
Qed.

(* the fused scaffolds: pieces (rank 1, Pretext names) then left-overs *)
Definition fusedP (ps : list pres) (ls : list (str * list row)) : list scaffold :=
  map pc ps ++ map mk_left ls.

Lemma fusedP_untagged ps ls : Forall untagged (fusedP ps ls).
Proof.
  unfold fusedP. apply Forall_app. split; rewrite Forall_map, Forall_forall; intros x _;
    unfold untagged; cbn; auto.
Qed.

Lemma assemblies_painted g prefix input0 rs ps ls :
  fuse_all repaired g rs = Ok (fusedP ps ls) -> fusedP ps ls <> [] ->
  NoDup (map p_pname ps) -> Forall (fun q => p_pname q <> []) ps ->
  Forall (fun p => pm_rows (snd p)) (number_input input0 0) ->
  (forall rows, In rows (map sc_rows (fusedP ps ls)) <-> In rows (map snd (number_input input0 0))) ->
  let SL := sort_by_Z_desc (fun iq => group_length (fusedP ps ls) [hN] (GG iq)) (IPof ps) in
  exists fused' sorted per,
    assemblies_with_scaffolds_fused repaired g prefix input0 rs
      = Ok (mkOut [mkOutAsm None true sorted] (b_cuts (rs_b rs)) 0 0 per)
    /\ Forall (fun p => snd p = (0, 0)) per
    /\ Permutation sorted fused'
    /\ upd_ok (map fst (IPof ps)) (fusedP ps ls) fused'
    /\ forall j iq, nth_error SL j = Some iq ->
         exists sc', nth_error fused' (fst iq) = Some sc'
                     /\ sc_name sc' = prefix ++ str_of_Z (Z.of_nat j + 1).
Proof.
  intros HF NE NP NN PM Same SL.
  destruct (name_chromosomes_painted prefix (fusedP ps ls) (IPof ps)) as (fused' & EN & U & NM).
  { rewrite IP_fst. apply seq_NoDup. }
  { rewrite <- (map_map snd p_pname), IP_snd. exact NP. }
  { apply IP_at_piece, NN. }
  assert (UT : Forall untagged fused').
  { eapply (sbn_Forall untagged); [|apply U|apply fusedP_untagged].
    intros a b (_ & T & H & _) (A1 & A2). split; congruence. }
  assert (NE' : fused' <> []).
  { intros ->. destruct U as (U & _). inversion U. congruence. }
  destruct (assemblies_untagged g prefix input0 rs (fusedP ps ls) fused' HF) as (sorted & per & PS & EA & FP);
    try assumption.
  - unfold fusedP. apply Forall_app. split; rewrite Forall_map, Forall_forall; intros; discriminate.
  - unfold fusedP at 2 3. rewrite (items_painted ps 0 (map mk_left ls)).
    + exact EN.
    + rewrite Forall_map, Forall_forall. intros; reflexivity.
  - intro rows. rewrite <- Same.
    replace (map sc_rows (fusedP ps ls)) with (map sc_rows fused'); [reflexivity|].
    apply (sbn_map sc_rows); [|apply U]. intros a b R. apply R.
  - exists fused', sorted, per. auto.
Qed.

(* default for [nth] *)
Definition dsc : scaffold := plain_scaffold [] [].

Lemma seq_len_at ps ls iq : In iq (IPof ps) ->
  group_length (fusedP ps ls) [hN] (GG iq) = seq_len (pc (snd iq)).
Proof. intro I. unfold fusedP. apply group_length_GG. apply IP_at, I. Qed.

Lemma sorted_pieces ps ls :
  sort_by_Z_desc seq_len (map pc ps)
  = map (fun iq : nat * pres => pc (snd iq))
        (sort_by_Z_desc (fun iq => group_length (fusedP ps ls) [hN] (GG iq)) (IPof ps)).
Proof.
  replace (map pc ps) with (map (fun iq : nat * pres => pc (snd iq)) (IPof ps))
    by (rewrite <- (map_map snd pc), IP_snd; reflexivity).
  unfold sort_by_Z_desc.
  rewrite <- (stable_sort_map (fun iq : nat * pres => pc (snd iq)) (fun x y => seq_len x >=? seq_len y)).
  f_equal. apply stable_sort_ext_in. intros x y Ix Iy. rewrite !seq_len_at by assumption. reflexivity.
Qed.

Lemma painted_split prefix ps ls fused' :
  let SL := sort_by_Z_desc (fun iq => group_length (fusedP ps ls) [hN] (GG iq)) (IPof ps) in
  upd_ok (map fst (IPof ps)) (fusedP ps ls) fused' ->
  (forall j iq, nth_error SL j = Some iq ->
     exists sc', nth_error fused' (fst iq) = Some sc' /\ sc_name sc' = prefix ++ str_of_Z (Z.of_nat j + 1)) ->
  exists present, Permutation fused' (present ++ map mk_left ls)
    /\ Forall2 same_but_name (sort_by_Z_desc seq_len (map pc ps)) present
    /\ map sc_name present = map (fun i => prefix ++ str_of_Z (Z.of_nat i)) (seq 1 (length present)).
Proof.
  intros SL (F2 & UN) NM.
  unfold fusedP in F2. apply Forall2_app_inv_l in F2 as (l1 & l2 & A1 & A2 & ->).
  assert (L1 : length l1 = length ps) by (rewrite <- (Forall2_length _ _ _ A1), map_length; reflexivity).
  assert (E2 : l2 = map mk_left ls).
  { apply nth_error_ext_eq. intro j. specialize (UN (length ps + j)%nat).
    rewrite nth_error_app2 in UN by lia. unfold fusedP in UN.
    rewrite nth_error_app2 in UN by (rewrite map_length; lia).
    rewrite L1, map_length in UN. replace (length ps + j - length ps)%nat with j in UN by lia.
    apply UN. rewrite IP_fst, in_seq. lia. }
  subst l2.
  set (N := fun iq : nat * pres => nth (fst iq) (l1 ++ map mk_left ls) dsc).
  exists (map N SL). split; [|split].
  - apply Permutation_app_tail.
    assert (H : l1 = map N (IPof ps)).
    { unfold N. rewrite <- (map_map fst (fun i => nth i (l1 ++ map mk_left ls) dsc)), IP_fst, <- L1.
      symmetry. apply (map_nth_seq dsc l1 [] (map mk_left ls)). }
    rewrite H at 1. apply Permutation_map, Permutation_sym, sort_desc_perm.
  - rewrite (sorted_pieces ps ls). fold SL. apply Forall2_map_same. intros iq I.
    assert (I' : In iq (IPof ps)) by (eapply Permutation_in; [apply sort_desc_perm | exact I]).
    pose proof (IP_at ps (map mk_left ls) iq I') as E.
    destruct (Forall2_nth_error _ _ _ (Forall2_app A1 A2) _ _ E) as (y & Ey & R).
    unfold N. rewrite (nth_error_nth _ _ dsc Ey). exact R.
  - rewrite map_map, map_length. apply (map_by_index _ _ SL 1%nat). intros j iq Hj.
    destruct (NM j iq Hj) as (sc' & E & E'). unfold N. rewrite (nth_error_nth _ _ dsc E), E'.
    do 2 f_equal. lia.
Qed.

Lemma remap_painted_numbered g prefix n d input0 ps :
  0 <= n -> 0 < d ->
  NoDup (map fst input0) -> Forall sc_ok (number_input input0 0) ->
  NoDup (map key_of (flat_map (fun p => frags_of (snd p)) (number_input input0 0))) ->
  Forall (pres_ok n d (number_input input0 0)) ps -> NoDup (map p_name ps) ->
  number_input input0 0 <> [] ->
  NoDup (map p_pname ps) -> Forall (fun q => p_pname q <> []) ps ->
  (forall nm, In nm (map p_pname ps) -> In nm (map fst input0) -> In nm (map p_name ps)) ->
  exists scs per present ls,
    remap repaired g prefix (n, d) input0 (map (ptx_of true) ps)
      = Ok (mkOut [mkOutAsm None true scs] 0 0 0 per)
    /\ Forall (fun p => snd p = (0, 0)) per
    /\ Permutation scs (present ++ map mk_left ls)
    /\ Forall2 same_but_name (sort_by_Z_desc seq_len (map pc ps)) present
    /\ map sc_name present = map (fun i => prefix ++ str_of_Z (Z.of_nat i)) (seq 1 (length present))
    /\ Permutation (map sc_of ps ++ ls) (number_input input0 0)
    /\ Forall (fun p => In p (number_input input0 0) /\ ~ In (fst p) (map p_name ps)) ls.
Proof.
  intros Hn Hd N0 OK NK PO NP NE NPP NN FR.
  destruct (remap_to_input_null true g prefix n d input0 ps Hn Hd N0 OK NK PO NP)
    as (rs & ls & ER & CU & PERM & LS & HF').
  set (inp := number_input input0 0) in *.
  assert (ND : NoDup (map p_pname ps ++ map fst ls)).
  { apply NoDup_app_intro; [exact NPP | |].
    - apply (NoDup_app_r (map fst (map sc_of ps))). rewrite <- map_app.
      eapply Permutation_NoDup; [apply Permutation_map, Permutation_sym, PERM|].
      unfold inp. rewrite RemapTail.number_input_names. exact N0.
    - intros nm I G. rewrite Forall_forall in LS.
      apply in_map_iff in G as (p & <- & Ip). destruct (LS p Ip) as (L1 & L2). apply L2.
      apply FR; [exact I|]. rewrite <- (RemapTail.number_input_names input0 0). apply in_map, L1. }
  assert (HF : fuse_all repaired g rs = Ok (fusedP ps ls)) by exact (HF' ND).
  assert (NR : map sc_rows (fusedP ps ls) = map snd (map sc_of ps ++ ls)).
  { unfold fusedP. rewrite !map_app, !map_map. reflexivity. }
  destruct (assemblies_painted g prefix input0 rs ps ls HF) as (fused' & sorted & per & EA & FP & PS & U & NM);
    try assumption.
  - intros Z. apply (f_equal (map sc_rows)) in Z. rewrite NR in Z. cbn [map] in Z.
    apply map_eq_nil in Z. rewrite Z in PERM. apply Permutation_nil in PERM. contradiction.
  - fold inp. rewrite Forall_forall in *. intros p Ip. destruct (OK p Ip) as (_ & _ & _ & _ & S5 & _).
    unfold pm_rows, pm. rewrite Forall_forall in *. intros f If. apply (S5 f If).
  - fold inp. intro rows. rewrite NR.
    split; intro H; apply in_map_iff in H as (p & <- & Ip); apply in_map;
      [apply (Permutation_in _ PERM) | apply (Permutation_in _ (Permutation_sym PERM))]; exact Ip.
  - destruct (painted_split prefix ps ls fused' U NM) as (present & Q1 & Q2 & Q3).
    exists sorted, per, present, ls.
    split; [unfold remap; rewrite ER; cbn [bind]; rewrite EA, CU; reflexivity|].
    split; [exact FP|]. split; [eapply perm_trans; eassumption|]. auto.
Qed.

(* what an output scaffold (before it is numbered) has to do with a Pretext scaffold *)
Definition piece_for (input : list (str * list row)) (sc : scaffold) (p : str * list row) : Prop :=
  sc_name sc = fst p /\ sc_orig sc = Some (fst p) /\ sc_rank sc = 1
  /\ exists name E rows, snd p = [painted_bait name E] /\ In (name, rows) input
       /\ map erase_id rows = map erase_id (sc_rows sc).

(* an output scaffold that no bait named *)
Definition absent_ok (input ptx : list (str * list row)) (sc : scaffold) : Prop :=
  sc_rank sc = 3 /\ sc_orig sc = None /\ ~ In (sc_name sc) (bait_names ptx)
  /\ exists isc, In isc input /\ fst isc = sc_name sc
                 /\ map erase_id (snd isc) = map erase_id (sc_rows sc).

Lemma number_input_in_rev : forall input k name rows', In (name, rows') (number_input input k) ->
  exists rows, In (name, rows) input /\ map erase_id rows = map erase_id rows'.
Proof.
  intros input k name rows' I.
  apply (in_map (fun p : str * list row => (fst p, map erase_id (snd p)))) in I.
  rewrite (number_input_erase input k) in I. apply in_map_iff in I as ([nm rows] & E & I).
  cbn [fst snd] in E. injection E as -> E. eauto.
Qed.

Lemma sbn_filter_orig z : forall l l', Forall2 same_but_name l l' ->
  map sc_orig (filter (fun sc => seq_len sc =? z) l') = map sc_orig (filter (fun sc => seq_len sc =? z) l).
Proof.
  induction 1 as [|a b l l' (R1 & _ & _ & _ & R5 & _) _ IH]; [reflexivity|].
  assert (EL : seq_len b = seq_len a) by (unfold seq_len; rewrite R1; reflexivity).
  cbn [filter]. rewrite EL.
  destruct (seq_len a =? z); cbn [map]; rewrite IH; [rewrite R5|]; reflexivity.
Qed.

Theorem painted_null_map_identity_any : forall g prefix n d input ptx,
  0 <= n -> 0 < d -> input <> [] ->
  NoDup (map fst input) -> Forall sc_ok input ->
  NoDup (map key_of (flat_map (fun p => frags_of (snd p)) input)) ->     (* distinct contigs *)
  NoDup (map fst ptx) ->               (* distinct Pretext names: [painted_dup_pname_refuted] *)
  pnames_fresh input ptx ->            (* ... not those of absent scaffolds: [painted_name_clash_refuted] *)
  painted_null_map_any n d input ptx ->
  exists scs per,
    remap repaired g prefix (n, d) input ptx = Ok (mkOut [mkOutAsm None true scs] 0 0 0 per)
    /\ Forall (fun p => snd p = (0, 0)) per
    (* content: the multiset of row lists is the input's *)
    /\ Permutation (map (fun sc => map erase_id (sc_rows sc)) scs)
                   (map (fun p => map erase_id (snd p)) input)
    /\ Forall (fun sc => sc_tag sc = None /\ sc_hap sc = None) scs
    (* names and ranks *)
    /\ exists pieces present absent,
         Permutation scs (present ++ absent)
         (* one piece per Pretext scaffold, in Pretext order, the rows of the scaffold it paints *)
         /\ Forall2 (piece_for input) pieces ptx
         (* [present] = the pieces sorted stably by decreasing sequence length, renamed *)
         /\ Forall2 same_but_name (sort_by_Z_desc seq_len pieces) present
         /\ map sc_name present
            = map (fun i => prefix ++ str_of_Z (Z.of_nat i)) (seq 1 (length present))
         /\ length present = length ptx
         /\ Forall (fun sc => sc_rank sc = 1) present
         /\ Sorted_desc (map seq_len present)
         (* ties: scaffolds of equal sequence length are numbered in Pretext order *)
         /\ (forall z, map sc_orig (filter (fun sc => seq_len sc =? z) present)
                       = map sc_orig (filter (fun sc => seq_len sc =? z) pieces))
         /\ Forall (absent_ok input ptx) absent.
Proof.
  intros g prefix n d input ptx Hn Hd NE N0 OK NK NPX FR (PB & NB).
  destruct (painted_any_pres n d input ptx 0 PB) as (ps & -> & PO & NN).
  rewrite bait_names_ptx_of in NB.
  assert (EP : map fst (map (ptx_of true) ps) = map p_pname ps) by (rewrite map_map; reflexivity).
  rewrite EP in NPX.
  destruct (remap_painted_numbered g prefix n d input ps Hn Hd N0 (sc_ok_number input 0 OK))
    as (scs & per & present & ls & E & FP & PS & SB & NMS & PERM & LS); try assumption.
  - pose proof (RemapTail.number_input_keys input 0) as K. unfold RemapSpec.in_frags in K.
    rewrite K. exact NK.
  - intro Z. apply NE. apply (f_equal (map fst)) in Z. rewrite RemapTail.number_input_names in Z.
    destruct input; [reflexivity | discriminate].
  - intros nm I1 I2. unfold pnames_fresh in FR. rewrite EP, bait_names_ptx_of in FR. apply FR; assumption.
  - set (pcs := map pc ps) in *. set (srt := sort_by_Z_desc seq_len pcs) in *.
    assert (PSRT : Permutation srt pcs) by apply sort_desc_perm.
    assert (ER : map (fun sc => map erase_id (sc_rows sc)) present
                 = map (fun sc => map erase_id (sc_rows sc)) srt).
    { apply (sbn_map (fun sc => map erase_id (sc_rows sc))); [|exact SB]. intros a b R.
      destruct R as (R & _). rewrite R. reflexivity. }
    exists scs, per. split; [exact E|]. split; [exact FP|]. split; [|split].
    + eapply perm_trans; [apply Permutation_map, PS|]. rewrite map_app, ER.
      eapply perm_trans; [apply Permutation_app_tail, Permutation_map, PSRT|].
      pose proof (number_input_erase input 0) as NI. apply (f_equal (map snd)) in NI.
      rewrite !map_map in NI. cbn [snd] in NI. rewrite <- NI.
      apply (Permutation_map (fun p : str * list row => map erase_id (snd p))) in PERM.
      rewrite map_app in PERM. unfold pcs. rewrite !map_map in *. exact PERM.
    + eapply Permutation_Forall; [apply Permutation_sym, PS|]. apply Forall_app. split.
      * eapply (sbn_Forall (fun sc => sc_tag sc = None /\ sc_hap sc = None)); [|exact SB|].
        -- intros a b (_ & T & H & _) (A1 & A2). split; congruence.
        -- eapply Permutation_Forall; [apply Permutation_sym, PSRT|].
           unfold pcs. rewrite Forall_map, Forall_forall. intros; split; reflexivity.
      * rewrite Forall_map, Forall_forall. intros; split; reflexivity.
    + exists pcs, present, (map mk_left ls).
      split; [exact PS|]. split; [|split; [exact SB|split; [exact NMS|split; [|split; [|split; [|split]]]]]].
      * unfold pcs. apply Forall2_map_same. intros q Iq. unfold piece_for, pc, piece_of, ptx_of.
        cbn [fst snd sc_name sc_orig sc_rank sc_rows].
        split; [reflexivity|]. split; [reflexivity|]. split; [reflexivity|].
        rewrite Forall_forall in PO. destruct (PO q Iq) as (Q1 & _).
        destruct (number_input_in_rev input 0 _ _ Q1) as (rows & I & Er).
        exists (p_name q), (p_E q), rows. auto.
      * rewrite <- (Forall2_length _ _ _ SB).
        rewrite (Permutation_length PSRT). unfold pcs. rewrite !map_length. reflexivity.
      * eapply (sbn_Forall (fun sc => sc_rank sc = 1)); [|exact SB|].
        -- intros a b (_ & _ & _ & R & _) A. congruence.
        -- eapply Permutation_Forall; [apply Permutation_sym, PSRT|].
           unfold pcs. rewrite Forall_map, Forall_forall. intros; reflexivity.
      * replace (map seq_len present) with (map seq_len srt).
        -- apply StronglySorted_map_ge. apply sort_desc_sorted.
        -- symmetry. apply (sbn_map seq_len); [|exact SB]. intros a b (R & _). unfold seq_len. rewrite R. reflexivity.
      * intro z. rewrite (sbn_filter_orig z _ _ SB). unfold srt. rewrite sort_desc_stable. reflexivity.
      * rewrite Forall_map, Forall_forall. intros [nm rows'] Ip. rewrite Forall_forall in LS.
        destruct (LS _ Ip) as (L1 & L2). cbn [fst] in L2.
        unfold absent_ok, mk_left. cbn [fst snd sc_rank sc_orig sc_name sc_rows].
        split; [reflexivity|]. split; [reflexivity|]. split; [rewrite bait_names_ptx_of; exact L2|].
        destruct (number_input_in_rev input 0 _ _ L1) as (rows & I & Er).
        exists (nm, rows). auto.
Qed.

(* the same for the inductive form (Pretext order = input order of the present scaffolds) *)
Theorem painted_null_map_identity : forall g prefix n d input ptx,
  0 <= n -> 0 < d -> input <> [] ->
  NoDup (map fst input) -> Forall sc_ok input ->
  NoDup (map key_of (flat_map (fun p => frags_of (snd p)) input)) ->
  NoDup (map fst ptx) -> pnames_fresh input ptx ->
  painted_null_map n d input ptx ->
  exists scs per,
    remap repaired g prefix (n, d) input ptx = Ok (mkOut [mkOutAsm None true scs] 0 0 0 per)
    /\ Forall (fun p => snd p = (0, 0)) per
    /\ Permutation (map (fun sc => map erase_id (sc_rows sc)) scs)
                   (map (fun p => map erase_id (snd p)) input)
    /\ Forall (fun sc => sc_tag sc = None /\ sc_hap sc = None) scs
    /\ exists pieces present absent,
         Permutation scs (present ++ absent)
         /\ Forall2 (piece_for input) pieces ptx
         /\ Forall2 same_but_name (sort_by_Z_desc seq_len pieces) present
         /\ map sc_name present
            = map (fun i => prefix ++ str_of_Z (Z.of_nat i)) (seq 1 (length present))
         /\ length present = length ptx
         /\ Forall (fun sc => sc_rank sc = 1) present
         /\ Sorted_desc (map seq_len present)
         /\ (forall z, map sc_orig (filter (fun sc => seq_len sc =? z) present)
                       = map sc_orig (filter (fun sc => seq_len sc =? z) pieces))
         /\ Forall (absent_ok input ptx) absent.
Proof.
  intros g prefix n d input ptx Hn Hd NE N0 OK NK NPX FR NM.
  apply painted_null_map_identity_any; try assumption.
  apply (painted_null_map_is_any n d input ptx NM N0).
Qed.

Lemma pnames_freshb_ok input ptx :
  forallb (fun nm => negb (mem_str nm (map fst input)) || mem_str nm (bait_names ptx)) (map fst ptx) = true ->
  pnames_fresh input ptx.
Proof.
  intros H nm I1 I2. rewrite forallb_forall in H. specialize (H nm I1).
  apply mem_str_in in I2. rewrite I2 in H. cbn [negb orb] in H. apply mem_str_in, H.
Qed.

(* a painted Pretext scaffold [pn] showing the whole input scaffold [nm] up to [E] *)
Definition pb (nm : String.string) (E : Z) (pn : String.string) : str * list row :=
  (s pn, [painted_bait (s nm) E]).
Arguments pb nm%string_scope E pn%string_scope.

(* four scaffolds: scaffold_1 has a gap and a reverse-strand contig (300 bp of
   sequence, 350 with the gap), scaffold_2 is absent from the map (and has a
   run of two gaps), scaffold_3 (320 bp) and scaffold_4 (310 bp) are single
   contigs.  The map presents 1, 3, 4 in this order. *)
Definition pi_input : list (str * list row) :=
  [ (s "scaffold_1", [cex_F "ctg1" 1 100 1; RG (mkGap 50 (s "scaffold")); cex_F "ctg2" 1 200 (-1)]);
    (s "scaffold_2", [cex_F "ctg3" 1 5 1; RG (mkGap 2 (s "x")); RG (mkGap 3 (s "y")); cex_F "ctg4" 1 3 1]);
    (s "scaffold_3", [cex_F "ctg5" 1 320 1]);
    (s "scaffold_4", [cex_F "ctg6" 1 310 1]) ].
Definition pi_ptx : list (str * list row) :=
  [ pb "scaffold_1" 345 "Scaffold_1"; pb "scaffold_3" 320 "Scaffold_2"; pb "scaffold_4" 305 "Scaffold_3" ].

Definition pi_gap : gap := mkGap 200 (s "scaffold").
Definition view_sc (sc : scaffold) := (sc_name sc, map erase_id (sc_rows sc), sc_rank sc, sc_orig sc).

(* by computation: numbered by SEQUENCE length (320, 310, 300): scaffold_1, the
   longest with its gap (350), comes third *)
Example painted_null_map_instance :
  exists scs per,
    remap repaired pi_gap (s "SUPER_") (10, 1) pi_input pi_ptx
      = Ok (mkOut [mkOutAsm None true scs] 0 0 0 per)
    /\ per = [(s "Primary", (0, 0))]
    /\ map view_sc scs
       = [ (s "SUPER_1", [cex_F "ctg5" 1 320 1], 1, Some (s "Scaffold_2"));
           (s "SUPER_2", [cex_F "ctg6" 1 310 1], 1, Some (s "Scaffold_3"));
           (s "SUPER_3", [cex_F "ctg1" 1 100 1; RG (mkGap 50 (s "scaffold")); cex_F "ctg2" 1 200 (-1)],
            1, Some (s "Scaffold_1"));
           (s "scaffold_2", [cex_F "ctg3" 1 5 1; RG (mkGap 2 (s "x")); RG (mkGap 3 (s "y")); cex_F "ctg4" 1 3 1],
            3, None) ].
Proof.
  set (run := remap _ _ _ _ _ _).
  exists (flat_map oa_scaffolds (out_asms (out_of run))), (out_per_asm (out_of run)).
  split; [vm_compute; reflexivity|]. split; vm_compute; reflexivity.
Qed.

(* the hypotheses of the theorem hold of this instance ... *)
Lemma pi_sc_ok : Forall sc_ok pi_input.
Proof.
  apply sc_okb_all. vm_compute. reflexivity.
Qed.

Lemma pi_nodup_names : NoDup (map fst pi_input).
Proof. apply (nodupb_ok str_eqb str_eqb_refl). vm_compute. reflexivity. Qed.
Lemma pi_nodup_keys : NoDup (map key_of (flat_map (fun p => frags_of (snd p)) pi_input)).
Proof. apply (nodupb_ok key_eqb Rows.key_eqb_refl). vm_compute. reflexivity. Qed.
Lemma pi_nodup_pnames : NoDup (map fst pi_ptx).
Proof. apply (nodupb_ok str_eqb str_eqb_refl). vm_compute. reflexivity. Qed.
Lemma pi_fresh : pnames_fresh pi_input pi_ptx.
Proof. apply pnames_freshb_ok. vm_compute. reflexivity. Qed.
Lemma pi_null_map : painted_null_map 10 1 pi_input pi_ptx.
Proof.
  unfold pi_input, pi_ptx, pb.
  apply pnm_present; [apply pnm_absent; apply pnm_present; [apply pnm_present; [constructor| | | |]| | | |]| | | |];
    cbn; try lia; discriminate.
Qed.

(* ... so the theorem applies (its hypotheses are not vacuous); without running
   the model it gives the names, ranks and order, not the rows themselves *)
Example painted_null_map_instance_by_theorem :
  exists scs per,
    remap repaired pi_gap (s "SUPER_") (10, 1) pi_input pi_ptx
      = Ok (mkOut [mkOutAsm None true scs] 0 0 0 per)
    /\ Forall (fun p => snd p = (0, 0)) per
    /\ Permutation (map (fun sc => map erase_id (sc_rows sc)) scs)
                   (map (fun p => map erase_id (snd p)) pi_input)
    /\ Forall (fun sc => sc_tag sc = None /\ sc_hap sc = None) scs
    /\ exists pieces present absent,
         Permutation scs (present ++ absent)
         /\ Forall2 (piece_for pi_input) pieces pi_ptx
         /\ Forall2 same_but_name (sort_by_Z_desc seq_len pieces) present
         /\ map sc_name present = [s "SUPER_1"; s "SUPER_2"; s "SUPER_3"]
         /\ Forall (fun sc => sc_rank sc = 1) present
         /\ Sorted_desc (map seq_len present)
         /\ Forall (absent_ok pi_input pi_ptx) absent.
Proof.
  assert (H0 : 0 <= 10) by lia. assert (H1 : 0 < 1) by lia.
  assert (H2 : pi_input <> []) by (unfold pi_input; discriminate).
  destruct (painted_null_map_identity pi_gap (s "SUPER_") 10 1 pi_input pi_ptx H0 H1 H2
              pi_nodup_names pi_sc_ok pi_nodup_keys pi_nodup_pnames pi_fresh pi_null_map)
    as (scs & per & E & FP & PC & UT & pieces & present & absent & P1 & P2 & P3 & P4 & P5 & P6 & P7 & _ & P9).
  exists scs, per. split; [exact E|]. split; [exact FP|]. split; [exact PC|]. split; [exact UT|].
  exists pieces, present, absent. split; [exact P1|]. split; [exact P2|]. split; [exact P3|].
  split; [rewrite P4, P5; reflexivity|]. split; [exact P6|]. split; [exact P7|exact P9].
Qed.

(* ties are broken by the PRETEXT order, not the input order: scaffold_2 and
   scaffold_3 have the same length; the map shows scaffold_3 first *)
Definition tie_input : list (str * list row) :=
  [ (s "scaffold_1", [cex_F "ctg1" 1 100 1]);
    (s "scaffold_2", [cex_F "ctg3" 1 300 1]);
    (s "scaffold_3", [cex_F "ctg5" 1 300 1]) ].
Definition tie_ptx : list (str * list row) :=
  [ pb "scaffold_1" 100 "Scaffold_1"; pb "scaffold_3" 300 "Scaffold_2"; pb "scaffold_2" 300 "Scaffold_3" ].

Example painted_tie_break_instance :
  painted_null_map_any 10 1 tie_input tie_ptx
  /\ exists scs per,
       remap repaired pi_gap (s "SUPER_") (10, 1) tie_input tie_ptx
         = Ok (mkOut [mkOutAsm None true scs] 0 0 0 per)
       /\ map view_sc scs
          = [ (s "SUPER_1", [cex_F "ctg5" 1 300 1], 1, Some (s "Scaffold_2"));
              (s "SUPER_2", [cex_F "ctg3" 1 300 1], 1, Some (s "Scaffold_3"));
              (s "SUPER_3", [cex_F "ctg1" 1 100 1], 1, Some (s "Scaffold_1")) ].
Proof.
  split.
  - split.
    + unfold tie_ptx, pb. repeat constructor; unfold painted_bait_ok; cbn [fst snd].
      * exists (s "scaffold_1"), [cex_F "ctg1" 1 100 1], 100. cbn. intuition (try lia; try discriminate).
      * exists (s "scaffold_3"), [cex_F "ctg5" 1 300 1], 300. cbn. intuition (try lia; try discriminate).
      * exists (s "scaffold_2"), [cex_F "ctg3" 1 300 1], 300. cbn. intuition (try lia; try discriminate).
    + apply (nodupb_ok str_eqb str_eqb_refl). vm_compute. reflexivity.
  - set (run := remap _ _ _ _ _ _).
    exists (flat_map oa_scaffolds (out_asms (out_of run))), (out_per_asm (out_of run)).
    split; vm_compute; reflexivity.
Qed.

(* two Pretext scaffolds with the same name: their rows are fused (one join) *)
Definition dup_ptx : list (str * list row) :=
  [ pb "scaffold_1" 345 "Scaffold_1"; pb "scaffold_3" 320 "Scaffold_1"; pb "scaffold_4" 305 "Scaffold_3" ].

Example painted_dup_pname_refuted :
  NoDup (map fst pi_input) /\ Forall sc_ok pi_input
  /\ NoDup (map key_of (flat_map (fun p => frags_of (snd p)) pi_input))
  /\ pnames_fresh pi_input dup_ptx /\ painted_null_map 10 1 pi_input dup_ptx
  /\ ~ NoDup (map fst dup_ptx)
  /\ exists o, remap repaired pi_gap (s "SUPER_") (10, 1) pi_input dup_ptx = Ok o
       /\ out_joins o = 1
       /\ map (fun sc => (sc_name sc, length (sc_rows sc))) (flat_map oa_scaffolds (out_asms o))
          = [(s "SUPER_1", 5%nat); (s "SUPER_2", 1%nat); (s "scaffold_2", 4%nat)].
Proof.
  split; [exact pi_nodup_names|]. split; [exact pi_sc_ok|]. split; [exact pi_nodup_keys|].
  split; [apply pnames_freshb_ok; vm_compute; reflexivity|]. split; [|split].
  - unfold pi_input, dup_ptx, pb.
    apply pnm_present; [apply pnm_absent; apply pnm_present; [apply pnm_present; [constructor| | | |]| | | |]| | | |];
      cbn; try lia; discriminate.
  - intro N. cbn in N. inversion N as [|? ? N1 _]. apply N1. left. reflexivity.
  - set (run := remap _ _ _ _ _ _). exists (out_of run).
    split; [vm_compute; reflexivity|]. split; vm_compute; reflexivity.
Qed.

(* a Pretext scaffold named like an input scaffold that the map does not show:
   it is fused with that left-over scaffold (one join) *)
Definition clash_ptx : list (str * list row) :=
  [ pb "scaffold_1" 345 "scaffold_2"; pb "scaffold_3" 320 "Scaffold_2"; pb "scaffold_4" 305 "Scaffold_3" ].

Example painted_name_clash_refuted :
  NoDup (map fst pi_input) /\ Forall sc_ok pi_input
  /\ NoDup (map key_of (flat_map (fun p => frags_of (snd p)) pi_input))
  /\ NoDup (map fst clash_ptx) /\ painted_null_map 10 1 pi_input clash_ptx
  /\ ~ pnames_fresh pi_input clash_ptx
  /\ exists o, remap repaired pi_gap (s "SUPER_") (10, 1) pi_input clash_ptx = Ok o
       /\ out_joins o = 1
       /\ map (fun sc => (sc_name sc, length (sc_rows sc))) (flat_map oa_scaffolds (out_asms o))
          = [(s "SUPER_1", 1%nat); (s "SUPER_2", 1%nat); (s "SUPER_3", 8%nat)].
Proof.
  split; [exact pi_nodup_names|]. split; [exact pi_sc_ok|]. split; [exact pi_nodup_keys|].
  split; [|split; [|split]].
  - apply (nodupb_ok str_eqb str_eqb_refl). vm_compute. reflexivity.
  - unfold pi_input, clash_ptx, pb.
    apply pnm_present; [apply pnm_absent; apply pnm_present; [apply pnm_present; [constructor| | | |]| | | |]| | | |];
      cbn; try lia; discriminate.
  - intro F. specialize (F (s "scaffold_2")). cbn in F.
    assert (G : s "scaffold_1" = s "scaffold_2" \/ s "scaffold_3" = s "scaffold_2" \/ s "scaffold_4" = s "scaffold_2" \/ False)
      by (apply F; auto).
    destruct G as [G|[G|[G|[]]]]; vm_compute in G; discriminate G.
  - set (run := remap _ _ _ _ _ _). exists (out_of run).
    split; [vm_compute; reflexivity|]. split; vm_compute; reflexivity.
Qed.

Print Assumptions painted_null_map_identity_any.
Print Assumptions painted_null_map_identity.
Print Assumptions painted_null_map_instance.
Print Assumptions painted_null_map_instance_by_theorem.
Print Assumptions painted_tie_break_instance.
Print Assumptions painted_dup_pname_refuted.
Print Assumptions painted_name_clash_refuted.
