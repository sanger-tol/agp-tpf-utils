(* Termination of the fuelled loops of the remapping pipeline: the model's
   [Err OutOfFuel] (a value the Python program cannot produce) is never
   returned by [remap_to_input] / [remap], for ANY input.

   The only loops with fuel reachable from [remap] are
     - bsearch / strip_left / strip_right   (find_overlaps),
     - split_fuel                           (natural_key, total),
     - discard_loop                         ("while multi:" of
                                             discard_overhanging_fragments).
   The measure for discard_loop is the number of rows held by all results:
   every fix applied is a discard_start / discard_end on a non-empty result,
   which removes at least one row and touches no other result; a round with an
   empty fix list leaves the loop.  No axioms. *)
From Tola Require Import Py.Base Model.Fragment Model.Scaffold Model.Lookup
  Model.OverlapResult Model.NaturalKey Model.Namer Model.Remap
  Proofs.Lookup Proofs.OverlapResult Proofs.NaturalKey Proofs.RemapHead.
From Coq Require Import Lia ZifyBool.

(* [r] is not the model's out-of-fuel error *)
Definition nof {A} (r : res A) : Prop := r <> Err OutOfFuel.

Lemma nof_ok {A} (a : A) : nof (Ok a).
Proof. discriminate. Qed.

Lemma nof_bind_eq {A B} (r : res A) (f : A -> res B) :
  nof r -> (forall a, r = Ok a -> nof (f a)) -> nof (bind r f).
Proof.
  destruct r as [a|e]; cbn [bind]; intros H1 H2; [apply H2; reflexivity|].
  intros E. apply H1. injection E as ->. reflexivity.
Qed.

Lemma nof_bind {A B} (r : res A) (f : A -> res B) :
  nof r -> (forall a, nof (f a)) -> nof (bind r f).
Proof. intros H1 H2. apply nof_bind_eq; [exact H1 | intros a _; apply H2]. Qed.

Lemma nof_mapM {A B} (f : A -> res B) l : (forall x, nof (f x)) -> nof (mapM f l).
Proof.
  intros H. induction l as [|x l IH]; cbn [mapM]; [apply nof_ok|].
  apply nof_bind; [apply H|]. intros y. apply nof_bind; [exact IH|]. intros ys. apply nof_ok.
Qed.

Lemma nof_foldM {A S} (f : S -> A -> res S) l : (forall s x, nof (f s x)) -> forall s, nof (foldM f l s).
Proof.
  intros H. induction l as [|x l IH]; intros s; cbn [foldM]; [apply nof_ok|].
  apply nof_bind; [apply H | exact IH].
Qed.

Create HintDb nof.

(* one syntactic step; leaves are closed by the lemmas registered in [nof], so
   the lemma of a callee has to be registered before its caller's is proved *)
Ltac nof_step :=
  match goal with
  | |- nof (Ok _) => apply nof_ok
  | |- nof (Err _) => unfold nof; discriminate
  | |- nof (bind _ _) => apply nof_bind; [|intro]
  | |- nof (mapM _ _) => apply nof_mapM; intro
  | |- nof (foldM _ _ _) => apply nof_foldM; intros ? ?
  | |- nof (match ?x with _ => _ end) => destruct x
  | |- nof _ => solve [auto with nof]
  | |- _ => progress cbv beta
  | |- _ => progress cbv zeta
  end.
Ltac nof_auto := repeat nof_step.

Lemma bsearch_nof idx bs be : forall fuel a z,
  (Z.to_nat (z - a) < fuel)%nat -> bsearch idx bs be fuel a z <> Err OutOfFuel.
Proof.
  induction fuel as [|fuel IH]; intros a z H; [lia|].
  cbn [bsearch]. destruct (a <? z) eqn:E; [|discriminate].
  set (m := a + (z - a) / 2).
  assert (Hm : a <= m < z) by (subst m; Z.div_mod_to_equations; lia).
  destruct (idx_at idx m <? bs); [apply IH; lia|].
  destruct (row_start idx m >? be); [apply IH; lia | discriminate].
Qed.

Lemma py_nth_nof {A} (l : list A) i : nof (py_nth l i).
Proof.
  unfold py_nth. cbv zeta. nof_auto.
Qed.
#[export] Hint Resolve py_nth_nof : nof.

Lemma strip_left_nof rows : forall fuel i j,
  (Z.to_nat (j - i + 1) < fuel)%nat -> strip_left true rows fuel i j <> Err OutOfFuel.
Proof.
  induction fuel as [|fuel IH]; intros i j H; [lia|].
  cbn [strip_left andb]. destruct (i <=? j) eqn:E; cbn [negb]; [|discriminate].
  change (nof (do r <- py_nth rows i; if is_gap r then strip_left true rows fuel (i + 1) j else Ok i)).
  apply nof_bind; [apply py_nth_nof|]. intros r.
  destruct (is_gap r); [apply IH; lia | apply nof_ok].
Qed.

Lemma strip_left_ge b rows : forall fuel i j i',
  strip_left b rows fuel i j = Ok i' -> i <= i'.
Proof.
  induction fuel as [|fuel IH]; intros i j i' H; [discriminate|].
  cbn [strip_left] in H. destruct (b && negb (i <=? j)); [injection H as <-; lia|].
  destruct (py_nth rows i) as [r|e]; cbn [bind] in H; [|discriminate].
  destruct (is_gap r); [apply IH in H; lia | injection H as <-; lia].
Qed.

Lemma strip_right_nof rows : forall fuel i j,
  (Z.to_nat (j - i + 1) < fuel)%nat -> strip_right true rows fuel i j <> Err OutOfFuel.
Proof.
  induction fuel as [|fuel IH]; intros i j H; [lia|].
  cbn [strip_right andb]. destruct (i <=? j) eqn:E; cbn [negb]; [|discriminate].
  change (nof (do r <- py_nth rows j; if is_gap r then strip_right true rows fuel i (j - 1) else Ok j)).
  apply nof_bind; [apply py_nth_nof|]. intros r.
  destruct (is_gap r); [apply IH; lia | apply nof_ok].
Qed.

(* for ALL rows (zero-length or negative-length rows included) and all baits *)
Theorem find_overlaps_never_out_of_fuel : forall rows a b,
  find_overlaps rows a b <> Err OutOfFuel.
Proof.
  intros rows bs be. unfold find_overlaps.
  destruct rows as [|r0 t] eqn:Erows; [discriminate|]. rewrite <- Erows.
  rewrite find_overlaps_unfold by (rewrite Erows; discriminate). cbv zeta.
  set (idx := make_index rows). set (n := length idx).
  apply nof_bind_eq; [apply bsearch_nof; lia|]. intros [m|] Hm; [|apply nof_ok].
  apply bsearch_range in Hm.
  set (i0 := extend_left idx bs (Z.to_nat m) m).
  set (j0 := extend_right idx be (n - S (Z.to_nat m)) (m + 1) m).
  assert (Hi0 : 0 <= i0 <= m) by (apply extend_left_range; lia).
  assert (Hj0 : m <= j0 < m + 1 + Z.of_nat (n - S (Z.to_nat m))) by (apply extend_right_range; lia).
  apply nof_bind_eq; [apply strip_left_nof; lia|]. intros i1 Hi1.
  apply strip_left_ge in Hi1.
  apply nof_bind; [apply strip_right_nof; lia|]. intros j1.
  destruct (negb (i1 <=? j1)); apply nof_ok.
Qed.

Lemma find_overlaps_nof rows a b : nof (find_overlaps rows a b).
Proof. apply find_overlaps_never_out_of_fuel. Qed.
#[export] Hint Resolve find_overlaps_nof : nof.

Lemma natural_key_nof x : nof (natural_key x).
Proof. destruct (natural_key_total x) as [k ->]. apply nof_ok. Qed.
#[export] Hint Resolve natural_key_nof : nof.

Lemma smart_sort_nof {A} (rank_of : A -> Z) (name_of : A -> str) l : nof (smart_sort rank_of name_of l).
Proof. unfold smart_sort, with_keys. nof_auto. Qed.
#[export] Hint Resolve smart_sort_nof : nof.

Definition total_result_rows (st : list ovr) : nat := length (concat (map o_rows st)).

Lemma total_cons r st :
  total_result_rows (r :: st) = (length (o_rows r) + total_result_rows st)%nat.
Proof. unfold total_result_rows. cbn [map concat]. rewrite app_length. reflexivity. Qed.

Lemma total_set_nth : forall st n r r', nth_error st n = Some r ->
  (total_result_rows (set_nth st n r') + length (o_rows r)
   = total_result_rows st + length (o_rows r'))%nat.
Proof.
  induction st as [|x st IH]; intros [|n] r r' H; cbn [nth_error] in H; try discriminate.
  - injection H as ->. cbn [set_nth]. rewrite !total_cons. lia.
  - cbn [set_nth]. rewrite !total_cons. specialize (IH _ _ r' H). lia.
Qed.

Lemma p_apply_length st p st' : p_apply st p = Ok st' -> length st' = length st.
Proof.
  intros H. unfold p_apply in H. bind_inv H r Hr. bind_inv H r' Hr'. injection H as <-.
  apply put_ovr_length.
Qed.

(* a fix strictly decreases the number of rows held by the results *)
Theorem p_apply_decreases : forall st p st',
  p_apply st p = Ok st' -> (total_result_rows st' < total_result_rows st)%nat.
Proof.
  intros st p st' H. unfold p_apply in H. bind_inv H r Hr. bind_inv H r' Hr'. injection H as <-.
  assert (L : (length (o_rows r') < length (o_rows r))%nat).
  { destruct (pr_kind p).
    - destruct (discard_start_spec _ _ Hr') as (d & gaps & -> & _).
      cbn [length]. rewrite app_length. lia.
    - destruct (discard_end_spec _ _ Hr') as (d & gaps & -> & _).
      rewrite !app_length. cbn [length]. lia. }
  unfold get_ovr in Hr. destruct (nth_error st (Z.to_nat (pr_rid p))) as [r0|] eqn:E; [|discriminate].
  injection Hr as ->. unfold put_ovr. pose proof (total_set_nth _ _ _ r' E). lia.
Qed.

Theorem make_fixes_decreases : forall err st pls st' fixes,
  make_fixes err st pls = Ok (st', fixes) ->
  (total_result_rows st' + length fixes <= total_result_rows st)%nat.
Proof.
  intros err st pls; revert st.
  induction pls as [|pl t IH]; intros st st' fixes H; cbn [make_fixes] in H.
  - injection H as <- <-. cbn [length]. lia.
  - bind_inv H r Hr. destruct r as [st1 fx]. bind_inv H r2 Hr2. destruct r2 as [st2 fxs].
    injection H as <- <-. apply IH in Hr2. apply fix_one_cases in Hr.
    destruct Hr as [[-> ->] | (p & -> & _ & Hp)].
    + lia.
    + apply p_apply_decreases in Hp. cbn [length]. lia.
Qed.

Lemma get_ovr_nof st id : nof (get_ovr st id).
Proof. unfold get_ovr. nof_auto. Qed.
#[export] Hint Resolve get_ovr_nof : nof.

Lemma first_row_nof r : nof (first_row r).
Proof. unfold first_row. nof_auto. Qed.
Lemma last_row_nof r : nof (last_row r).
Proof. unfold last_row. nof_auto. Qed.
#[export] Hint Resolve first_row_nof last_row_nof : nof.

Lemma start_row_bait_overlap_nof r : nof (start_row_bait_overlap r).
Proof. unfold start_row_bait_overlap. nof_auto. Qed.
Lemma end_row_bait_overlap_nof r : nof (end_row_bait_overlap r).
Proof. unfold end_row_bait_overlap. nof_auto. Qed.
Lemma discard_start_nof r : nof (discard_start r).
Proof. unfold discard_start. nof_auto. Qed.
Lemma discard_end_nof r : nof (discard_end r).
Proof. unfold discard_end. nof_auto. Qed.
Lemma overhang_if_start_removed_nof r : nof (overhang_if_start_removed r).
Proof. unfold overhang_if_start_removed. nof_auto. Qed.
Lemma overhang_if_end_removed_nof r : nof (overhang_if_end_removed r).
Proof. unfold overhang_if_end_removed. nof_auto. Qed.
#[export] Hint Resolve start_row_bait_overlap_nof end_row_bait_overlap_nof discard_start_nof
  discard_end_nof overhang_if_start_removed_nof overhang_if_end_removed_nof : nof.

Lemma trim_large_overhangs_nof r e : nof (trim_large_overhangs r e).
Proof. unfold trim_large_overhangs. nof_auto. Qed.
#[export] Hint Resolve trim_large_overhangs_nof : nof.

Lemma premise_for_nof st f id : nof (premise_for st f id).
Proof. unfold premise_for. nof_auto. Qed.
#[export] Hint Resolve premise_for_nof : nof.

Lemma premises_of_nof st f ids : nof (premises_of st f ids).
Proof. induction ids as [|id t IH]; cbn [premises_of]; nof_auto. Qed.
#[export] Hint Resolve premises_of_nof : nof.

Lemma p_bait_overlap_nof st p : nof (p_bait_overlap st p).
Proof. unfold p_bait_overlap. nof_auto. Qed.
Lemma p_overhang_if_applied_nof st p : nof (p_overhang_if_applied st p).
Proof. unfold p_overhang_if_applied. nof_auto. Qed.
#[export] Hint Resolve p_bait_overlap_nof p_overhang_if_applied_nof : nof.
Lemma p_delta_nof st p : nof (p_delta st p).
Proof. unfold p_delta. nof_auto. Qed.
#[export] Hint Resolve p_delta_nof : nof.
Lemma p_improves_nof st e p : nof (p_improves st e p).
Proof. unfold p_improves. nof_auto. Qed.
Lemma p_apply_nof st p : nof (p_apply st p).
Proof. unfold p_apply. nof_auto. Qed.
#[export] Hint Resolve p_improves_nof p_apply_nof : nof.

Lemma fix_general_nof err st pl : nof (fix_general err st pl).
Proof. unfold fix_general. nof_auto. Qed.
#[export] Hint Resolve fix_general_nof : nof.

Lemma fix_one_nof err st pl : nof (fix_one err st pl).
Proof. rewrite fix_one_unfold. nof_auto. Qed.
#[export] Hint Resolve fix_one_nof : nof.

Lemma make_fixes_nof err : forall pls st, nof (make_fixes err st pls).
Proof. induction pls as [|pl t IH]; intros st; cbn [make_fixes]; nof_auto. Qed.
#[export] Hint Resolve make_fixes_nof : nof.

Lemma apply_fix_bookkeeping_nof acc p : nof (apply_fix_bookkeeping acc p).
Proof. unfold apply_fix_bookkeeping. nof_auto. Qed.
#[export] Hint Resolve apply_fix_bookkeeping_nof : nof.

(* at most [total_result_rows] rounds with a non-empty fix list, plus one last
   round (no fix, or b_multi empty) *)
Theorem discard_loop_fuel_suffices : forall fuel err b,
  (total_result_rows (b_store b) < fuel)%nat -> discard_loop fuel err b <> Err OutOfFuel.
Proof.
  induction fuel as [|fuel IH]; intros err b H; [lia|].
  cbn [discard_loop]. destruct (b_multi b) as [|k0 multi]; [discriminate|].
  apply nof_bind; [nof_auto|]. intros pls. cbv zeta.
  apply nof_bind_eq; [apply make_fixes_nof|]. intros [st fixes] Hmf.
  apply make_fixes_decreases in Hmf.
  destruct fixes as [|p fixes]; [apply nof_ok|].
  apply nof_bind; [nof_auto|]. intros [found multi'].
  apply IH. cbn [b_store length] in *. lia.
Qed.

Lemma first_row_name_nof rows : nof (first_row_name rows).
Proof. unfold first_row_name. nof_auto. Qed.
#[export] Hint Resolve first_row_name_nof : nof.

Lemma scan_tag_nof st tag : nof (scan_tag st tag).
Proof. unfold scan_tag. nof_auto. Qed.
#[export] Hint Resolve scan_tag_nof : nof.

Lemma make_scaffold_name_nof nm n rows tags : nof (make_scaffold_name nm n rows tags).
Proof. unfold make_scaffold_name. nof_auto. Qed.
Lemma label_scaffold_nof nm id ft st : nof (label_scaffold nm id ft st).
Proof. unfold label_scaffold. nof_auto. Qed.
Lemma input_rows_nof input name : nof (input_rows input name).
Proof. unfold input_rows. nof_auto. Qed.
Lemma rename_results_nof st ids : nof (rename_results st ids).
Proof. unfold rename_results. nof_auto. Qed.
#[export] Hint Resolve make_scaffold_name_nof label_scaffold_nof input_rows_nof rename_results_nof : nof.

Lemma one_bait_nof input err tags orig b bait : nof (one_bait input err tags orig b bait).
Proof. unfold one_bait. nof_auto. Qed.
#[export] Hint Resolve one_bait_nof : nof.

Lemma one_pretext_scaffold_nof input err b psc : nof (one_pretext_scaffold input err b psc).
Proof. unfold one_pretext_scaffold. nof_auto. Qed.
#[export] Hint Resolve one_pretext_scaffold_nof : nof.

Lemma new_frag_nof id name st en strand tags : nof (new_frag id name st en strand tags).
Proof. unfold new_frag. nof_auto. Qed.
#[export] Hint Resolve new_frag_nof : nof.

Lemma trim_fragment_nof r f ks ke : nof (trim_fragment r f ks ke).
Proof. unfold trim_fragment. nof_auto. Qed.
Lemma fragment_start_if_trimmed_nof r f : nof (fragment_start_if_trimmed r f).
Proof. unfold fragment_start_if_trimmed. nof_auto. Qed.
Lemma qc_sub_fragments_nof f subs : nof (qc_sub_fragments f subs).
Proof. unfold qc_sub_fragments. nof_auto. Qed.
#[export] Hint Resolve trim_fragment_nof fragment_start_if_trimmed_nof qc_sub_fragments_nof : nof.

Lemma trim_all_nof c f : forall ids st i last_i, nof (trim_all c st f ids i last_i).
Proof. induction ids as [|id t IH]; intros st i last_i; cbn [trim_all]; nof_auto. Qed.
#[export] Hint Resolve trim_all_nof : nof.

Lemma cut_fragments_nof c b k : nof (cut_fragments c b k).
Proof. unfold cut_fragments. nof_auto. Qed.
#[export] Hint Resolve cut_fragments_nof : nof.

Lemma cut_remaining_overhangs_nof c b : nof (cut_remaining_overhangs c b).
Proof. unfold cut_remaining_overhangs. nof_auto. Qed.
Lemma add_missing_one_nof c dg found acc isc : nof (add_missing_one c dg found acc isc).
Proof. unfold add_missing_one. nof_auto. Qed.
#[export] Hint Resolve cut_remaining_overhangs_nof add_missing_one_nof : nof.

(* the fuel remap_to_input passes is big enough: of its three summands only the
   last, the rows held by the results, is needed *)
Theorem remap_to_input_never_out_of_fuel : forall c g prefix bpt input pretext,
  remap_to_input c g prefix bpt input pretext <> Err OutOfFuel.
Proof.
  intros c g prefix bpt input pretext. unfold remap_to_input.
  destruct (has_dup_names (map fst input)); [discriminate|]. cbv zeta.
  apply nof_bind; [nof_auto|]. intros b1.
  apply nof_bind; [apply discard_loop_fuel_suffices; unfold total_result_rows; lia|]. intros b2.
  nof_auto.
Qed.

Lemma fuse_all_nof c g rs : nof (fuse_all c g rs).
Proof. unfold fuse_all. nof_auto. Qed.
Lemma build_groups_step_nof fused haps mh st item : nof (build_groups_step fused haps mh st item).
Proof. unfold build_groups_step. nof_auto. Qed.
#[export] Hint Resolve fuse_all_nof build_groups_step_nof : nof.

Lemma name_chromosomes_nof prefix fused items : nof (name_chromosomes prefix fused items).
Proof. unfold name_chromosomes. nof_auto. Qed.
#[export] Hint Resolve name_chromosomes_nof : nof.

Lemma junction_tuple_nof a b : nof (junction_tuple a b).
Proof. unfold junction_tuple. nof_auto. Qed.
#[export] Hint Resolve junction_tuple_nof : nof.

Lemma junctions_of_frags_nof : forall l prev, nof (junctions_of_frags prev l).
Proof. induction l as [|f t IH]; intros prev; cbn [junctions_of_frags]; nof_auto. Qed.
#[export] Hint Resolve junctions_of_frags_nof : nof.

Lemma scaffold_junctions_nof rows : nof (scaffold_junctions rows).
Proof. unfold scaffold_junctions. nof_auto. Qed.
#[export] Hint Resolve scaffold_junctions_nof : nof.

Lemma junction_set_nof c rows : nof (junction_set c rows).
Proof. unfold junction_set. nof_auto. Qed.
#[export] Hint Resolve junction_set_nof : nof.

Lemma input_junctions_by_prefix_nof c input : nof (input_junctions_by_prefix c input).
Proof. unfold input_junctions_by_prefix. nof_auto. Qed.
Lemma asm_junctions_nof c scs : nof (asm_junctions c scs).
Proof. unfold asm_junctions. nof_auto. Qed.
#[export] Hint Resolve input_junctions_by_prefix_nof asm_junctions_nof : nof.

Lemma make_stats_nof c input asms : nof (make_stats c input asms).
Proof. unfold make_stats. nof_auto. Qed.
#[export] Hint Resolve make_stats_nof : nof.

Lemma assemblies_with_scaffolds_fused_nof c g prefix input rs :
  nof (assemblies_with_scaffolds_fused c g prefix input rs).
Proof. unfold assemblies_with_scaffolds_fused. nof_auto. Qed.

Corollary remap_never_out_of_fuel : forall c g prefix bpt input pretext,
  remap c g prefix bpt input pretext <> Err OutOfFuel.
Proof.
  intros c g prefix bpt input pretext. unfold remap.
  apply nof_bind; [apply remap_to_input_never_out_of_fuel|]. intros rs.
  apply assemblies_with_scaffolds_fused_nof.
Qed.

Print Assumptions find_overlaps_never_out_of_fuel.
Print Assumptions p_apply_decreases.
Print Assumptions make_fixes_decreases.
Print Assumptions discard_loop_fuel_suffices.
Print Assumptions remap_to_input_never_out_of_fuel.
Print Assumptions remap_never_out_of_fuel.
