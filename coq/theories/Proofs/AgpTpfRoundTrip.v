(* C05: AGP / TPF writers and parsers are mutually inverse on well-formed
   assemblies; no data line is skipped or merged. *)
From Tola Require Import Py.Base Py.Dec Model.Fragment Model.Fasta Model.AgpTpf Model.AgpTpfSpec.
From Tola Require Import Proofs.BaseLemmas Proofs.Dec Proofs.Span Proofs.AgpValid.
From Coq Require Import Lia ZifyBool.

Lemma mapM_Forall2 {A B} (f : A -> res B) l : forall l',
  mapM f l = Ok l' -> Forall2 (fun x y => f x = Ok y) l l'.
Proof. intro l'. apply BaseLemmas.mapM_Forall2. Qed.

Lemma concat_concat {A} (lss : list (list (list A))) :
  concat (map (@concat A) lss) = concat (concat lss).
Proof.
  induction lss as [|x l IH]; [reflexivity|].
  cbn [map concat]. rewrite concat_app, IH. reflexivity.
Qed.

Lemma last_app_ne {A} (l l' : list A) d : l' <> [] -> last (l ++ l') d = last l' d.
Proof.
  intro H. induction l as [|x l IH]; [reflexivity|].
  cbn [app]. rewrite <- IH. apply last_cons_ne.
  destruct l; [exact H | discriminate].
Qed.

Lemma Forall_last {A} (P : A -> Prop) l d : Forall P l -> l <> [] -> P (last l d).
Proof.
  induction 1 as [|x l Hx Hl IH]; [congruence|]. intros _.
  destruct l as [|y l]; [exact Hx|].
  change (P (last (y :: l) d)). apply IH. discriminate.
Qed.

(* the character test of no_tab_lf *)
Definition ntl (c : ascii) : bool := negb (Ascii.eqb c TAB) && negb (Ascii.eqb c LF).
Definition nolf (x : str) : Prop := forallb not_lf x = true.

Lemma no_tab_lf_nolf x : no_tab_lf x -> nolf x.
Proof.
  unfold no_tab_lf, nolf. apply forallb_impl. intros c H. apply andb_true_iff in H as [_ H]. exact H.
Qed.

Lemma no_tab_lf_app x y : no_tab_lf x -> no_tab_lf y -> no_tab_lf (x ++ y).
Proof. unfold no_tab_lf. intros Hx Hy. rewrite forallb_app, Hx, Hy. reflexivity. Qed.

Lemma digits_no_tab_lf d : forallb is_digit d = true -> no_tab_lf d.
Proof.
  unfold no_tab_lf. apply forallb_impl. intros c H.
  rewrite (is_digit_neq c TAB H eq_refl), (is_digit_neq c LF H eq_refl). reflexivity.
Qed.

Lemma str_of_Z_no_tab_lf z : no_tab_lf (str_of_Z z).
Proof.
  unfold str_of_Z. destruct (Z.to_int z) as [u|u].
  - apply digits_no_tab_lf, chars_of_uint_digits.
  - change (no_tab_lf ([("-")%char] ++ chars_of_uint u)).
    apply no_tab_lf_app; [reflexivity | apply digits_no_tab_lf, chars_of_uint_digits].
Qed.

Definition lf_line (l : str) : Prop := exists x, l = x ++ [LF] /\ nolf x.

Lemma split_lines_acc_line x : nolf x -> forall rest cur,
  split_lines_acc (x ++ LF :: rest) cur = (rev cur ++ x ++ [LF]) :: split_lines_acc rest [].
Proof.
  unfold nolf. induction x as [|c x IH]; intros H rest cur.
  - cbn [app split_lines_acc]. rewrite Ascii.eqb_refl. reflexivity.
  - cbn [forallb] in H. apply andb_true_iff in H as [H1 H2].
    unfold not_lf in H1. apply negb_true_iff in H1.
    cbn [app split_lines_acc]. rewrite H1, (IH H2). cbn [rev]. rewrite <- app_assoc. reflexivity.
Qed.

Lemma split_lines_concat ls : Forall lf_line ls -> split_lines (concat ls) = ls.
Proof.
  unfold split_lines. induction 1 as [|l ls (x & -> & Hx) Hls IH]; [reflexivity|].
  cbn [concat]. rewrite <- app_assoc. cbn [app].
  rewrite (split_lines_acc_line x Hx), IH. reflexivity.
Qed.

Definition nosep (sep : ascii) (x : str) : Prop :=
  forallb (fun c => negb (Ascii.eqb c sep)) x = true.

Lemma no_tab_lf_nosep x : no_tab_lf x -> nosep TAB x.
Proof.
  unfold no_tab_lf, nosep. apply forallb_impl. intros c H. apply andb_true_iff in H as [H _]. exact H.
Qed.

Lemma split_on_last sep x : nosep sep x -> forall cur, split_on sep x cur = [rev cur ++ x].
Proof.
  unfold nosep. induction x as [|c x IH]; intros H cur.
  - cbn [split_on]. rewrite app_nil_r. reflexivity.
  - cbn [forallb] in H. apply andb_true_iff in H as [H1 H2]. apply negb_true_iff in H1.
    cbn [split_on]. rewrite H1, (IH H2). cbn [rev]. rewrite <- app_assoc. reflexivity.
Qed.

Lemma split_on_cons sep x : nosep sep x -> forall rest cur,
  split_on sep (x ++ sep :: rest) cur = (rev cur ++ x) :: split_on sep rest [].
Proof.
  unfold nosep. induction x as [|c x IH]; intros H rest cur.
  - cbn [app split_on]. rewrite Ascii.eqb_refl, app_nil_r. reflexivity.
  - cbn [forallb] in H. apply andb_true_iff in H as [H1 H2]. apply negb_true_iff in H1.
    cbn [app split_on]. rewrite H1, (IH H2). cbn [rev]. rewrite <- app_assoc. reflexivity.
Qed.

Lemma join_cons2 sep x y t : join sep (x :: y :: t) = x ++ sep ++ join sep (y :: t).
Proof. reflexivity. Qed.

Lemma split_on_join sep cs : forall c, Forall (nosep sep) (c :: cs) ->
  split_on sep (join [sep] (c :: cs)) [] = c :: cs.
Proof.
  induction cs as [|c' cs IH]; intros c H.
  - inversion H; subst. cbn [join]. rewrite split_on_last by assumption. reflexivity.
  - inversion H; subst. rewrite join_cons2. cbn [app].
    rewrite split_on_cons by assumption. rewrite IH by assumption. reflexivity.
Qed.

Lemma split_tab_join cols : cols <> [] -> Forall no_tab_lf cols -> split_tab (join [TAB] cols) = cols.
Proof.
  intros Hne H. destruct cols as [|c cs]; [congruence|].
  apply split_on_join. eapply Forall_impl; [|exact H]. intros x Hx. apply no_tab_lf_nosep, Hx.
Qed.

Lemma join_no_tab_lf_nolf cols : Forall no_tab_lf cols -> nolf (join [TAB] cols).
Proof.
  induction 1 as [|c cs Hc Hcs IH]; [reflexivity|].
  destruct cs as [|c' cs]; [apply no_tab_lf_nolf, Hc|].
  rewrite join_cons2. unfold nolf in *. rewrite !forallb_app, IH.
  rewrite (no_tab_lf_nolf c Hc). reflexivity.
Qed.

Lemma join_last sep cols : cols <> [] -> exists pre, join sep cols = pre ++ last cols [].
Proof.
  induction cols as [|c cs IH]; [congruence|]. intros _.
  destruct cs as [|c' cs]; [exists []; reflexivity|].
  destruct IH as [pre Hp]; [discriminate|].
  rewrite join_cons2, Hp. exists (c ++ sep ++ pre).
  rewrite <- !app_assoc. reflexivity.
Qed.

Lemma join_head sep c n cs : exists tl, join sep ((c :: n) :: cs) = c :: tl.
Proof. destruct cs; eexists; cbn [join app]; reflexivity. Qed.

Definition ends_with (P : ascii -> Prop) (x : str) : Prop := exists y c, x = y ++ [c] /\ P c.
Definition ends_nonspace : str -> Prop := ends_with (fun c => is_space c = false).

Lemma join_ends P sep (cols : list str) : cols <> [] -> ends_with P (last cols []) -> ends_with P (join sep cols).
Proof.
  intros Hne (y & c & E & Hc). destruct (join_last sep cols Hne) as [pre Hp].
  exists (pre ++ y), c. split; [|exact Hc]. rewrite Hp, E. apply app_assoc.
Qed.

Lemma rstrip_space_line x : ends_nonspace x -> rstrip_space (x ++ [LF]) = x.
Proof.
  intros (y & c & -> & Hc). unfold rstrip_space.
  rewrite !rev_app_distr. cbn [rev app lstrip_space].
  change (is_space LF) with true. cbv iota. rewrite Hc.
  cbn [rev]. rewrite rev_involutive. reflexivity.
Qed.

Lemma ends_nonspace_not_blank x y : ends_nonspace x -> is_blank (x ++ y) = false.
Proof.
  intros (z & c & -> & Hc). unfold is_blank. rewrite <- app_assoc, forallb_app. cbn [app forallb].
  rewrite Hc. apply andb_false_r.
Qed.

Lemma no_trailing_space_ends t : t <> [] -> no_trailing_space t -> ends_nonspace t.
Proof.
  unfold no_trailing_space, last_opt. intros Hne H.
  destruct (rev t) as [|c r] eqn:E.
  - apply (f_equal (@rev _)) in E. rewrite rev_involutive in E. contradiction.
  - apply (f_equal (@rev _)) in E. rewrite rev_involutive in E. cbn [rev] in E.
    exists (rev r), c. auto.
Qed.

Lemma add_row_last_snoc scs n rows r :
  add_row_last (scs ++ [(n, rows)]) r = scs ++ [(n, rows ++ [r])].
Proof.
  induction scs as [|x scs IH]; [reflexivity|].
  cbn [app]. destruct x as [m rs].
  destruct (scs ++ [(n, rows)]) as [|y l] eqn:E.
  - destruct scs; discriminate.
  - cbn [add_row_last]. rewrite <- IH. reflexivity.
Qed.

Lemma adjacent_distinct_init scl :
  Forall (fun sc : str * list row => fst sc <> []) scl ->
  adjacent_distinct (map fst scl) -> adjacent_distinct ([] :: map fst scl).
Proof.
  destruct scl as [|sc scl]; [intros; exact I|].
  intros H Had. inversion H; subst. cbn [map] in *. split; [congruence | exact Had].
Qed.

(* A parser that folds [step] over the lines reads back a text made of header
   lines and then, scaffold by scaffold, one line per row, provided [step]
   handles one written row line and one written header line as step_row and
   step_hdr say, and written lines end in their only line feed.  In step_row a
   row that cannot open a scaffold (a TPF GAP line) needs the scaffold to be
   the current one: hence [first_ok r \/ st1 = st]; AGP takes first_ok := True. *)
Section Fold.
  Variable step : pstate -> str -> res pstate.
  Variable is_line : str -> row -> str -> Prop.
  Variable first_ok : row -> Prop.
  Variable is_hline : str -> str -> Prop.
  Hypothesis step_row : forall st name r line st1, is_line name r line ->
    st1 = (if str_eqb name (p_name st) then st
           else mkP (p_header st) (p_scs st ++ [(name, [])]) name true) ->
    p_have st1 = true -> first_ok r \/ st1 = st ->
    step st line = Ok (mkP (p_header st1) (add_row_last (p_scs st1) r) (p_name st1) true).
  Hypothesis step_hdr : forall hs scs nm hv h line, is_hline h line ->
    step (mkP hs scs nm hv) line = Ok (mkP (hs ++ [h]) scs nm hv).
  Hypothesis line_lf : forall name r line, is_line name r line -> lf_line line.
  Hypothesis hline_lf : forall h line, is_hline h line -> lf_line line.

  Lemma step_same h scs name done r line : is_line name r line ->
    step (mkP h (scs ++ [(name, done)]) name true) line
    = Ok (mkP h (scs ++ [(name, done ++ [r])]) name true).
  Proof.
    intro Hl. rewrite (step_row _ name r line _ Hl eq_refl); cbn [p_name];
      rewrite str_eqb_refl; [|reflexivity|right; reflexivity]. cbn [p_header p_scs p_name].
    rewrite add_row_last_snoc. reflexivity.
  Qed.

  Lemma step_new h scs prev have name r line : is_line name r line ->
    first_ok r -> prev <> name ->
    step (mkP h scs prev have) line = Ok (mkP h (scs ++ [(name, [r])]) name true).
  Proof.
    intros Hl Hf Hne.
    assert (En : str_eqb name prev = false) by (apply str_eqb_neq; congruence).
    rewrite (step_row _ name r line _ Hl eq_refl); cbn [p_name];
      rewrite En; [|reflexivity|left; exact Hf]. cbn [p_header p_scs p_name].
    rewrite (add_row_last_snoc scs name [] r). reflexivity.
  Qed.

  Lemma fold_rows h scs name : forall rows lines, Forall2 (is_line name) rows lines ->
    forall done, foldM step lines (mkP h (scs ++ [(name, done)]) name true)
                 = Ok (mkP h (scs ++ [(name, done ++ rows)]) name true).
  Proof.
    induction 1 as [|r line rows lines Hl Hrest IH]; intro done.
    - rewrite app_nil_r. reflexivity.
    - cbn [foldM]. rewrite (step_same _ _ _ _ _ _ Hl). cbn [bind].
      rewrite IH, <- app_assoc. reflexivity.
  Qed.

  Definition sc_lines (sc : str * list row) (ls : list str) : Prop :=
    Forall2 (is_line (fst sc)) (snd sc) ls /\ exists r t, snd sc = r :: t /\ first_ok r.

  Lemma fold_scs : forall scl lss, Forall2 sc_lines scl lss ->
    forall h scs prev have, adjacent_distinct (prev :: map fst scl) ->
    exists nm hv, foldM step (concat lss) (mkP h scs prev have) = Ok (mkP h (scs ++ scl) nm hv).
  Proof.
    induction 1 as [|sc ls scl lss Hsc Hrest IH]; intros h scs prev have Had.
    - exists prev, have. rewrite app_nil_r. reflexivity.
    - destruct sc as [name rows]. destruct Hsc as (Hl & r & t & Hrows & Hf).
      cbn [fst snd] in *. subst rows.
      inversion Hl as [|? line ? lines Hl1 Hl2]; subst.
      cbn [map] in Had. destruct Had as [Hne Had].
      cbn [concat]. rewrite foldM_app. cbn [foldM].
      rewrite (step_new h scs prev have name r line Hl1 Hf Hne). cbn [bind].
      rewrite (fold_rows h scs name t lines Hl2 [r]). cbn [bind app].
      destruct (IH h (scs ++ [(name, r :: t)]) name true Had) as (nm & hv & E).
      exists nm, hv. rewrite E, <- app_assoc. reflexivity.
  Qed.

  Lemma fold_hdrs : forall hs lines, Forall2 is_hline hs lines ->
    forall h0 scs nm hv, foldM step lines (mkP h0 scs nm hv) = Ok (mkP (h0 ++ hs) scs nm hv).
  Proof.
    induction 1 as [|h line hs lines Hl Hrest IH]; intros h0 scs nm hv.
    - rewrite app_nil_r. reflexivity.
    - cbn [foldM]. rewrite (step_hdr _ _ _ _ _ _ Hl). cbn [bind].
      rewrite IH, <- app_assoc. reflexivity.
  Qed.

  Lemma sc_lines_lf scl lss : Forall2 sc_lines scl lss -> Forall lf_line (concat lss).
  Proof.
    induction 1 as [|sc ls scl lss (Hl & _) Hrest IH]; [constructor|].
    cbn [concat]. apply Forall_app. split; [|exact IH].
    eapply Forall2_Forall_r; [|exact Hl]. intros x y. apply line_lf.
  Qed.

  Theorem parse_written hs hlines scl lss :
    Forall2 is_hline hs hlines -> Forall2 sc_lines scl lss ->
    Forall (fun sc : str * list row => fst sc <> []) scl -> adjacent_distinct (map fst scl) ->
    (do st <- foldM step (split_lines (concat (hlines ++ concat lss))) (mkP [] [] [] false);
     Ok (mkAsm (p_header st) (p_scs st))) = Ok (mkAsm hs scl).
  Proof.
    intros Hh Hs Hne Had. rewrite split_lines_concat.
    - rewrite foldM_app, (fold_hdrs _ _ Hh). cbn [bind app].
      destruct (fold_scs _ _ Hs hs [] [] false (adjacent_distinct_init _ Hne Had)) as (nm & hv & ->).
      reflexivity.
    - apply Forall_app. split; [|exact (sc_lines_lf _ _ Hs)].
      eapply Forall2_Forall_r; [|exact Hh]. exact hline_lf.
  Qed.
End Fold.

Lemma starts_with_hh line : starts_with (s "#") line = false -> starts_with (s "##") line = false.
Proof.
  change (s "##") with [hash; hash]. change (s "#") with [hash].
  destruct line as [|c l]; cbn [starts_with]; [reflexivity|].
  rewrite andb_true_r. intros ->. reflexivity.
Qed.

Lemma new_frag_self f : f_id f = -1 -> f_start f <= f_end f ->
  f_strand f = 0 \/ f_strand f = 1 \/ f_strand f = -1 ->
  new_frag (-1) (f_name f) (f_start f) (f_end f) (f_strand f) (f_tags f) = Ok f.
Proof.
  intros Hid Hle Hs. unfold new_frag, strand_ok.
  replace (negb ((f_strand f =? 0) || (f_strand f =? 1) || (f_strand f =? -1))) with false by lia.
  replace (f_start f >? f_end f) with false by lia.
  destruct f; cbn in *; subst; reflexivity.
Qed.

Lemma render_num_cols name l cols :
  no_tab_lf name -> row_ok_agp (an_row l) -> render_num name l = Ok cols ->
  Forall no_tab_lf cols /\ ends_nonspace (last cols []) /\ exists tl, cols = name :: tl.
Proof.
  intros Hn Hok Hr. unfold render_num in Hr.
  destruct (an_row l) as [f|g].
  - destruct Hok as (Hid & Hnm & Hle & Hs & Htags).
    assert (Esd : exists sd, strand_str_agp (f_strand f) = Ok sd /\ no_tab_lf sd /\ ends_nonspace sd).
    { destruct Hs as [-> | [-> | ->]]; eexists; (split; [reflexivity|]); (split; [reflexivity|]);
        eexists [], _; split; reflexivity. }
    destruct Esd as (sd & E1 & Hsd1 & Hsd2). rewrite E1 in Hr. cbn [bind] in Hr. injection Hr as <-.
    split; [|split].
    + cbn [app]. repeat (constructor; [first [assumption | apply str_of_Z_no_tab_lf | reflexivity]|]).
      exact (proj1 Htags).
    + destruct Htags as [_ Htl]. destruct (f_tags f) as [|t ts] eqn:Et.
      * cbn [app last]. exact Hsd2.
      * repeat (rewrite last_cons_ne by discriminate).
        apply no_trailing_space_ends; tauto.
    + eexists; reflexivity.
  - injection Hr as <-. split; [|split].
    + cbn [app]. repeat (constructor; [first [assumption | apply str_of_Z_no_tab_lf | reflexivity]|]).
      constructor.
    + cbn [app last]. exists (s "proximity_ligatio"), "n"%char. split; reflexivity.
    + eexists; reflexivity.
Qed.

Definition is_line_agp (name : str) (r : row) (line : str) : Prop :=
  scaffold_name_ok name /\ row_ok_agp r /\
  exists l cols, an_row l = r /\ render_num name l = Ok cols /\ line = join [TAB] cols ++ [LF].

Lemma scaffold_name_ok_ntl name : scaffold_name_ok name -> no_tab_lf name.
Proof. destruct name; cbn; tauto. Qed.

Lemma agp_line_row st name r line st1 :
  is_line_agp name r line ->
  st1 = (if str_eqb name (p_name st) then st
         else mkP (p_header st) (p_scs st ++ [(name, [])]) name true) ->
  p_have st1 = true ->
  agp_line st line = Ok (mkP (p_header st1) (add_row_last (p_scs st1) r) (p_name st1) true).
Proof.
  intros (Hn & Hok & l & cols & <- & Hr & ->) Hst1 Hhave.
  destruct (render_num_cols name l cols (scaffold_name_ok_ntl _ Hn) Hok Hr) as (Hc & He & tl & Hcols).
  assert (Hne : cols <> []) by (subst cols; discriminate).
  pose proof (join_ends _ [TAB] cols Hne He : ends_nonspace _) as Hj.
  assert (Hh : starts_with (s "#") (join [TAB] cols ++ [LF]) = false).
  { subst cols. destruct name as [|c n]; [destruct Hn|]. destruct Hn as [Hc1 _].
    change (s "#") with [hash].
    destruct tl; cbn [join app starts_with]; rewrite andb_true_r; apply Ascii.eqb_neq; congruence. }
  (* the line is data, and reads back as its columns *)
  unfold agp_line.
  rewrite (ends_nonspace_not_blank _ [LF] Hj), (starts_with_hh _ Hh), Hh.
  rewrite rstrip_space_line, split_tab_join by assumption.
  clear Hc He tl Hcols Hne Hj Hh. unfold render_num in Hr.
  destruct (an_row l) as [f|g].
  - destruct Hok as (Hid & Hnm & Hle & Hs & Htags).
    assert (Esd : exists sd, strand_str_agp (f_strand f) = Ok sd /\ strand_of_agp sd = Ok (f_strand f)).
    { destruct Hs as [-> | [-> | ->]]; eexists; split; reflexivity. }
    destruct Esd as (sd & E1 & E2). rewrite E1 in Hr. cbn [bind] in Hr. injection Hr as <-.
    cbn [app nth_field nth_error bind]. rewrite <- Hst1.
    change (str_eqb (s "W") (s "U") || str_eqb (s "W") (s "N")) with false. cbv iota.
    rewrite Hhave. cbn [negb]. cbv iota.
    rewrite E2. cbn [bind]. rewrite !int_of_str_of_Z. cbn [bind skipn].
    rewrite new_frag_self by assumption. reflexivity.
  - injection Hr as <-.
    cbn [app nth_field nth_error bind]. rewrite <- Hst1.
    change (str_eqb (s "U") (s "U") || str_eqb (s "U") (s "N")) with true. cbv iota.
    rewrite Hhave. cbn [negb]. cbv iota.
    rewrite int_of_str_of_Z. cbn [bind]. destruct g; reflexivity.
Qed.

Lemma is_line_agp_lf name r line : is_line_agp name r line -> lf_line line.
Proof.
  intros (Hn & Hok & l & cols & <- & Hr & ->).
  destruct (render_num_cols name l cols (scaffold_name_ok_ntl _ Hn) Hok Hr) as (Hc & _).
  eexists; split; [reflexivity|]. apply join_no_tab_lf_nolf, Hc.
Qed.

Definition is_hline (pre h line : str) : Prop := header_ok h /\ line = pre ++ h ++ [LF].

Lemma is_hline_lf pre : nolf pre -> forall h line, is_hline pre h line -> lf_line line.
Proof.
  intros Hp h line (Hh & ->). exists (pre ++ h). split; [rewrite app_assoc; reflexivity|].
  unfold nolf. rewrite forallb_app, Hp. destruct h as [|c h]; [destruct Hh | exact (proj2 Hh)].
Qed.

Lemma header_text_line pre h :
  pre <> [] -> forallb is_hash_or_space pre = true -> header_ok h ->
  header_text (pre ++ h ++ [LF]) = Some h.
Proof.
  intros Hpre Hp Hh. unfold header_text.
  destruct h as [|c h]; [destruct Hh|]. destruct Hh as [Hc Hlf].
  rewrite span_take_while, (take_while_app is_hash_or_space pre ((c :: h) ++ [LF]) Hp) by exact Hc.
  cbn [app].
  change (c :: h ++ [LF]) with ((c :: h) ++ [LF]).
  rewrite span_take_while, (take_while_app not_lf (c :: h) [LF] Hlf) by reflexivity.
  reflexivity.
Qed.

Lemma agp_step_hdr hs scs nm hv h line : is_hline [hash; " "%char] h line ->
  agp_line (mkP hs scs nm hv) line = Ok (mkP (hs ++ [h]) scs nm hv).
Proof.
  intros (Hh & ->). unfold agp_line. rewrite header_text_line by (try discriminate; auto).
  reflexivity.
Qed.

Definition dl (cols : list str) : str := join [TAB] cols ++ [LF].

Lemma agp_rows_lines name rows :
  scaffold_name_ok name -> Forall row_ok_agp rows ->
  forall p i colss, agp_rows name rows p i = Ok colss ->
  Forall2 (is_line_agp name) rows (map dl colss).
Proof.
  intros Hn Hrows p i colss H. rewrite agp_rows_render in H. apply BaseLemmas.mapM_Forall2 in H.
  revert p i colss H. induction Hrows as [|r rows Hr Hrows IH]; intros p i colss H;
    cbn [agp_nums] in H; inversion H as [|? cols ? colss' E1 H']; subst; cbn [map]; constructor.
  - split; [exact Hn|]. split; [exact Hr|]. eexists _, cols. split; [|split; [exact E1 | reflexivity]]. reflexivity.
  - eapply IH. exact H'.
Qed.

Definition sc_ok_agp (sc : str * list row) : Prop :=
  scaffold_name_ok (fst sc) /\ snd sc <> [] /\ Forall row_ok_agp (snd sc).

Lemma agp_lines_sc scl : Forall sc_ok_agp scl ->
  forall lss, mapM (fun '(n, rows) => agp_rows n rows 0 0) scl = Ok lss ->
  Forall2 (sc_lines is_line_agp (fun _ => True)) scl (map (map dl) lss).
Proof.
  induction 1 as [|[n rows] scl (Hn & Hne & Hrows) Hscl IH]; intros lss H; cbn [mapM] in H.
  - injection H as <-. constructor.
  - destruct (agp_rows n rows 0 0) as [colss|] eqn:E1; cbn [bind] in H; [|discriminate].
    destruct (mapM _ scl) as [rest|] eqn:E2; cbn [bind] in H; [|discriminate].
    injection H as <-. cbn [map]. constructor; [|apply IH; reflexivity].
    cbn [fst snd] in *. split.
    + cbn [fst snd]. eapply agp_rows_lines; eassumption.
    + cbn [snd]. destruct rows as [|r t]; [congruence|]. exists r, t. auto.
Qed.

Lemma agp_wf_strands a : agp_wf a ->
  Forall (fun sc => Forall (fun r => match r with RF f => f_strand f = 0 \/ f_strand f = 1 \/ f_strand f = -1 | RG _ => True end) (snd sc)) (a_scaffolds a).
Proof.
  intros (_ & Hs & _). eapply Forall_impl; [|exact Hs]. intros sc (_ & _ & Hr).
  eapply Forall_impl; [|exact Hr]. intros [f|g]; cbn; [|tauto]. unfold frag_ok_agp. tauto.
Qed.

Theorem parse_format_agp : forall a, agp_wf a -> exists t, format_agp a = Ok t /\ parse_agp t = Ok a.
Proof.
  intros a Hwf. destruct (format_agp_total a (agp_wf_strands a Hwf)) as [t Ht].
  exists t. split; [exact Ht|].
  destruct Hwf as (Hh & Hs & Had). destruct a as [hs scl]. cbn [a_header a_scaffolds] in *.
  unfold format_agp, agp_lines in Ht. cbn [a_header a_scaffolds] in Ht.
  destruct (mapM _ scl) as [lss|] eqn:E; cbn [bind] in Ht; [|discriminate].
  injection Ht as <-.
  change (map (fun cols => join [TAB] cols ++ [LF]) (concat lss)) with (map dl (concat lss)).
  rewrite concat_map, <- concat_app.
  apply (parse_written agp_line is_line_agp (fun _ => True) (is_hline [hash; " "%char])).
  - intros st name r line st1 Hl Hst1 Hhave _. exact (agp_line_row st name r line st1 Hl Hst1 Hhave).
  - exact agp_step_hdr.
  - exact is_line_agp_lf.
  - exact (is_hline_lf [hash; " "%char] eq_refl).
  - apply Forall2_map_r with (P := header_ok); [|exact Hh]. intros h Hok. split; [exact Hok | reflexivity].
  - apply agp_lines_sc; assumption.
  - eapply Forall_impl; [|exact Hs]. intros [n rows] (Hn & _). cbn [fst] in *.
    destruct n; [destruct Hn | discriminate].
  - exact Had.
Qed.

Corollary format_parse_agp : forall a t, agp_wf a -> format_agp a = Ok t ->
  exists a', parse_agp t = Ok a' /\ format_agp a' = Ok t.
Proof.
  intros a t Hwf Ht. destruct (parse_format_agp a Hwf) as (t' & Ht' & Hp).
  assert (t' = t) by congruence. subst t'. exists a. auto.
Qed.

Definition nrows (scs : list (str * list row)) : nat := length (concat (map snd scs)).
Definition pinv (st : pstate) : Prop := p_have st = true -> p_scs st <> [].
Definition is_data (l : str) : bool := negb (is_blank l) && negb (starts_with (s "#") l).

Lemma nrows_cons x l : nrows (x :: l) = (length (snd x) + nrows l)%nat.
Proof. unfold nrows. cbn [map concat]. apply app_length. Qed.

Lemma nrows_add_row_last scs r : scs <> [] -> nrows (add_row_last scs r) = S (nrows scs).
Proof.
  induction scs as [|[n rows] scs IH]; [congruence|]. intros _.
  destruct scs as [|y t].
  - cbn [add_row_last]. rewrite !nrows_cons. cbn [snd]. rewrite app_length. change (nrows []) with 0%nat. cbn [length]. lia.
  - change (add_row_last ((n, rows) :: y :: t) r) with ((n, rows) :: add_row_last (y :: t) r).
    rewrite nrows_cons, IH by discriminate. rewrite (nrows_cons (n, rows)). lia.
Qed.

Lemma add_row_last_nonempty scs r : scs <> [] -> add_row_last scs r <> [].
Proof. destruct scs as [|[n rows] [|y t]]; [congruence| |]; intros _; discriminate. Qed.

Lemma nrows_snoc_empty scs n : nrows (scs ++ [(n, [])]) = nrows scs.
Proof.
  induction scs as [|x scs IH]; [reflexivity|]. cbn [app]. rewrite !nrows_cons, IH. reflexivity.
Qed.

Lemma st1_facts st f0 st1 :
  st1 = (if str_eqb f0 (p_name st) then st
         else mkP (p_header st) (p_scs st ++ [(f0, [])]) f0 true) ->
  pinv st -> pinv st1 /\ nrows (p_scs st1) = nrows (p_scs st).
Proof.
  intros -> Hinv. destruct (str_eqb f0 (p_name st)); [auto|].
  cbn [p_scs p_have]. split; [|apply nrows_snoc_empty].
  intros _. destruct (p_scs st); discriminate.
Qed.

Ltac step_bind H :=
  match type of H with
  | bind ?x _ = Ok _ => let E := fresh "E" in destruct x eqn:E; cbn [bind] in H; [|discriminate H]
  | (if ?b then _ else _) = Ok _ => let E := fresh "E" in destruct b eqn:E; try discriminate H
  | match ?x with Some _ => _ | None => _ end = Ok _ =>
      let E := fresh "E" in destruct x eqn:E; try discriminate H
  | (let '(_, _) := ?x in _) = Ok _ => destruct x
  end.

Lemma agp_line_count st line st' : pinv st -> agp_line st line = Ok st' ->
  pinv st' /\ nrows (p_scs st') = ((if is_data line then 1 else 0) + nrows (p_scs st))%nat.
Proof.
  intros Hinv H. unfold agp_line in H. unfold is_data.
  destruct (is_blank line) eqn:Hb.
  { injection H as <-. auto. }
  destruct (starts_with (s "#") line) eqn:H1.
  { destruct (starts_with (s "##") line); [|destruct (header_text line)]; injection H as <-; auto. }
  rewrite (starts_with_hh _ H1) in H. cbn [negb andb].
  destruct (nth_field _ 0) as [f0|]; cbn [bind] in H; [|discriminate].
  remember (if str_eqb f0 (p_name st) then st
            else mkP (p_header st) (p_scs st ++ [(f0, [])]) f0 true) as st1 eqn:Est1.
  destruct (st1_facts st f0 st1 Est1 Hinv) as [Hinv1 Hn1]. clear Est1.
  (* without a current scaffold every path raises *)
  destruct (p_have st1) eqn:Hhave; cbn [negb] in H; cbv iota in H;
    [|repeat step_bind H; discriminate H].
  repeat step_bind H; try discriminate H.
  all: injection H as <-; cbn [p_have p_scs];
    (split; [intros _; apply add_row_last_nonempty, Hinv1, Hhave
            | rewrite nrows_add_row_last by (apply Hinv1, Hhave); rewrite Hn1; reflexivity]).
Qed.

Lemma tpf_line_count st line st' : pinv st -> tpf_line st line = Ok st' ->
  pinv st' /\ nrows (p_scs st') = ((if is_data line then 1 else 0) + nrows (p_scs st))%nat.
Proof.
  intros Hinv H. unfold tpf_line in H. unfold is_data.
  destruct (is_blank line) eqn:Hb.
  { injection H as <-. auto. }
  destruct (starts_with (s "#") line) eqn:H1.
  { destruct (header_text line); injection H as <-; auto. }
  cbn [negb andb].
  destruct (nth_field (split_tab (rstrip_eol line)) 0) as [f0|]; cbn [bind] in H; [|discriminate].
  destruct (str_eqb f0 (s "GAP")).
  - destruct (p_have st) eqn:Hhave; [|discriminate H].
    repeat step_bind H; try discriminate H.
    injection H as <-; cbn [p_have p_scs].
    split; [intros _; apply add_row_last_nonempty, Hinv, Hhave
           | rewrite nrows_add_row_last by (apply Hinv, Hhave); reflexivity].
  - destruct (Nat.eqb _ 4); [|discriminate].
    destruct (nth_field _ 2) as [f2|]; cbn [bind] in H; [|discriminate].
    remember (if str_eqb f2 (p_name st) then st
              else mkP (p_header st) (p_scs st ++ [(f2, [])]) f2 true) as st1 eqn:Est1.
    destruct (st1_facts st f2 st1 Est1 Hinv) as [Hinv1 Hn1]. clear Est1.
    destruct (p_have st1) eqn:Hhave; cbn [negb] in H; [|repeat step_bind H; discriminate H].
    repeat step_bind H; try discriminate H.
    injection H as <-; cbn [p_have p_scs].
    split; [intros _; apply add_row_last_nonempty, Hinv1, Hhave
           | rewrite nrows_add_row_last by (apply Hinv1, Hhave); rewrite Hn1; reflexivity].
Qed.

Section Count.
  Variable step : pstate -> str -> res pstate.
  Hypothesis step_count : forall st line st', pinv st -> step st line = Ok st' ->
    pinv st' /\ nrows (p_scs st') = ((if is_data line then 1 else 0) + nrows (p_scs st))%nat.

  Lemma fold_count ls : forall st st', pinv st -> foldM step ls st = Ok st' ->
    nrows (p_scs st') = (length (filter is_data ls) + nrows (p_scs st))%nat.
  Proof.
    induction ls as [|l ls IH]; intros st st' Hinv H; cbn [foldM] in H.
    - injection H as <-. reflexivity.
    - destruct (step st l) as [st1|] eqn:E; cbn [bind] in H; [|discriminate].
      destruct (step_count _ _ _ Hinv E) as [Hinv1 Hn].
      rewrite (IH _ _ Hinv1 H), Hn. cbn [filter]. destruct (is_data l); cbn [length]; lia.
  Qed.

  Lemma parse_count t a :
    (do st <- foldM step (split_lines t) (mkP [] [] [] false); Ok (mkAsm (p_header st) (p_scs st))) = Ok a ->
    n_rows a = length (data_lines t).
  Proof.
    destruct (foldM step _ _) as [st|] eqn:E; cbn [bind]; [|discriminate]. intros [= <-].
    assert (Hinit : pinv (mkP [] [] [] false)) by (intro H; discriminate H).
    rewrite <- (Nat.add_0_r (length _)). exact (fold_count _ _ _ Hinit E).
  Qed.
End Count.

Theorem parse_agp_rows_eq_lines : forall t a, parse_agp t = Ok a -> n_rows a = length (data_lines t).
Proof. intros t a. apply (parse_count agp_line agp_line_count). Qed.

Theorem parse_tpf_rows_eq_lines : forall t a, parse_tpf t = Ok a -> n_rows a = length (data_lines t).
Proof. intros t a. apply (parse_count tpf_line tpf_line_count). Qed.

Definition ends_noeol : str -> Prop := ends_with (fun c => (Ascii.eqb c LF || Ascii.eqb c CR) = false).

Lemma rstrip_eol_line x : ends_noeol x -> rstrip_eol (x ++ [LF]) = x.
Proof.
  intros (y & c & -> & Hc). unfold rstrip_eol, rstrip_crlf.
  rewrite !rev_app_distr. cbn [rev app rstrip_crlf_rev].
  change (Ascii.eqb LF LF || Ascii.eqb LF CR) with true. cbv iota. rewrite Hc.
  cbn [rev]. rewrite rev_involutive. reflexivity.
Qed.

Lemma is_digit_noeol c : is_digit c = true -> (Ascii.eqb c LF || Ascii.eqb c CR) = false.
Proof.
  intro H. rewrite (is_digit_neq c LF H eq_refl), (is_digit_neq c CR H eq_refl). reflexivity.
Qed.

Lemma digits_ends d : d <> [] -> forallb is_digit d = true ->
  exists y c, d = y ++ [c] /\ is_digit c = true.
Proof.
  intros Hne Hd. exists (removelast d), (last d "0"%char). split.
  - apply app_removelast_last, Hne.
  - apply last_forallb; assumption.
Qed.

Lemma str_of_Z_ends z : ends_noeol (str_of_Z z).
Proof.
  destruct z as [|p|p].
  - exists [], "0"%char. split; reflexivity.
  - destruct (str_of_Z_digits (Z.pos p)) as [Hne Hd]; [lia|].
    destruct (digits_ends _ Hne Hd) as (y & c & E & Hc).
    exists y, c. split; [exact E | apply is_digit_noeol, Hc].
  - destruct (str_of_Z_digits (Z.pos p)) as [Hne Hd]; [lia|].
    destruct (digits_ends _ Hne Hd) as (y & c & E & Hc).
    assert (E' : str_of_Z (Z.neg p) = "-"%char :: str_of_Z (Z.pos p)) by reflexivity.
    exists ("-"%char :: y), c. rewrite E', E. split; [reflexivity | apply is_digit_noeol, Hc].
Qed.

Lemma tpf_name_ok name d1 d2 :
  name <> [] -> nolf name -> d1 <> [] -> forallb is_digit d1 = true ->
  d2 <> [] -> forallb is_digit d2 = true ->
  tpf_name (name ++ ":"%char :: d1 ++ "-"%char :: d2) = Some (name, d1, d2).
Proof.
  intros Hn Hnl H1 Hd1 H2 Hd2. unfold tpf_name.
  (* the regex is matched from the end *)
  replace (rev (name ++ ":"%char :: d1 ++ "-"%char :: d2))
    with (rev d2 ++ "-"%char :: rev d1 ++ ":"%char :: rev name)
    by (rewrite rev_app_distr; cbn [rev]; rewrite rev_app_distr; cbn [rev]; rewrite <- !app_assoc; reflexivity).
  apply rev_nonempty in Hn, H1, H2. unfold nolf in Hnl. rewrite <- forallb_rev in Hnl, Hd1, Hd2.
  rewrite span_take_while, (take_while_app is_digit (rev d2) _ Hd2) by reflexivity.
  destruct (rev d2) as [|c2 r2] eqn:E2; [congruence|]. cbv iota beta. rewrite Ascii.eqb_refl.
  rewrite span_take_while, (take_while_app is_digit (rev d1) _ Hd1) by reflexivity.
  destruct (rev d1) as [|c1 r1] eqn:E1; [congruence|]. cbv iota beta. rewrite Ascii.eqb_refl.
  destruct (rev name) as [|cn rn] eqn:En; [congruence|]. rewrite Hnl.
  rewrite <- En, <- E1, <- E2, !rev_involutive. reflexivity.
Qed.

Definition tpf_frag_field (f : frag) : str :=
  f_name f ++ ":"%char :: str_of_Z (f_start f) ++ "-"%char :: str_of_Z (f_end f).

Lemma tpf_frag_field_ntl f : no_tab_lf (f_name f) -> no_tab_lf (tpf_frag_field f).
Proof.
  intro H. unfold tpf_frag_field.
  apply no_tab_lf_app; [exact H|].
  change (no_tab_lf ([":"%char] ++ str_of_Z (f_start f) ++ ["-"%char] ++ str_of_Z (f_end f))).
  repeat apply no_tab_lf_app; try apply str_of_Z_no_tab_lf; reflexivity.
Qed.

(* the columns tpf_row joins for a row; [sd] is the strand word of a fragment *)
Definition tpf_cols (name : str) (r : row) (sd : str) : list str :=
  match r with
  | RG g => [s "GAP"; tpf_gap_type_out (g_type g); str_of_Z (g_len g)]
  | RF f => [s "?"; tpf_frag_field f; name; sd]
  end.

Definition is_line_tpf (name : str) (r : row) (line : str) : Prop :=
  tpf_scaffold_name_ok name /\ row_ok_tpf r /\ tpf_row name r = Ok line.
Definition first_ok_tpf (r : row) : Prop := exists f, r = RF f.

Lemma tpf_row_cols name r line : is_line_tpf name r line ->
  exists sd, line = dl (tpf_cols name r sd)
    /\ Forall no_tab_lf (tpf_cols name r sd) /\ ends_noeol (last (tpf_cols name r sd) [])
    /\ forall f, r = RF f -> strand_of_tpf sd = Ok (f_strand f).
Proof.
  intros ([Hn1 Hn2] & Hok & Hrow). destruct r as [f|g]; cbn [tpf_row] in Hrow.
  - destruct Hok as (_ & _ & Hnm & _ & Hs & _).
    assert (Esd : exists sd, strand_str_tpf (f_strand f) = Ok sd /\ strand_of_tpf sd = Ok (f_strand f)
                             /\ no_tab_lf sd /\ ends_noeol sd).
    { destruct Hs as [-> | ->]; eexists; (split; [reflexivity|]); (split; [reflexivity|]);
        (split; [reflexivity|]).
      - exists (s "PLU"), "S"%char. split; reflexivity.
      - exists (s "MINU"), "S"%char. split; reflexivity. }
    destruct Esd as (sd & E1 & E2 & Hsd1 & Hsd2). rewrite E1 in Hrow. cbn [bind] in Hrow.
    injection Hrow as <-. exists sd. split; [reflexivity|]. split; [|split; [exact Hsd2|]].
    + repeat (constructor; [first [assumption | reflexivity | apply tpf_frag_field_ntl; assumption]|]).
      constructor.
    + intros f' [= <-]. exact E2.
  - destruct Hok as (_ & Hntl & _). injection Hrow as <-. exists [].
    split; [reflexivity|]. split; [|split; [apply str_of_Z_ends | discriminate]].
    repeat (constructor; [first [assumption | reflexivity | apply str_of_Z_no_tab_lf]|]). constructor.
Qed.

(* a written data line is neither blank nor a comment and reads back as its columns *)
Lemma tpf_data_line cols :
  match cols with (c :: _) :: _ => is_space c = false /\ c <> hash | _ => False end ->
  Forall no_tab_lf cols -> ends_noeol (last cols []) ->
  is_blank (dl cols) = false /\ starts_with (s "#") (dl cols) = false
  /\ split_tab (rstrip_eol (dl cols)) = cols.
Proof.
  destruct cols as [|[|c n] cs]; try contradiction. intros [Hs Hh] Hc He. unfold dl. split; [|split].
  - unfold is_blank. destruct cs; cbn [join app forallb]; rewrite Hs; reflexivity.
  - change (s "#") with [hash].
    destruct cs; cbn [join app starts_with]; rewrite andb_true_r; apply Ascii.eqb_neq; congruence.
  - rewrite rstrip_eol_line by (apply join_ends; [discriminate | exact He]).
    apply split_tab_join; [discriminate | exact Hc].
Qed.

Lemma tpf_line_row st name r line st1 :
  is_line_tpf name r line ->
  st1 = (if str_eqb name (p_name st) then st
         else mkP (p_header st) (p_scs st ++ [(name, [])]) name true) ->
  p_have st1 = true -> (first_ok_tpf r \/ st1 = st) ->
  tpf_line st line = Ok (mkP (p_header st1) (add_row_last (p_scs st1) r) (p_name st1) true).
Proof.
  intros Hl Hst1 Hhave Hfirst. destruct (tpf_row_cols _ _ _ Hl) as (sd & -> & Hc & He & Hsd).
  destruct Hl as (_ & Hok & _). unfold tpf_line. destruct r as [f|g]; cbn [tpf_cols row_ok_tpf] in *.
  - edestruct tpf_data_line as (-> & -> & ->); [ | exact Hc | exact He | ]; [split; [reflexivity | discriminate]|].
    cbn [nth_field nth_error bind length Nat.eqb].
    change (str_eqb (s "?") (s "GAP")) with false. cbv iota. rewrite <- Hst1.
    destruct Hok as (Hid & Hne & Hnm & [H0 Hle] & Hs & Htags).
    assert (En : tpf_name (tpf_frag_field f) = Some (f_name f, str_of_Z (f_start f), str_of_Z (f_end f))).
    { unfold tpf_frag_field.
      destruct (str_of_Z_digits (f_start f) H0) as [? ?].
      destruct (str_of_Z_digits (f_end f) (Z.le_trans _ _ _ H0 Hle)) as [? ?].
      apply tpf_name_ok; try assumption. apply no_tab_lf_nolf, Hnm. }
    rewrite En. cbv iota beta. rewrite (Hsd f eq_refl). cbn [bind]. rewrite !int_of_str_of_Z. cbn [bind].
    rewrite <- Htags, new_frag_self by (try assumption; tauto).
    cbn [bind]. rewrite Hhave. reflexivity.
  - destruct Hfirst as [[f Hf]|Hst]; [discriminate|]. rewrite Hst in *.
    edestruct tpf_data_line as (-> & -> & ->); [ | exact Hc | exact He | ]; [split; [reflexivity | discriminate]|].
    cbn [nth_field nth_error bind]. change (str_eqb (s "GAP") (s "GAP")) with true. cbv iota.
    rewrite Hhave, int_of_str_of_Z. cbn [bind]. destruct Hok as (Hrt & _). rewrite Hrt.
    destruct g; reflexivity.
Qed.

Lemma tpf_row_total name r : row_ok_tpf r -> exists line, tpf_row name r = Ok line.
Proof.
  destruct r as [f|g]; intro H; cbn [tpf_row]; [|eexists; reflexivity].
  destruct H as (_ & _ & _ & _ & [Hs|Hs] & _); rewrite Hs; eexists; reflexivity.
Qed.

Lemma is_line_tpf_lf name r line : is_line_tpf name r line -> lf_line line.
Proof.
  intro H. destruct (tpf_row_cols _ _ _ H) as (sd & -> & Hc & _).
  eexists. split; [reflexivity|]. apply join_no_tab_lf_nolf, Hc.
Qed.

Lemma tpf_step_hdr hs scs nm hv h line : is_hline [hash; hash; " "%char] h line ->
  tpf_line (mkP hs scs nm hv) line = Ok (mkP (hs ++ [h]) scs nm hv).
Proof.
  intros (Hh & ->). unfold tpf_line. rewrite header_text_line by (try discriminate; auto).
  reflexivity.
Qed.

Definition sc_ok_tpf (sc : str * list row) : Prop :=
  tpf_scaffold_name_ok (fst sc) /\ (exists f t, snd sc = RF f :: t) /\ Forall row_ok_tpf (snd sc).

Lemma tpf_rows_lines name rows : tpf_scaffold_name_ok name -> Forall row_ok_tpf rows ->
  exists lines, mapM (tpf_row name) rows = Ok lines /\ Forall2 (is_line_tpf name) rows lines.
Proof.
  intros Hn. induction 1 as [|r rows Hr Hrows (lines & E & IH)].
  - exists []. split; [reflexivity | constructor].
  - destruct (tpf_row_total name r Hr) as [line El].
    exists (line :: lines). cbn [mapM]. rewrite El, E. split; [reflexivity|].
    constructor; [|exact IH]. split; [exact Hn | split; [exact Hr | exact El]].
Qed.

Lemma tpf_lines_sc scl : Forall sc_ok_tpf scl ->
  exists lss,
    mapM (fun '(n, rows) => do l <- mapM (tpf_row n) rows; Ok (concat l)) scl = Ok (map (@concat _) lss)
    /\ Forall2 (sc_lines is_line_tpf first_ok_tpf) scl lss.
Proof.
  induction 1 as [|[n rows] scl (Hn & (f & t & Hft) & Hrows) Hscl (lss & E & IH)].
  - exists []. split; [reflexivity | constructor].
  - cbn [fst snd] in *. destruct (tpf_rows_lines n rows Hn Hrows) as (lines & El & Hl).
    exists (lines :: lss). cbn [mapM]. rewrite El. cbn [bind]. rewrite E. split; [reflexivity|].
    constructor; [|exact IH]. split; [exact Hl|]. cbn [snd]. exists (RF f), t. split; [exact Hft|].
    exists f. reflexivity.
Qed.

Theorem parse_format_tpf : forall a, tpf_wf a -> exists t, format_tpf a = Ok t /\ parse_tpf t = Ok a.
Proof.
  intros [hs scl] (Hh & Hs & Had). cbn [a_header a_scaffolds] in *.
  destruct (tpf_lines_sc scl Hs) as (lss & E & Hsc).
  unfold format_tpf. cbn [a_header a_scaffolds]. rewrite E. cbn [bind]. eexists; split; [reflexivity|].
  rewrite concat_concat, <- concat_app.
  apply (parse_written tpf_line is_line_tpf first_ok_tpf (is_hline [hash; hash; " "%char])).
  - exact tpf_line_row.
  - exact tpf_step_hdr.
  - exact is_line_tpf_lf.
  - exact (is_hline_lf [hash; hash; " "%char] eq_refl).
  - apply Forall2_map_r with (P := header_ok); [|exact Hh]. intros h Hok. split; [exact Hok | reflexivity].
  - exact Hsc.
  - eapply Forall_impl; [|exact Hs]. intros [n rows] ([Hn _] & _). exact Hn.
  - exact Had.
Qed.

Lemma tpf_row_drop n r : tpf_row n (drop_tags_row r) = tpf_row n r.
Proof. destruct r; reflexivity. Qed.

Lemma format_tpf_drop_tags a : format_tpf (drop_tags a) = format_tpf a.
Proof.
  unfold format_tpf, drop_tags. cbn [a_header a_scaffolds]. rewrite mapM_map.
  rewrite (mapM_ext _ (fun '(n, rows) => do l <- mapM (tpf_row n) rows; Ok (concat l))); [reflexivity|].
  intros [n rows] _. cbn [fst snd]. rewrite mapM_map.
  rewrite (mapM_ext _ (tpf_row n)); [reflexivity|]. intros r _. apply tpf_row_drop.
Qed.

Theorem agp_tpf_agp : forall a, agp_wf a -> tpf_wf (drop_tags a) ->
  exists t, format_tpf a = Ok t /\ parse_tpf t = Ok (drop_tags a).
Proof.
  intros a _ Hwf. destruct (parse_format_tpf _ Hwf) as (t & Ht & Hp).
  exists t. rewrite <- format_tpf_drop_tags. auto.
Qed.

Theorem gap_type_roundtrip_examples :
  tpf_gap_type_in (tpf_gap_type_out (s "scaffold")) = s "scaffold"
  /\ tpf_gap_type_in (tpf_gap_type_out (s "contig")) = s "contig"
  /\ tpf_gap_type_in (tpf_gap_type_out (s "short_arm")) = s "short_arm"
  /\ tpf_gap_type_out (s "scaffold") = s "TYPE-2"
  /\ tpf_gap_type_out (s "contig") = s "TYPE-3".
Proof. vm_compute. repeat split. Qed.

(* the two well-formedness predicates as boolean checks, to settle them on
   concrete assemblies by evaluation *)
Definition nonempty {A} (l : list A) : bool := match l with [] => false | _ => true end.

Definition header_okb (h : str) : bool :=
  match h with [] => false | c :: _ => negb (is_hash_or_space c) && forallb not_lf h end.

Definition tags_okb (tags : list str) : bool :=
  forallb (forallb ntl) tags
  && match tags with
     | [] => true
     | _ => nonempty (last tags [])
            && match last_opt (last tags []) with Some c => negb (is_space c) | None => true end
     end.

Definition row_ok_agpb (r : row) : bool :=
  match r with
  | RF f => (f_id f =? -1) && forallb ntl (f_name f) && (f_start f <=? f_end f)
            && strand_ok (f_strand f) && tags_okb (f_tags f)
  | RG g => forallb ntl (g_type g)
  end.

Definition name_okb (n : str) : bool :=
  match n with [] => false | c :: _ => negb (Ascii.eqb c hash) && forallb ntl n end.

Fixpoint adjacent_distinctb (l : list str) : bool :=
  match l with
  | a :: ((b :: _) as t) => negb (str_eqb a b) && adjacent_distinctb t
  | _ => true
  end.

Definition agp_wfb (a : assembly) : bool :=
  forallb header_okb (a_header a)
  && forallb (fun sc => name_okb (fst sc) && nonempty (snd sc) && forallb row_ok_agpb (snd sc))
       (a_scaffolds a)
  && adjacent_distinctb (map fst (a_scaffolds a)).

Definition row_ok_tpfb (r : row) : bool :=
  match r with
  | RF f => (f_id f =? -1) && nonempty (f_name f) && forallb ntl (f_name f)
            && (0 <=? f_start f) && (f_start f <=? f_end f)
            && ((f_strand f =? 1) || (f_strand f =? -1)) && negb (nonempty (f_tags f))
  | RG g => let t := tpf_gap_type_out (g_type g) in
            str_eqb (tpf_gap_type_in t) (g_type g) && forallb ntl t
            && forallb (fun c => negb (Ascii.eqb c CR)) t
  end.

Definition tpf_wfb (a : assembly) : bool :=
  forallb header_okb (a_header a)
  && forallb (fun sc => nonempty (fst sc) && forallb ntl (fst sc)
                        && match snd sc with RF _ :: _ => true | _ => false end
                        && forallb row_ok_tpfb (snd sc)) (a_scaffolds a)
  && adjacent_distinctb (map fst (a_scaffolds a)).

Lemma nonempty_ok {A} (l : list A) : nonempty l = true -> l <> [].
Proof. destruct l; discriminate. Qed.

Lemma header_okb_ok h : header_okb h = true -> header_ok h.
Proof.
  destruct h as [|c h]; [discriminate|]. cbn [header_okb header_ok]. intro H.
  apply andb_true_iff in H as [H1 H2]. split; [apply negb_true_iff, H1 | exact H2].
Qed.

Lemma tags_okb_ok tags : tags_okb tags = true -> tags_ok tags.
Proof.
  unfold tags_okb, tags_ok. intro H. apply andb_true_iff in H as [H1 H2]. split.
  - exact (forallb_Forall _ _ _ H1 (fun x Hx => Hx)).
  - destruct tags as [|t ts]; [exact I|]. apply andb_true_iff in H2 as [H2 H3].
    split; [apply nonempty_ok, H2|]. unfold no_trailing_space.
    destruct (last_opt _); [apply negb_true_iff, H3 | exact I].
Qed.

Lemma row_ok_agpb_ok r : row_ok_agpb r = true -> row_ok_agp r.
Proof.
  destruct r as [f|g]; cbn [row_ok_agpb row_ok_agp]; [|auto]. unfold frag_ok_agp, strand_ok. intro H.
  apply andb_prop in H as [H Ht]. apply andb_prop in H as [H Hs].
  apply andb_prop in H as [H Hle]. apply andb_prop in H as [Hid Hn].
  split; [apply Z.eqb_eq, Hid|]. split; [exact Hn|]. split; [apply Z.leb_le, Hle|].
  split; [clear - Hs; lia | apply tags_okb_ok, Ht].
Qed.

Lemma name_okb_ok n : name_okb n = true -> scaffold_name_ok n.
Proof.
  destruct n as [|c n]; [discriminate|]. cbn [name_okb scaffold_name_ok]. intro H.
  apply andb_true_iff in H as [H1 H2]. split; [|exact H2].
  apply negb_true_iff, Ascii.eqb_neq in H1. exact H1.
Qed.

Lemma adjacent_distinctb_ok l : adjacent_distinctb l = true -> adjacent_distinct l.
Proof.
  induction l as [|a r IH]; [exact (fun _ => I)|]. destruct r as [|b t]; [exact (fun _ => I)|].
  cbn [adjacent_distinctb adjacent_distinct]. intro H. apply andb_true_iff in H as [H1 H2].
  split; [apply str_eqb_neq, negb_true_iff, H1 | apply IH, H2].
Qed.

Lemma agp_wfb_ok a : agp_wfb a = true -> agp_wf a.
Proof.
  unfold agp_wfb, agp_wf. intro H. apply andb_true_iff in H as [H Ha]. apply andb_true_iff in H as [Hh Hs].
  split; [exact (forallb_Forall _ _ _ Hh header_okb_ok)|]. split; [|apply adjacent_distinctb_ok, Ha].
  apply (forallb_Forall _ _ _ Hs). intros sc Hsc.
  apply andb_true_iff in Hsc as [Hsc Hr]. apply andb_true_iff in Hsc as [Hn He].
  split; [apply name_okb_ok, Hn|].
  split; [apply nonempty_ok, He | exact (forallb_Forall _ _ _ Hr row_ok_agpb_ok)].
Qed.

Lemma row_ok_tpfb_ok r : row_ok_tpfb r = true -> row_ok_tpf r.
Proof.
  destruct r as [f|g]; cbn [row_ok_tpfb row_ok_tpf]; intro H.
  - unfold frag_ok_tpf. apply andb_prop in H as [H Ht]. apply andb_prop in H as [H Hs].
    apply andb_prop in H as [H Hle]. apply andb_prop in H as [H H0].
    apply andb_prop in H as [H Hn]. apply andb_prop in H as [Hid Hne].
    split; [apply Z.eqb_eq, Hid|]. split; [apply nonempty_ok, Hne|]. split; [exact Hn|].
    split; [split; [apply Z.leb_le, H0 | apply Z.leb_le, Hle]|]. split; [clear - Hs; lia|].
    destruct (f_tags f); [reflexivity | discriminate].
  - unfold gap_type_ok_tpf. apply andb_prop in H as [H Hcr]. apply andb_prop in H as [Hrt Hn].
    split; [apply str_eqb_eq, Hrt|]. split; [exact Hn | exact Hcr].
Qed.

Lemma tpf_wfb_ok a : tpf_wfb a = true -> tpf_wf a.
Proof.
  unfold tpf_wfb, tpf_wf. intro H. apply andb_true_iff in H as [H Ha]. apply andb_true_iff in H as [Hh Hs].
  split; [exact (forallb_Forall _ _ _ Hh header_okb_ok)|]. split; [|apply adjacent_distinctb_ok, Ha].
  apply (forallb_Forall _ _ _ Hs). intros [n rows] Hsc. cbn [fst snd] in *.
  apply andb_true_iff in Hsc as [Hsc Hr]. apply andb_true_iff in Hsc as [Hsc Hf].
  apply andb_true_iff in Hsc as [Hne Hn].
  split; [split; [apply nonempty_ok, Hne | exact Hn]|].
  split; [|exact (forallb_Forall _ _ _ Hr row_ok_tpfb_ok)].
  destruct rows as [|[f|g] t]; try discriminate Hf. exists f, t. reflexivity.
Qed.

Definition ex_agp : assembly :=
  mkAsm [s "HiC MAP RESOLUTION: 8666.66 bp/texel"; s "second header # line"]
    [(s "scaffold_1",
      [RF (mkFrag (-1) (s "ctg1") 1 100 1 [s "Painted"]);
       RG (mkGap 200 (s "scaffold"));
       RF (mkFrag (-1) (s "ctg2") 5 50 0 [])]);
     (s "scaffold 2",
      [RF (mkFrag (-1) (s "ctg:3-4") 1 10 (-1) [s "X"; s "Haplotig"]);
       (* an empty tag column BETWEEN two tags survives the round trip *)
       RF (mkFrag (-1) (s "ctg4") 1 10 1 [s "Painted"; []; s "Hap2"])])].

Example ex_agp_wf : agp_wf ex_agp.
Proof. apply agp_wfb_ok. vm_compute. reflexivity. Qed.

Example ex_agp_roundtrip :
  exists t, format_agp ex_agp = Ok t /\ parse_agp t = Ok ex_agp.
Proof. apply parse_format_agp, ex_agp_wf. Qed.

(* the same, by evaluation (checks the theorem against the executable model) *)
Example ex_agp_roundtrip_eval :
  (do t <- format_agp ex_agp; parse_agp t) = Ok ex_agp.
Proof. vm_compute. reflexivity. Qed.

Definition ex_tpf : assembly :=
  mkAsm [s "HiC MAP RESOLUTION: 8666.66 bp/texel"]
    [(s "scaffold_1",
      [RF (mkFrag (-1) (s "ctg1") 1 100 1 []);
       RG (mkGap 200 (s "scaffold"));
       RG (mkGap 10 (s "short_arm"));
       RF (mkFrag (-1) (s "ctg-2:7") 0 50 (-1) [])]);
     (s "scaffold 2",
      [RF (mkFrag (-1) (s "ctg:3-4") 1 10 (-1) [])])].

Example ex_tpf_wf : tpf_wf ex_tpf.
Proof. apply tpf_wfb_ok. vm_compute. reflexivity. Qed.

Example ex_tpf_roundtrip_eval :
  (do t <- format_tpf ex_tpf; parse_tpf t) = Ok ex_tpf.
Proof. vm_compute. reflexivity. Qed.

(* an assembly satisfying both hypotheses of agp_tpf_agp *)
Definition ex_both : assembly :=
  mkAsm [s "hdr"]
    [(s "scaffold_1",
      [RF (mkFrag (-1) (s "ctg1") 1 100 1 [s "Painted"]);
       RG (mkGap 200 (s "scaffold"));
       RF (mkFrag (-1) (s "ctg2") 5 50 (-1) [])])].
Example ex_both_wf : agp_wf ex_both /\ tpf_wf (drop_tags ex_both).
Proof.
  split; [apply agp_wfb_ok | apply tpf_wfb_ok]; vm_compute; reflexivity.
Qed.

Print Assumptions parse_format_agp.
Print Assumptions format_parse_agp.
Print Assumptions parse_format_tpf.
Print Assumptions agp_tpf_agp.
Print Assumptions parse_agp_rows_eq_lines.
Print Assumptions parse_tpf_rows_eq_lines.
Print Assumptions gap_type_roundtrip_examples.
Print Assumptions ex_agp_wf.
Print Assumptions ex_tpf_wf.
Print Assumptions ex_both_wf.
