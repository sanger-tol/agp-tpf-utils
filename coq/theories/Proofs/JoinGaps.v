(* C07: join gaps.  In every fused output scaffold two fragments are directly
   adjacent only if they were directly adjacent inside one piece, every fusion
   boundary carries the join gap, and no output scaffold begins or ends with a
   gap.  The pinned-commit behaviour (left-over pieces appended without the
   gap) is refuted. *)
From Tola Require Import Py.Base Model.Fragment Model.Scaffold Model.Lookup
  Model.OverlapResult Model.OvrSpec Model.Namer Model.Remap.
From Tola Require Import Proofs.BaseLemmas.
From Coq Require Import Lia ZifyBool.

Definition no_terminal_gap (rows : list row) : Prop :=
  (exists f t, rows = RF f :: t) /\ (exists f t, rows = t ++ [RF f]).

Fixpoint join_rows (g : gap) (pieces : list (list row)) : list row :=
  match pieces with [] => [] | [p] => p | p :: t => p ++ RG g :: join_rows g t end.

Definition piece_key (c : cfg) (sc : scaffold) : fuse_key :=
  (if fix_tag_key c then sc_tag sc else None, sc_hap sc, sc_name sc).

Definition adjacent_frags (rows : list row) (a b : frag) : Prop :=
  exists pre post, rows = pre ++ RF a :: RF b :: post.

Lemma opt_str_eqb_eq a b : opt_eqb str_eqb a b = true <-> a = b.
Proof. exact (BaseLemmas.opt_str_eqb_eq a b). Qed.

Lemma fuse_key_eqb_eq a b : fuse_key_eqb a b = true <-> a = b.
Proof.
  destruct a as [[t1 h1] n1], b as [[t2 h2] n2]. unfold fuse_key_eqb. split; intro H.
  - apply andb_prop in H. destruct H as [H H3]. apply andb_prop in H. destruct H as [H1 H2].
    apply opt_str_eqb_eq in H1. apply opt_str_eqb_eq in H2. apply str_eqb_eq in H3. congruence.
  - injection H as -> -> ->.
    assert (E1 : opt_eqb str_eqb t2 t2 = true) by (apply opt_str_eqb_eq; reflexivity).
    assert (E2 : opt_eqb str_eqb h2 h2 = true) by (apply opt_str_eqb_eq; reflexivity).
    rewrite E1, E2, str_eqb_refl. reflexivity.
Qed.

Lemma fuse_key_eqb_refl a : fuse_key_eqb a a = true.
Proof. apply fuse_key_eqb_eq. reflexivity. Qed.

Lemma fuse_key_eqb_sym a b : fuse_key_eqb a b = fuse_key_eqb b a.
Proof.
  destruct (fuse_key_eqb a b) eqn:E1, (fuse_key_eqb b a) eqn:E2; try reflexivity.
  - apply fuse_key_eqb_eq in E1. subst. rewrite fuse_key_eqb_refl in E2. discriminate.
  - apply fuse_key_eqb_eq in E2. subst. rewrite fuse_key_eqb_refl in E1. discriminate.
Qed.

Lemma aget_aset {K V} (keqb : K -> K -> bool) :
  (forall a b, keqb a b = true <-> a = b) ->
  forall (d : list (K * V)) k v k',
    aget keqb (aset keqb d k v) k' = if keqb k' k then Some v else aget keqb d k'.
Proof.
  intros Heq d k v k'. destruct (keqb k' k) eqn:E.
  - apply Heq in E. subst k'. apply (aget_aset_same keqb Heq).
  - apply (aget_aset_other keqb Heq). intros ->. rewrite (keqb_refl keqb Heq) in E. discriminate.
Qed.

Lemma aset_In_val {K V} (keqb : K -> K -> bool) : forall (d : list (K * V)) k v e,
  In e (aset keqb d k v) -> snd e = v \/ In e d.
Proof.
  induction d as [|[k0 v0] d IH]; intros k v e H; cbn [aset] in H.
  - destruct H as [<- | []]. left. reflexivity.
  - destruct (keqb k k0).
    + destruct H as [<- | H]; [left; reflexivity | right; right; exact H].
    + destruct H as [<- | H]; [right; left; reflexivity|].
      destruct (IH _ _ _ H) as [E | Hin]; [left; exact E | right; right; exact Hin].
Qed.

(* Scaffold.append_scaffold, by cases *)
Lemma append_rows_nil othr g : append_rows [] othr g = othr.
Proof. destruct g; reflexivity. Qed.

Lemma append_rows_none self othr : append_rows self othr None = self ++ othr.
Proof. reflexivity. Qed.

Lemma append_rows_some self othr g : self <> [] -> append_rows self othr (Some g) = self ++ RG g :: othr.
Proof. destruct self; [congruence | reflexivity]. Qed.

Definition join_gap (c : cfg) (g : gap) (is_result : bool) : option gap :=
  if is_result || fix_leftover_gap c then Some g else None.

(* one step of scaffolds_fused_by_name: the scaffold stored under the piece's
   key after a piece with rows, [old] being what was stored there before *)
Definition fused_with (c : cfg) (g : gap) (old : option scaffold) (sc : scaffold) (is_result : bool) : scaffold :=
  let build := match old with
               | Some b => b
               | None => mkScaffold (sc_name sc) [] (sc_tag sc) (sc_hap sc) (sc_rank sc)
                                    (sc_orig sc) (sc_orig_tags sc)
               end in
  mkScaffold (sc_name build) (append_rows (sc_rows build) (sc_rows sc) (join_gap c g is_result))
             (sc_tag build) (sc_hap build) (sc_rank build) (sc_orig build) (sc_orig_tags build).

Lemma fuse_step_empty c g acc sc isr : sc_rows sc = [] -> fuse_step c g acc (sc, isr) = acc.
Proof. intros E. unfold fuse_step. rewrite E. reflexivity. Qed.

Lemma fuse_step_spec c g acc sc isr : sc_rows sc <> [] ->
  fuse_step c g acc (sc, isr)
  = aset fuse_key_eqb acc (piece_key c sc)
         (fused_with c g (aget fuse_key_eqb acc (piece_key c sc)) sc isr).
Proof.
  intros N. unfold fuse_step, fused_with, join_gap, piece_key.
  destruct (sc_rows sc); [congruence | reflexivity].
Qed.

Lemma fuse_step_aget c g acc sc isr k : sc_rows sc <> [] ->
  aget fuse_key_eqb (fuse_step c g acc (sc, isr)) k
  = if fuse_key_eqb k (piece_key c sc)
    then Some (fused_with c g (aget fuse_key_eqb acc (piece_key c sc)) sc isr)
    else aget fuse_key_eqb acc k.
Proof. intros N. rewrite fuse_step_spec by exact N. apply (aget_aset fuse_key_eqb fuse_key_eqb_eq). Qed.

Lemma fused_with_rows c g old sc isr :
  sc_rows (fused_with c g old sc isr)
  = append_rows (match old with Some b => sc_rows b | None => [] end) (sc_rows sc) (join_gap c g isr).
Proof. destruct old; reflexivity. Qed.

Lemma fuse_step_In c g acc sc isr e : In e (fuse_step c g acc (sc, isr)) ->
  In e acc
  \/ exists self, (self = [] \/ exists e0, In e0 acc /\ self = sc_rows (snd e0))
       /\ sc_rows sc <> []
       /\ sc_rows (snd e) = append_rows self (sc_rows sc) (join_gap c g isr).
Proof.
  intros H. destruct (sc_rows sc) as [|r0 t0] eqn:R; [left; rewrite fuse_step_empty in H; assumption|].
  assert (N : sc_rows sc <> []) by (rewrite R; discriminate).
  rewrite fuse_step_spec in H by exact N. apply aset_In_val in H.
  destruct H as [-> | H]; [right | left; exact H].
  rewrite fused_with_rows, <- R.
  destruct (aget fuse_key_eqb acc (piece_key c sc)) as [b|] eqn:G.
  - apply (aget_In fuse_key_eqb fuse_key_eqb_eq) in G.
    exists (sc_rows b). split; [right; exists (piece_key c sc, b); split; [exact G | reflexivity]|].
    split; [exact N | reflexivity].
  - exists []. split; [left; reflexivity|]. split; [exact N | reflexivity].
Qed.

Section FusePreserves.
  Variables (c : cfg) (g : gap) (R : list row -> Prop).
  Hypothesis R_append : forall self othr isr,
    self = [] \/ R self -> R othr -> R (append_rows self othr (join_gap c g isr)).

  Lemma fuse_fold_preserves : forall pieces acc,
    (forall e, In e acc -> R (sc_rows (snd e))) ->
    (forall p, In p pieces -> sc_rows (fst p) = [] \/ R (sc_rows (fst p))) ->
    forall e, In e (fold_left (fuse_step c g) pieces acc) -> R (sc_rows (snd e)).
  Proof.
    induction pieces as [|[sc isr] pieces IH]; intros acc Ha Hp; cbn [fold_left]; [exact Ha|].
    apply IH; [|intros q Hq; apply Hp; right; exact Hq].
    intros e He. apply fuse_step_In in He.
    destruct He as [He | (self & Hs & N & ->)]; [apply Ha; exact He|].
    apply R_append.
    - destruct Hs as [-> | (e0 & He0 & ->)]; [left; reflexivity | right; apply Ha; exact He0].
    - destruct (Hp (sc, isr) (or_introl eq_refl)) as [E | Hr]; [contradiction | exact Hr].
  Qed.
End FusePreserves.

Theorem rows_reverse_no_terminal_gap : forall rows,
  no_terminal_gap rows -> no_terminal_gap (rows_reverse rows).
Proof.
  intros rows [(f1 & t1 & E1) (f2 & t2 & E2)]. unfold rows_reverse. split.
  - exists (frag_reverse f2), (map row_reverse (rev t2)).
    rewrite E2, rev_app_distr. reflexivity.
  - exists (frag_reverse f1), (map row_reverse (rev t1)).
    rewrite E1. cbn [rev]. rewrite map_app. reflexivity.
Qed.

Lemma rows_reverse_nil_iff rows : rows_reverse rows = [] <-> rows = [].
Proof.
  unfold rows_reverse. split; intro H.
  - apply map_eq_nil in H. destruct rows as [|r t]; [reflexivity|].
    cbn [rev] in H. apply app_eq_nil in H. destruct H; discriminate.
  - subst. reflexivity.
Qed.

Lemma join_rows_cons2 g p q t :
  join_rows g (p :: q :: t) = p ++ RG g :: join_rows g (q :: t).
Proof. reflexivity. Qed.

Lemma join_rows_merge g a b t : join_rows g ((a ++ RG g :: b) :: t) = join_rows g (a :: b :: t).
Proof. destruct t; cbn [join_rows]; [reflexivity | rewrite <- app_assoc; reflexivity]. Qed.

Theorem join_rows_no_terminal_gap : forall g pieces,
  pieces <> [] -> Forall no_terminal_gap pieces -> no_terminal_gap (join_rows g pieces).
Proof.
  intros g. induction pieces as [|p t IH]; intros Hne HF; [congruence|].
  inversion HF as [|? ? Hp Ht]; subst.
  destruct t as [|q t]; [exact Hp|].
  rewrite join_rows_cons2.
  destruct IH as [_ (f2 & t2 & E2)]; [discriminate|assumption|].
  destruct Hp as [(f1 & t1 & E1) _]. split.
  - exists f1, (t1 ++ RG g :: join_rows g (q :: t)). rewrite E1. reflexivity.
  - exists f2, (p ++ RG g :: t2). rewrite E2, <- app_assoc. reflexivity.
Qed.

Lemma adjacent_app_gap a b g : forall pre post p rest,
  pre ++ RF a :: RF b :: post = p ++ RG g :: rest ->
  (exists post', p = pre ++ RF a :: RF b :: post')
  \/ (exists pre', rest = pre' ++ RF a :: RF b :: post).
Proof.
  induction pre as [|c pre IH]; intros post p rest E.
  - destruct p as [|x [|y p]]; cbn [app] in E.
    + discriminate.
    + injection E as _ E. discriminate.
    + injection E as <- <- E. left. exists p. reflexivity.
  - destruct p as [|x p]; cbn [app] in E.
    + injection E as _ E. right. exists pre. symmetry. exact E.
    + injection E as <- E. destruct (IH _ _ _ E) as [(post' & ->)|(pre' & ->)].
      * left. exists post'. reflexivity.
      * right. exists pre'. reflexivity.
Qed.

Lemma join_rows_adjacent_gen : forall g pieces a b,
  adjacent_frags (join_rows g pieces) a b -> exists p, In p pieces /\ adjacent_frags p a b.
Proof.
  intros g. induction pieces as [|p t IH]; intros a b (pre & post & E).
  - destruct pre; discriminate.
  - destruct t as [|q t].
    + exists p. split; [left; reflexivity|]. exists pre, post. exact E.
    + rewrite join_rows_cons2 in E. symmetry in E.
      destruct (adjacent_app_gap _ _ _ _ _ _ _ E) as [(post' & E1)|(pre' & E1)].
      * exists p. split; [left; reflexivity|]. exists pre, post'. exact E1.
      * destruct (IH a b) as (p' & Hin & Hadj); [exists pre', post; exact E1|].
        exists p'. split; [right; exact Hin|exact Hadj].
Qed.

Theorem join_rows_adjacent : forall g pieces a b, Forall no_terminal_gap pieces ->
  adjacent_frags (join_rows g pieces) a b -> exists p, In p pieces /\ adjacent_frags p a b.
Proof. intros g pieces a b _. apply join_rows_adjacent_gen. Qed.

Definition rows_at (acc : list (fuse_key * scaffold)) (k : fuse_key) : list row :=
  match aget fuse_key_eqb acc k with Some b => sc_rows b | None => [] end.

Definition takes (k : fuse_key) (p : scaffold * bool) : bool :=
  match sc_rows (fst p) with
  | [] => false
  | _ => fuse_key_eqb (piece_key repaired (fst p)) k
  end.

Definition acc_ok (acc : list (fuse_key * scaffold)) : Prop :=
  forall k b, aget fuse_key_eqb acc k = Some b -> sc_rows b <> [].

Lemma append_rows_nonempty self othr g : othr <> [] -> append_rows self othr g <> [].
Proof.
  intros H E. unfold append_rows in E.
  destruct g as [g'|], self as [|r self]; cbn [app] in E; try discriminate; congruence.
Qed.

Lemma fuse_step_rows g acc p k :
  rows_at (fuse_step repaired g acc p) k =
  if takes k p then append_rows (rows_at acc k) (sc_rows (fst p)) (Some g) else rows_at acc k.
Proof.
  destruct p as [sc b]. unfold takes, rows_at. cbn [fst].
  destruct (sc_rows sc) as [|r0 rows0] eqn:R; [rewrite fuse_step_empty by exact R; reflexivity|].
  rewrite fuse_step_aget by (rewrite R; discriminate).
  rewrite (fuse_key_eqb_sym (piece_key repaired sc) k).
  destruct (fuse_key_eqb k (piece_key repaired sc)) eqn:E; [|reflexivity].
  apply fuse_key_eqb_eq in E. subst k. rewrite fused_with_rows, R.
  unfold join_gap. cbn [fix_leftover_gap repaired]. rewrite orb_true_r. reflexivity.
Qed.

Lemma fuse_step_ok c g acc p : acc_ok acc -> acc_ok (fuse_step c g acc p).
Proof.
  intros H k b. destruct p as [sc isr].
  destruct (sc_rows sc) as [|r0 rows0] eqn:R; [rewrite fuse_step_empty by exact R; apply H|].
  rewrite fuse_step_aget by (rewrite R; discriminate).
  destruct (fuse_key_eqb k _); [|apply H].
  intro E. injection E as <-. rewrite fused_with_rows. apply append_rows_nonempty.
  rewrite R. discriminate.
Qed.

Lemma fuse_fold_ok c g : forall pieces acc, acc_ok acc -> acc_ok (fold_left (fuse_step c g) pieces acc).
Proof.
  induction pieces as [|p t IH]; intros acc H; cbn [fold_left]; [exact H|].
  apply IH, fuse_step_ok, H.
Qed.

Lemma acc_ok_nil : acc_ok [].
Proof. intros k b H. discriminate. Qed.

Definition taken_rows (k : fuse_key) (pieces : list (scaffold * bool)) : list (list row) :=
  map (fun p => sc_rows (fst p)) (filter (takes k) pieces).

Lemma takes_rows k p : takes k p = true -> sc_rows (fst p) <> [].
Proof. unfold takes. destruct (sc_rows (fst p)); [discriminate|discriminate]. Qed.

Lemma in_taken_rows r k pieces : In r (taken_rows k pieces) ->
  exists p, In p pieces /\ takes k p = true /\ r = sc_rows (fst p).
Proof.
  unfold taken_rows. intros Hin. apply in_map_iff in Hin. destruct Hin as (p & <- & Hp).
  apply filter_In in Hp. exists p. split; [apply Hp|]. split; [apply Hp | reflexivity].
Qed.

Lemma taken_rows_nonempty k pieces : Forall (fun r => r <> []) (taken_rows k pieces).
Proof.
  apply Forall_forall. intros r Hin. destruct (in_taken_rows _ _ _ Hin) as (p & _ & T & ->).
  exact (takes_rows k p T).
Qed.

(* what is already stored under k counts as the first piece *)
Lemma fuse_fold_rows_gen g k : forall pieces acc,
  rows_at (fold_left (fuse_step repaired g) pieces acc) k =
  join_rows g ((match rows_at acc k with [] => [] | r0 => [r0] end) ++ taken_rows k pieces).
Proof.
  induction pieces as [|p t IH]; intro acc; cbn [fold_left].
  - unfold taken_rows. cbn [filter map]. rewrite app_nil_r.
    destruct (rows_at acc k); reflexivity.
  - rewrite IH. rewrite fuse_step_rows. unfold taken_rows at 2. cbn [filter].
    destruct (takes k p) eqn:T; [|reflexivity].
    cbn [map]. fold (taken_rows k t).
    pose proof (takes_rows k p T) as Hp.
    destruct (rows_at acc k) as [|x0 r0] eqn:RA.
    + rewrite append_rows_nil. destruct (sc_rows (fst p)); [congruence | reflexivity].
    + rewrite append_rows_some by discriminate. cbn [app].
      apply (join_rows_merge g (x0 :: r0)).
Qed.

Lemma fuse_fold_rows g k pieces :
  rows_at (fold_left (fuse_step repaired g) pieces []) k = join_rows g (taken_rows k pieces).
Proof. rewrite fuse_fold_rows_gen. reflexivity. Qed.

Theorem fuse_fold_is_join_gen : forall g pieces acc k b,
  acc_ok acc ->
  aget fuse_key_eqb (fold_left (fuse_step repaired g) pieces acc) k = Some b ->
  sc_rows b = join_rows g ((match aget fuse_key_eqb acc k with Some b0 => [sc_rows b0] | None => [] end)
                           ++ taken_rows k pieces).
Proof.
  intros g pieces acc k b Hok H.
  pose proof (fuse_fold_rows_gen g k pieces acc) as E.
  unfold rows_at at 1 in E. rewrite H in E. rewrite E. f_equal. f_equal.
  unfold rows_at. destruct (aget fuse_key_eqb acc k) as [b0|] eqn:G; [|reflexivity].
  specialize (Hok k b0 G). destruct (sc_rows b0); [congruence|reflexivity].
Qed.

Theorem fuse_fold_is_join : forall g pieces k b,
  aget fuse_key_eqb (fold_left (fuse_step repaired g) pieces []) k = Some b ->
  sc_rows b = join_rows g (map (fun p => sc_rows (fst p))
                               (filter (fun p => match sc_rows (fst p) with
                                                 | [] => false
                                                 | _ => fuse_key_eqb (piece_key repaired (fst p)) k
                                                 end) pieces)).
Proof.
  intros g pieces k b H.
  pose proof (fuse_fold_rows g k pieces) as E.
  unfold rows_at in E. rewrite H in E. exact E.
Qed.

Definition piece_ok (p : scaffold * bool) : Prop :=
  sc_rows (fst p) = [] \/ no_terminal_gap (sc_rows (fst p)).

Lemma taken_rows_ntg k pieces :
  Forall piece_ok pieces -> Forall no_terminal_gap (taken_rows k pieces).
Proof.
  intro HF. apply Forall_forall. intros r Hin. destruct (in_taken_rows _ _ _ Hin) as (p & Hp & T & ->).
  rewrite Forall_forall in HF. destruct (HF p Hp) as [E|Hn]; [|exact Hn].
  destruct (takes_rows k p T E).
Qed.

Theorem fused_no_terminal_gap : forall g pieces k b,
  Forall (fun p => sc_rows (fst p) = [] \/ no_terminal_gap (sc_rows (fst p))) pieces ->
  aget fuse_key_eqb (fold_left (fuse_step repaired g) pieces []) k = Some b ->
  no_terminal_gap (sc_rows b).
Proof.
  intros g pieces k b HF H.
  pose proof (fuse_fold_ok repaired g pieces [] acc_ok_nil k b H) as Hne.
  pose proof (fuse_fold_rows g k pieces) as E. unfold rows_at in E. rewrite H in E.
  rewrite E. apply join_rows_no_terminal_gap.
  - intro N. rewrite N in E. cbn [join_rows] in E. congruence.
  - apply taken_rows_ntg. exact HF.
Qed.

Theorem fused_adjacent_only_within_piece : forall g pieces k b x y,
  Forall (fun p => sc_rows (fst p) = [] \/ no_terminal_gap (sc_rows (fst p))) pieces ->
  aget fuse_key_eqb (fold_left (fuse_step repaired g) pieces []) k = Some b ->
  adjacent_frags (sc_rows b) x y ->
  exists p, In p pieces /\ adjacent_frags (sc_rows (fst p)) x y.
Proof.
  intros g pieces k b x y _ H Hadj.
  pose proof (fuse_fold_rows g k pieces) as E. unfold rows_at in E. rewrite H in E.
  rewrite E in Hadj. apply join_rows_adjacent_gen in Hadj.
  destruct Hadj as (r & Hin & Hadj). destruct (in_taken_rows _ _ _ Hin) as (p & Hp & _ & ->).
  exists p. split; assumption.
Qed.

(* every fusion boundary carries the join gap *)
Theorem fuse_step_boundary : forall g acc sc isr b,
  sc_rows sc <> [] ->
  aget fuse_key_eqb acc (piece_key repaired sc) = Some b -> sc_rows b <> [] ->
  exists b', aget fuse_key_eqb (fuse_step repaired g acc (sc, isr)) (piece_key repaired sc) = Some b'
             /\ sc_rows b' = sc_rows b ++ RG g :: sc_rows sc.
Proof.
  intros g acc sc isr b Hsc G Hb.
  rewrite fuse_step_aget, fuse_key_eqb_refl, G by exact Hsc.
  eexists. split; [reflexivity|]. rewrite fused_with_rows.
  unfold join_gap. cbn [fix_leftover_gap repaired]. rewrite orb_true_r.
  apply append_rows_some. exact Hb.
Qed.

Theorem to_scaffold_rows_ok : forall r,
  consistent r -> o_rows r = [] \/ no_terminal_gap (to_scaffold_rows r).
Proof.
  intros r [E|(_ & H1 & H2 & _)]; [left; exact E|right].
  unfold to_scaffold_rows.
  destruct (f_strand (o_bait r) =? -1).
  - apply rows_reverse_no_terminal_gap. split; assumption.
  - split; assumption.
Qed.

Lemma to_scaffold_rows_nil_iff r : to_scaffold_rows r = [] <-> o_rows r = [].
Proof.
  unfold to_scaffold_rows. destruct (f_strand (o_bait r) =? -1);
    [apply rows_reverse_nil_iff|reflexivity].
Qed.

Corollary piece_of_result_ok r : consistent r -> piece_ok (piece_of_result r).
Proof.
  intro H. unfold piece_ok, piece_of_result. cbn [fst sc_rows].
  destruct (to_scaffold_rows_ok r H) as [E|N]; [left; apply to_scaffold_rows_nil_iff; exact E|right; exact N].
Qed.

Section Missing.
  Variable c : cfg.
  Variable found : list (fkey * (frag * list rid)).
  Variable g : gap.

  Lemma missing_sep_gaps between : forallb is_gap_row (missing_sep c g between) = true.
  Proof.
    unfold missing_sep. destruct (fix_gap_run c && forallb is_gap_row between) eqn:E.
    - apply andb_prop in E. apply E.
    - destruct (last between _); reflexivity.
  Qed.

  Lemma missing_sep_not_nil between : between <> [] -> missing_sep c g between <> [].
  Proof.
    intro H. unfold missing_sep. destruct (fix_gap_run c && forallb is_gap_row between); [exact H|].
    destruct (last between _); discriminate.
  Qed.

  (* what add_missing_scaffolds_from_input puts before a contig it re-adds *)
  Definition missing_lead (between : list row) (i : Z) (la : option Z) : list row :=
    match la with
    | Some l => if negb (l =? i - 1) then missing_sep c g between else []
    | None => []
    end.

  Lemma missing_lead_gaps between i la : forallb is_gap_row (missing_lead between i la) = true.
  Proof.
    unfold missing_lead. destruct la as [l|]; [|reflexivity].
    destruct (negb (l =? i - 1)); [apply missing_sep_gaps | reflexivity].
  Qed.

  Lemma missing_rows_gap gp t between i la :
    missing_rows c found g (RG gp :: t) between i la
    = missing_rows c found g t (between ++ [RG gp]) (i + 1) la.
  Proof. reflexivity. Qed.

  Lemma missing_rows_found f t between i la v : aget key_eqb found (key_of f) = Some v ->
    missing_rows c found g (RF f :: t) between i la
    = missing_rows c found g t (between ++ [RF f]) (i + 1) la.
  Proof. intros E. cbn [missing_rows]. rewrite E. reflexivity. Qed.

  Lemma missing_rows_new f t between i la : aget key_eqb found (key_of f) = None ->
    missing_rows c found g (RF f :: t) between i la
    = missing_lead between i la ++ RF f :: missing_rows c found g t [] (i + 1) (Some i).
  Proof. intros E. cbn [missing_rows]. rewrite E. reflexivity. Qed.

  Lemma gap_prefix_head sp : forallb is_gap_row sp = true -> sp <> [] ->
    forall f rc b post, sp ++ RF f :: rc <> RF b :: post.
  Proof.
    destruct sp as [|[x|x] sp]; cbn [forallb is_gap_row andb app]; intros H N f rc b post E;
      [congruence|discriminate|discriminate].
  Qed.

  Lemma gap_prefix_split : forall sp, forallb is_gap_row sp = true ->
    forall f rc pre a b post, sp ++ RF f :: rc = pre ++ RF a :: RF b :: post ->
    exists pre0, RF f :: rc = pre0 ++ RF a :: RF b :: post.
  Proof.
    induction sp as [|[x|x] sp IH]; cbn [forallb is_gap_row andb app]; intros H f rc pre a b post E.
    - exists pre. exact E.
    - discriminate.
    - destruct pre as [|y pre]; cbn [app] in E; [discriminate|]. injection E as _ E.
      apply (IH H _ _ _ _ _ _ E).
  Qed.

  Lemma missing_rows_first : forall rows between i,
    missing_rows c found g rows between i None = []
    \/ exists f t, missing_rows c found g rows between i None = RF f :: t.
  Proof.
    induction rows as [|r t IH]; intros between i; cbn [missing_rows]; [left; reflexivity|].
    destruct r as [f|gg]; [|apply IH].
    destruct (aget key_eqb found (key_of f)); [apply IH|].
    right. cbn [app]. eauto.
  Qed.

  Lemma missing_rows_last : forall rows between i la,
    missing_rows c found g rows between i la = []
    \/ exists f t, missing_rows c found g rows between i la = t ++ [RF f].
  Proof.
    induction rows as [|r t IH]; intros between i la; [left; reflexivity|].
    destruct r as [f|gg]; [|apply IH].
    destruct (aget key_eqb found (key_of f)) as [v|] eqn:Ef.
    { rewrite (missing_rows_found _ _ _ _ _ _ Ef). apply IH. }
    rewrite (missing_rows_new _ _ _ _ _ Ef). right.
    destruct (IH [] (i + 1) (Some i)) as [E|(f' & t' & E)]; rewrite E.
    - exists f, (missing_lead between i la). reflexivity.
    - exists f', (missing_lead between i la ++ RF f :: t'). rewrite <- app_assoc. reflexivity.
  Qed.

  Theorem missing_rows_no_terminal_gap_sec : forall rows,
    missing_rows c found g rows [] 0 None = []
    \/ no_terminal_gap (missing_rows c found g rows [] 0 None).
  Proof.
    intro rows.
    destruct (missing_rows_first rows [] 0) as [E|H1]; [left; exact E|].
    destruct (missing_rows_last rows [] 0 None) as [E|H2]; [left; exact E|].
    right. split; assumption.
  Qed.

  (* with [last_added = Some j], j < i, and [between] not empty unless j = i - 1
     (it is rows[j+1 : i]), the output begins with a fragment only if j = i - 1
     (the previous input row was the fragment last emitted) and that fragment
     is the next input row *)
  Lemma missing_rows_head : forall rows between i j b post,
    j < i -> (j = i - 1 \/ between <> []) ->
    missing_rows c found g rows between i (Some j) = RF b :: post ->
    j = i - 1 /\ exists t', rows = RF b :: t'.
  Proof.
    induction rows as [|r t IH]; intros between i j b post Hj Hb E; cbn [missing_rows] in E; [discriminate|].
    assert (Hb' : j = i + 1 - 1 \/ between ++ [r] <> []) by (right; destruct between; discriminate).
    destruct r as [f|gg].
    - destruct (aget key_eqb found (key_of f)).
      + apply IH in E; [|lia|exact Hb']. destruct E as [E _]. lia.
      + destruct (negb (j =? i - 1)) eqn:N.
        * exfalso. destruct Hb as [Hb|Hb]; [lia|].
          exact (gap_prefix_head _ (missing_sep_gaps between) (missing_sep_not_nil between Hb) _ _ _ _ E).
        * cbn [app] in E. injection E as -> _. split; [lia|eauto].
    - apply IH in E; [|lia|exact Hb']. destruct E as [E _]. lia.
  Qed.

  Lemma missing_rows_adjacent_gen : forall rows between i la a b,
    adjacent_frags (missing_rows c found g rows between i la) a b -> adjacent_frags rows a b.
  Proof.
    induction rows as [|r t IH]; intros between i la a b (pre & post & E).
    - destruct pre; discriminate.
    - assert (Hrec : forall between' la',
                adjacent_frags (missing_rows c found g t between' (i + 1) la') a b ->
                adjacent_frags (r :: t) a b).
      { intros between' la' Hadj. destruct (IH _ _ _ _ _ Hadj) as (pre' & post' & ->).
        exists (r :: pre'), post'. reflexivity. }
      destruct r as [f|gg]; [|apply (Hrec (between ++ [RG gg]) la); exists pre, post; exact E].
      destruct (aget key_eqb found (key_of f)) as [v|] eqn:Ef.
      { rewrite (missing_rows_found _ _ _ _ _ _ Ef) in E. apply (Hrec (between ++ [RF f]) la). exists pre, post. exact E. }
      rewrite (missing_rows_new _ _ _ _ _ Ef) in E.
      destruct (gap_prefix_split _ (missing_lead_gaps between i la) _ _ _ _ _ _ E) as ([|x pre0] & E0);
        cbn [app] in E0.
      + injection E0 as -> E0. apply missing_rows_head in E0; [|lia|left; lia].
        destruct E0 as [_ (t' & ->)]. exists [], t'. reflexivity.
      + injection E0 as _ E0. apply (Hrec [] (Some i)). exists pre0, post. exact E0.
  Qed.
End Missing.

(* add_missing_scaffolds_from_input for one input scaffold: nothing when no
   contig of it is left over; else one new scaffold of rank 3, named after the
   input scaffold, tagged Contaminant in a run with targets when the input
   scaffold holds no Target contig *)
Lemma add_missing_one_spec c g found nm left name rows acc' :
  add_missing_one c g found (nm, left) (name, rows) = Ok acc' ->
  let new_rows := missing_rows c found g rows [] 0 None in
  (new_rows = [] /\ acc' = (nm, left))
  \/ exists nm', new_rows <> [] /\ make_scaffold_name nm name new_rows [] = Ok nm'
       /\ acc' = (nm', left ++ [mkScaffold name new_rows
                    (if nm_target nm' && negb (mem_str (s "Target") (fragment_tags rows))
                     then Some (s "Contaminant") else None)
                    (nm_cur_hap nm') 3 None []]).
Proof.
  unfold add_missing_one. intros H. cbv zeta.
  destruct (missing_rows c found g rows [] 0 None) as [|r0 t] eqn:E.
  - left. injection H as <-. split; reflexivity.
  - right. destruct (make_scaffold_name nm name (r0 :: t) []) as [nm'|] eqn:EM; cbn [bind] in H; [|discriminate].
    injection H as <-. exists nm'. split; [discriminate|]. split; reflexivity.
Qed.

Theorem missing_rows_no_terminal_gap : forall c found g rows,
  missing_rows c found g rows [] 0 None = []
  \/ no_terminal_gap (missing_rows c found g rows [] 0 None).
Proof. exact missing_rows_no_terminal_gap_sec. Qed.

Theorem missing_rows_adjacent : forall c found g rows a b,
  adjacent_frags (missing_rows c found g rows [] 0 None) a b -> adjacent_frags rows a b.
Proof.
  intros c found g rows a b. apply missing_rows_adjacent_gen.
Qed.

Theorem legacy_leftover_refuted : exists g p1 p2 k b x y,
  let c := mkCfg true false true true true in
  aget fuse_key_eqb (fold_left (fuse_step c g) [p1; p2] []) k = Some b
  /\ adjacent_frags (sc_rows b) x y
  /\ ~ adjacent_frags (sc_rows (fst p1)) x y /\ ~ adjacent_frags (sc_rows (fst p2)) x y.
Proof.
  pose (x := mkFrag 0 [] 1 10 1 []).
  pose (y := mkFrag 1 [] 11 20 1 []).
  exists (mkGap 200 []), (plain_scaffold [] [RF x], true), (plain_scaffold [] [RF y], false),
         (None, None, []), (plain_scaffold [] [RF x; RF y]), x, y.
  cbv zeta. split; [vm_compute; reflexivity|]. split; [|split].
  - exists [], []. reflexivity.
  - intros (pre & post & E). cbn in E. destruct pre as [|? [|? ?]]; discriminate.
  - intros (pre & post & E). cbn in E. destruct pre as [|? [|? ?]]; discriminate.
Qed.

(* the same two pieces under the repaired code: the gap is there *)
Example repaired_leftover_gap :
  let x := mkFrag 0 [] 1 10 1 [] in
  let y := mkFrag 1 [] 11 20 1 [] in
  let g := mkGap 200 [] in
  option_map sc_rows
    (aget fuse_key_eqb
       (fold_left (fuse_step repaired g)
          [(plain_scaffold [] [RF x], true); (plain_scaffold [] [RF y], false)] [])
       (None, None, []))
  = Some [RF x; RG g; RF y].
Proof. vm_compute. reflexivity. Qed.

Print Assumptions rows_reverse_no_terminal_gap.
Print Assumptions join_rows_no_terminal_gap.
Print Assumptions join_rows_adjacent.
Print Assumptions fuse_fold_is_join.
Print Assumptions fuse_fold_is_join_gen.
Print Assumptions fused_no_terminal_gap.
Print Assumptions fused_adjacent_only_within_piece.
Print Assumptions fuse_step_boundary.
Print Assumptions to_scaffold_rows_ok.
Print Assumptions missing_rows_no_terminal_gap.
Print Assumptions missing_rows_adjacent.
Print Assumptions legacy_leftover_refuted.
