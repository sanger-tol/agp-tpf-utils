(* Python's sorted() as modelled in Py/Sort.v: a permutation, sorted for a total
   preorder on keys, stable, and its sequence of keys independent of the input order. *)
From Tola Require Import Py.Base Py.Sort Proofs.BaseLemmas.
From Coq Require Import Permutation Sorted.

Section SortFacts.
  Context {A K : Type} (key : A -> K) (leK : K -> K -> bool).
  Local Notation le := (fun a b : A => leK (key a) (key b)).
  Local Notation R := (fun a b : A => leK (key a) (key b) = true).

  Lemma insert_front_perm x l : Permutation (insert_front le x l) (x :: l).
  Proof.
    induction l as [|y l IH]; cbn [insert_front]; [apply Permutation_refl|].
    destruct (leK (key x) (key y)); [apply Permutation_refl|].
    eapply perm_trans; [apply perm_skip, IH | apply perm_swap].
  Qed.

  Theorem stable_sort_perm l : Permutation (stable_sort le l) l.
  Proof.
    induction l as [|x l IH]; cbn [stable_sort]; [apply perm_nil|].
    eapply perm_trans; [apply insert_front_perm | apply perm_skip, IH].
  Qed.

  (* stability: elements selected by a predicate under which all selected
     elements are mutually [le] (e.g. "key = k") keep their input order *)
  Lemma insert_front_filter (p : A -> bool) :
    (forall x y, p x = true -> p y = true -> leK (key x) (key y) = true) ->
    forall x l, filter p (insert_front le x l) = filter p (x :: l).
  Proof.
    intros Hp x l. induction l as [|y l IH]; cbn [insert_front]; [reflexivity|].
    destruct (leK (key x) (key y)) eqn:E; [reflexivity|].
    cbn [filter] in *. rewrite IH.
    destruct (p x) eqn:Px, (p y) eqn:Py; try reflexivity.
    rewrite (Hp x y Px Py) in E. discriminate.
  Qed.

  Theorem stable_sort_filter (p : A -> bool) :
    (forall x y, p x = true -> p y = true -> leK (key x) (key y) = true) ->
    forall l, filter p (stable_sort le l) = filter p l.
  Proof.
    intros Hp l. induction l as [|x l IH]; [reflexivity|].
    cbn [stable_sort]. rewrite (insert_front_filter p Hp). cbn [filter]. rewrite IH. reflexivity.
  Qed.

  Lemma insert_front_map x l :
    map key (insert_front le x l) = insert_front leK (key x) (map key l).
  Proof.
    induction l as [|y l IH]; cbn [insert_front map]; [reflexivity|].
    destruct (leK (key x) (key y)); cbn [map]; [reflexivity|]. rewrite IH. reflexivity.
  Qed.

  Lemma stable_sort_map l : map key (stable_sort le l) = stable_sort leK (map key l).
  Proof.
    induction l as [|x l IH]; cbn [stable_sort map]; [reflexivity|].
    rewrite insert_front_map, IH. reflexivity.
  Qed.

  Hypothesis leK_trans : forall a b c, leK a b = true -> leK b c = true -> leK a c = true.
  Hypothesis leK_total : forall a b, leK a b = true \/ leK b a = true.

  Lemma insert_front_sorted x l :
    StronglySorted R l -> StronglySorted R (insert_front le x l).
  Proof.
    induction 1 as [|y l Hs IH Hy]; cbn [insert_front].
    - constructor; constructor.
    - destruct (leK (key x) (key y)) eqn:E.
      + constructor; [constructor; assumption|].
        constructor; [exact E|].
        eapply Forall_impl; [|exact Hy]. cbv beta. intros z Hz. eapply leK_trans; eassumption.
      + constructor; [exact IH|].
        eapply Permutation_Forall; [apply Permutation_sym, insert_front_perm|].
        constructor; [|exact Hy].
        destruct (leK_total (key x) (key y)) as [H|H]; [congruence | exact H].
  Qed.

  Theorem stable_sort_sorted l : StronglySorted R (stable_sort le l).
  Proof.
    induction l as [|x l IH]; cbn [stable_sort]; [constructor|].
    apply insert_front_sorted, IH.
  Qed.
End SortFacts.

Section SortedUnique.
  Context {K : Type} (leK : K -> K -> bool).
  Hypothesis leK_antisym : forall a b, leK a b = true -> leK b a = true -> a = b.
  Local Notation R := (fun a b : K => leK a b = true).

  Lemma sorted_perm_eq : forall l l',
    StronglySorted R l -> StronglySorted R l' -> Permutation l l' -> l = l'.
  Proof.
    induction l as [|a t IH]; intros l' S S' P.
    - apply Permutation_nil in P. congruence.
    - destruct l' as [|b t']; [apply Permutation_sym, Permutation_nil in P; discriminate|].
      inversion S as [|? ? St Ha]; subst. inversion S' as [|? ? St' Hb]; subst.
      assert (E : a = b).
      { assert (Ib : In b (a :: t)) by (eapply Permutation_in; [apply Permutation_sym, P | left; reflexivity]).
        assert (Ia : In a (b :: t')) by (eapply Permutation_in; [apply P | left; reflexivity]).
        destruct Ib as [Ib|Ib]; [exact Ib|]. destruct Ia as [Ia|Ia]; [congruence|].
        rewrite Forall_forall in Ha, Hb. apply leK_antisym; [apply Ha, Ib | apply Hb, Ia]. }
      subst b. f_equal. apply IH; try assumption. eapply Permutation_cons_inv, P.
  Qed.
End SortedUnique.

Section SortConsistent.
  Context {A K : Type} (key : A -> K) (leK : K -> K -> bool).
  Hypothesis leK_trans : forall a b c, leK a b = true -> leK b c = true -> leK a c = true.
  Hypothesis leK_total : forall a b, leK a b = true \/ leK b a = true.
  Hypothesis leK_antisym : forall a b, leK a b = true -> leK b a = true -> a = b.

  Theorem stable_sort_consistent (l l' : list A) : Permutation l l' ->
    map key (stable_sort (fun a b => leK (key a) (key b)) l)
    = map key (stable_sort (fun a b => leK (key a) (key b)) l').
  Proof.
    intro P. rewrite !stable_sort_map.
    apply (sorted_perm_eq leK leK_antisym).
    - apply (stable_sort_sorted (fun k : K => k) leK leK_trans leK_total).
    - apply (stable_sort_sorted (fun k : K => k) leK leK_trans leK_total).
    - eapply perm_trans; [apply (stable_sort_perm (fun k : K => k) leK)|].
      eapply perm_trans; [apply Permutation_map, P|].
      apply Permutation_sym, (stable_sort_perm (fun k : K => k) leK).
  Qed.
End SortConsistent.

Lemma In_stable_sort {A} (le : A -> A -> bool) l x : In x (stable_sort le l) <-> In x l.
Proof.
  split; apply Permutation_in; [|apply Permutation_sym]; apply (stable_sort_perm (fun a : A => a) le).
Qed.
