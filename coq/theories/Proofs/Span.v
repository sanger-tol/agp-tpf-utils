(* take_while (Model/NaturalKey.v), span (Model/AgpTpf.v) and span' (Model/Namer.v)
   are one function: the longest prefix whose characters satisfy p, and the rest. *)
From Tola Require Import Py.Base Model.NaturalKey Model.AgpTpf Model.Namer.

Definition stops (p : ascii -> bool) (x : str) : Prop :=
  match x with [] => True | c :: _ => p c = false end.

Lemma take_while_spec p x : forall a b, take_while p x = (a, b) ->
  x = a ++ b /\ forallb p a = true /\ stops p b.
Proof.
  induction x as [|c x IH]; cbn [take_while]; intros a b H.
  - injection H as <- <-. repeat split; reflexivity.
  - destruct (p c) eqn:Hc.
    + destruct (take_while p x) as [a' b']. injection H as <- <-.
      destruct (IH _ _ eq_refl) as (-> & Ha & Hb). cbn [forallb app].
      rewrite Hc, Ha. repeat split; exact Hb.
    + injection H as <- <-. repeat split; exact Hc.
Qed.

Lemma take_while_app p a b :
  forallb p a = true -> stops p b -> take_while p (a ++ b) = (a, b).
Proof.
  induction a as [|c a IH]; cbn [forallb app take_while]; intros Ha Hb.
  - destruct b as [|d b]; [reflexivity|]. cbn in *. rewrite Hb. reflexivity.
  - apply andb_true_iff in Ha as [Hc Ha]. rewrite Hc, (IH Ha Hb). reflexivity.
Qed.

Lemma span_take_while p x : span p x = take_while p x.
Proof. reflexivity. Qed.

Lemma span'_take_while p x : span' p x = take_while p x.
Proof. reflexivity. Qed.
