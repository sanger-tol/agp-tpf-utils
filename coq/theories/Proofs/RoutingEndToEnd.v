(* C09, END TO END through [remap]: every stored overlap result that still has
   rows is written -- whole, as one contiguous block of rows -- into a scaffold
   of the output assembly whose key is the result's tag if it has one
   (Haplotig / Contaminant / FalseDuplicate), else its haplotype if it has one,
   else the primary assembly (key None); the tag and haplotype of a result are
   what [label_scaffold] computed from the tags of its bait and of its Pretext
   scaffold when it was looked up, and nothing later changes them; a left-over
   scaffold (sequence absent from the map) goes by the same rule. *)
From Tola Require Import Py.Base Model.Fragment Model.Scaffold
  Model.OverlapResult Model.Namer Model.Remap
  Proofs.BaseLemmas Proofs.RemapHead Proofs.JoinGaps Proofs.Routing Proofs.GapProvenance
  Proofs.PipelineInv.
From Tola Require Proofs.RemapTail Proofs.NaturalKey Proofs.OverlapResult.
From Coq Require Import Lia ZifyBool Permutation.

(* the assembly key a piece with this tag / haplotype is filed under *)
Definition dest_key (tag hap : option str) : option str :=
  if truthy tag then tag else if truthy hap then hap else None.

Definition routing_end_to_end_statement : Prop :=
  forall g prefix bpt input pretext o rs,
  remap_to_input repaired g prefix bpt input pretext = Ok rs ->
  remap repaired g prefix bpt input pretext = Ok o ->
  (* results *)
  (forall id r, In id (b_added (rs_b rs)) -> get_ovr (b_store (rs_b rs)) id = Ok r -> o_rows r <> [] ->
     exists a sc pre suf,
       In a (out_asms o) /\ In sc (oa_scaffolds a)
       /\ sc_rows sc = pre ++ to_scaffold_rows r ++ suf
       /\ sc_tag sc = o_tag r /\ sc_hap sc = o_hap r
       /\ oa_key a = dest_key (o_tag r) (o_hap r))
  (* left-over scaffolds *)
  /\ (forall l, In l (rs_left rs) -> sc_rows l <> [] ->
     exists a sc pre suf,
       In a (out_asms o) /\ In sc (oa_scaffolds a)
       /\ sc_rows sc = pre ++ sc_rows l ++ suf
       /\ sc_tag sc = sc_tag l /\ sc_hap sc = sc_hap l
       /\ oa_key a = dest_key (sc_tag l) (sc_hap l))
  (* and conversely every scaffold of an output assembly carries that assembly's key *)
  /\ (forall a sc, In a (out_asms o) -> In sc (oa_scaffolds a) ->
        oa_key a = dest_key (sc_tag sc) (sc_hap sc)).

(* the tail of [remap]: fusing, naming, grouping, sorting *)

(* naming changes nothing but the name *)
Definition unnamed (sc : scaffold) : scaffold := with_name sc [].

Lemma unnamed_eq a b : unnamed a = unnamed b -> a = with_name b (sc_name a).
Proof.
  destruct a, b. unfold unnamed, with_name. cbn. intros E. injection E as -> -> -> -> -> ->. reflexivity.
Qed.

Lemma dest_key_asm_key sc : fst (asm_key_of sc) = dest_key (sc_tag sc) (sc_hap sc).
Proof.
  unfold asm_key_of, dest_key.
  destruct (truthy (sc_tag sc)) eqn:Et; [reflexivity|].
  destruct (truthy (sc_hap sc)) eqn:Eh; reflexivity.
Qed.

Lemma name_group_unnamed prefix n fused g :
  map unnamed (name_group prefix n fused g) = map unnamed fused.
Proof.
  unfold name_group.
  apply (RemapTail.fold_left_inv (fun fs => map unnamed fs = map unnamed fused)); [|reflexivity].
  intros fs [h hap_set] Hfs.
  apply (RemapTail.fold_left_inv (fun fs => map unnamed fs = map unnamed fused)); [|exact Hfs].
  clear fs Hfs. intros fs [[orig idxs] this_chr] Hfs.
  apply (RemapTail.fold_left_inv (fun fs => map unnamed fs = map unnamed fused)); [|exact Hfs].
  clear fs Hfs. intros fs i Hfs.
  destruct (nth_error fs i) as [sc|] eqn:N; [|exact Hfs].
  rewrite (RemapTail.map_set_nth_same unnamed fs i sc _ N); [exact Hfs | reflexivity].
Qed.

Lemma name_chromosomes_unnamed prefix fused items r :
  name_chromosomes prefix fused items = Ok r -> map unnamed r = map unnamed fused.
Proof.
  unfold name_chromosomes. destruct (dedup str_eqb (map fst items)) as [|h0 haps].
  - intros H. injection H as <-. reflexivity.
  - destruct (foldM _ items _) as [st|]; cbn [bind]; [|discriminate].
    destruct (existsb _ _); [discriminate|]. intros H. injection H as <-.
    apply (RemapTail.fold_left_inv
             (fun s : list scaffold * Z => map unnamed (fst s) = map unnamed fused)); [|reflexivity].
    intros [fs n] g Hfs. cbn [fst] in *. rewrite name_group_unnamed. exact Hfs.
Qed.

(* grouping: every scaffold of a group carries the group's key *)
Definition keyed (acc : list (option str * (bool * list scaffold))) : Prop :=
  forall e sc, In e acc -> In sc (snd (snd e)) -> fst (asm_key_of sc) = fst e.

Lemma group_step_keyed acc sc : keyed acc -> keyed (RemapTail.group_step acc sc).
Proof.
  intros Hk. unfold RemapTail.group_step.
  destruct (asm_key_of sc) as [k curated] eqn:Ek.
  destruct (aget (opt_eqb str_eqb) acc k) as [[cur scs]|] eqn:G.
  - destruct (aget_split (opt_eqb str_eqb) JoinGaps.opt_str_eqb_eq acc k (cur, scs) G)
      as (l1 & l2 & E1 & _ & E2).
    rewrite E2. intros e x He Hx. apply in_app_or in He. destruct He as [He | [<- | He]].
    + apply (Hk e x); [rewrite E1; apply in_or_app; left; exact He | exact Hx].
    + cbn [fst snd] in *. apply in_app_or in Hx. destruct Hx as [Hx | [<- | []]].
      * apply (Hk (k, (cur, scs)) x); [rewrite E1; apply in_or_app; right; left; reflexivity | exact Hx].
      * rewrite Ek. reflexivity.
    + apply (Hk e x); [rewrite E1; apply in_or_app; right; right; exact He | exact Hx].
  - intros e x He Hx. apply in_app_or in He. destruct He as [He | [<- | []]].
    + apply (Hk e x); assumption.
    + cbn [fst snd] in *. destruct Hx as [<- | []]. rewrite Ek. reflexivity.
Qed.

Lemma group_fold_keyed : forall l acc, keyed acc -> keyed (fold_left RemapTail.group_step l acc).
Proof.
  induction l as [|sc l IH]; intros acc Hk; cbn [fold_left]; [exact Hk|].
  apply IH, group_step_keyed, Hk.
Qed.

Lemma keyed_nil : keyed [].
Proof. intros e sc []. Qed.

(* the tail, opened: the fused scaffolds, the same scaffolds after naming
   (only names differ), the output assemblies are a partition of these and
   every scaffold sits in the assembly of its own key *)
Lemma assemblies_out : forall c g prefix input rs o,
  assemblies_with_scaffolds_fused c g prefix input rs = Ok o ->
  exists fused0 fused, fuse_all c g rs = Ok fused0 /\ map unnamed fused = map unnamed fused0
    /\ Permutation (flat_map oa_scaffolds (out_asms o)) fused
    /\ (forall a sc, In a (out_asms o) -> In sc (oa_scaffolds a) -> oa_key a = fst (asm_key_of sc)).
Proof.
  intros c g prefix input rs o H. unfold assemblies_with_scaffolds_fused in H.
  destruct (fuse_all c g rs) as [fused0|]; cbn [bind] in H; [|discriminate].
  match type of H with context [name_chromosomes prefix ?f1 ?it] =>
    destruct (name_chromosomes prefix f1 it) as [fused|] eqn:NC end;
    cbn [bind] in H; [|discriminate].
  match type of H with context [mapM ?f ?a0] =>
    destruct (mapM f a0) as [asms|] eqn:MM end; cbn [bind] in H; [|discriminate].
  destruct (make_stats _ _ _) as [[[breaks joins] per]|]; cbn [bind] in H; [|discriminate].
  injection H as <-. cbn [out_asms].
  exists fused0, fused. split; [reflexivity|]. split; [|split].
  - rewrite (name_chromosomes_unnamed _ _ _ _ NC). rewrite map_map.
    apply map_ext. intros sc. destruct (_ && _); reflexivity.
  - eapply perm_trans; [apply (RemapTail.sort_groups_perm _ _ MM)|].
    apply (RemapTail.group_fold_perm fused []).
  - intros a sc Ha Hsc.
    destruct (mapM_In _ _ _ MM a Ha) as ([k [curated scs]] & Hin & Hf).
    destruct (Proofs.NaturalKey.smart_sort_total sc_rank sc_name scs) as (srt & Es & Ps).
    rewrite Es in Hf. cbn [bind] in Hf. injection Hf as <-. cbn [oa_key oa_scaffolds] in *.
    symmetry.
    refine (group_fold_keyed fused [] keyed_nil (k, (curated, scs)) sc Hin _).
    cbn [snd]. eapply Permutation_in; [exact Ps | exact Hsc].
Qed.

(* a fused scaffold is in the output, renamed at most, in the assembly of
   its key *)
Lemma fused_in_output_named c g prefix input rs o fused0 b :
  assemblies_with_scaffolds_fused c g prefix input rs = Ok o ->
  fuse_all c g rs = Ok fused0 -> In b fused0 ->
  exists a sc, In a (out_asms o) /\ In sc (oa_scaffolds a) /\ sc = with_name b (sc_name sc)
    /\ oa_key a = dest_key (sc_tag b) (sc_hap b).
Proof.
  intros H F Hb.
  destruct (assemblies_out _ _ _ _ _ _ H) as (fused0' & fused & F' & Eu & Pm & Hkey).
  rewrite F in F'. injection F' as <-.
  assert (Hu : In (unnamed b) (map unnamed fused)) by (rewrite Eu; apply in_map; exact Hb).
  apply in_map_iff in Hu. destruct Hu as (sc & Esc & Hsc). apply unnamed_eq in Esc.
  assert (Hout : In sc (flat_map oa_scaffolds (out_asms o))).
  { eapply Permutation_in; [apply Permutation_sym; exact Pm | exact Hsc]. }
  apply in_flat_map in Hout. destruct Hout as (a & Ha & Hin).
  exists a, sc. split; [exact Ha|]. split; [exact Hin|]. split; [exact Esc|].
  rewrite (Hkey a sc Ha Hin), dest_key_asm_key, Esc. reflexivity.
Qed.

Lemma mapM_ok_In_l {A B} (f : A -> res B) : forall l l',
  mapM f l = Ok l' -> forall x y, In x l -> f x = Ok y -> In y l'.
Proof.
  induction l as [|x0 l IH]; intros l' H x y Hx Hf; [destruct Hx|].
  cbn [mapM] in H. bind_inv H y0 Hy0. bind_inv H ys Hys. injection H as <-.
  destruct Hx as [-> | Hx].
  - left. congruence.
  - right. eapply IH; eassumption.
Qed.

(* a piece with rows lands, as one block, in a fused scaffold of its tag and
   haplotype *)
Lemma piece_in_fused g rs fused0 sc isr :
  fuse_all repaired g rs = Ok fused0 ->
  (isr = true /\ (exists id r, In id (b_added (rs_b rs)) /\ get_ovr (b_store (rs_b rs)) id = Ok r
                               /\ sc = fst (piece_of_result r))
   \/ isr = false /\ In sc (rs_left rs)) ->
  sc_rows sc <> [] ->
  exists b pre suf, In b fused0 /\ sc_rows b = pre ++ sc_rows sc ++ suf
    /\ sc_tag b = sc_tag sc /\ sc_hap b = sc_hap sc /\ sc_name b = sc_name sc.
Proof.
  intros F Hp NE. unfold fuse_all in F. bind_inv F results Hres. injection F as <-.
  assert (Hin : In (sc, isr) (map piece_of_result results ++ map (fun sc => (sc, false)) (rs_left rs))).
  { apply in_or_app. destruct Hp as [(-> & id & r & Hid & Hget & ->) | (-> & Hl)].
    - left. apply in_map_iff. exists r. split; [reflexivity|].
      eapply mapM_ok_In_l; eassumption.
    - right. apply in_map_iff. exists sc. split; [reflexivity | exact Hl]. }
  destruct (routing_gen g _ [] sc isr fused_ok_nil Hin NE) as (b & pre & suf & Hget & R & T & Hh & Hn).
  exists b, pre, suf. split; [|auto].
  apply (aget_In fuse_key_eqb JoinGaps.fuse_key_eqb_eq) in Hget.
  apply in_map_iff. exists (key_of_piece sc, b). split; [reflexivity | exact Hget].
Qed.

Theorem routing_end_to_end : routing_end_to_end_statement.
Proof.
  intros g prefix bpt input pretext o rs Hrs H. unfold remap in H. rewrite Hrs in H. cbn [bind] in H.
  destruct (assemblies_out _ _ _ _ _ _ H) as (fused0 & fused & F & _ & _ & Hkey).
  split; [|split].
  - intros id r Hid Hget NE.
    destruct (piece_in_fused g rs fused0 (fst (piece_of_result r)) true F) as (b & pre & suf & Hb & R & T & Hh & _).
    { left. split; [reflexivity|]. exists id, r. auto. }
    { cbn [piece_of_result fst sc_rows]. intros E. apply NE. apply to_scaffold_rows_nil_iff. exact E. }
    cbn [piece_of_result fst sc_rows sc_tag sc_hap] in R, T, Hh.
    destruct (fused_in_output_named _ _ _ _ _ _ _ b H F Hb) as (a & sc & Ha & Hsc & Ec & Ek).
    pose proof (f_equal sc_rows Ec) as Er. pose proof (f_equal sc_tag Ec) as Et.
    pose proof (f_equal sc_hap Ec) as Eh. cbn [with_name sc_rows sc_tag sc_hap] in Er, Et, Eh.
    exists a, sc, pre, suf. rewrite Er, Et, Eh, Ek, T, Hh. repeat split; auto.
  - intros l Hl NE.
    destruct (piece_in_fused g rs fused0 l false F) as (b & pre & suf & Hb & R & T & Hh & _).
    { right. split; [reflexivity | exact Hl]. }
    { exact NE. }
    destruct (fused_in_output_named _ _ _ _ _ _ _ b H F Hb) as (a & sc & Ha & Hsc & Ec & Ek).
    pose proof (f_equal sc_rows Ec) as Er. pose proof (f_equal sc_tag Ec) as Et.
    pose proof (f_equal sc_hap Ec) as Eh. cbn [with_name sc_rows sc_tag sc_hap] in Er, Et, Eh.
    exists a, sc, pre, suf. rewrite Er, Et, Eh, Ek, T, Hh. repeat split; auto.
  - intros a sc Ha Hsc. rewrite (Hkey a sc Ha Hsc). apply dest_key_asm_key.
Qed.

(* where the tag and the haplotype of a stored result come from: they are what
   [label_scaffold] returned when the result was created, for the tags of its
   bait and the tag set of the Pretext scaffold the bait is a row of; the
   resolver, the cuts and the two renamings change neither (nor the bait) *)

(* the fields no later stage writes *)
Definition label_of (r : ovr) := (o_bait r, o_tag r, o_hap r, o_orig r, o_orig_tags r).
Definition same_label : ovr -> ovr -> Prop := kept label_of.

Lemma label_span r st en rows : label_of (set_span_rows r st en rows) = label_of r.
Proof. reflexivity. Qed.

Lemma label_name r n : label_of (set_name r n) = label_of r.
Proof. reflexivity. Qed.

Lemma Forall2_nth_r {A B} (R : A -> B -> Prop) : forall l l', Forall2 R l l' ->
  forall n y, nth_error l' n = Some y -> exists x, nth_error l n = Some x /\ R x y.
Proof.
  induction 1 as [|x y l l' Hxy _ IH]; intros [|n] z H; try discriminate H; cbn [nth_error] in *.
  - injection H as <-. exists x. split; [reflexivity | exact Hxy].
  - exact (IH n z H).
Qed.

(* a property of the n-th result that looks at those fields only *)
Section LabelInv.
  Variable Q : nat -> ovr -> Prop.
  Hypothesis Q_ext : forall n r r', same_label r r' -> Q n r -> Q n r'.

  Definition QS (st : list ovr) : Prop := forall n r, nth_error st n = Some r -> Q n r.

  Lemma QS_nil : QS [].
  Proof. intros [|n] r H; discriminate H. Qed.

  Lemma QS_snoc st r : QS st -> Q (length st) r -> QS (st ++ [r]).
  Proof.
    intros Hs Hr n x H. destruct (Nat.lt_ge_cases n (length st)) as [Hlt | Hge].
    - rewrite nth_error_app1 in H by exact Hlt. apply Hs. exact H.
    - rewrite nth_error_app2 in H by exact Hge.
      destruct (n - length st)%nat as [|m] eqn:E; cbn [nth_error] in H.
      + injection H as <-. replace n with (length st) by lia. exact Hr.
      + destruct m; discriminate H.
  Qed.

  Lemma QS_pointwise st st' : Forall2 same_label st st' -> QS st -> QS st'.
  Proof.
    intros F Hs n r' H. destruct (Forall2_nth_r _ _ _ F n r' H) as (r & Hn & Hr).
    exact (Q_ext n r r' Hr (Hs n r Hn)).
  Qed.
End LabelInv.

(* result number [n] was labelled by this call of label_scaffold *)
Definition labelled (pretext : list (str * list row)) (n : nat) (r : ovr) : Prop :=
  exists pname prows nm nm' lab,
    In (pname, prows) pretext /\ In (o_bait r) (frags_of prows)
    /\ o_orig r = Some pname /\ o_orig_tags r = fragment_tags prows
    /\ label_scaffold nm (Z.of_nat n) (f_tags (o_bait r)) (fragment_tags prows) = Ok (nm', lab)
    /\ o_tag r = lb_tag lab /\ o_hap r = lb_hap lab.

Lemma labelled_ext pretext n r r' : same_label r r' -> labelled pretext n r -> labelled pretext n r'.
Proof.
  intros E (pname & prows & nm & nm' & lab & H1 & H2 & H3 & H4 & H5 & H6 & H7).
  injection E as E1 E2 E3 E4 E5.
  exists pname, prows, nm, nm', lab. rewrite E1, E2, E3, E4, E5. repeat split; assumption.
Qed.

Section Lookups.
  Variable inp : list (str * list row).
  Variable err : Z.
  Variable pretext : list (str * list row).
  Let QSl := QS (labelled pretext).

  Lemma one_bait_QS pname prows b bait b' :
    In (pname, prows) pretext -> In bait (frags_of prows) ->
    QSl (b_store b) -> one_bait inp err (fragment_tags prows) pname b bait = Ok b' -> QSl (b_store b').
  Proof.
    intros Hp Hb Hs H.
    destruct (one_bait_spec _ _ _ _ _ _ _ H)
      as (rows & _ & [[_ ->] | (fo & nm & lab & r1 & _ & Hl & Hr1 & Hst & _)]); [exact Hs|].
    rewrite Hst. apply QS_snoc; [exact Hs|].
    apply (labelled_ext _ _ _ _ (kept_trim_large label_of label_span _ _ _ Hr1)).
    exists pname, prows, (b_namer b), nm, lab.
    cbn [set_labels ovr_of_found o_bait o_tag o_hap o_orig o_orig_tags].
    repeat split; try assumption.
  Qed.

  Lemma one_pretext_scaffold_QS b psc b' :
    In psc pretext ->
    QSl (b_store b) -> one_pretext_scaffold inp err b psc = Ok b' -> QSl (b_store b').
  Proof.
    intros Hp Hs H. destruct psc as [pname prows].
    destruct (one_pretext_spec _ _ _ _ _ _ H) as (nm & b1 & st & _ & Hb1 & Hst & ->).
    cbn [with_store b_store].
    apply (QS_pointwise _ (labelled_ext pretext) _ _ (rename_results_kept label_of label_name _ _ _ Hst)).
    eapply (foldM_inv_In _ (fun b => QSl (b_store b))); [| |exact Hb1]; [|exact Hs].
    intros s0 a s1 Ha Hs0 Hf. eapply one_bait_QS; eassumption.
  Qed.
End Lookups.

Theorem labels_from_label_scaffold : forall c g prefix bpt input pretext rs,
  remap_to_input c g prefix bpt input pretext = Ok rs ->
  forall n r, nth_error (b_store (rs_b rs)) n = Some r -> labelled pretext n r.
Proof.
  intros c g prefix bpt input pretext rs H.
  destruct (remap_to_input_stages _ _ _ _ _ _ _ H)
    as (_ & b1 & b2 & b3 & st & nl & Hb1 & Hb2 & Hb3 & Hst & _ & ->).
  cbn [rs_b with_namer with_store b_store].
  apply (QS_pointwise _ (labelled_ext pretext) _ _
           (proj1 (store_kept label_of label_span label_name c _ _ b1 b2 b3 _ st Hb2 Hb3 Hst))).
  eapply (foldM_inv_In _ (fun b => QS (labelled pretext) (b_store b))); [| |exact Hb1].
  - intros s0 a s1 Ha Hs0 Hf. eapply one_pretext_scaffold_QS; eassumption.
  - apply QS_nil.
Qed.

(* for a result addressed by its id: a namer state, the tag set of the Pretext
   scaffold of its bait, and the label computed from them *)
Theorem routing_from_tags : forall c g prefix bpt input pretext rs,
  remap_to_input c g prefix bpt input pretext = Ok rs ->
  forall id r, 0 <= id -> get_ovr (b_store (rs_b rs)) id = Ok r ->
  exists pname prows nm nm' lab,
    In (pname, prows) pretext /\ In (o_bait r) (frags_of prows)
    /\ o_orig r = Some pname /\ o_orig_tags r = fragment_tags prows
    /\ label_scaffold nm id (f_tags (o_bait r)) (fragment_tags prows) = Ok (nm', lab)
    /\ o_tag r = lb_tag lab /\ o_hap r = lb_hap lab.
Proof.
  intros c g prefix bpt input pretext rs H id r Hid Hget.
  pose proof (labels_from_label_scaffold _ _ _ _ _ _ _ H _ _ (get_ovr_nth _ _ _ Hget)) as L.
  unfold labelled in L. rewrite Z2Nat.id in L by exact Hid. exact L.
Qed.

Lemma mem_str_not_In x l : mem_str x l = false <-> ~ In x l.
Proof.
  rewrite <- mem_str_in. destruct (mem_str x l); split; congruence.
Qed.

(* the tag of every stored result is [expected_tag] of the tags of its bait
   (and of Target mode and the scaffold's tag set), whatever its id *)
Theorem result_tag_spec : forall c g prefix bpt input pretext rs,
  remap_to_input c g prefix bpt input pretext = Ok rs ->
  forall id r, get_ovr (b_store (rs_b rs)) id = Ok r ->
  exists pname prows target,
    In (pname, prows) pretext /\ In (o_bait r) (frags_of prows)
    /\ o_tag r = expected_tag target (f_tags (o_bait r)) (fragment_tags prows).
Proof.
  intros c g prefix bpt input pretext rs H id r Hget.
  destruct (labels_from_label_scaffold _ _ _ _ _ _ _ H _ _ (get_ovr_nth _ _ _ Hget))
    as (pname & prows & nm & nm' & lab & H1 & H2 & _ & _ & H5 & H6 & _).
  apply label_tag_spec in H5. destruct H5 as (Et & _).
  exists pname, prows, (nm_target nm). rewrite H6, Et. auto.
Qed.

Corollary result_tag_by_bait_tags : forall c g prefix bpt input pretext rs,
  remap_to_input c g prefix bpt input pretext = Ok rs ->
  forall id r, get_ovr (b_store (rs_b rs)) id = Ok r ->
  let ft := f_tags (o_bait r) in
  (In (s "FalseDuplicate") ft -> o_tag r = Some (s "FalseDuplicate"))
  /\ (~ In (s "FalseDuplicate") ft -> In (s "Haplotig") ft -> o_tag r = Some (s "Haplotig"))
  /\ (~ In (s "FalseDuplicate") ft -> ~ In (s "Haplotig") ft -> In (s "Contaminant") ft ->
        o_tag r = Some (s "Contaminant"))
  /\ (~ In (s "FalseDuplicate") ft -> ~ In (s "Haplotig") ft -> ~ In (s "Contaminant") ft ->
        o_tag r = None \/ o_tag r = Some (s "Contaminant")).
Proof.
  intros c g prefix bpt input pretext rs H id r Hget ft.
  destruct (result_tag_spec _ _ _ _ _ _ _ H id r Hget) as (pname & prows & target & _ & _ & Et).
  fold ft in Et. rewrite Et. unfold expected_tag.
  split; [|split; [|split]].
  - intros Hfd. apply mem_str_in in Hfd. rewrite Hfd. reflexivity.
  - intros Nfd Hh. apply mem_str_not_In in Nfd. apply mem_str_in in Hh. rewrite Nfd, Hh. reflexivity.
  - intros Nfd Nh Hc. apply mem_str_not_In in Nfd. apply mem_str_not_In in Nh. apply mem_str_in in Hc.
    rewrite Nfd, Nh, Hc. reflexivity.
  - intros Nfd Nh Nc. apply mem_str_not_In in Nfd. apply mem_str_not_In in Nh.
    rewrite Nfd, Nh.
    destruct (mem_str (s "Contaminant") ft || (target && negb (mem_str (s "Target") (fragment_tags prows))));
      [right | left]; reflexivity.
Qed.

(* both halves together: from the tags of the bait in the Pretext file to the
   output assembly *)
Lemma dest_key_tagged t h : t <> [] -> dest_key (Some t) h = Some t.
Proof. intros N. unfold dest_key. destruct t; [contradiction | reflexivity]. Qed.

Theorem routing_by_bait_tags : forall g prefix bpt input pretext o rs id r,
  remap_to_input repaired g prefix bpt input pretext = Ok rs ->
  remap repaired g prefix bpt input pretext = Ok o ->
  In id (b_added (rs_b rs)) -> get_ovr (b_store (rs_b rs)) id = Ok r -> o_rows r <> [] ->
  let ft := f_tags (o_bait r) in
  exists a sc pre suf,
    In a (out_asms o) /\ In sc (oa_scaffolds a)
    /\ sc_rows sc = pre ++ to_scaffold_rows r ++ suf
    /\ sc_tag sc = o_tag r /\ sc_hap sc = o_hap r
    /\ (In (s "FalseDuplicate") ft -> oa_key a = Some (s "FalseDuplicate"))
    /\ (~ In (s "FalseDuplicate") ft -> In (s "Haplotig") ft -> oa_key a = Some (s "Haplotig"))
    /\ (~ In (s "FalseDuplicate") ft -> ~ In (s "Haplotig") ft -> In (s "Contaminant") ft ->
          oa_key a = Some (s "Contaminant"))
    /\ (~ In (s "FalseDuplicate") ft -> ~ In (s "Haplotig") ft -> ~ In (s "Contaminant") ft ->
          oa_key a = Some (s "Contaminant")                    (* Target mode *)
          \/ oa_key a = (if truthy (o_hap r) then o_hap r else None)).
Proof.
  intros g prefix bpt input pretext o rs id r Hrs Ho Hid Hget NE ft.
  destruct (routing_end_to_end g prefix bpt input pretext o rs Hrs Ho) as (C1 & _ & _).
  destruct (C1 id r Hid Hget NE) as (a & sc & pre & suf & Ha & Hsc & R & T & Hh & K).
  destruct (result_tag_by_bait_tags _ _ _ _ _ _ _ Hrs id r Hget) as (T1 & T2 & T3 & T4). fold ft in T1, T2, T3, T4.
  exists a, sc, pre, suf. repeat (split; [assumption|]).
  split; [|split; [|split]].
  - intros H1. rewrite K, (T1 H1). apply dest_key_tagged. discriminate.
  - intros H1 H2. rewrite K, (T2 H1 H2). apply dest_key_tagged. discriminate.
  - intros H1 H2 H3. rewrite K, (T3 H1 H2 H3). apply dest_key_tagged. discriminate.
  - intros H1 H2 H3. rewrite K. destruct (T4 H1 H2 H3) as [E | E]; rewrite E.
    + right. reflexivity.
    + left. apply dest_key_tagged. discriminate.
Qed.

(* the cleanest instance: a bait tagged Haplotig (and not FalseDuplicate, which
   takes precedence) has its rows, as one block, in a scaffold tagged Haplotig
   of the assembly keyed "Haplotig" *)
Corollary haplotig_bait_routed : forall g prefix bpt input pretext o rs id r,
  remap_to_input repaired g prefix bpt input pretext = Ok rs ->
  remap repaired g prefix bpt input pretext = Ok o ->
  In id (b_added (rs_b rs)) -> get_ovr (b_store (rs_b rs)) id = Ok r -> o_rows r <> [] ->
  In (s "Haplotig") (f_tags (o_bait r)) -> ~ In (s "FalseDuplicate") (f_tags (o_bait r)) ->
  exists a sc pre suf,
    In a (out_asms o) /\ oa_key a = Some (s "Haplotig") /\ In sc (oa_scaffolds a)
    /\ sc_tag sc = Some (s "Haplotig")
    /\ sc_rows sc = pre ++ to_scaffold_rows r ++ suf.
Proof.
  intros g prefix bpt input pretext o rs id r Hrs Ho Hid Hget NE Hh Nfd.
  destruct (routing_by_bait_tags g prefix bpt input pretext o rs id r Hrs Ho Hid Hget NE)
    as (a & sc & pre & suf & Ha & Hsc & R & T & _ & _ & K & _).
  destruct (result_tag_by_bait_tags _ _ _ _ _ _ _ Hrs id r Hget) as (_ & T2 & _).
  exists a, sc, pre, suf. repeat split; auto. rewrite T. apply T2; assumption.
Qed.

Corollary contaminant_bait_routed : forall g prefix bpt input pretext o rs id r,
  remap_to_input repaired g prefix bpt input pretext = Ok rs ->
  remap repaired g prefix bpt input pretext = Ok o ->
  In id (b_added (rs_b rs)) -> get_ovr (b_store (rs_b rs)) id = Ok r -> o_rows r <> [] ->
  In (s "Contaminant") (f_tags (o_bait r)) ->
  ~ In (s "FalseDuplicate") (f_tags (o_bait r)) -> ~ In (s "Haplotig") (f_tags (o_bait r)) ->
  exists a sc pre suf,
    In a (out_asms o) /\ oa_key a = Some (s "Contaminant") /\ In sc (oa_scaffolds a)
    /\ sc_tag sc = Some (s "Contaminant")
    /\ sc_rows sc = pre ++ to_scaffold_rows r ++ suf.
Proof.
  intros g prefix bpt input pretext o rs id r Hrs Ho Hid Hget NE Hc Nfd Nh.
  destruct (routing_by_bait_tags g prefix bpt input pretext o rs id r Hrs Ho Hid Hget NE)
    as (a & sc & pre & suf & Ha & Hsc & R & T & _ & _ & _ & K & _).
  destruct (result_tag_by_bait_tags _ _ _ _ _ _ _ Hrs id r Hget) as (_ & _ & T3 & _).
  exists a, sc, pre, suf. repeat split; auto. rewrite T. apply T3; assumption.
Qed.

(* whatever the configuration, a scaffold sits in the assembly of its key *)
Lemma out_key c g prefix bpt input pretext o a sc :
  remap c g prefix bpt input pretext = Ok o -> In a (out_asms o) -> In sc (oa_scaffolds a) ->
  oa_key a = dest_key (sc_tag sc) (sc_hap sc).
Proof.
  intros Ho Ha Hsc. destruct (RemapTail.remap_stages _ _ _ _ _ _ _ Ho) as (rs & _ & H).
  destruct (assemblies_out _ _ _ _ _ _ H) as (_ & _ & _ & _ & _ & Hkey).
  rewrite (Hkey a sc Ha Hsc). apply dest_key_asm_key.
Qed.

(* the other direction: what sits in the assembly keyed [t] is tagged [t], or is
   untagged and of haplotype [t].  (The second alternative cannot be dropped,
   not even for t = "Haplotig": tags and haplotypes share one key space, see
   [key_space_shared] below.) *)
Corollary assembly_members : forall g prefix bpt input pretext o a sc t,
  remap repaired g prefix bpt input pretext = Ok o ->
  In a (out_asms o) -> In sc (oa_scaffolds a) -> oa_key a = Some t ->
  sc_tag sc = Some t \/ (truthy (sc_tag sc) = false /\ sc_hap sc = Some t).
Proof.
  intros g prefix bpt input pretext o a sc t Ho Ha Hsc Hk.
  rewrite (out_key _ _ _ _ _ _ _ a sc Ho Ha Hsc) in Hk. unfold dest_key in Hk.
  destruct (truthy (sc_tag sc)) eqn:Et; [left; exact Hk|].
  destruct (truthy (sc_hap sc)) eqn:Eh; [right; split; [reflexivity | exact Hk] | discriminate].
Qed.

Corollary primary_assembly_members : forall g prefix bpt input pretext o a sc,
  remap repaired g prefix bpt input pretext = Ok o ->
  In a (out_asms o) -> In sc (oa_scaffolds a) -> oa_key a = None ->
  truthy (sc_tag sc) = false /\ truthy (sc_hap sc) = false.
Proof.
  intros g prefix bpt input pretext o a sc Ho Ha Hsc Hk.
  rewrite (out_key _ _ _ _ _ _ _ a sc Ho Ha Hsc) in Hk. unfold dest_key in Hk.
  destruct (truthy (sc_tag sc)) eqn:Et.
  { destruct (sc_tag sc) as [[|c0 t0]|]; discriminate. }
  destruct (truthy (sc_hap sc)) eqn:Eh; [|split; reflexivity].
  destruct (sc_hap sc) as [[|c0 t0]|]; discriminate.
Qed.

(* Two haplotypes.  Scaffold_1 (Hap1, painted) has three baits on scaffold_1:
   ctgA, then ctgB whose bait is tagged Contaminant, then ctgC.  Scaffold_2
   (Hap2, painted) has ctgD and then ctgE (minus strand bait) tagged Haplotig.
   scaffold_3 is not in the map.  Outcome: A and C are fused around the hole
   left by B into the one Hap1 chromosome; B goes to the assembly
   "Contaminant"; D is the Hap2 chromosome; E, reversed, is H_1 in the
   assembly "Haplotig"; scaffold_3 is left over and goes to the primary
   assembly (key None). *)
Definition re_gap : gap := mkGap 200 (s "scaffold").
Definition re_g100 : row := RG (mkGap 100 (s "scaffold")).
Definition re_input : list (str * list row) :=
  [ (s "scaffold_1", [ex_F "ctgA" 1 1000 1 []; re_g100; ex_F "ctgB" 1 1000 1 []; re_g100;
                      ex_F "ctgC" 1 1000 1 []]);
    (s "scaffold_2", [ex_F "ctgD" 1 1000 1 []; re_g100; ex_F "ctgE" 1 1000 (-1) []]);
    (s "scaffold_3", [ex_F "ctgF" 1 500 1 []]) ].
Definition re_ptx : list (str * list row) :=
  [ (s "Scaffold_1", [ex_F "scaffold_1" 1 1000 1 [s "Hap1"; s "Painted"]; RG re_gap;
                      ex_F "scaffold_1" 1101 2100 1 [s "Hap1"; s "Painted"; s "Contaminant"]; RG re_gap;
                      ex_F "scaffold_1" 2201 3200 1 [s "Hap1"; s "Painted"]]);
    (s "Scaffold_2", [ex_F "scaffold_2" 1 1000 1 [s "Hap2"; s "Painted"]; RG re_gap;
                      ex_F "scaffold_2" 1101 2100 (-1) [s "Hap2"; s "Painted"; s "Haplotig"]]) ].

Definition re_show_result (r : ovr) :=
  (f_tags (o_bait r), o_tag r, o_hap r, map ex_erase (to_scaffold_rows r)).
Definition re_show_sc (sc : scaffold) :=
  (sc_name sc, sc_tag sc, sc_hap sc, map ex_erase (sc_rows sc)).

(* the witnesses of the run below stay unevaluated: only what is said of them
   is computed, and that a run succeeds is the boolean [is_ok] *)
Definition ok_or {A} (d : A) (x : res A) : A := match x with Ok v => v | Err _ => d end.

Lemma ok_or_eq {A} (d : A) x : is_ok x = true -> x = Ok (ok_or d x).
Proof. destruct x; [reflexivity | discriminate]. Qed.

Example routing_run :
  exists rs o,
    remap_to_input repaired re_gap (s "SUPER_") (10, 1) re_input re_ptx = Ok rs
    /\ remap repaired re_gap (s "SUPER_") (10, 1) re_input re_ptx = Ok o
    /\ b_added (rs_b rs) = [0; 1; 2; 3; 4]
    /\ map re_show_result (b_store (rs_b rs))
       = [ ([s "Hap1"; s "Painted"], None, Some (s "Hap1"), [ex_F "ctgA" 1 1000 1 []]);
           ([s "Hap1"; s "Painted"; s "Contaminant"], Some (s "Contaminant"), Some (s "Hap1"),
            [ex_F "ctgB" 1 1000 1 []]);
           ([s "Hap1"; s "Painted"], None, Some (s "Hap1"), [ex_F "ctgC" 1 1000 1 []]);
           ([s "Hap2"; s "Painted"], None, Some (s "Hap2"), [ex_F "ctgD" 1 1000 1 []]);
           ([s "Hap2"; s "Painted"; s "Haplotig"], Some (s "Haplotig"), Some (s "Hap2"),
            [ex_F "ctgE" 1 1000 1 []]) ]
    /\ map re_show_sc (rs_left rs) = [ (s "scaffold_3", None, None, [ex_F "ctgF" 1 500 1 []]) ]
    /\ map (fun a => (oa_key a, oa_curated a, map re_show_sc (oa_scaffolds a))) (out_asms o)
       = [ (Some (s "Hap1"), true,
            [ (s "SUPER_1", None, Some (s "Hap1"),
               [ex_F "ctgA" 1 1000 1 []; RG re_gap; ex_F "ctgC" 1 1000 1 []]) ]);
           (Some (s "Contaminant"), false,
            [ (s "Scaffold_1", Some (s "Contaminant"), Some (s "Hap1"), [ex_F "ctgB" 1 1000 1 []]) ]);
           (Some (s "Hap2"), true,
            [ (s "SUPER_1", None, Some (s "Hap2"), [ex_F "ctgD" 1 1000 1 []]) ]);
           (Some (s "Haplotig"), false,
            [ (s "H_1", Some (s "Haplotig"), Some (s "Hap2"), [ex_F "ctgE" 1 1000 1 []]) ]);
           (None, true,
            [ (s "scaffold_3", None, None, [ex_F "ctgF" 1 500 1 []]) ]) ].
Proof.
  exists (ok_or (mkRun (mkB [] [] [] [] (new_namer []) 0) [])
                (remap_to_input repaired re_gap (s "SUPER_") (10, 1) re_input re_ptx)),
         (ok_or (mkOut [] 0 0 0 []) (remap repaired re_gap (s "SUPER_") (10, 1) re_input re_ptx)).
  split; [apply ok_or_eq; vm_compute; reflexivity|]. split; [apply ok_or_eq; vm_compute; reflexivity|].
  split; [vm_compute; reflexivity|]. split; [vm_compute; reflexivity|]. split; vm_compute; reflexivity.
Qed.

(* what the theorems say of this run *)
Example routing_run_applies :
  exists rs o,
    remap_to_input repaired re_gap (s "SUPER_") (10, 1) re_input re_ptx = Ok rs
    /\ remap repaired re_gap (s "SUPER_") (10, 1) re_input re_ptx = Ok o
    (* every result: a block of a scaffold of the assembly [dest_key tag hap] *)
    /\ (forall id r, In id [0; 1; 2; 3; 4] -> get_ovr (b_store (rs_b rs)) id = Ok r ->
          exists a sc pre suf,
            In a (out_asms o) /\ In sc (oa_scaffolds a)
            /\ sc_rows sc = pre ++ to_scaffold_rows r ++ suf
            /\ sc_tag sc = o_tag r /\ sc_hap sc = o_hap r
            /\ oa_key a = dest_key (o_tag r) (o_hap r))
    (* result 1, the Contaminant bait in the middle of painted Scaffold_1 *)
    /\ (exists r a sc pre suf,
          get_ovr (b_store (rs_b rs)) 1 = Ok r
          /\ In a (out_asms o) /\ oa_key a = Some (s "Contaminant") /\ In sc (oa_scaffolds a)
          /\ sc_tag sc = Some (s "Contaminant") /\ sc_rows sc = pre ++ to_scaffold_rows r ++ suf)
    (* result 4, the Haplotig bait *)
    /\ (exists r a sc pre suf,
          get_ovr (b_store (rs_b rs)) 4 = Ok r
          /\ In a (out_asms o) /\ oa_key a = Some (s "Haplotig") /\ In sc (oa_scaffolds a)
          /\ sc_tag sc = Some (s "Haplotig") /\ sc_rows sc = pre ++ to_scaffold_rows r ++ suf)
    (* result 0, untagged, haplotype Hap1 *)
    /\ (exists r a sc pre suf,
          get_ovr (b_store (rs_b rs)) 0 = Ok r
          /\ In a (out_asms o) /\ oa_key a = Some (s "Hap1") /\ In sc (oa_scaffolds a)
          /\ sc_rows sc = pre ++ to_scaffold_rows r ++ suf)
    (* the left-over scaffold *)
    /\ (forall l, In l (rs_left rs) ->
          exists a sc pre suf,
            In a (out_asms o) /\ In sc (oa_scaffolds a) /\ sc_rows sc = pre ++ sc_rows l ++ suf
            /\ oa_key a = None).
Proof.
  destruct routing_run as (rs & o & Hrs & Ho & Hadd & Hst & Hleft & _).
  exists rs, o. split; [exact Hrs|]. split; [exact Ho|].
  destruct (routing_end_to_end _ _ _ _ _ _ _ Hrs Ho) as (C1 & C2 & _).
  assert (Hrows : forall id r, In id [0; 1; 2; 3; 4] -> get_ovr (b_store (rs_b rs)) id = Ok r -> o_rows r <> []).
  { intros id r _ Hget E. apply to_scaffold_rows_nil_iff in E.
    assert (Hall : Forall (fun x => snd x <> []) (map re_show_result (b_store (rs_b rs)))).
    { rewrite Hst. repeat constructor; cbn [snd]; discriminate. }
    rewrite Forall_forall in Hall. apply (Hall (re_show_result r)).
    - apply in_map. eapply get_ovr_In. exact Hget.
    - unfold re_show_result. cbn [snd]. rewrite E. reflexivity. }
  assert (Hget : forall id x, nth_error (map re_show_result (b_store (rs_b rs))) (Z.to_nat id) = Some x ->
            exists r, get_ovr (b_store (rs_b rs)) id = Ok r /\ re_show_result r = x).
  { intros id x Hx. rewrite nth_error_map in Hx. unfold get_ovr.
    destruct (nth_error (b_store (rs_b rs)) (Z.to_nat id)) as [r|]; [|discriminate].
    injection Hx as <-. exists r. split; reflexivity. }
  split; [|split; [|split; [|split]]].
  - intros id r Hid Hg. apply (C1 id r); [rewrite Hadd; exact Hid | exact Hg | eapply Hrows; eassumption].
  - destruct (Hget 1 _ ltac:(rewrite Hst; reflexivity)) as (r & Hg & Er).
    unfold re_show_result in Er. injection Er as Eft _ _ _.
    destruct (contaminant_bait_routed _ _ _ _ _ _ _ 1 r Hrs Ho) as (a & sc & pre & suf & K);
      [rewrite Hadd; cbn; auto | exact Hg | apply (Hrows 1); [cbn; auto | exact Hg] | | | |].
    + rewrite Eft. cbn. auto.
    + rewrite Eft. apply mem_str_not_In. reflexivity.
    + rewrite Eft. apply mem_str_not_In. reflexivity.
    + exists r, a, sc, pre, suf. split; [exact Hg | exact K].
  - destruct (Hget 4 _ ltac:(rewrite Hst; reflexivity)) as (r & Hg & Er).
    unfold re_show_result in Er. injection Er as Eft _ _ _.
    destruct (haplotig_bait_routed _ _ _ _ _ _ _ 4 r Hrs Ho) as (a & sc & pre & suf & K);
      [rewrite Hadd; cbn; auto 10 | exact Hg | apply (Hrows 4); [cbn; auto 10 | exact Hg] | | |].
    + rewrite Eft. cbn. auto.
    + rewrite Eft. apply mem_str_not_In. reflexivity.
    + exists r, a, sc, pre, suf. split; [exact Hg | exact K].
  - destruct (Hget 0 _ ltac:(rewrite Hst; reflexivity)) as (r & Hg & Er).
    unfold re_show_result in Er. injection Er as _ Et Eh _.
    destruct (C1 0 r) as (a & sc & pre & suf & Ha & Hsc & R & _ & _ & K);
      [rewrite Hadd; cbn; auto | exact Hg | apply (Hrows 0); [cbn; auto | exact Hg] |].
    rewrite Et, Eh in K.
    exists r, a, sc, pre, suf. repeat split; auto.
  - intros l Hl.
    assert (Hin : In (re_show_sc l) (map re_show_sc (rs_left rs))) by (apply in_map; exact Hl).
    rewrite Hleft in Hin. destruct Hin as [Hin | []].
    unfold re_show_sc in Hin. injection Hin as _ Et Eh Er.
    destruct (C2 l Hl) as (a & sc & pre & suf & Ha & Hsc & R & _ & _ & K).
    { intros E. rewrite E in Er. discriminate Er. }
    rewrite <- Et, <- Eh in K. exists a, sc, pre, suf. repeat split; auto.
Qed.

(* Tags and haplotypes share the key space of the assemblies dict: an input
   contig named Haplotig_ctg_1 that the map does not mention is left over
   with haplotype "Haplotig" (taken from the name prefix), no tag, and is filed
   under the key "Haplotig" -- as a curated assembly, and counted as a haplotig
   removal.  Hence the second alternative of [assembly_members]. *)
Example key_space_shared :
  exists o a sc,
    remap repaired re_gap (s "SUPER_") (10, 1) [(s "scaffold_1", [ex_F "Haplotig_ctg_1" 1 1000 1 []])] [] = Ok o
    /\ out_asms o = [a] /\ oa_key a = Some (s "Haplotig") /\ oa_curated a = true
    /\ oa_scaffolds a = [sc] /\ sc_tag sc = None /\ sc_hap sc = Some (s "Haplotig")
    /\ haplotig_removals o = 1.
Proof.
  eexists. eexists. eexists. split; [vm_compute; reflexivity|]. vm_compute. repeat split.
Qed.
Print Assumptions routing_end_to_end.
Print Assumptions labels_from_label_scaffold.
Print Assumptions routing_from_tags.
Print Assumptions result_tag_spec.
Print Assumptions result_tag_by_bait_tags.
Print Assumptions routing_by_bait_tags.
Print Assumptions haplotig_bait_routed.
Print Assumptions contaminant_bait_routed.
Print Assumptions assembly_members.
Print Assumptions primary_assembly_members.
Print Assumptions routing_run.
Print Assumptions routing_run_applies.
Print Assumptions key_space_shared.
