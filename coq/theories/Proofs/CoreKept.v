(* C02, main clause, for EVERY map with pairwise disjoint baits (in particular
   every PretextView edit script): whenever remap_to_input completes, the
   result stored for a bait still holds every contig base of the source
   scaffold that lies at least 3 error lengths inside the bait, and a bait
   without a stored result has no such base.  Together with the C18 pipeline
   invariant (Proofs.PipelineInv.pipeline_Inv: the rows of a result are a
   contiguous run of the source scaffold, terminal fragments possibly
   shortened, covering exactly o_start .. o_end) this is: "the bases of each
   piece lying more than 3 x (1 + floor(bp per texel)) from the piece's ends
   form one contiguous collinear run in a single output piece, with the
   input's internal gaps". *)
From Tola Require Import Py.Base Model.Fragment Model.Scaffold Model.Lookup
  Model.OverlapResult Model.OvrSpec Model.Remap Model.RemapSpec
  Proofs.BaseLemmas Proofs.Rows Proofs.Lookup Proofs.OverlapResult Proofs.RemapHead Proofs.PipelineInv
  Proofs.CoreKeptGood Proofs.CoreKeptResolver Proofs.CoreKeptLookup Proofs.CoreKeptHeld.
From Tola Require Proofs.RemapTail.
From Coq Require Import Lia ZifyBool.

(* scaffold coordinate x is a base of a fragment (contig) row of src *)
Definition contig_base (src : list row) (x : Z) : Prop :=
  exists k, frag_at src k /\ span_start src k <= x <= span_end src k.

Definition in_core (err : Z) (bait : frag) (x : Z) : Prop :=
  f_start bait + 3 * err <= x <= f_end bait - 3 * err.

(* the result r (looked up in src) still covers every core contig base of its bait *)
Definition core_kept (err : Z) (src : list row) (r : ovr) : Prop :=
  forall x, in_core err (o_bait r) x -> contig_base src x ->
    o_rows r <> [] /\ o_start r <= x <= o_end r.

Definition baits_of (pretext : list (str * list row)) : list frag :=
  flat_map (fun p => frags_of (snd p)) pretext.

Definition disjoint_baits (bs : list frag) : Prop :=
  ForallOrdPairs (fun a b => f_name a = f_name b -> f_end a < f_start b \/ f_end b < f_start a) bs.

Definition core_kept_statement : Prop :=
  forall c g prefix bpt input pretext rs,
  0 <= fst bpt -> 0 < snd bpt ->
  Forall (fun isc => pos_rows (snd isc)) input ->
  NoDup (map key_of (in_frags input)) ->
  Forall (fun b => 1 <= f_start b <= f_end b) (baits_of pretext) ->
  disjoint_baits (baits_of pretext) ->
  remap_to_input c g prefix bpt input pretext = Ok rs ->
  let err := error_length bpt in
  (* every stored result keeps its core *)
  (forall r, In r (b_store (rs_b rs)) ->
     exists src, In (f_name (o_bait r), src) (number_input input 0)
                 /\ In (o_bait r) (baits_of pretext)
                 /\ OvrSpec.Inv src r /\ core_kept err src r)
  (* and a bait without a stored result has no core contig base *)
  /\ (forall bait src, In bait (baits_of pretext) ->
        In (f_name bait, src) (number_input input 0) ->
        (forall r, In r (b_store (rs_b rs)) -> o_bait r <> bait) ->
        forall x, in_core err bait x -> ~ contig_base src x).

Lemma contig_base_split src x : contig_base src x ->
  exists a f c, src = a ++ RF f :: c /\ rows_len a + 1 <= x <= rows_len a + f_len f.
Proof.
  intros (k & (f & Hf) & Hx).
  destruct (nth_error_split src k Hf) as (a & c & E & L). subst k.
  destruct (split_span _ _ _ _ E) as (_ & Hs & He). cbn [row_len] in He.
  exists a, f, c. split; [exact E | lia].
Qed.

Lemma all_FNC_no_core err bait src x :
  all_at (FNC err bait) 0 src -> in_core err bait x -> ~ contig_base src x.
Proof.
  intros Ha Hc Hb. destruct (contig_base_split _ _ Hb) as (a & f & c & E & Hx).
  pose proof (all_at_split _ _ _ _ _ _ Ha E) as Hn. cbn [FNC row_len] in Hn.
  unfold nocore in Hn. unfold in_core in Hc. lia.
Qed.

Lemma all_at_bounds : forall l pos base, pos_rows l -> base <= pos ->
  all_at (fun lo hi _ => base + 1 <= lo /\ hi <= pos + rows_len l) pos l.
Proof.
  induction l as [|x t IH]; intros pos base Hp Hb; cbn [all_at]; [exact I|].
  inversion Hp as [|? ? Hx Ht]; subst. pose proof (pos_rows_len_nonneg t Ht) as Hn.
  rewrite rows_len_cons. split; [lia|].
  eapply all_at_impl; [|apply (IH (pos + row_len x) base Ht); lia].
  cbv beta. intros lo hi _ [H1 H2]. split; lia.
Qed.

Lemma GoodU_core_kept err src r : pos_rows src -> GoodU err src r -> core_kept err src r.
Proof.
  intros Hp [[E Ha] | (pre & post & Hsrc & Hh & Hl & Hs & He & Hpre & Hrows & Hpost)] x Hc Hb.
  - exfalso. eapply all_FNC_no_core; eassumption.
  - split; [destruct Hh as (f & t & ->); discriminate|].
    destruct (contig_base_split _ _ Hb) as (a & f & c & E & Hx).
    set (R := fun lo hi (y : row) => FNC err (o_bait r) lo hi y \/ (o_start r <= lo /\ hi <= o_end r)).
    assert (HR : all_at R 0 src).
    { rewrite Hsrc. apply all_at_app. split; [|apply all_at_app; split].
      - eapply all_at_impl; [|exact Hpre]. intros lo hi y H. left. exact H.
      - rewrite Hsrc in Hp. apply pos_rows_app in Hp. destruct Hp as [_ Hp].
        apply pos_rows_app in Hp. destruct Hp as [Hp _].
        eapply all_at_impl; [|apply (all_at_bounds (o_rows r) (0 + rows_len pre) (0 + rows_len pre) Hp); lia].
        cbv beta. intros lo hi y [H1 H2]. right. lia.
      - eapply all_at_impl; [|eapply all_at_pos; [exact Hpost | lia]]. intros lo hi y H. left. exact H. }
    pose proof (all_at_split _ _ _ _ _ _ HR E) as Hn. unfold R in Hn. cbn [FNC row_len] in Hn.
    unfold nocore in Hn. unfold in_core in Hc. lia.
Qed.

Lemma trim_fragment_inv2 r t ks ke new r' :
  trim_fragment r t ks ke = Ok (new, r') ->
  exists r0 rl, first_row r = Ok r0 /\ last_row r = Ok rl
    /\ row_is r0 t || row_is rl t = true
    /\ f_id new < 0
    /\ o_rows r' = (if row_is rl t then set_last (o_rows r) (RF new)
                    else set_nth (o_rows r) 0 (RF new))
    /\ o_bait r' = o_bait r
    /\ o_start r' = (if row_is r0 t && (start_overhang r >? 0) && negb ks
                     then o_start r + start_overhang r else o_start r)
    /\ o_end r' = (if row_is rl t && (o_end r - f_end (o_bait r) >? 0) && negb ke
                   then o_end r - (o_end r - f_end (o_bait r)) else o_end r).
Proof.
  intros H. destruct (trim_fragment_spec _ _ _ _ _ _ H)
    as (x0 & xl & ds & de & H0 & Hl & Hor & -> & -> & _ & _ & -> & _ & ->).
  exists x0, xl. split; [exact H0|]. split; [exact Hl|]. split; [exact Hor|].
  cbn [f_id set_span_rows o_rows o_bait o_start o_end]. unfold end_overhang.
  split; [destruct (row_is xl t); lia|]. split; [reflexivity|]. split; [reflexivity|].
  split; [destruct (row_is x0 t && (start_overhang r >? 0) && negb ks); lia|].
  destruct (row_is xl t && (o_end r - f_end (o_bait r) >? 0) && negb ke); lia.
Qed.

Lemma trim_fragment_facts r t ks ke new r' :
  trim_fragment r t ks ke = Ok (new, r') ->
  o_bait r' = o_bait r /\ o_rows r' <> []
  /\ (o_start r' = o_start r \/ (o_start r < f_start (o_bait r) /\ o_start r' = f_start (o_bait r)))
  /\ (o_end r' = o_end r \/ (f_end (o_bait r) < o_end r /\ o_end r' = f_end (o_bait r))).
Proof.
  intros H.
  destruct (trim_fragment_inv2 _ _ _ _ _ _ H) as (r0 & rl & Hr0 & Hrl & _ & _ & Erows & B & Es & Ee).
  apply py_nth_0_inv in Hr0. destruct Hr0 as (t0 & E0).
  apply py_nth_m1_inv in Hrl. destruct Hrl as (tl & El).
  split; [exact B|]. split; [|split].
  - rewrite Erows. destruct (row_is rl t).
    + rewrite El, set_last_snoc. destruct tl; discriminate.
    + rewrite E0. cbn [set_nth]. discriminate.
  - rewrite Es. unfold start_overhang.
    destruct (row_is r0 t && (f_start (o_bait r) - o_start r >? 0) && negb ks) eqn:Em;
      [right; split; lia | left; reflexivity].
  - rewrite Ee. destruct (row_is rl t && (o_end r - f_end (o_bait r) >? 0) && negb ke) eqn:Em;
      [right; split; lia | left; reflexivity].
Qed.

Section Cuts.
  Variable inp : list (str * list row).
  Variable err : Z.
  Variable all : list frag.
  Hypothesis Hids : NoDup (map f_id (in_frags inp)).
  Hypothesis Hidpos : Forall (fun f => 0 <= f_id f) (in_frags inp).
  Hypothesis Hposr : forall name src, In (name, src) inp -> pos_rows src.
  Hypothesis Herr : 1 <= err.

  (* the invariant of a stored result from the cuts on *)
  Definition PC (r : ovr) : Prop :=
    In (o_bait r) all /\ exists src, In (f_name (o_bait r), src) inp
                                     /\ SInv src r /\ core_kept err src r.

  Lemma RGd_PC r : RGd inp err all r -> PC r.
  Proof.
    intros (Ha & src & Hsrc & HG). split; [exact Ha|]. exists src. split; [exact Hsrc|].
    pose proof (Hposr _ _ Hsrc) as Hp. split; [eapply GoodU_SInv | eapply GoodU_core_kept]; eassumption.
  Qed.

  Lemma SInv_tf name src r t ks ke new r' :
    In (name, src) inp -> In t (in_frags inp) -> SInv src r ->
    trim_fragment r t ks ke = Ok (new, r') -> SInv src r'.
  Proof.
    intros Hsrc Ht (HI & HP) H. split.
    - destruct (trim_fragment_is_op inp Hids Hidpos _ _ _ _ _ _ _ _ Hsrc Ht HP H) as (last & Hop).
      eapply apply_op_pres; [eapply Hposr; exact Hsrc
                            | eapply (src_ids_distinct inp Hids Hidpos); exact Hsrc
                            | exact HI | exact Hop].
    - destruct (trim_fragment_inv _ _ _ _ _ _ H) as (r0 & rl & Hr0 & Hrl & _ & Hneg & Erows).
      intros f Hf. rewrite Erows in Hf. destruct (row_is rl t).
      + unfold last_row in Hrl. apply py_nth_m1_inv in Hrl. destruct Hrl as (tl & El).
        rewrite El, set_last_snoc in Hf. apply in_app_or in Hf. destruct Hf as [Hf | [Hf | []]].
        * apply HP. rewrite El. apply in_or_app. left. exact Hf.
        * injection Hf as <-. right. exact Hneg.
      + apply set_nth_In in Hf. destruct Hf as [Hf | Hf]; [|apply HP; exact Hf].
        injection Hf as ->. right. exact Hneg.
  Qed.

  Lemma PC_tf r t ks ke new r' :
    In t (in_frags inp) -> PC r -> trim_fragment r t ks ke = Ok (new, r') -> PC r'.
  Proof.
    intros Ht (Ha & src & Hsrc & HS & HC) H.
    destruct (trim_fragment_facts _ _ _ _ _ _ H) as (B & Hne & Hst & Hen).
    split; [rewrite B; exact Ha|]. exists src. rewrite B. split; [exact Hsrc|].
    split; [eapply SInv_tf; eassumption|].
    intros x Hc Hb. rewrite B in Hc. destruct (HC x Hc Hb) as [_ Hx].
    split; [exact Hne|]. unfold in_core in Hc. lia.
  Qed.

  Lemma cut_fragments_baits c b k b' :
    cut_fragments c b k = Ok b' -> map o_bait (b_store b') = map o_bait (b_store b).
  Proof. apply (cut_fragments_kept o_bait). intros. reflexivity. Qed.

  Lemma cut_remaining_baits c b b' :
    cut_remaining_overhangs c b = Ok b' -> map o_bait (b_store b') = map o_bait (b_store b).
  Proof. intros H. apply (cut_remaining_kept o_bait (fun _ _ _ _ => eq_refl) c b b' H). Qed.

  (* from the end of the resolver to the final store *)
  Lemma later_stages_PC c b2 b3 ids st :
    RemapHead.Inv inp b2 -> SG inp err all (b_store b2) ->
    cut_remaining_overhangs c b2 = Ok b3 -> rename_results (b_store b3) ids = Ok st ->
    (forall r, In r st -> PC r) /\ map o_bait st = map o_bait (b_store b2).
  Proof.
    intros HI2 HS2 H3 H4.
    assert (P3 : PS PC (b_store b3)).
    { eapply (cut_remaining_PS inp PC); [|apply Inv_found_in; exact HI2 | | exact H3].
      - intros r t ks ke new r'. apply PC_tf.
      - intros r Hr. apply RGd_PC. apply HS2. exact Hr. }
    split.
    - intros x Hx. destruct (rename_results_In _ _ _ H4 x Hx) as (r & Hr & [-> | (n & ->)]);
        exact (P3 r Hr).
    - rewrite (rename_results_baits _ _ _ H4). exact (cut_remaining_baits _ _ _ H3).
  Qed.
End Cuts.

Theorem core_kept_end_to_end : core_kept_statement.
Proof.
  intros c g prefix bpt input pretext rs Hb1 Hb2 Hpos Hkeys0 Hvalid Hdisj H err.
  destruct (number_input_spec input 0) as (Ek & Hidpos & Hids).
  pose proof (number_input_pos input 0 Hpos) as Hposr.
  set (inp := number_input input 0) in *.
  set (all := baits_of pretext) in *.
  assert (Hkeys : NoDup (map key_of (in_frags inp))) by (rewrite Ek; exact Hkeys0).
  assert (Herr : 1 <= err).
  { unfold err, error_length. pose proof (Z.div_pos (fst bpt) (snd bpt) Hb1 Hb2). lia. }
  destruct (remap_to_input_stages _ _ _ _ _ _ _ H)
    as (Edup & b1 & b2 & b3 & st & nl & Hbb1 & Hbb2 & Hbb3 & Hst & _ & ->).
  fold inp err in Hbb1, Hbb2. cbn [rs_b with_namer with_store b_store].
  assert (Hnames : NoDup (map fst inp)).
  { unfold inp. rewrite RemapTail.number_input_names. apply RemapTail.has_dup_names_false. exact Edup. }
  assert (L1 : LInv inp err all (fun _ => True) b1 []).
  { eapply (pretext_LInv inp err all Hkeys Hnames Hposr Herr Hvalid (fun _ => True) (fun _ _ _ _ _ _ _ => I)
             (fun _ _ _ _ _ _ _ _ _ => I) (fun _ _ _ _ _ _ _ _ _ => I) (fun _ _ _ _ _ _ => I));
      [|exact Hbb1].
    apply LInv_init. exact Hdisj. }
  destruct L1 as (HI1 & HS1 & HF1 & _ & Hnd1 & Hc1 & _). rewrite app_nil_r in HF1.
  (* the resolver, with nothing to carry beside the good results *)
  destruct (discard_loop_plus inp err all Hids Hkeys Hposr Herr Hvalid (fun _ => True)
              (fun _ _ _ _ _ _ _ _ _ => I) (fun _ _ _ _ _ _ _ _ _ => I) _ _ _
              HI1 HS1 HF1 Hnd1 (fun _ _ => I) (pretext_Held _ _ _ (mkB [] [] [] [] _ 0) _ (Held_nil _) Hbb1) Hbb2)
    as (HI2 & HS2 & HB2 & _).
  destruct (later_stages_PC inp err all Hids Hidpos Hposr Herr c b2 b3 _ st HI2 HS2 Hbb3 Hst)
    as (P4 & HB).
  split.
  - intros r Hr. destruct (P4 r Hr) as (Ha & src & Hsrc & (HI & _) & HC).
    exists src. split; [exact Hsrc|]. split; [exact Ha|]. split; [apply Inv'_Inv; exact HI | exact HC].
  - intros bait src Hb Hsrc Hno x Hc.
    destruct (Hc1 bait Hb) as [[] | [Hs | Hn]].
    + exfalso. unfold SB in Hs. rewrite <- HB2, <- HB in Hs.
      apply in_map_iff in Hs. destruct Hs as (r & E & Hr). exact (Hno r Hr E).
    + eapply all_FNC_no_core; [apply Hn; exact Hsrc | exact Hc].
Qed.

Print Assumptions core_kept_end_to_end.
