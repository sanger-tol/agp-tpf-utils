(* C07, second sentence, for maps PretextView can produce: on maps that TILE
   every scaffold they show (the hypotheses of Proofs.Completion), the third
   case of NeighbourGaps cannot arise -- a contig that no bait found lies
   entirely beyond the last texel of its scaffold (or its scaffold is absent
   from the map), so the never-found contigs of a scaffold form a suffix of its
   rows and no found contig lies between two of them.  Hence: every gap run
   between two consecutive fragments of an output scaffold is exactly the join
   gap or exactly the input gap run that separated the same two contigs. *)
From Tola Require Import Py.Base Py.Sort Model.Fragment Model.Scaffold Model.Lookup
  Model.OverlapResult Model.OvrSpec Model.Namer Model.Remap Model.RemapSpec
  Proofs.BaseLemmas Proofs.Rows Proofs.Lookup Proofs.OverlapResult Proofs.RemapHead Proofs.PipelineInv
  Proofs.GapProvenance Proofs.NeighbourGaps Proofs.CoreKeptGood Proofs.CoreKeptResolver Proofs.CoreKeptLookup
  Proofs.CoreKept Proofs.Completion Proofs.NullMapAndCuts.
From Tola Require Proofs.RemapTail.
From Coq Require Import Lia ZifyBool Permutation.

Definition pretextview_gaps_statement : Prop :=
  forall g prefix n d input pretext o,
  0 < d -> d <= n ->
  Forall input_ok input ->
  NoDup (map fst input) ->
  NoDup (map key_of (in_frags input)) ->
  Forall (fun f => f_tags f = []) (in_frags input) ->
  Forall (fun p => exists b t, snd p = RF b :: t) pretext ->
  Forall (fun b => f_tags b = [] /\ (f_strand b = 1 \/ f_strand b = -1)
                   /\ In (f_name b) (map fst input)) (baits_of pretext) ->
  Forall (scaffold_tiled n d (baits_of pretext)) input ->
  remap repaired g prefix (n, d) input pretext = Ok o ->
  forall a sc x mid y,
    In a (out_asms o) -> In sc (oa_scaffolds a) -> consecutive (sc_rows sc) x mid y ->
    mid = [g] \/ same_neighbours input x mid y.

(* One lookup followed by trim_large_overhangs.  A contig row that meets the
   bait is a row of the looked-up result; trim_large_overhangs keeps it unless
   it is the first row sticking out on the left by more than the error length
   with a bait overlap below the error length, or the last row sticking out on
   the right likewise.  Conversely every row of a looked-up result starts at or
   before the end of the bait. *)
Lemma lookup_split rows bs be fo a f c :
  lookup_spec rows bs be (Some fo) -> rows = a ++ RF f :: c ->
  rows_len a + 1 <= be -> bs <= rows_len a + f_len f ->
  exists a1 a2 c1 c2, a = a1 ++ a2 /\ c = c1 ++ c2 /\ fo_rows fo = a2 ++ RF f :: c1
    /\ fo_start fo = 1 + rows_len a1 /\ fo_end fo = rows_len a + f_len f + rows_len c1.
Proof.
  intros H E Hlo Hhi. cbn [lookup_spec] in H.
  destruct H as (i & j & L & R & S1 & E1 & Fi & Fj & Mi & Mj & U).
  destruct (split_span rows a (RF f) c E) as (Hn & Hs & He). cbn [row_len] in He.
  assert (Hk : (i <= length a <= j)%nat).
  { apply U; [exists f; exact Hn|]. unfold meets. rewrite Hs, He. lia. }
  exists (firstn i a), (skipn i a), (firstn (j - length a) c), (skipn (j - length a) c).
  split; [symmetry; apply firstn_skipn|]. split; [symmetry; apply firstn_skipn|].
  split; [|split].
  - rewrite R, E, skipn_app.
    replace (i - length a)%nat with 0%nat by lia. cbn [skipn].
    rewrite firstn_app, skipn_length.
    rewrite (firstn_all2 (skipn i a)) by (rewrite skipn_length; lia).
    replace (S j - i - (length a - i))%nat with (S (j - length a)) by lia.
    cbn [firstn]. reflexivity.
  - rewrite S1. unfold span_start. rewrite E, firstn_app.
    replace (i - length a)%nat with 0%nat by lia. cbn [firstn]. rewrite app_nil_r. reflexivity.
  - rewrite E1. unfold span_end. rewrite E, firstn_app.
    rewrite (firstn_all2 a) by lia.
    replace (S j - length a)%nat with (S (j - length a)) by lia.
    cbn [firstn]. rewrite rows_len_app, rows_len_cons. cbn [row_len]. lia.
Qed.

Lemma nth_error_firstn_lt {A} : forall (l : list A) n m, (m < n)%nat ->
  nth_error (firstn n l) m = nth_error l m.
Proof.
  induction l as [|x l IH]; intros n m H; [rewrite firstn_nil; reflexivity|].
  destruct n as [|n]; [lia|]. destruct m as [|m]; cbn [firstn nth_error]; [reflexivity|].
  apply IH. lia.
Qed.

Lemma lookup_row_pos rows bs be fo f :
  pos_rows rows -> lookup_spec rows bs be (Some fo) -> In (RF f) (fo_rows fo) ->
  exists a c, rows = a ++ RF f :: c /\ rows_len a + 1 <= be.
Proof.
  intros Hp H Hin.
  destruct (lookup_spec_convex rows bs be fo Hp H) as (i & j & L & R & M).
  rewrite R in Hin. apply In_nth_error in Hin. destruct Hin as (m & Hm).
  assert (Hlt : (m < S j - i)%nat).
  { assert (X : (m < length (firstn (S j - i) (skipn i rows)))%nat) by (apply nth_error_Some; congruence).
    rewrite firstn_length in X. lia. }
  rewrite nth_error_firstn_lt in Hm by exact Hlt.
  rewrite nth_error_skipn' in Hm.
  destruct (nth_error_split rows (i + m) Hm) as (a & c & E & La).
  exists a, c. split; [exact E|].
  destruct (split_span rows a (RF f) c E) as (_ & Hs & _).
  destruct (M (i + m)%nat ltac:(lia)) as [M1 _]. rewrite <- La, Hs in M1. lia.
Qed.

Lemma gaps_prefix f c : forall gaps X a,
  all_gaps gaps -> gaps ++ X = a ++ RF f :: c ->
  exists a', a = gaps ++ a' /\ X = a' ++ RF f :: c.
Proof.
  induction gaps as [|x gaps IH]; intros X a Hg E; cbn [app] in E.
  - exists a. split; [reflexivity | exact E].
  - inversion Hg as [|? ? Hx Hg']; subst.
    destruct a as [|y a]; cbn [app] in E.
    + injection E as -> _. discriminate Hx.
    + injection E as -> E. destruct (IH _ _ Hg' E) as (a' & -> & ->).
      exists a'. split; reflexivity.
Qed.

Lemma trim_keeps err r0 r1 a2 f c1 lo hi :
  o_rows r0 = a2 ++ RF f :: c1 ->
  o_start r0 = lo - rows_len a2 -> o_end r0 = hi + rows_len c1 -> hi = lo + f_len f - 1 ->
  lo <= f_end (o_bait r0) -> f_start (o_bait r0) <= hi ->
  ~ (f_start (o_bait r0) - lo > err
     /\ Z.min (f_end (o_bait r0)) hi - f_start (o_bait r0) + 1 < err) ->
  ~ (hi - f_end (o_bait r0) > err
     /\ f_end (o_bait r0) - Z.max (f_start (o_bait r0)) lo + 1 < err) ->
  trim_large_overhangs r0 err = Ok r1 -> In (RF f) (o_rows r1).
Proof.
  intros Er Hs He Hhi M1 M2 N1 N2 H.
  apply trim_large_cases' in H. destruct H as (r' & H1 & H2).
  assert (G : exists a2', o_rows r' = a2' ++ RF f :: c1 /\ o_end r' = o_end r0 /\ o_bait r' = o_bait r0).
  { destruct H1 as [-> | (Hd & Ho & ov & Hov & Hlt)]; [exists a2; repeat split; exact Er|].
    destruct (discard_start_rows _ _ Hd) as (d & gaps & Erows & Hg).
    destruct (discard_start_bait _ _ Hd) as [B Een].
    destruct a2 as [|x a2'].
    - exfalso. cbn [app] in Er. rewrite rows_len_nil in Hs.
      pose proof (start_row_bait_overlap_spec r0 (RF f) ov (first_row_cons _ _ _ Er) Hov) as Eov.
      cbn [row_len] in Eov. unfold start_overhang in Ho. apply N1.
      (* Z.min and Z.max in the other hypotheses make lia slow *)
      clear - Hs Hhi Eov Ho Hlt. lia.
    - rewrite Er in Erows. cbn [app] in Erows. injection Erows as _ Erows. symmetry in Erows.
      destruct (gaps_prefix f c1 gaps (o_rows r') a2' Hg Erows) as (a' & _ & Ea').
      exists a'. split; [exact Ea' | split; assumption]. }
  destruct G as (a2' & Er' & Een & B).
  destruct H2 as [-> | (Hd & Ho & ov & Hov & Hlt)].
  { rewrite Er'. apply in_or_app. right. left. reflexivity. }
  destruct (discard_end_rows _ _ Hd) as (d & gaps & Erows & Hg).
  destruct (list_snoc_cases c1) as [-> | (c1' & z & ->)].
  - exfalso. rewrite rows_len_nil in He.
    pose proof (end_row_bait_overlap_spec r' (RF f) ov (last_row_snoc _ _ _ Er') Hov) as Eov.
    cbn [row_len] in Eov. unfold end_overhang in Ho. rewrite B, Een in *. apply N2.
    clear - He Hhi Eov Ho Hlt. lia.
  - rewrite Er' in Erows.
    replace (a2' ++ RF f :: c1' ++ [z]) with ((a2' ++ RF f :: c1') ++ [z]) in Erows
      by (rewrite <- app_assoc; reflexivity).
    rewrite (app_assoc (o_rows r1)) in Erows.
    apply app_inj_tail in Erows. destruct Erows as [Erows _].
    assert (Hin : In (RF f) (o_rows r1 ++ gaps)).
    { rewrite <- Erows. apply in_or_app. right. left. reflexivity. }
    apply in_app_or in Hin. destruct Hin as [Hin | Hin]; [exact Hin|].
    exfalso. eapply not_gap_in; eassumption.
Qed.

Lemma tiling_cover : forall l from E x, tiling l from E -> from <= x <= E ->
  exists t, In t l /\ f_start t <= x <= f_end t.
Proof.
  induction l as [|a l IH]; intros from E x H Hx; [contradiction|].
  destruct l as [|b t].
  - destruct H as (H1 & H2 & H3). exists a. split; [left; reflexivity | lia].
  - destruct H as (H1 & H2 & H3).
    destruct (Z_le_gt_dec x (f_end a)) as [Hle | Hgt].
    + exists a. split; [left; reflexivity | lia].
    + destruct (IH (f_end a + 1) E x H3 ltac:(lia)) as (u & Hu & Hb).
      exists u. split; [right; exact Hu | exact Hb].
Qed.

Section Tiles.
  Variables n d : Z.
  Hypothesis Hd : 0 < d.
  Hypothesis Hdn : d <= n.
  Let err := error_length (n, d).

  Lemma err_facts : d * (err - 1) <= n /\ n < d * err /\ 1 <= err.
  Proof.
    destruct (error_length_spec n d ltac:(lia) Hd) as [Q1 Q2]. fold err in Q1, Q2.
    split; [exact Q1|]. split; [exact Q2|].
    unfold err, error_length. cbn [fst snd]. pose proof (Z.div_pos n d ltac:(lia) Hd). lia.
  Qed.

  (* Interval arithmetic on a tiling.  A contig span lo .. hi of a scaffold of
     length L that starts at or before the end E of the tiling meets a tile T for
     which neither dropping condition of [trim_keeps] holds: the tile that
     contains lo, or -- when the contig sticks out of that tile on the right by
     more than the error length while overlapping it in less -- the tile after
     it, which is at least two texels (hence one error length) long and which the
     contig enters from the left with a start overhang below the error length. *)
  Lemma tiles_find sorted E L lo hi :
    tiling sorted 1 E -> d * Z.abs (E - L) < n ->
    (length sorted = 1%nat \/ Forall (fun b => 2 * n <= d * f_len b) sorted) ->
    1 <= lo <= hi -> hi <= L -> lo <= E ->
    exists T, In T sorted /\ lo <= f_end T /\ f_start T <= hi /\ 1 <= f_start T <= f_end T
      /\ ~ (f_start T - lo > err /\ Z.min (f_end T) hi - f_start T + 1 < err)
      /\ ~ (hi - f_end T > err /\ f_end T - Z.max (f_start T) lo + 1 < err).
  Proof.
    intros HT HE Hbig Hlo Hhi HloE.
    destruct err_facts as (Q1 & Q2 & Q3).
    pose proof (Completion.tiling_bounds _ _ _ HT) as Hbd. rewrite Forall_forall in Hbd.
    destruct (tiling_cover sorted 1 E lo HT ltac:(lia)) as (T & HinT & HsT).
    pose proof (Hbd T HinT) as BT. cbn beta in BT.
    destruct (Z_lt_dec err (hi - f_end T)) as [Hout | Hin].
    2: { exists T. split; [exact HinT|]. repeat split; lia. }
    destruct (Z_lt_dec (f_end T - lo + 1) err) as [Hsmall | Hok].
    2: { exists T. split; [exact HinT|]. repeat split; lia. }
    (* the contig sticks out of T on the right: T is not the last tile *)
    assert (HLE : L - E < err).
    { assert (d * (L - E) < d * err) by lia.
      apply (Z.mul_lt_mono_pos_l d); [exact Hd | assumption]. }
    assert (HltE : f_end T < E) by lia.
    destruct (Completion.tiling_next _ _ _ _ HT HinT HltE) as (T' & HinT' & HsT').
    pose proof (Hbd T' HinT') as BT'. cbn beta in BT'.
    assert (Hlen : err <= f_len T').
    { destruct Hbig as [Hone | Hall].
      - exfalso. destruct sorted as [|x [|y t]]; try discriminate Hone.
        destruct HinT as [<- | []]. destruct HinT' as [<- | []]. lia.
      - rewrite Forall_forall in Hall. pose proof (Hall T' HinT') as Hb. cbn beta in Hb.
        assert (d * err <= d * f_len T') by lia.
        apply (Z.mul_le_mono_pos_l _ _ d Hd). assumption. }
    unfold f_len in Hlen. clear HE Q1 Q2 Hbig HT Hbd.
    exists T'. split; [exact HinT'|]. repeat split; lia.
  Qed.
End Tiles.

(* Which keys the found table holds.  After the lookups: the key of every
   contig that a bait's trimmed result keeps is in the table, and every key in
   the table is the key of a row of some bait's looked-up result; the overhang
   resolver and the cuts neither add nor remove keys; hence the table that
   add_missing_scaffolds_from_input consults has exactly the keys of the table
   after the lookups. *)
Lemma map_fst_aset {V} (d : list (fkey * V)) k v k' :
  In k' (map fst (aset key_eqb d k v)) <-> In k' (map fst d) \/ k' = k.
Proof.
  induction d as [|[k0 v0] d IH]; cbn [aset map fst In].
  - split; [intros [<- | []]; right; reflexivity | intros [[] | ->]; left; reflexivity].
  - destruct (key_eqb k k0) eqn:E; cbn [map fst In].
    + apply key_eqb_eq in E. subst k0.
      split; [intros H; left; exact H | intros [H | ->]; [exact H | left; reflexivity]].
    + rewrite IH. symmetry. apply or_assoc.
Qed.

Lemma store_found_one_keys id found multi g found' multi' k :
  store_found_one id (found, multi) g = (found', multi') ->
  In k (map fst found') <-> In k (map fst found) \/ k = key_of g.
Proof.
  intros H. unfold store_found_one in H.
  destruct (aget key_eqb found (key_of g)) as [[f0 ids]|] eqn:E.
  - injection H as <- _. apply map_fst_aset.
  - injection H as <- _. rewrite map_app, in_app_iff. cbn [map fst In].
    split; [intros [H | [<- | []]]; [left; exact H | right; reflexivity]
           | intros [H | ->]; [left; exact H | right; left; reflexivity]].
Qed.

Lemma store_found_fold_keys id k : forall gs found multi found' multi',
  fold_left (store_found_one id) gs (found, multi) = (found', multi') ->
  In k (map fst found') <-> In k (map fst found) \/ In k (map key_of gs).
Proof.
  induction gs as [|g gs IH]; intros found multi found' multi' H; cbn [fold_left] in H.
  - injection H as <- _. cbn [map In]. tauto.
  - destruct (store_found_one id (found, multi) g) as [f1 m1] eqn:E1.
    rewrite (IH _ _ _ _ H), (store_found_one_keys _ _ _ _ _ _ k E1). cbn [map In].
    split; [intros [[X | X] | X]; auto | intros [X | [X | X]]; auto].
Qed.

Lemma bookkeeping_keys : forall fixes found multi found' multi',
  foldM apply_fix_bookkeeping fixes (found, multi) = Ok (found', multi') ->
  forall k, In k (map fst found') <-> In k (map fst found).
Proof.
  induction fixes as [|p fixes IH]; intros found multi found' multi' H k; cbn [foldM] in H.
  - injection H as <- _. reflexivity.
  - bind_inv H acc Hacc. destruct acc as [found1 multi1].
    rewrite (IH _ _ _ _ H k). unfold apply_fix_bookkeeping in Hacc.
    destruct (existsb (key_eqb (key_of (pr_frag p))) multi); [|injection Hacc as <- _; reflexivity].
    destruct (aget key_eqb found (key_of (pr_frag p))) as [[f0 ids]|] eqn:Eg; [|discriminate].
    destruct (existsb (Z.eqb (pr_rid p)) ids); [|discriminate].
    injection Hacc as <- _. rewrite map_fst_aset.
    split; [intros [X | ->]; [exact X|] | intros X; left; exact X].
    apply (aget_In key_eqb key_eqb_eq) in Eg. apply (in_map fst) in Eg. exact Eg.
Qed.

Lemma discard_loop_keys err : forall fuel b b',
  discard_loop fuel err b = Ok b' ->
  forall k, In k (map fst (b_found b')) <-> In k (map fst (b_found b)).
Proof.
  induction fuel as [|fuel IH]; intros b b' H k; cbn [discard_loop] in H; [discriminate|].
  destruct (b_multi b) as [|k0 m0] eqn:Em; [injection H as <-; reflexivity|].
  bind_inv H pls Hpls. bind_inv H r Hr. destruct r as [st fixes].
  destruct fixes as [|p0 fx0] eqn:Efx.
  - injection H as <-. reflexivity.
  - rewrite <- Efx in H. bind_inv H fm Hfm. destruct fm as [found' multi'].
    rewrite (IH _ _ H k). cbn [b_found]. eapply bookkeeping_keys. exact Hfm.
Qed.

Section Lookups.
  Variable inp : list (str * list row).
  Variable err : Z.
  Variable all : list frag.

  (* whatever the labels, the trimmed result of the bait's lookup holds f *)
  Definition keeps (bait f : frag) : Prop :=
    exists rows fo, input_rows inp (f_name bait) = Ok rows
      /\ find_overlaps rows (f_start bait) (f_end bait) = Ok (Some fo)
      /\ forall r0 r1, o_bait r0 = bait -> o_rows r0 = fo_rows fo ->
           o_start r0 = fo_start fo -> o_end r0 = fo_end fo ->
           trim_large_overhangs r0 err = Ok r1 -> In (RF f) (o_rows r1).

  (* f is a row of the bait's looked-up result *)
  Definition looked (bait f : frag) : Prop :=
    exists rows fo, input_rows inp (f_name bait) = Ok rows
      /\ find_overlaps rows (f_start bait) (f_end bait) = Ok (Some fo)
      /\ In (RF f) (fo_rows fo).

  (* the invariant of the lookups, [rem] being the baits still to come: the
     contigs kept by a bait already processed have their keys in the found
     table, and every key in the table comes from the lookup of some bait *)
  Definition FK (b : bstate) (rem : list frag) : Prop :=
    incl rem all
    /\ (forall bait, In bait all ->
          In bait rem \/ forall f, keeps bait f -> In (key_of f) (map fst (b_found b)))
    /\ (forall k, In k (map fst (b_found b)) ->
          exists bait f, In bait all /\ k = key_of f /\ looked bait f).

  Lemma one_bait_FK tags orig b bait rest b' :
    FK b (bait :: rest) -> one_bait inp err tags orig b bait = Ok b' -> FK b' rest.
  Proof.
    intros (Hinc & H1 & H2) H.
    assert (Hba : In bait all) by (apply Hinc; left; reflexivity).
    assert (Hinc' : incl rest all) by (intros x Hx; apply Hinc; right; exact Hx).
    destruct (one_bait_spec _ _ _ _ _ _ _ H)
      as (rows & Hrows & [[Hfo ->] | (fo & nm & lab & r1 & Hfo & _ & Htl & _ & _ & _ & Hcase)]).
    - split; [exact Hinc'|]. split; [|exact H2].
      intros bait0 Hb0. destruct (H1 bait0 Hb0) as [[<- | Hr] | Hk].
      + right. intros f (rows' & fo' & Hrows' & Hfo' & _).
        rewrite Hrows in Hrows'. injection Hrows' as <-.
        rewrite Hfo in Hfo'. discriminate Hfo'.
      + left. exact Hr.
      + right. exact Hk.
    - assert (Hkeys : forall k, In k (map fst (b_found b'))
                                <-> In k (map fst (b_found b)) \/ In k (map key_of (frags_of (o_rows r1)))).
      { intros k. destruct Hcase as [(Er1 & _ & -> & _) | (_ & _ & Efm)].
        - rewrite Er1. cbn [frags_of flat_map map In]. tauto.
        - destruct (fold_left (store_found_one (zlen (b_store b))) (frags_of (o_rows r1)) (b_found b, b_multi b))
            as [found' multi'] eqn:Ef.
          injection Efm as -> _. eapply store_found_fold_keys. exact Ef. }
      split; [exact Hinc'|]. split.
      + intros bait0 Hb0. destruct (H1 bait0 Hb0) as [[<- | Hr] | Hk].
        * right. intros f (rows' & fo' & Hrows' & Hfo' & Hall).
          rewrite Hrows in Hrows'. injection Hrows' as <-.
          rewrite Hfo in Hfo'. injection Hfo' as <-.
          apply Hkeys. right. apply in_map. apply In_frags_of_iff.
          apply (Hall (set_labels (ovr_of_found bait fo) lab orig tags) r1); try reflexivity. exact Htl.
        * left. exact Hr.
        * right. intros f Hf. apply Hkeys. left. apply Hk. exact Hf.
      + intros k Hk. apply Hkeys in Hk. destruct Hk as [Hk | Hk]; [apply H2; exact Hk|].
        apply in_map_iff in Hk. destruct Hk as (g0 & <- & Hg).
        exists bait, g0. split; [exact Hba|]. split; [reflexivity|].
        exists rows, fo. split; [exact Hrows|]. split; [exact Hfo|].
        apply In_frags_of_iff in Hg. apply (trim_large_incl _ _ _ _ Htl) in Hg. exact Hg.
  Qed.

  Lemma one_pretext_FK b psc rest b' :
    FK b (frags_of (snd psc) ++ baits_of rest) ->
    one_pretext_scaffold inp err b psc = Ok b' -> FK b' (baits_of rest).
  Proof.
    intros HL H. destruct psc as [pname prows]. cbn [snd] in HL.
    destruct (one_pretext_spec _ _ _ _ _ _ H) as (nm & b1 & st & _ & Hb1 & _ & ->).
    assert (HL0 : FK (with_namer b nm) (frags_of prows ++ baits_of rest)) by exact HL.
    exact (foldM_inv_rem _ FK (one_bait_FK (fragment_tags prows) pname) _ _ _ _ HL0 Hb1).
  Qed.

  Lemma pretext_FK pretext b0 b1 :
    FK b0 (baits_of pretext) -> foldM (one_pretext_scaffold inp err) pretext b0 = Ok b1 ->
    FK b1 [].
  Proof.
    intros HL H.
    apply (foldM_inv_rem (one_pretext_scaffold inp err) (fun b rem => FK b (baits_of rem))
             (fun s a rest s' => one_pretext_FK s a rest s') pretext [] b0 b1); [|exact H].
    rewrite app_nil_r. exact HL.
  Qed.

  Lemma FK_init nm : FK (mkB [] [] [] [] nm 0) all.
  Proof.
    split; [apply incl_refl|]. split; [intros bait Hb; left; exact Hb|].
    intros k [].
  Qed.
End Lookups.

Lemma remap_to_input_found c g prefix bpt input pretext rs :
  remap_to_input c g prefix bpt input pretext = Ok rs ->
  exists b1,
    foldM (one_pretext_scaffold (number_input input 0) (error_length bpt)) pretext
          (mkB [] [] [] [] (new_namer prefix) 0) = Ok b1
    /\ forall k, In k (map fst (b_found (rs_b rs))) <-> In k (map fst (b_found b1)).
Proof.
  intros H. destruct (remap_to_input_stages _ _ _ _ _ _ _ H) as (_ & b1 & b2 & b3 & st & nl & Hb1 & Hb2 & Hb3 & _ & _ & ->).
  exists b1. split; [exact Hb1|].
  intros k. cbn [rs_b with_namer with_store b_found]. rewrite (cut_remaining_found _ _ _ Hb3).
  eapply discard_loop_keys. exact Hb2.
Qed.

Definition NF (found : list (fkey * (frag * list rid))) (f : frag) : Prop :=
  aget key_eqb found (key_of f) = None.

(* every contig after a never-found contig is never-found *)
Definition Suf (found : list (fkey * (frag * list rid))) (rows : list row) : Prop :=
  forall pre f post f', rows = pre ++ RF f :: post -> In (RF f') post -> NF found f -> NF found f'.

Theorem missing_rows_suffix : forall found g rows x mid y,
  Suf found rows -> consecutive (missing_rows repaired found g rows [] 0 None) x mid y ->
  mid = [g] \/ consecutive rows x mid y.
Proof.
  intros found g rows x mid y HS H.
  destruct (missing_rows_consecutive _ _ _ _ _ _ H)
    as [E | [Hc | (gp & _ & pre & btw & post & f & Er & Hf & Hfound & Hx)]];
    [left; exact E | right; exact Hc | exfalso].
  (* a found contig after the never-found x *)
  apply Hfound. apply (HS pre x (btw ++ RG gp :: RF y :: post) f Er).
  - apply in_or_app. left. exact Hf.
  - unfold NF. destruct (aget key_eqb found (key_of x)) eqn:Ex; [|reflexivity].
    exfalso. apply Hx. unfold is_found. rewrite Ex. discriminate.
Qed.

(* a tile that meets a contig, and that neither dropping condition of
   trim_large_overhangs excludes, keeps it *)
Lemma tile_keeps inp err name rows pre f post T :
  NoDup (map fst inp) -> In (name, rows) inp -> pos_rows rows -> rows = pre ++ RF f :: post ->
  f_name T = name -> 1 <= f_start T <= f_end T ->
  rows_len pre + 1 <= f_end T -> f_start T <= rows_len pre + f_len f ->
  ~ (f_start T - (rows_len pre + 1) > err
     /\ Z.min (f_end T) (rows_len pre + f_len f) - f_start T + 1 < err) ->
  ~ (rows_len pre + f_len f - f_end T > err
     /\ f_end T - Z.max (f_start T) (rows_len pre + 1) + 1 < err) ->
  keeps inp err T f.
Proof.
  intros Hnames Hsrc Hp E HTn HTv M1 M2 N1 N2.
  assert (Hne : rows <> []) by (rewrite E; intros X; destruct pre; discriminate X).
  destruct (find_overlaps_spec rows (f_start T) (f_end T) Hne Hp HTv) as (r & Er & Hr).
  destruct (split_span rows pre (RF f) post E) as (Hnth & Hss & Hse). cbn [row_len] in Hse.
  destruct r as [foT|].
  2: { exfalso. cbn [lookup_spec] in Hr. apply (Hr (length pre)); [exists f; exact Hnth|].
       unfold meets. rewrite Hss, Hse. lia. }
  exists rows, foT. split.
  { rewrite HTn. unfold input_rows. rewrite (In_aget str_eqb str_eqb_eq inp name rows Hnames Hsrc). reflexivity. }
  split; [exact Er|].
  intros r0 r1 B R S0 E1 Htl.
  destruct (lookup_split rows (f_start T) (f_end T) foT pre f post Hr E M1 M2)
    as (a1 & a2 & c1 & c2 & Ea & Ec & Efo & Es & Ee).
  assert (La : rows_len pre = rows_len a1 + rows_len a2) by (rewrite Ea, rows_len_app; reflexivity).
  apply (trim_keeps err r0 r1 a2 f c1 (rows_len pre + 1) (rows_len pre + f_len f)).
  - rewrite R. exact Efo.
  - rewrite S0, Es. lia.
  - rewrite E1, Ee. lia.
  - lia.
  - rewrite B. exact M1.
  - rewrite B. exact M2.
  - rewrite B. exact N1.
  - rewrite B. exact N2.
  - exact Htl.
Qed.

Lemma named_scaffold_tiled n d all input name rows bait :
  Forall (scaffold_tiled n d all) input ->
  In (name, rows) (number_input input 0) -> In bait all -> f_name bait = name ->
  exists sorted E,
    Permutation (filter (fun b => str_eqb (f_name b) name) all) sorted
    /\ tiling sorted 1 E /\ d * Z.abs (E - rows_len rows) < n
    /\ (length sorted = 1%nat \/ Forall (fun b => 2 * n <= d * f_len b) sorted)
    /\ 1 <= f_start bait <= f_end bait /\ f_end bait <= E.
Proof.
  intros Htile Hsrc Hba Hname.
  destruct (number_input_In _ _ _ Hsrc) as ([name0 rows0] & Hin0 & En & R). cbn [fst snd] in En, R.
  subst name0.
  assert (El : rows_len rows = rows_len rows0) by (unfold rows_len; rewrite (renumbered_lens _ _ R); reflexivity).
  rewrite Forall_forall in Htile. pose proof (Htile _ Hin0) as Ht.
  unfold scaffold_tiled in Ht. cbv zeta in Ht. cbn [fst snd] in Ht.
  destruct Ht as [Hnil | (sorted & E & HP & HT & HE & Hbig)].
  - exfalso.
    assert (Hm : In bait (filter (fun b => str_eqb (f_name b) name) all)).
    { apply filter_In. split; [exact Hba | apply str_eqb_eq; exact Hname]. }
    rewrite Hnil in Hm. destruct Hm.
  - exists sorted, E. rewrite El.
    pose proof (Completion.tiling_bounds _ _ _ HT) as Hbd. rewrite Forall_forall in Hbd.
    assert (Hbs : In bait sorted).
    { eapply Permutation_in; [exact HP|]. apply filter_In. split; [exact Hba | apply str_eqb_eq; exact Hname]. }
    pose proof (Hbd bait Hbs) as Bb. cbn beta in Bb. repeat split; try assumption; lia.
Qed.

(* a contig that a bait's lookup returned stands in the bait's scaffold and
   starts at or before the bait's end *)
Lemma looked_starts_before inp bait f' name rows a c :
  NoDup (map f_id (in_frags inp)) ->
  (forall name src, In (name, src) inp -> pos_rows src) ->
  1 <= f_start bait <= f_end bait ->
  looked inp bait f' -> In (name, rows) inp -> rows = a ++ RF f' :: c ->
  f_name bait = name /\ rows_len a + 1 <= f_end bait.
Proof.
  intros Hids Hposr Hbv (rows' & fo & Hrows' & Hfo & Hg0) Hsrc E.
  pose proof (input_rows_In inp _ _ Hrows') as Hsrc'.
  pose proof (Hposr _ _ Hsrc') as Hp'.
  pose proof (find_overlaps_lookup _ _ _ _ Hp' Hbv Hfo) as Hl.
  destruct (lookup_row_pos _ _ _ _ _ Hp' Hl Hg0) as (a' & c' & Erows' & Hpos').
  assert (Hin : In (RF f') rows) by (rewrite E; apply in_or_app; right; left; reflexivity).
  assert (Hin' : In (RF f') rows') by (rewrite Erows'; apply in_or_app; right; left; reflexivity).
  pose proof (same_src inp Hids _ _ _ _ f' Hsrc' Hsrc Hin' Hin) as Esrc.
  injection Esrc as Ename Erows. split; [exact Ename|].
  pose proof (src_nodup_g f_id inp _ _ Hids Hsrc) as Hndr.
  replace a with a'; [exact Hpos'|].
  eapply (split_unique (RF f')); [| |rewrite <- Erows'; rewrite Erows; exact E].
  - apply (nodup_ids_notin a' f' c'). rewrite <- Erows', Erows. exact Hndr.
  - apply (nodup_ids_notin a f' c). rewrite <- E. exact Hndr.
Qed.

(* in a tiling map the found contigs of a scaffold form a prefix of its rows *)
Lemma found_prefix n d prefix input pretext b1 :
  0 < d -> d <= n ->
  Forall input_ok input ->
  NoDup (map fst input) ->
  NoDup (map key_of (in_frags input)) ->
  Forall (scaffold_tiled n d (baits_of pretext)) input ->
  foldM (one_pretext_scaffold (number_input input 0) (error_length (n, d))) pretext
        (mkB [] [] [] [] (new_namer prefix) 0) = Ok b1 ->
  forall name rows pre f post f',
    In (name, rows) (number_input input 0) -> rows = pre ++ RF f :: post -> In (RF f') post ->
    In (key_of f') (map fst (b_found b1)) -> In (key_of f) (map fst (b_found b1)).
Proof.
  intros Hd Hdn Hin Hnm Hkeys0 Htile Hs1.
  set (inp := number_input input 0) in *. set (err := error_length (n, d)) in *.
  set (all := baits_of pretext) in *.
  destruct (number_input_spec input 0) as (Ek & Hidpos & Hids). fold inp in Ek, Hidpos, Hids.
  assert (Hkeys : NoDup (map key_of (in_frags inp))) by (rewrite Ek; exact Hkeys0).
  assert (Hnames : NoDup (map fst inp)) by (unfold inp; rewrite RemapTail.number_input_names; exact Hnm).
  assert (Hpos0 : Forall (fun isc => pos_rows (snd isc)) input).
  { eapply Forall_impl; [|exact Hin]. intros isc (_ & H & _). exact H. }
  pose proof (number_input_pos input 0 Hpos0) as Hposr. fold inp in Hposr.
  destruct (pretext_FK inp err all pretext _ b1 (FK_init inp err all _) Hs1) as (_ & K1 & K2).
  pose proof (fun name rows bait => named_scaffold_tiled n d all input name rows bait Htile) as Tiles.
  fold inp in Tiles.
  intros name rows pre f post f' Hsrc E Hf' Hk'.
  pose proof (Hposr _ _ Hsrc) as Hp.
  (* f' was looked up by a bait of this scaffold, hence starts before that bait's end *)
  destruct (K2 _ Hk') as (bait & g0 & Hba & Ekey & Hlk).
  assert (Hf'in : In (RF f') rows).
  { rewrite E. apply in_or_app. right. right. exact Hf'. }
  assert (Eg : g0 = f').
  { destruct Hlk as (rows' & fo & Hrows' & Hfo & Hg0).
    eapply (NoDup_map_inj key_of); [exact Hkeys | | | symmetry; exact Ekey].
    - eapply (src_frag_in inp); [eapply input_rows_In; exact Hrows'|].
      eapply find_overlaps_rows; eassumption.
    - exact (src_frag_in inp _ _ _ Hsrc Hf'in). }
  subst g0.
  apply in_split in Hf'. destruct Hf' as (p1 & p2 & Epost).
  assert (E2 : rows = (pre ++ RF f :: p1) ++ RF f' :: p2).
  { rewrite E, Epost, <- app_assoc. reflexivity. }
  assert (Hbv : 1 <= f_start bait <= f_end bait).
  { destruct Hlk as (rows' & fo & Hrows' & _).
    destruct (Tiles _ _ bait (input_rows_In inp _ _ Hrows') Hba eq_refl) as (_ & _ & _ & _ & _ & _ & B & _).
    exact B. }
  destruct (looked_starts_before inp bait f' name rows _ p2 Hids Hposr Hbv Hlk Hsrc E2) as [Ename Hpos'].
  assert (Hpp : pos_rows pre /\ 1 <= f_len f /\ pos_rows p1 /\ pos_rows post).
  { rewrite E in Hp. apply pos_rows_app in Hp. destruct Hp as [P1 P2].
    unfold pos_rows in P2. apply Forall_cons_iff in P2. destruct P2 as [Pf Pp]. cbn [row_len] in Pf.
    split; [exact P1|]. split; [exact Pf|]. split; [|exact Pp].
    rewrite Epost in Pp. apply pos_rows_app in Pp. tauto. }
  destruct Hpp as (Ppre & Pf & Pp1 & Ppost).
  pose proof (pos_rows_len_nonneg _ Ppre) as Npre.
  pose proof (pos_rows_len_nonneg _ Pp1) as Np1.
  pose proof (pos_rows_len_nonneg _ Ppost) as Npost.
  rewrite rows_len_app, rows_len_cons in Hpos'. cbn [row_len] in Hpos'.
  assert (Lrows : rows_len rows = rows_len pre + f_len f + rows_len post).
  { rewrite E, rows_len_app, rows_len_cons. cbn [row_len]. lia. }
  destruct (Tiles _ _ bait Hsrc Hba Ename) as (sorted & E0 & HP & HT & HE & Hbig & _ & Bb0).
  destruct (tiles_find n d Hd Hdn sorted E0 (rows_len rows) (rows_len pre + 1) (rows_len pre + f_len f)
              HT HE Hbig ltac:(lia) ltac:(lia) ltac:(lia))
    as (T & HTs & M1 & M2 & HTv & N1 & N2).
  fold err in N1, N2.
  assert (HTm : In T (filter (fun b => str_eqb (f_name b) name) all)).
  { eapply Permutation_in; [apply Permutation_sym; exact HP | exact HTs]. }
  apply filter_In in HTm. destruct HTm as [HTa HTn]. apply str_eqb_eq in HTn.
  destruct (K1 T HTa) as [[] | HK]. apply HK.
  exact (tile_keeps inp err name rows pre f post T Hnames Hsrc Hp E HTn HTv M1 M2 N1 N2).
Qed.

(* The theorem, whatever the tags of the input contigs and of the baits:
   neighbour_gaps_fused holds of every completed run, and found_prefix speaks
   of the lookups only, which do not read tags. *)
Theorem tiling_map_gaps : forall g prefix n d input pretext o,
  0 < d -> d <= n ->
  Forall input_ok input ->
  NoDup (map fst input) ->
  NoDup (map key_of (in_frags input)) ->
  Forall (scaffold_tiled n d (baits_of pretext)) input ->
  remap repaired g prefix (n, d) input pretext = Ok o ->
  forall a sc x mid y,
    In a (out_asms o) -> In sc (oa_scaffolds a) -> consecutive (sc_rows sc) x mid y ->
    mid = [g] \/ same_neighbours input x mid y.
Proof.
  intros g prefix n d input pretext o Hd Hdn Hin Hnm Hkeys0 Htile H a sc x mid y Ha Hsc Hc.
  assert (Hpos : Forall (fun isc => pos_rows (snd isc)) input).
  { eapply Forall_impl; [|exact Hin]. intros isc (_ & Hp & _). exact Hp. }
  destruct (RemapTail.remap_stages _ _ _ _ _ _ _ H) as (rs & Hrs & Ho).
  destruct (RemapTail.out_scaffold_rows _ _ _ _ _ _ _ _ Ho Ha Hsc) as (fused0 & sc0 & F & Hsc0 & E). rewrite E in Hc.
  destruct (neighbour_gaps_fused _ _ _ _ _ _ _ Hpos Hrs F sc0 Hsc0) as [_ Hg].
  destruct (Hg x mid y Hc) as [Hm | [Hn | [_ (lsc & Hl & Hcl)]]].
  - left. exact Hm.
  - right. eapply same_neighbours_number. exact Hn.
  - (* inside a left-over scaffold: the never-found contigs are a suffix *)
    destruct (remap_to_input_found _ _ _ _ _ _ _ Hrs) as (b1 & Hb1 & Hk).
    destruct (leftovers_from_missing _ _ _ _ _ _ _ Hrs lsc Hl) as (_ & [name rows] & Hisc & Erows).
    cbn [snd] in Erows.
    rewrite Erows in Hcl. apply missing_rows_suffix in Hcl.
    + destruct Hcl as [-> | Hcc]; [left; reflexivity | right].
      apply (same_neighbours_number input 0). exists (name, rows), x, y. split; [exact Hisc|].
      left. cbn [snd]. split; [exact Hcc|]. split; apply piece_of_refl.
    + intros pre f post f' Er Hf' Hnf. unfold NF in *.
      destruct (aget key_eqb (b_found (rs_b rs)) (key_of f')) as [v|] eqn:Ef'; [exfalso | reflexivity].
      apply (aget_None key_eqb key_eqb_eq) in Hnf. apply Hnf. apply Hk.
      eapply (found_prefix n d prefix input pretext b1 Hd Hdn Hin Hnm Hkeys0 Htile Hb1 name rows pre f post f');
        [exact Hisc | exact Er | exact Hf'|].
      apply Hk. apply (aget_In key_eqb key_eqb_eq) in Ef'. apply (in_map fst) in Ef'. exact Ef'.
Qed.

Theorem pretextview_gaps : pretextview_gaps_statement.
Proof.
  intros g prefix n d input pretext o Hd Hdn Hin Hnm Hkeys0 _ _ _ Htile H.
  exact (tiling_map_gaps g prefix n d input pretext o Hd Hdn Hin Hnm Hkeys0 Htile H).
Qed.

(* Proofs.Completion.ThreePieces with two more contigs beyond the last texel:
   A(100,+) gap(10) B(300,-) gap(10) C(100,+) gap(1) D(1,+) E(1,-), 523 bp,
   texel 3.5 bp; the map ends at 520.  D and E are found by no bait: they are
   re-added as a left-over scaffold, directly adjacent as in the input, and
   fused after the last piece with the join gap. *)
Module Beyond.
  Import ThreePieces.
  Definition g1 := mkGap 1 (s "scaffold").
  Definition D := mkFrag 0 (s "cD") 1 1 1 [].
  Definition E := mkFrag 0 (s "cE") 1 1 (-1) [].
  Definition input := [(s "scaf1", [RF A; RG g10; RF B; RG g10; RF C; RG g1; RF D; RF E])].
  (* as they appear in the output (numbered) *)
  Definition A' := mkFrag 0 (s "cA") 1 100 (-1) [].
  Definition D' := mkFrag 6 (s "cD") 1 1 1 [].
  Definition E' := mkFrag 7 (s "cE") 1 1 (-1) [].
  Definition out : list row :=
    [RF (mkFrag 4 (s "cC") 1 100 (-1) []); RG g10;
     RF (mkFrag (-1) (s "cB") 1 60 1 [s "Cut"]); RG g10;
     RF (mkFrag (-2) (s "cB") 61 210 (-1) [s "Cut"]); RG g10;
     RF (mkFrag (-2) (s "cB") 211 300 1 [s "Cut"]); RG g10;
     RF A'; RG g10; RF D'; RF E'].
End Beyond.

Example pretextview_gaps_instance :
  exists o, remap repaired ThreePieces.g10 (s "SUPER_") (7, 2) Beyond.input ThreePieces.pretext = Ok o
    /\ (exists a sc, In a (out_asms o) /\ In sc (oa_scaffolds a) /\ sc_rows sc = Beyond.out
          (* the join gap before the left-over contigs *)
          /\ consecutive (sc_rows sc) Beyond.A' [ThreePieces.g10] Beyond.D'
          (* two left-over contigs, directly adjacent as in the input *)
          /\ consecutive (sc_rows sc) Beyond.D' [] Beyond.E')
    (* and the theorem, for this run *)
    /\ (forall a sc x mid y,
          In a (out_asms o) -> In sc (oa_scaffolds a) -> consecutive (sc_rows sc) x mid y ->
          mid = [ThreePieces.g10] \/ same_neighbours Beyond.input x mid y).
Proof.
  assert (Hrun : exists o, remap repaired ThreePieces.g10 (s "SUPER_") (7, 2) Beyond.input ThreePieces.pretext = Ok o
                           /\ map sc_rows (flat_map oa_scaffolds (out_asms o)) = [Beyond.out]).
  { eexists. split; vm_compute; reflexivity. }
  destruct Hrun as (o & Hrun & Hm). exists o. split; [exact Hrun|]. split.
  - destruct (rows_in_output o Beyond.out) as (a & sc & Ha & Hsc & Esc); [rewrite Hm; left; reflexivity|].
    exists a, sc. split; [exact Ha|]. split; [exact Hsc|]. split; [exact Esc|]. rewrite Esc. split.
    + exists (firstn 8 Beyond.out), [RF Beyond.E']. reflexivity.
    + exists (firstn 10 Beyond.out), []. reflexivity.
  - destruct (tiling_map_okb_sound 7 2 Beyond.input ThreePieces.pretext)
      as (H1 & H2 & H3 & H4 & H5 & _ & _ & H9); [vm_compute; reflexivity|].
    exact (tiling_map_gaps _ _ 7 2 _ _ o H1 H2 H3 H4 H5 H9 Hrun).
Qed.

Print Assumptions lookup_split.
Print Assumptions lookup_row_pos.
Print Assumptions trim_keeps.
Print Assumptions tiles_find.
Print Assumptions pretext_FK.
Print Assumptions remap_to_input_found.
Print Assumptions missing_rows_suffix.
Print Assumptions found_prefix.
Print Assumptions pretextview_gaps_instance.
Print Assumptions pretextview_gaps.
