(* The cut stage.  qc_sub_fragments accepts every
   ascending chain of abutting pieces that runs from the start of the original
   to its end.  [Geo f lo hi r]: result r holds the input contig f (scaffold
   span lo .. hi) at one of its ends, untouched; the pieces cut by trim_all
   from a run of such holders with abutting baits form such a chain.  When the
   cuts begin every key of b_multi is [Ready]: all the results listed for the
   contig hold it at one of their ends and their baits are a run of
   consecutive tiles.  The run has no hole because a tile lying strictly
   inside the contig's span has a result that is the single row f, and no
   justified discard can remove it ([KIn], carried by Proofs.CoreKeptHeld's
   generic K machinery): this is where "every piece is at least one error
   length long" is used. *)
From Tola Require Import Py.Base Py.Sort Model.Fragment Model.Lookup
  Model.OverlapResult Model.Namer Model.Remap Model.RemapSpec
  Proofs.BaseLemmas Proofs.Rows Proofs.Lookup Proofs.OverlapResult Proofs.RemapHead
  Proofs.CoreKeptGood Proofs.CoreKeptResolver Proofs.CoreKeptHeld
  Proofs.CoreKeptDeepK Proofs.CompletionResolver Proofs.NaturalKey.
From Tola Require Proofs.RemapTail.
From Coq Require Import Lia ZifyBool Permutation Sorted.

(* an ascending chain of non-empty abutting pieces, all named nm, running from [from] to [last] *)
Fixpoint chain (nm : str) (from : Z) (l : list frag) (last : Z) : Prop :=
  match l with
  | [] => False
  | [x] => f_name x = nm /\ f_start x = from /\ from <= f_end x /\ f_end x = last
  | x :: t => f_name x = nm /\ f_start x = from /\ from <= f_end x /\ chain nm (f_end x + 1) t last
  end.

Lemma chain_one nm from x last :
  chain nm from [x] last <-> f_name x = nm /\ f_start x = from /\ from <= f_end x /\ f_end x = last.
Proof. reflexivity. Qed.

Lemma chain_more nm from x y t last :
  chain nm from (x :: y :: t) last <->
  f_name x = nm /\ f_start x = from /\ from <= f_end x /\ chain nm (f_end x + 1) (y :: t) last.
Proof. reflexivity. Qed.

Lemma chain_head nm from y t last :
  chain nm from (y :: t) last -> f_name y = nm /\ f_start y = from /\ from <= f_end y.
Proof.
  intros C. destruct t as [|z t].
  - apply chain_one in C. destruct C as (C1 & C2 & C3 & _). auto.
  - apply chain_more in C. destruct C as (C1 & C2 & C3 & _). auto.
Qed.

(* names for the anonymous functions of qc_sub_fragments, so that [change] can fold them in qc_chain *)
Definition qle (a b : frag) : bool :=
  (f_start a <? f_start b) || ((f_start a =? f_start b) && (f_end a <=? f_end b)).

Lemma chain_sorted nm : forall l from last,
  chain nm from l last -> stable_sort qle l = l.
Proof.
  induction l as [|x t IH]; intros from last C; [reflexivity|].
  destruct t as [|y t].
  - reflexivity.
  - apply chain_more in C. destruct C as (C1 & C2 & C3 & C4).
    change (stable_sort qle (x :: y :: t)) with (insert_front qle x (stable_sort qle (y :: t))).
    rewrite (IH _ _ C4).
    apply chain_head in C4. destruct C4 as (D1 & D2 & D3).
    cbn [insert_front].
    replace (qle x y) with true by (unfold qle; lia).
    reflexivity.
Qed.

Definition abut_p (p : frag * frag) : bool := let '(a, b) := p in abuts a b.
Definition over_p (p : frag * frag) : bool := let '(a, b) := p in overlaps a b.
Definition gap_p (p : frag * frag) : bool :=
  let '(a, b) := p in match gap_between a b with Some g => negb (g =? 0) | None => false end.

Lemma link_abuts A B : f_name A = f_name B -> f_end A + 1 = f_start B -> abuts A B = true.
Proof. intros HN HAB. unfold abuts. rewrite HN, str_eqb_refl. cbn [negb]. lia. Qed.

Lemma link_overlaps A B :
  f_name A = f_name B -> f_start A <= f_end A -> f_end A + 1 = f_start B -> f_start B <= f_end B ->
  overlaps A B = false.
Proof. intros HN HA HAB HB. unfold overlaps. rewrite HN, str_eqb_refl. cbn [negb]. lia. Qed.

Lemma link_gap A B :
  f_name A = f_name B -> f_start A <= f_end A -> f_end A + 1 = f_start B -> f_start B <= f_end B ->
  gap_between A B = Some 0.
Proof.
  intros HN HA HAB HB. unfold gap_between. rewrite HN, str_eqb_refl. cbn [negb]. cbv zeta.
  replace (Z.min (f_end A) (f_end B) <? Z.max (f_start A) (f_start B)) with true by lia.
  f_equal. lia.
Qed.

Lemma chain_pairs nm : forall l from last,
  chain nm from l last ->
  filter abut_p (combine l (tl l)) = combine l (tl l)
  /\ filter over_p (combine l (tl l)) = []
  /\ filter gap_p (combine l (tl l)) = [].
Proof.
  induction l as [|x t IH]; intros from last C; [destruct C|].
  destruct t as [|y t].
  - cbn [tl combine filter]. auto.
  - apply chain_more in C. destruct C as (C1 & C2 & C3 & C4).
    destruct (IH _ _ C4) as (I1 & I2 & I3).
    apply chain_head in C4. destruct C4 as (D1 & D2 & D3).
    assert (HN : f_name x = f_name y) by congruence.
    assert (HA : f_start x <= f_end x) by lia.
    assert (HAB : f_end x + 1 = f_start y) by lia.
    assert (HB : f_start y <= f_end y) by lia.
    change (combine (x :: y :: t) (tl (x :: y :: t)))
      with ((x, y) :: combine (y :: t) (tl (y :: t))).
    cbn [filter]. unfold abut_p at 1, over_p at 1, gap_p at 1.
    rewrite (link_abuts x y HN HAB), (link_overlaps x y HN HA HAB HB), (link_gap x y HN HA HAB HB).
    change (negb (0 =? 0)) with false. cbv iota.
    rewrite I1. auto.
Qed.

Lemma zlen_pairs {A} (x : A) (t : list A) :
  zlen (combine (x :: t) (tl (x :: t))) = zlen (x :: t) - 1.
Proof.
  cbn [tl]. revert x. induction t as [|y t IH]; intros x.
  - reflexivity.
  - change (combine (x :: y :: t) (y :: t)) with ((x, y) :: combine (y :: t) t).
    unfold zlen in *. cbn [length]. rewrite !Nat2Z.inj_succ. rewrite (IH y).
    cbn [length]. rewrite Nat2Z.inj_succ. lia.
Qed.

Lemma chain_total nm : forall l from last,
  chain nm from l last -> sumZ (map f_len l) = last - from + 1.
Proof.
  induction l as [|x t IH]; intros from last C; [destruct C|].
  destruct t as [|y t].
  - apply chain_one in C. destruct C as (C1 & C2 & C3 & C4).
    cbn [map]. rewrite sumZ_cons, sumZ_nil. unfold f_len. lia.
  - apply chain_more in C. destruct C as (C1 & C2 & C3 & C4).
    change (map f_len (x :: y :: t)) with (f_len x :: map f_len (y :: t)).
    rewrite sumZ_cons, (IH _ _ C4). unfold f_len. lia.
Qed.

Theorem qc_chain orig subs :
  chain (f_name orig) (f_start orig) subs (f_end orig) -> qc_sub_fragments orig subs = Ok tt.
Proof.
  intros C. unfold qc_sub_fragments.
  change (fun a b : frag => (f_start a <? f_start b) || (f_start a =? f_start b) && (f_end a <=? f_end b))
    with qle.
  change (fun '(a, b) => abuts a b) with abut_p.
  change (fun '(a, b) => overlaps a b) with over_p.
  change (fun '(a, b) => match gap_between a b with Some g => negb (g =? 0) | None => false end)
    with gap_p.
  rewrite (chain_sorted _ _ _ _ C).
  destruct (chain_pairs _ _ _ _ C) as (P1 & P2 & P3).
  rewrite P1, P2, P3.
  rewrite (chain_total _ _ _ _ C).
  destruct subs as [|x t]; [destruct C|].
  rewrite zlen_pairs.
  replace (f_len orig =? f_end orig - f_start orig + 1) with true by (unfold f_len; lia).
  cbn [negb].
  change (zlen (@nil (frag * frag))) with 0.
  change (0 =? 0) with true. cbn [negb].
  rewrite Z.eqb_refl. reflexivity.
Qed.

(* trim_fragment on a result that has the contig at an end: the new fragment, in
   the terms of the definition (nothing is decided here but the rows at the ends) *)
Lemma trim_fragment_at r f ks ke r0 rl (ms me : bool) :
  first_row r = Ok r0 -> last_row r = Ok rl -> row_is r0 f || row_is rl f = true ->
  strand_ok (f_strand f) = true ->
  row_is r0 f && (start_overhang r >? 0) = ms ->
  row_is rl f && (o_end r - f_end (o_bait r) >? 0) = me ->
  let plus := f_strand f =? 1 in
  let st1 := if ms && negb ks && plus then f_start f + start_overhang r else f_start f in
  let en1 := if ms && negb ks && negb plus then f_end f - start_overhang r else f_end f in
  let en2 := if me && negb ke && plus then en1 - (o_end r - f_end (o_bait r)) else en1 in
  let st2 := if me && negb ke && negb plus then st1 + (o_end r - f_end (o_bait r)) else st1 in
  st2 <= en2 ->
  exists new r', trim_fragment r f ks ke = Ok (new, r')
                 /\ f_name new = f_name f /\ f_start new = st2 /\ f_end new = en2.
Proof.
  intros H0 Hl Hor Hso <- <- plus st1 en1 en2 st2 Hle.
  unfold trim_fragment. rewrite H0. cbn [bind]. cbv zeta. rewrite Hl. cbn [bind]. rewrite Hor. cbn [negb].
  rewrite new_frag_mk by assumption. cbn [bind].
  eexists _, _. split; [reflexivity|]. cbn [f_name f_start f_end]. auto.
Qed.

(* the start of a cut piece as fs + (what is cut off at the head), its end as fs + (what is kept
   up to the tail); [P] is the comparison under which the overhang [so] / [eo] is known, and it
   holds whenever the condition [c] of the cut does *)
Lemma cut_head (c : bool) (P : Prop) fs so u : (c = true -> P) -> (P -> so = u) ->
  (if c then fs + so else fs) = fs + (if c then u else 0).
Proof. destruct c; intros H1 H2; [rewrite (H2 (H1 eq_refl)); reflexivity | lia]. Qed.

Lemma cut_tail (c : bool) (P : Prop) fs fe eo w v m :
  (c = true -> P) -> (P -> eo = w) -> fe - w = fs + v -> fe = fs + m ->
  (if c then fe - eo else fe) = fs + (if c then v else m).
Proof. destruct c; intros H1 H2 E1 E2; [rewrite (H2 (H1 eq_refl)); exact E1 | exact E2]. Qed.

Lemma ltb_and_lt x y (c : bool) : (x <? y) && c = true -> x < y.
Proof. lia. Qed.

Lemma ltb_0_sub x y : (0 <? x - y) = (y <? x).
Proof. lia. Qed.

Lemma ltb_sub_r x y z : (x - z <? y - z) = (x <? y).
Proof. lia. Qed.

Lemma ltb_sub_l z x y : (z - x <? z - y) = (y <? x).
Proof. lia. Qed.

Section Geo.
  Variable f : frag.
  Variables lo hi : Z.

  Definition Geo (r : ovr) : Prop :=
    (o_rows r = [RF f] /\ o_start r = lo /\ o_end r = hi)
    \/ (exists t x, o_rows r = RF f :: t ++ [x] /\ row_is x f = false
                    /\ o_start r = lo /\ hi <= f_end (o_bait r))
    \/ (exists x t, o_rows r = x :: t ++ [RF f] /\ row_is x f = false
                    /\ o_end r = hi /\ f_start (o_bait r) <= lo).

  Lemma Geo_nonempty r : Geo r -> o_rows r <> [].
  Proof.
    intros [(E & _) | [(t & x & E & _) | (x & t & E & _)]]; rewrite E; discriminate.
  Qed.

  Lemma Geo_holds r : Geo r -> In (RF f) (o_rows r).
  Proof.
    intros [(E & _) | [(t & x & E & _) | (x & t & E & _)]]; rewrite E.
    - left. reflexivity.
    - left. reflexivity.
    - right. apply in_or_app. right. left. reflexivity.
  Qed.

  (* the rows at the ends of such a result; the bait stops short of the contig's
     start (end) exactly where the result has the contig first (last) *)
  Lemma Geo_ends r : Geo r ->
    let s := f_start (o_bait r) in
    let e := f_end (o_bait r) in
    exists r0 rl, first_row r = Ok r0 /\ last_row r = Ok rl
      /\ row_is r0 f || row_is rl f = true
      /\ row_is r0 f && (start_overhang r >? 0) = (lo <? s)
      /\ row_is rl f && (o_end r - e >? 0) = (e <? hi)
      /\ (lo < s -> start_overhang r = s - lo)
      /\ (e < hi -> o_end r - e = hi - e).
  Proof.
    intros HG s e. unfold start_overhang. fold s.
    assert (Hf : row_is (RF f) f = true) by (cbn [row_is]; apply Z.eqb_refl).
    destruct HG as [(Er & Es & Ee) | [(t & x & Er & Hx & Es & Hhe) | (x & t & Er & Hx & Ee & Hsl)]].
    - exists (RF f), (RF f). rewrite Hf, Es, Ee. cbn [orb andb].
      split; [exact (first_row_cons r _ _ Er)|]. split; [exact (last_row_snoc r [] _ Er)|].
      repeat split; lia.
    - exists (RF f), x. rewrite Hf, Hx, Es. cbn [orb andb]. fold e in Hhe.
      split; [exact (first_row_cons r _ _ Er)|]. split; [exact (last_row_snoc r (RF f :: t) _ Er)|].
      repeat split; lia.
    - exists x, (RF f). rewrite Hf, Hx, Ee. cbn [orb andb]. fold s in Hsl.
      split; [exact (first_row_cons r _ _ Er)|]. split; [exact (last_row_snoc r (x :: t) _ Er)|].
      repeat split; lia.
  Qed.

  Lemma Geo_tf_other r t ks ke new r' :
    f_id t <> f_id f -> 0 <= f_id f -> Geo r -> trim_fragment r t ks ke = Ok (new, r') -> Geo r'.
  Proof.
    intros Hne Hf0 HG H.
    destruct (trim_fragment_spec _ _ _ _ _ _ H)
      as (x0 & xl & ds & de & H0 & Hl & Hor & Eds & Ede & _ & _ & En & _ & ->).
    assert (Hnew : row_is (RF new) f = false).
    { rewrite En. cbn [row_is f_id]. destruct (row_is xl t); lia. }
    assert (Hft : row_is (RF f) t = false) by (cbn [row_is]; lia).
    cbn [set_span_rows o_rows o_start o_end o_bait].
    destruct HG as [(Er & Es0 & Ee0) | [(tt & x & Er & Hx & Es0 & Hhe) | (x & tt & Er & Hx & Ee0 & Hsl)]].
    - exfalso. rewrite (first_row_cons r _ _ Er) in H0. rewrite (last_row_snoc r [] _ Er) in Hl.
      injection H0 as <-. injection Hl as <-. rewrite Hft in Hor. discriminate.
    - rewrite (first_row_cons r _ _ Er) in H0. rewrite (last_row_snoc r (RF f :: tt) _ Er) in Hl.
      injection H0 as <-. injection Hl as <-. rewrite Hft in Hor, Eds. cbn [orb andb] in Hor, Eds.
      rewrite Hor, Eds, Er, Z.add_0_r.
      right. left. exists tt, (RF new).
      split; [apply (set_last_snoc (RF f :: tt))|]. split; [exact Hnew|]. split; assumption.
    - rewrite (first_row_cons r _ _ Er) in H0. rewrite (last_row_snoc r (x :: tt) _ Er) in Hl.
      injection H0 as <-. injection Hl as <-. rewrite Hft in Hor, Ede |- *.
      rewrite Bool.orb_false_r in Hor. cbn [andb] in Ede. rewrite Ede, Er, Z.sub_0_r.
      right. right. exists (RF new), tt.
      split; [reflexivity|]. split; [exact Hnew|]. split; assumption.
  Qed.

  Lemma fsit_geo r :
    Geo r ->
    let s := f_start (o_bait r) in
    let e := f_end (o_bait r) in
    exists kk, fragment_start_if_trimmed r f = Ok kk
      /\ (if f_strand f =? 1
          then kk = f_start f + (s - lo) \/ (kk = f_start f /\ s <= lo)
          else kk = f_start f + (hi - e) \/ (kk = f_start f /\ hi <= e)).
  Proof.
    intros HG s e. unfold fragment_start_if_trimmed, start_overhang, end_overhang. fold s e.
    destruct HG as [(Er & Es & Ee) | [(t & x & Er & Hx & Es & Hhe) | (x & t & Er & Hx & Ee & Hsl)]].
    - rewrite (first_row_cons r (RF f) [] Er), (last_row_snoc r [] (RF f) Er). cbn [bind row_is].
      rewrite Z.eqb_refl, Es, Ee. destruct (f_strand f =? 1); eexists; (split; [reflexivity|]); left; reflexivity.
    - rewrite (first_row_cons r (RF f) _ Er), (last_row_snoc r (RF f :: t) x Er). cbn [bind row_is].
      rewrite Z.eqb_refl, Hx, Es. destruct (f_strand f =? 1); eexists; (split; [reflexivity|]).
      + left. reflexivity.
      + right. split; [reflexivity | exact Hhe].
    - rewrite (first_row_cons r x _ Er), (last_row_snoc r (x :: t) (RF f) Er). cbn [bind row_is].
      rewrite Z.eqb_refl, Hx, Ee. destruct (f_strand f =? 1); eexists; (split; [reflexivity|]).
      + right. split; [reflexivity | exact Hsl].
      + left. reflexivity.
  Qed.
End Geo.

Section Dir.
  Variable c : cfg.
  Hypothesis Hfix : fix_swap_keep c = true.
  Variable f : frag.
  Variables lo hi : Z.
  Hypothesis Hhi : hi = lo + f_len f - 1.
  Hypothesis Hso : strand_ok (f_strand f) = true.
  Hypothesis Hwf : f_start f <= f_end f.

  (* offsets of a bait's ends from the contig's first base, along the contig *)
  Definition dU (b : frag) : Z := if f_strand f =? 1 then f_start b - lo else hi - f_end b.
  Definition dV (b : frag) : Z := if f_strand f =? 1 then f_end b - lo else hi - f_start b.
  Let L := f_len f.

  Lemma dir_valid b0 : f_start b0 <= f_end b0 -> lo <= f_end b0 -> f_start b0 <= hi ->
    dU b0 <= dV b0 /\ 0 <= dV b0 /\ dU b0 <= L - 1.
  (* lia would otherwise pick up the boolean section hypotheses *)
  Proof using Hhi. unfold dU, dV, L. clear - Hhi. destruct (f_strand f =? 1); lia. Qed.

  Lemma dir_disjoint b1 b2 : f_end b1 < f_start b2 \/ f_end b2 < f_start b1 ->
    dV b1 < dU b2 \/ dV b2 < dU b1.
  Proof using. unfold dU, dV. clear. destruct (f_strand f =? 1); lia. Qed.

  Lemma trim_dir r first last :
    Geo f lo hi r ->
    let u := dU (o_bait r) in
    let v := dV (o_bait r) in
    let a := if (0 <? u) && negb first then u else 0 in
    let b := if (v <? L - 1) && negb last then v else L - 1 in
    a <= b ->
    exists new r',
      trim_fragment r f (if negb (f_strand f =? 1) then last else first)
                        (if negb (f_strand f =? 1) then first else last) = Ok (new, r')
      /\ f_name new = f_name f /\ f_start new = f_start f + a /\ f_end new = f_start f + b.
  Proof.
    intros HG u v a b Hab.
    destruct (Geo_ends f lo hi r HG) as (r0 & rl & H0 & Hl & Hor & Hms & Hme & Hs & He).
    cbv zeta in Hms, Hme, Hs, He.
    assert (EL : f_end f = f_start f + (hi - lo)) by (clear - Hhi; unfold f_len in Hhi; lia).
    assert (ELm : L - 1 = hi - lo) by (clear - Hhi; unfold L; lia).
    subst a b u v. unfold dU, dV in *. rewrite ELm in *.
    destruct (f_strand f =? 1) eqn:E1; cbn [negb].
    - pose proof (trim_fragment_at r f first last r0 rl _ _ H0 Hl Hor Hso Hms Hme) as T.
      cbv zeta in T. rewrite E1 in T. cbn [negb] in T.
      rewrite ?Bool.andb_true_r, ?Bool.andb_false_r in T.
      rewrite ltb_0_sub, ltb_sub_r in *.
      rewrite (cut_head _ _ _ _ (f_start (o_bait r) - lo) (ltb_and_lt _ _ _) Hs) in T.
      rewrite (cut_tail _ _ (f_start f) _ _ _ (f_end (o_bait r) - lo) (hi - lo) (ltb_and_lt _ _ _) He) in T
        by (clear - EL; lia).
      apply T, Z.add_le_mono_l, Hab.
    - pose proof (trim_fragment_at r f last first r0 rl _ _ H0 Hl Hor Hso Hms Hme) as T.
      cbv zeta in T. rewrite E1 in T. cbn [negb] in T.
      rewrite ?Bool.andb_true_r, ?Bool.andb_false_r in T.
      rewrite ltb_0_sub, ltb_sub_l in *.
      rewrite (cut_head _ _ _ _ (hi - f_end (o_bait r)) (ltb_and_lt _ _ _) He) in T.
      rewrite (cut_tail _ _ (f_start f) _ _ _ (hi - f_start (o_bait r)) (hi - lo) (ltb_and_lt _ _ _) Hs) in T
        by (clear - EL; lia).
      apply T, Z.add_le_mono_l, Hab.
  Qed.

  Lemma fsit_dir r :
    Geo f lo hi r ->
    exists kk, fragment_start_if_trimmed r f = Ok kk
      /\ (kk = f_start f + dU (o_bait r) \/ (kk = f_start f /\ dU (o_bait r) <= 0)).
  Proof.
    intros HG. destruct (fsit_geo f lo hi r HG) as (kk & Hk & Hc). cbv zeta in Hc.
    exists kk. split; [exact Hk|]. unfold dU. destruct (f_strand f =? 1).
    - destruct Hc as [-> | (-> & H)]; [left; reflexivity | right; split; [reflexivity | lia]].
    - destruct Hc as [-> | (-> & H)]; [left; reflexivity | right; split; [reflexivity | lia]].
  Qed.

  Variable bt : rid -> frag.

  Definition HolderOK (st : list ovr) (id : rid) : Prop :=
    exists r, get_ovr st id = Ok r /\ o_bait r = bt id /\ Geo f lo hi r.

  (* [l]: the holders still to be cut, [i] the position of the first of them in the whole ordered
     list (trim_all keeps the near end only at position 0), [a0] the offset along the contig at
     which the next piece starts: 0 at the first holder, else where that holder's bait starts *)
  Lemma trim_all_chain : forall (l : list rid) st i a0,
    NoDup l -> Forall (fun a => 0 <= a) l -> (forall id, In id l -> HolderOK st id) ->
    (forall id, In id l -> dU (bt id) <= dV (bt id) /\ 0 <= dV (bt id) /\ dU (bt id) <= L - 1) ->
    (forall j id id', nth_error l j = Some id -> nth_error l (S j) = Some id' ->
                      dV (bt id) + 1 = dU (bt id')) ->
    l <> [] -> 0 <= i ->
    ((i = 0 /\ a0 = 0) \/ (0 < i /\ 0 < a0 /\ exists id t, l = id :: t /\ dU (bt id) = a0)) ->
    exists st' subs, trim_all c st f l i (i + zlen l - 1) = Ok (st', subs)
                     /\ chain (f_name f) (f_start f + a0) subs (f_end f).
  Proof.
    induction l as [|id t IH]; intros st i a0 Hnd Hpos Hok Hgeo Hcons Hne Hi Hhead; [congruence|].
    inversion Hnd as [|? ? Hnin Hnd']; subst. inversion Hpos as [|? ? Hid Hpos']; subst.
    destruct (Hok id (or_introl eq_refl)) as (r & Hg & Hb & HG).
    destruct (Hgeo id (or_introl eq_refl)) as (G1 & G2 & G3).
    cbn [trim_all]. rewrite Hfix, Hg. cbn [andb bind].
    (* the piece starts at a0: 0 for the first holder, else where this holder's bait starts *)
    assert (Ha : (if (0 <? dU (o_bait r)) && negb (i =? 0) then dU (o_bait r) else 0) = a0
                 /\ 0 <= a0 <= dV (bt id) /\ a0 <= L - 1).
    { rewrite Hb. clear - Hhead G1 G2 G3 Hwf.
      destruct Hhead as [(-> & ->) | (H1 & H2 & id0 & t0 & E & H3)].
      - rewrite Z.eqb_refl, Bool.andb_false_r. unfold L, f_len. lia.
      - injection E as <- <-. rewrite H3. replace (0 <? a0) with true by lia.
        replace (i =? 0) with false by lia. cbn [andb negb]. lia. }
    destruct Ha as (Ha & Ha0 & HaL).
    destruct t as [|id' t'].
    - (* the last holder keeps the far end *)
      change (zlen [id]) with 1. replace (i =? i + 1 - 1) with true by (clear; lia).
      destruct (trim_dir r (i =? 0) true HG) as (new & r' & HT & N1 & N2 & N3).
      { rewrite Ha. cbn [negb]. rewrite Bool.andb_false_r. exact HaL. }
      rewrite HT. cbn [bind trim_all fst snd]. eexists _, _. split; [reflexivity|].
      cbn [negb] in N3. rewrite Bool.andb_false_r in N3. rewrite Ha in N2.
      apply chain_one. rewrite N1, N2, N3.
      split; [reflexivity|]. split; [reflexivity|]. clear - HaL Hwf. unfold L, f_len in *. lia.
    - (* an inner cut at the end of this holder's bait *)
      pose proof (Hcons 0%nat id id' eq_refl eq_refl) as Hc0.
      destruct (Hgeo id' (or_intror (or_introl eq_refl))) as (G1' & G2' & G3').
      rewrite !zlen_cons. pose proof (zlen_nonneg t') as Zt.
      replace (i =? i + (1 + (1 + zlen t')) - 1) with false by (clear - Zt; lia).
      assert (Hbv : (if (dV (o_bait r) <? L - 1) && negb false then dV (o_bait r) else L - 1) = dV (bt id)).
      { rewrite Hb. replace (dV (bt id) <? L - 1) with true by (clear - Hc0 G3'; lia). reflexivity. }
      destruct (trim_dir r (i =? 0) false HG) as (new & r' & HT & N1 & N2 & N3).
      { rewrite Ha, Hbv. apply Ha0. }
      rewrite HT. cbn [bind]. rewrite Ha in N2. rewrite Hbv in N3.
      replace (i + (1 + (1 + zlen t')) - 1) with ((i + 1) + zlen (id' :: t') - 1)
        by (rewrite zlen_cons; clear; lia).
      destruct (IH (put_ovr st id r') (i + 1) (dV (bt id) + 1)) as (st' & subs & HT' & Hch).
      + exact Hnd'.
      + exact Hpos'.
      + intros x Hx. destruct (Hok x (or_intror Hx)) as (rx & Hgx & Hbx & HGx).
        exists rx. split; [|split; assumption].
        rewrite get_put_other; [exact Hgx | exact Hid | | intros ->; contradiction].
        rewrite Forall_forall in Hpos'. apply Hpos'. exact Hx.
      + intros x Hx. apply Hgeo. right. exact Hx.
      + intros j x y Hx Hy. apply (Hcons (S j) x y); assumption.
      + discriminate.
      + clear - Hi. lia.
      + right. split; [clear - Hi; lia|]. split; [clear - G2; lia|].
        exists id', t'. split; [reflexivity | symmetry; exact Hc0].
      + rewrite HT'. cbn [bind fst snd]. eexists _, _. split; [reflexivity|].
        destruct subs as [|y ys]; [destruct Hch|].
        apply chain_more. split; [exact N1|]. split; [exact N2|]. split.
        * rewrite N3. clear - Ha0. lia.
        * rewrite N3, <- Z.add_assoc. exact Hch.
  Qed.
End Dir.

(* the sort in cut_fragments: [key] is fragment_start_if_trimmed of a holder, [u] / [v] the
   directed offsets dU / dV of its bait, [base] the contig's f_start *)
Lemma order_consecutive (ids : list Z) (key u v : Z -> Z) (base : Z) :
  NoDup ids ->
  (forall id, In id ids -> u id <= v id /\ 0 <= v id
                           /\ (key id = base + u id \/ (key id = base /\ u id <= 0))) ->
  (forall id id', In id ids -> In id' ids -> id <> id' -> v id < u id' \/ v id' < u id) ->
  (forall id id', In id ids -> In id' ids -> v id < u id' ->
                  exists id'', In id'' ids /\ u id'' = v id + 1) ->
  let ordered := map snd (sort_by_Z fst (map (fun id => (key id, id)) ids)) in
  Permutation ordered ids
  /\ (forall j id id', nth_error ordered j = Some id -> nth_error ordered (S j) = Some id' ->
                       v id + 1 = u id').
Proof.
  intros Hnd Hgeo Hdisj Habut ordered.
  set (keyed := map (fun id => (key id, id)) ids) in *.
  set (sorted := sort_by_Z fst keyed) in *.
  assert (Hperm : Permutation ordered ids).
  { unfold ordered, sorted, sort_by_Z.
    rewrite (Permutation_map snd (RemapTail.ssort_perm _ keyed)).
    unfold keyed. rewrite map_map. cbn [snd]. rewrite map_id. apply Permutation_refl. }
  split; [exact Hperm|].
  assert (Hnd' : NoDup ordered) by (eapply Permutation_NoDup; [apply Permutation_sym; exact Hperm | exact Hnd]).
  assert (Hin : forall id, In id ordered <-> In id ids).
  { intros id. split; intros H; [eapply Permutation_in; [exact Hperm | exact H]|].
    eapply Permutation_in; [apply Permutation_sym; exact Hperm | exact H]. }
  assert (Hss : StronglySorted (fun a b : Z * Z => (fst a <=? fst b) = true) sorted).
  { unfold sorted, sort_by_Z. apply (stable_sort_sorted (@fst Z Z) Z.leb); intros; lia. }
  assert (Hnth : forall j id, nth_error ordered j = Some id -> nth_error sorted j = Some (key id, id)).
  { intros j id Hj. unfold ordered in Hj. rewrite nth_error_map in Hj.
    destruct (nth_error sorted j) as [[kk id0]|] eqn:En; [|discriminate]. cbn [option_map snd] in Hj.
    injection Hj as ->. f_equal.
    assert (Hx : In (kk, id) keyed).
    { apply (In_stable_sort (fun x y : Z * Z => fst x <=? fst y)). eapply nth_error_In. exact En. }
    unfold keyed in Hx. apply in_map_iff in Hx. destruct Hx as (id1 & E & _).
    injection E as <- <-. reflexivity. }
  (* a smaller start means a smaller key *)
  assert (HA : forall id id', In id ids -> In id' ids -> id <> id' -> u id < u id' -> key id < key id').
  { intros id id' Hi Hi' Hne Hlt.
    destruct (Hgeo id Hi) as (A1 & A2 & A3). destruct (Hgeo id' Hi') as (B1 & B2 & B3).
    destruct (Hdisj id id' Hi Hi' Hne) as [D | D]; [|lia].
    destruct B3 as [B3 | (B3 & B4)]; [|lia]. destruct A3 as [A3 | (A3 & A4)]; lia. }
  (* along the order the starts increase *)
  assert (HB : forall j j' id id', (j < j')%nat -> nth_error ordered j = Some id ->
                nth_error ordered j' = Some id' -> u id < u id').
  { intros j j' id id' Hlt Hj Hj'.
    pose proof (SS_nth _ _ Hss j j' _ _ Hlt (Hnth _ _ Hj) (Hnth _ _ Hj')) as Hk. cbn [fst] in Hk.
    assert (Hi : In id ids) by (apply Hin; eapply nth_error_In; exact Hj).
    assert (Hi' : In id' ids) by (apply Hin; eapply nth_error_In; exact Hj').
    assert (Hne : id <> id').
    { intros ->. rewrite NoDup_nth_error in Hnd'.
      assert (j = j'); [|lia]. apply Hnd'; [apply nth_error_Some; congruence | congruence]. }
    destruct (Z.lt_trichotomy (u id) (u id')) as [T | [T | T]]; [exact T | |].
    - exfalso. destruct (Hgeo id Hi) as (A1 & _). destruct (Hgeo id' Hi') as (B1 & _).
      destruct (Hdisj id id' Hi Hi' Hne); lia.
    - exfalso. pose proof (HA id' id Hi' Hi (fun E => Hne (eq_sym E)) T). lia. }
  intros j id id' Hj Hj'.
  assert (Hi : In id ids) by (apply Hin; eapply nth_error_In; exact Hj).
  assert (Hi' : In id' ids) by (apply Hin; eapply nth_error_In; exact Hj').
  pose proof (HB j (S j) id id' ltac:(lia) Hj Hj') as Hlt.
  assert (Hne : id <> id') by (intros ->; lia).
  destruct (Hgeo id Hi) as (A1 & A2 & _). destruct (Hgeo id' Hi') as (B1 & B2 & _).
  assert (Hvu : v id < u id') by (destruct (Hdisj id id' Hi Hi' Hne); lia).
  destruct (Habut id id' Hi Hi' Hvu) as (id2 & Hi2 & Hu2).
  assert (Ho2 : In id2 ordered) by (apply Hin; exact Hi2).
  apply In_nth_error in Ho2. destruct Ho2 as (m & Hm).
  destruct (lt_eq_lt_dec m (S j)) as [[Lm | Em] | Gm].
  - exfalso. destruct (lt_eq_lt_dec m j) as [[Lm' | Em'] | Gm']; [| |lia].
    + pose proof (HB m j id2 id Lm' Hm Hj). lia.
    + subst m. rewrite Hj in Hm. injection Hm as <-. lia.
  - subst m. rewrite Hj' in Hm. injection Hm as <-. lia.
  - exfalso. pose proof (HB (S j) m id' id2 Gm Hj' Hm). lia.
Qed.

Inductive trimmed_from (f : frag) : ovr -> ovr -> Prop :=
  | tf_refl r : trimmed_from f r r
  | tf_step r r1 r' ks ke new :
      trim_fragment r f ks ke = Ok (new, r1) -> trimmed_from f r1 r' -> trimmed_from f r r'.

Lemma trimmed_from_pres f (P : ovr -> Prop) :
  (forall r ks ke new r', P r -> trim_fragment r f ks ke = Ok (new, r') -> P r') ->
  forall r r', trimmed_from f r r' -> P r -> P r'.
Proof.
  intros Hstep r r' H. induction H as [r | r r1 r' ks ke new HT _ IH]; intros HP; [exact HP|].
  apply IH. eapply Hstep; eassumption.
Qed.

Lemma trim_all_rel c f : forall ids st i last st' subs,
  Forall (fun a => 0 <= a) ids ->
  trim_all c st f ids i last = Ok (st', subs) ->
  forall id r, 0 <= id -> get_ovr st id = Ok r ->
    exists r', get_ovr st' id = Ok r' /\ trimmed_from f r r'.
Proof.
  induction ids as [|id0 ids IH]; intros st i last st' subs Hpos H id r Hid Hg; cbn [trim_all] in H.
  - injection H as <- _. exists r. split; [exact Hg | apply tf_refl].
  - inversion Hpos as [|? ? Hid0 Hpos']; subst.
    bind_inv H r0 Hr0. bind_inv H fr Hfr. destruct fr as [new r0']. bind_inv H rest Hrest.
    injection H as <- _. destruct rest as [st2 subs2]. cbn [fst].
    destruct (Z.eq_dec id0 id) as [-> | Hne].
    + rewrite Hr0 in Hg. injection Hg as <-.
      destruct (IH _ _ _ _ _ Hpos' Hrest id r0' Hid (get_put_same _ _ _ _ Hr0)) as (r' & Hg' & Ht).
      exists r'. split; [exact Hg'|]. eapply tf_step; eassumption.
    + apply (IH _ _ _ _ _ Hpos' Hrest id r Hid). rewrite get_put_other by assumption. exact Hg.
Qed.

Section CutStage.
  Variable inp : list (str * list row).
  Variable c : cfg.
  Hypothesis Hfix : fix_swap_keep c = true.
  Hypothesis Hids : NoDup (map f_id (in_frags inp)).
  Hypothesis Hidpos : Forall (fun f => 0 <= f_id f) (in_frags inp).
  Hypothesis Hwf : Forall (fun f => strand_ok (f_strand f) = true /\ f_start f <= f_end f) (in_frags inp).
  Variable bt : rid -> frag.

  Definition Ready (st : list ovr) (found : list (fkey * (frag * list rid))) (k : fkey) : Prop :=
    exists f ids lo hi,
      aget key_eqb found k = Some (f, ids)
      /\ key_of f = k /\ In f (in_frags inp)
      /\ hi = lo + f_len f - 1
      /\ NoDup ids /\ ids <> [] /\ Forall (fun a => 0 <= a) ids
      /\ (forall id, In id ids -> HolderOK f lo hi bt st id)
      /\ (forall id, In id ids -> f_start (bt id) <= f_end (bt id)
                                  /\ lo <= f_end (bt id) /\ f_start (bt id) <= hi)
      /\ (forall id id', In id ids -> In id' ids -> id <> id' ->
            f_end (bt id) < f_start (bt id') \/ f_end (bt id') < f_start (bt id))
      /\ (forall id id', In id ids -> In id' ids -> f_end (bt id) < f_start (bt id') ->
            exists id'', In id'' ids /\ f_start (bt id'') = f_end (bt id) + 1)
      /\ (forall id id', In id ids -> In id' ids -> f_end (bt id') < f_start (bt id) ->
            exists id'', In id'' ids /\ f_end (bt id'') + 1 = f_start (bt id)).

  Definition keyf (st : list ovr) (f : frag) (id : rid) : Z :=
    match get_ovr st id with
    | Ok r => match fragment_start_if_trimmed r f with Ok k => k | Err _ => 0 end
    | Err _ => 0
    end.

  Lemma keyed_eq st f lo hi : forall ids,
    (forall id, In id ids -> HolderOK f lo hi bt st id) ->
    mapM (fun id => do r <- get_ovr st id; do s0 <- fragment_start_if_trimmed r f; Ok (s0, id)) ids
    = Ok (map (fun id => (keyf st f id, id)) ids).
  Proof.
    induction ids as [|id ids IH]; intros H; cbn [mapM map]; [reflexivity|].
    destruct (H id (or_introl eq_refl)) as (r & Hg & _ & HG).
    destruct (fsit_geo f lo hi r HG) as (kk & Hk & _).
    rewrite Hg. cbn [bind]. rewrite Hk. cbn [bind]. rewrite IH by (intros x Hx; apply H; right; exact Hx).
    cbn [bind]. assert (E : keyf st f id = kk) by (unfold keyf; rewrite Hg, Hk; reflexivity).
    rewrite E. reflexivity.
  Qed.

  Lemma in_frags_facts f : In f (in_frags inp) ->
    0 <= f_id f /\ strand_ok (f_strand f) = true /\ f_start f <= f_end f.
  Proof.
    intros H. rewrite Forall_forall in Hidpos, Hwf. destruct (Hwf f H). split; [apply Hidpos; exact H|]. auto.
  Qed.

  Lemma cut_fragments_progress b k :
    Ready (b_store b) (b_found b) k ->
    exists b', cut_fragments c b k = Ok b'
      /\ b_found b' = b_found b /\ b_namer b' = b_namer b /\ b_multi b' = b_multi b
      /\ exists f, In f (in_frags inp) /\ key_of f = k
           /\ forall id r, 0 <= id -> get_ovr (b_store b) id = Ok r ->
                exists r', get_ovr (b_store b') id = Ok r' /\ trimmed_from f r r'.
  Proof.
    intros (f & ids & lo & hi & Hag & Hk & Hf & Hhi & Hnd & Hne & Hpos & Hok & Hb & Hdisj & Hnext & Hprev).
    destruct (in_frags_facts f Hf) as (Hf0 & Hso & Hfw).
    unfold cut_fragments. rewrite Hag. rewrite (keyed_eq _ f lo hi ids Hok). cbn [bind]. cbv zeta.
    set (ordered := map snd (sort_by_Z fst (map (fun id => (keyf (b_store b) f id, id)) ids))).
    set (u := fun id => dU f lo hi (bt id)). set (v := fun id => dV f lo hi (bt id)).
    assert (Q1 : forall id, In id ids -> u id <= v id /\ 0 <= v id
               /\ (keyf (b_store b) f id = f_start f + u id \/ (keyf (b_store b) f id = f_start f /\ u id <= 0))).
    { intros id Hi. destruct (Hb id Hi) as (B1 & B2 & B3).
      destruct (dir_valid f lo hi Hhi (bt id) B1 B2 B3) as (D1 & D2 & _).
      split; [exact D1|]. split; [exact D2|].
      destruct (Hok id Hi) as (r & Hg & Hbr & HG).
      destruct (fsit_dir c Hfix f lo hi Hso r HG) as (kk & Hkk & Hc). unfold keyf. rewrite Hg, Hkk.
      rewrite Hbr in Hc. exact Hc. }
    assert (Q2 : forall id id', In id ids -> In id' ids -> id <> id' -> v id < u id' \/ v id' < u id).
    { intros id id' Hi Hi' Hn. exact (dir_disjoint f lo hi _ _ (Hdisj id id' Hi Hi' Hn)). }
    assert (Q3 : forall id id', In id ids -> In id' ids -> v id < u id' ->
               exists id'', In id'' ids /\ u id'' = v id + 1).
    { intros id id' Hi Hi' Hlt. unfold u, v, dU, dV in *. destruct (f_strand f =? 1).
      + destruct (Hnext id id' Hi Hi' ltac:(clear - Hlt; lia)) as (id2 & Hi2 & E).
        exists id2. split; [exact Hi2 | clear - E; lia].
      + destruct (Hprev id id' Hi Hi' ltac:(clear - Hlt; lia)) as (id2 & Hi2 & E).
        exists id2. split; [exact Hi2 | clear - E; lia]. }
    assert (Hoc : Permutation ordered ids
                  /\ (forall j id id', nth_error ordered j = Some id -> nth_error ordered (S j) = Some id' ->
                                       v id + 1 = u id'))
      by exact (order_consecutive ids (keyf (b_store b) f) u v (f_start f) Hnd Q1 Q2 Q3).
    destruct Hoc as (Hperm & Hcons).
    assert (Hin : forall id, In id ordered -> In id ids).
    { intros id H. eapply Permutation_in; [exact Hperm | exact H]. }
    destruct (trim_all_chain c Hfix f lo hi Hhi Hso Hfw bt ordered (b_store b) 0 0) as (st' & subs & HT & Hch).
    + eapply Permutation_NoDup; [apply Permutation_sym; exact Hperm | exact Hnd].
    + eapply Permutation_Forall; [apply Permutation_sym; exact Hperm | exact Hpos].
    + intros id Hi. apply Hok. apply Hin. exact Hi.
    + intros id Hi. destruct (Hb id (Hin id Hi)) as (B1 & B2 & B3).
      exact (dir_valid f lo hi Hhi (bt id) B1 B2 B3).
    + exact Hcons.
    + intros E. apply Hne. pose proof (Permutation_length Hperm) as Hl.
      apply (f_equal (@length Z)) in E.
      assert (Hl2 : length ids = 0%nat) by (etransitivity; [symmetry; exact Hl | exact E]).
      destruct ids; [reflexivity | discriminate].
    + lia.
    + left. split; reflexivity.
    + replace (zlen ordered - 1) with (0 + zlen ordered - 1) by lia. rewrite HT. cbn [bind].
      rewrite Z.add_0_r in Hch. rewrite (qc_chain f subs Hch). cbn [bind].
      eexists. split; [reflexivity|]. cbn [b_found b_namer b_multi b_store].
      split; [reflexivity|]. split; [reflexivity|]. split; [reflexivity|].
      exists f. split; [exact Hf|]. split; [exact Hk|].
      intros id r Hid Hg. eapply trim_all_rel; [|exact HT|exact Hid|exact Hg].
      eapply Permutation_Forall; [apply Permutation_sym; exact Hperm | exact Hpos].
  Qed.

  Lemma Ready_pres st st' found k f :
    In f (in_frags inp) -> key_of f <> k ->
    (forall id r, 0 <= id -> get_ovr st id = Ok r ->
       exists r', get_ovr st' id = Ok r' /\ trimmed_from f r r') ->
    Ready st found k -> Ready st' found k.
  Proof.
    intros Hf Hk Hrel (f' & ids & lo & hi & Hag & Hk' & Hf' & Hhi & Hnd & Hne & Hpos & Hok & Hrest).
    exists f', ids, lo, hi. split; [exact Hag|]. split; [exact Hk'|]. split; [exact Hf'|].
    split; [exact Hhi|]. split; [exact Hnd|]. split; [exact Hne|]. split; [exact Hpos|].
    split; [|exact Hrest].
    intros id Hi. destruct (Hok id Hi) as (r & Hg & Hb & HG).
    assert (Hid : 0 <= id) by (rewrite Forall_forall in Hpos; apply Hpos; exact Hi).
    destruct (Hrel id r Hid Hg) as (r' & Hg' & Ht). exists r'. split; [exact Hg'|].
    assert (Hneq : f_id f <> f_id f').
    { intros E. apply Hk. rewrite <- Hk'. f_equal.
      eapply (NoDup_map_inj f_id); [exact Hids | exact Hf | exact Hf' | exact E]. }
    destruct (in_frags_facts f' Hf') as (Hf0 & _).
    apply (trimmed_from_pres f (fun x => o_bait x = bt id /\ Geo f' lo hi x)) with (r := r);
      [|exact Ht|split; assumption].
    intros x ks ke new x' (X1 & X2) HT. split.
    - destruct (trim_fragment_spec _ _ _ _ _ _ HT) as (x0 & xl & ds & de & _ & _ & _ & _ & _ & _ & _ & _ & _ & ->).
      exact X1.
    - eapply Geo_tf_other; [exact Hneq | exact Hf0 | exact X2 | exact HT].
  Qed.

  Lemma cut_fold_progress : forall todo b,
    NoDup todo -> (forall k, In k todo -> Ready (b_store b) (b_found b) k) ->
    exists b', foldM (cut_fragments c) todo b = Ok b' /\ b_namer b' = b_namer b.
  Proof.
    induction todo as [|k todo IH]; intros b Hnd Hr; cbn [foldM]; [eauto|].
    inversion Hnd as [|? ? Hnk Hnd']; subst.
    destruct (cut_fragments_progress b k (Hr k (or_introl eq_refl)))
      as (b1 & H1 & Ef & En & _ & f & Hf & Hk & Hrel).
    rewrite H1. cbn [bind].
    destruct (IH b1 Hnd') as (b' & H' & En').
    - intros k' Hk'. rewrite Ef. apply (Ready_pres (b_store b) _ _ k' f Hf); [|exact Hrel|].
      + rewrite Hk. intros ->. contradiction.
      + apply Hr. right. exact Hk'.
    - exists b'. split; [exact H' | congruence].
  Qed.

  Lemma cut_remaining_progress b :
    NoDup (b_multi b) -> (forall k, In k (b_multi b) -> Ready (b_store b) (b_found b) k) ->
    exists b', cut_remaining_overhangs c b = Ok b' /\ b_namer b' = b_namer b.
  Proof.
    intros Hnd Hr. unfold cut_remaining_overhangs.
    destruct (cut_fold_progress _ b Hnd Hr) as (b' & H & En). rewrite H. cbn [bind].
    eexists. split; [reflexivity|]. cbn [b_namer]. exact En.
  Qed.
End CutStage.

Section Ready.
  Variable inp : list (str * list row).
  Variable err : Z.
  Variable all : list frag.
  Hypothesis Hids : NoDup (map f_id (in_frags inp)).
  Hypothesis Hnames : NoDup (map fst inp).
  Hypothesis Hposr : forall name src, In (name, src) inp -> pos_rows src.
  Hypothesis Herr : 1 <= err.
  Hypothesis Hall : Forall (fun b => 1 <= f_start b <= f_end b) all.
  Hypothesis Hdisj : ForallOrdPairs Rdisj all.
  Hypothesis Hbig : forall b, In b all -> 1 < f_start b -> err <= f_len b.
  Hypothesis Hnext : forall b b', In b all -> In b' all -> f_name b = f_name b' ->
    f_end b < f_start b' -> exists t, In t all /\ f_name t = f_name b /\ f_start t = f_end b + 1.
  Hypothesis Hprev : forall b b', In b all -> In b' all -> f_name b = f_name b' ->
    f_end b' < f_start b -> exists t, In t all /\ f_name t = f_name b /\ f_end t + 1 = f_start b.

  (* a bait strictly inside the span of contig f: its result is the single row f *)
  Definition KIn (r : ovr) : Prop :=
    forall src a0 f c0, In (f_name (o_bait r), src) inp -> src = a0 ++ RF f :: c0 ->
      rows_len a0 + 1 < f_start (o_bait r) -> f_end (o_bait r) < rows_len a0 + f_len f ->
      o_rows r = [RF f] /\ o_start r = rows_len a0 + 1 /\ o_end r = rows_len a0 + f_len f.

  Lemma KIn_ext r r' :
    o_bait r' = o_bait r -> o_rows r' = o_rows r -> o_start r' = o_start r -> o_end r' = o_end r ->
    KIn r -> KIn r'.
  Proof. intros E0 E1 E2 E3 H. unfold KIn. rewrite E0, E1, E2, E3. exact H. Qed.

  Lemma bait_ok b : In b all -> 1 <= f_start b <= f_end b.
  Proof. intros H. rewrite Forall_forall in Hall. apply Hall. exact H. Qed.

  Lemma prefix_nonneg name src a0 x c0 : In (name, src) inp -> src = a0 ++ x :: c0 -> 0 <= rows_len a0.
  Proof.
    intros Hin E. pose proof (Hposr _ _ Hin) as Hp. rewrite E in Hp.
    apply pos_rows_app in Hp. destruct Hp as [Hp _]. apply pos_rows_len_nonneg. exact Hp.
  Qed.

  Lemma KIn_init bait rows fo :
    In bait all -> In (f_name bait, rows) inp ->
    lookup_spec rows (f_start bait) (f_end bait) (Some fo) -> KIn (ovr_of_found bait fo).
  Proof.
    intros Hb Hin Hspec src a0 f c0 Hsrc E H1 H2. cbn [ovr_of_found o_bait] in Hsrc, H1, H2.
    pose proof (NoDup_fst_inj inp _ _ _ Hnames Hsrc Hin) as ->.
    pose proof (Hposr _ _ Hin) as Hp. pose proof (bait_ok _ Hb) as V.
    pose proof (src_nodup_g f_id inp _ _ Hids Hin) as Hnd.
    (* the run ends with f and begins with f *)
    destruct (lookup_ends_f rows bait fo a0 f c0 Hp Hnd E ltac:(lia) ltac:(lia) Hspec)
      as (Ee & [(Er & Es) | (g & t' & Er & Hne)]); [split; [exact Er | split; assumption]|].
    exfalso.
    destruct (lookup_starts_f rows bait fo a0 f c0 Hp Hnd E ltac:(lia) ltac:(lia) Hspec)
      as (_ & [(Er' & _) | (t2 & g2 & Er' & _)]); rewrite Er in Er'.
    - destruct t'; discriminate.
    - injection Er' as Eg _. apply Hne. rewrite Eg. reflexivity.
  Qed.

  (* stated in the shape CoreKeptHeld's K machinery asks for (its K_ds, K_de), hence the
     unused source and GoodU premises; 1 <= err enters through lia *)
  Lemma KIn_ds src r r' :
    In (o_bait r) all -> In (f_name (o_bait r), src) inp -> GoodU err src r -> KIn r ->
    just_start err r -> discard_start r = Ok r' -> KIn r'.
  Proof.
    intros Hb Hin HG HK Hj Hd src' a0 f c0 Hs' E H1 H2.
    destruct (discard_start_bait _ _ Hd) as [B _]. rewrite B in *.
    destruct (HK src' a0 f c0 Hs' E H1 H2) as (Er & Es & Ee).
    pose proof (prefix_nonneg _ _ _ _ _ Hs' E) as Hnn. pose proof (bait_ok _ Hb) as V.
    exfalso. destruct Hj as [(ov & Hov & Hlt) | (Hz & _)].
    - pose proof (start_row_bait_overlap_spec r (RF f) ov (first_row_cons _ _ _ Er) Hov) as Eo.
      cbn [row_len] in Eo. pose proof (Hbig _ Hb ltac:(lia)) as Hbg. unfold f_len in *. lia.
    - apply Hz. rewrite Er. reflexivity.
  Qed.

  Lemma KIn_de src r r' :
    In (o_bait r) all -> In (f_name (o_bait r), src) inp -> GoodU err src r -> KIn r ->
    just_end err r -> discard_end r = Ok r' -> KIn r'.
  Proof.
    intros Hb Hin HG HK Hj Hd src' a0 f c0 Hs' E H1 H2.
    destruct (discard_end_bait _ _ Hd) as [B _]. rewrite B in *.
    destruct (HK src' a0 f c0 Hs' E H1 H2) as (Er & Es & Ee).
    pose proof (prefix_nonneg _ _ _ _ _ Hs' E) as Hnn. pose proof (bait_ok _ Hb) as V.
    exfalso. destruct Hj as [(ov & Hov & Hlt) | (Hz & _)].
    - pose proof (end_row_bait_overlap_spec r (RF f) ov (last_row_snoc r [] _ Er) Hov) as Eo.
      cbn [row_len] in Eo. pose proof (Hbig _ Hb ltac:(lia)) as Hbg. unfold f_len in *. lia.
    - apply Hz. rewrite Er. reflexivity.
  Qed.

  Section Holder.
    Variables (name : str) (src a0 c0 : list row) (f : frag).
    Hypothesis Hsrc : In (name, src) inp.
    Hypothesis Esrc : src = a0 ++ RF f :: c0.
    Let lo := rows_len a0 + 1.
    Let hi := rows_len a0 + f_len f.

    Lemma src_ids : NoDup (map f_id (frags_of src)).
    Proof. exact (src_nodup_g f_id inp name src Hids Hsrc). Qed.

    Lemma holder_pos r a c' :
      GoodU err src r -> o_rows r = a ++ RF f :: c' ->
      o_start r + rows_len a = lo
      /\ lo <= f_end (o_bait r) /\ f_start (o_bait r) <= hi.
    Proof.
      intros HG Er. destruct (good_row err src r a f c' HG Er) as [P [M1 M2]].
      assert (P0 : at_pos src f lo) by (exists a0, c0; split; [exact Esrc | reflexivity]).
      pose proof (at_pos_unique src f _ _ src_ids P P0) as E. unfold hi. lia.
    Qed.

    Lemma rows_mid_nonneg r a m c' : GoodU err src r -> o_rows r = a ++ m ++ c' -> 0 <= rows_len m.
    Proof.
      intros HG Er. pose proof (GoodU_rows_pos _ _ _ (Hposr _ _ Hsrc) HG) as Hp. rewrite Er in Hp.
      apply pos_rows_app in Hp. destruct Hp as [_ Hp]. apply pos_rows_app in Hp. destruct Hp as [Hp _].
      apply pos_rows_len_nonneg. exact Hp.
    Qed.

    Lemma ids_apart a c' g : NoDup (map f_id (frags_of (a ++ RF f :: c'))) -> In (RF g) (a ++ c') ->
      row_is (RF g) f = false.
    Proof.
      intros H Hin. cbn [row_is]. apply Z.eqb_neq. intros E.
      rewrite frags_of_app, frags_of_RF, map_app in H. cbn [map] in H.
      apply NoDup_remove_2 in H. apply H. rewrite <- E, <- map_app, <- frags_of_app.
      apply in_map. apply In_frags_of_iff. exact Hin.
    Qed.

    (* with another holder on a disjoint bait, f sits at an end: a row before f
       means the bait starts before f, a row after f that it ends beyond f, and
       a bait doing both would meet the other holder's *)
    Lemma holder_geo r s2 e2 :
      GoodU err src r -> In (RF f) (o_rows r) ->
      lo <= e2 -> s2 <= hi ->
      (f_end (o_bait r) < s2 \/ e2 < f_start (o_bait r)) ->
      Geo f lo hi r.
    Proof.
      intros HG Hin M1 M2 Hd. apply in_split in Hin. destruct Hin as (a & c' & Er).
      destruct (holder_pos r a c' HG Er) as (Hpos & B1 & B2).
      pose proof (GoodU_rows_nodup f_id _ _ _ src_ids HG) as Hnd. rewrite Er in Hnd.
      assert (Hne : o_rows r <> []) by (rewrite Er; destruct a; discriminate).
      assert (Hbefore : forall x0 a', a = x0 :: a' -> row_is x0 f = false /\ f_start (o_bait r) < lo).
      { intros x0 a' ->. destruct (GoodU_nonempty_head _ _ _ HG Hne) as (g0 & t0 & Eh).
        rewrite Er in Eh. cbn [app] in Eh. injection Eh as -> _.
        split; [apply (ids_apart _ _ _ Hnd); left; reflexivity|].
        destruct (good_row err src r [] g0 (a' ++ RF f :: c') HG Er) as [_ [_ N2]].
        pose proof (rows_mid_nonneg r [RF g0] a' (RF f :: c') HG Er) as Na.
        rewrite rows_len_nil in N2. rewrite rows_len_cons in Hpos. cbn [row_len] in Hpos. lia. }
      assert (Hafter : forall t x, c' = t ++ [x] -> row_is x f = false /\ hi < f_end (o_bait r)).
      { intros t x ->. destruct (GoodU_nonempty_last _ _ _ HG Hne) as (g1 & t1 & El).
        rewrite Er, app_comm_cons, app_assoc in El. apply app_inj_tail in El. destruct El as [_ ->].
        split; [apply (ids_apart _ _ _ Hnd); apply in_or_app; right; apply in_or_app; right; left; reflexivity|].
        destruct (good_row err src r (a ++ RF f :: t) g1 [] HG) as [_ [N1 _]].
        { rewrite Er, <- app_assoc. reflexivity. }
        pose proof (rows_mid_nonneg r (a ++ [RF f]) t [RF g1] HG) as Nt.
        rewrite <- app_assoc in Nt. specialize (Nt Er).
        rewrite rows_len_app, rows_len_cons in N1. cbn [row_len] in N1. unfold hi. lia. }
      destruct a as [|x0 a']; destruct (list_snoc_cases c') as [-> | (t & x & ->)].
      - left. rewrite rows_len_nil in Hpos. split; [exact Er|]. split; [lia|].
        pose proof (good_end err src r [] f HG Er) as Ee. rewrite rows_len_nil in Ee. unfold hi. lia.
      - right. left. exists t, x. destruct (Hafter t x eq_refl) as (X1 & X2).
        rewrite rows_len_nil in Hpos. split; [exact Er|]. split; [exact X1|]. split; lia.
      - right. right. exists x0, a'. destruct (Hbefore x0 a' eq_refl) as (X1 & X2).
        split; [exact Er|]. split; [exact X1|]. split; [|lia].
        pose proof (good_end err src r (x0 :: a') f HG Er) as Ee. unfold hi. lia.
      - exfalso. destruct (Hbefore x0 a' eq_refl) as (_ & X1). destruct (Hafter t x eq_refl) as (_ & X2). lia.
    Qed.
  End Holder.

  (* the bait of result id; the default is never reached where [Ready] holds: every listed id has a result *)
  Definition dummy_frag : frag := mkFrag 0 [] 0 0 0 [].
  Definition bt_of (st : list ovr) (id : rid) : frag :=
    match get_ovr st id with Ok r => o_bait r | Err _ => dummy_frag end.

  Lemma bt_of_get st id r : get_ovr st id = Ok r -> bt_of st id = o_bait r.
  Proof. intros H. unfold bt_of. rewrite H. reflexivity. Qed.

  Lemma all_disj a b : In a all -> In b all -> a <> b -> Rdisj a b.
  Proof.
    intros Ha Hb Hne.
    apply In_nth_error in Ha. destruct Ha as (i & Hi). apply In_nth_error in Hb. destruct Hb as (j & Hj).
    eapply (FOP_Rdisj_nth all i j); [exact Hdisj | | exact Hi | exact Hj]. intros ->. congruence.
  Qed.

  Lemma holders_same_src (f : frag) (r r' : ovr) src src' :
    In (f_name (o_bait r), src) inp -> In (RF f) src ->
    In (f_name (o_bait r'), src') inp -> In (RF f) src' ->
    f_name (o_bait r') = f_name (o_bait r) /\ src' = src.
  Proof.
    intros H1 H2 H3 H4. pose proof (same_src inp Hids _ _ _ _ f H3 H1 H4 H2) as E.
    injection E as E1 E2. split; assumption.
  Qed.

  Section State.
    Variable b : bstate.
    Hypothesis HI : Inv inp b.
    Hypothesis HS : SG inp err all (b_store b).
    Hypothesis HF : ForallOrdPairs Rdisj (map o_bait (b_store b)).
    Hypothesis Hndi : NDI (b_found b).
    Hypothesis HL : Lst (b_store b) (b_found b).
    Hypothesis HH : Held (b_store b) (b_found b).
    Hypothesis HK : KS (KIn) (b_store b).
    Hypothesis Htrk : forall bait, In bait all -> must inp bait -> In bait (map o_bait (b_store b)).

    Lemma holder_facts k f ids id :
      aget key_eqb (b_found b) k = Some (f, ids) -> In id ids ->
      0 <= id /\ exists r src, get_ovr (b_store b) id = Ok r /\ In (RF f) (o_rows r)
        /\ In (o_bait r) all /\ In (f_name (o_bait r), src) inp /\ GoodU err src r
        /\ In (RF f) src.
    Proof.
      intros Ha Hi. destruct (Inv_entry inp b k f ids HI Ha) as (_ & _ & _ & Kpos & _).
      split; [rewrite Forall_forall in Kpos; apply Kpos; exact Hi|].
      destruct (HL k f ids id Ha Hi) as (r & Hg & Hin).
      destruct (HS r (get_ovr_In _ _ _ Hg)) as (Hb & src & Hsrc & HG).
      exists r, src. repeat (split; [assumption|]).
      pose proof Hin as Hin'. apply in_split in Hin'. destruct Hin' as (a & c' & Er).
      destruct (good_row err src r a f c' HG Er) as [P _]. eapply at_pos_In. exact P.
    Qed.

    Lemma ready_at_cut k : In k (b_multi b) -> Ready inp (bt_of (b_store b)) (b_store b) (b_found b) k.
    Proof.
      intros Hk. pose proof HI as (_ & _ & (_ & _ & _ & F4) & _).
      destruct (aget key_eqb (b_found b) k) as [[f ids]|] eqn:Ha.
      2:{ exfalso. apply (aget_None key_eqb key_eqb_eq) in Ha. apply Ha. apply F4. exact Hk. }
      destruct (Inv_entry inp b k f ids HI Ha) as (K1 & K2 & K3 & Kpos & K5).
      apply K5 in Hk.
      assert (Hnd : NoDup ids).
      { apply (aget_In key_eqb key_eqb_eq) in Ha. unfold NDI in Hndi. rewrite Forall_forall in Hndi.
        apply (Hndi _ Ha). }
      destruct ids as [|id1 [|id2 ids']]; [cbn in Hk; lia | cbn in Hk; lia|].
      set (ids := id1 :: id2 :: ids') in *.
      destruct (holder_facts k f ids id1 Ha (or_introl eq_refl))
        as (P1 & r1 & src & G1 & In1 & B1 & S1 & GU1 & Fs1).
      pose proof Fs1 as Fs1'. apply in_split in Fs1'. destruct Fs1' as (a0 & c0 & Esrc).
      set (name := f_name (o_bait r1)) in *.
      set (lo := rows_len a0 + 1). set (hi := rows_len a0 + f_len f).
      set (B := bt_of (b_store b)).
      (* every holder lives on the same scaffold, and its bait meets the contig *)
      assert (Hall_h : forall id, In id ids ->
                exists r, get_ovr (b_store b) id = Ok r /\ B id = o_bait r /\ In (RF f) (o_rows r)
                  /\ GoodU err src r /\ In (B id) all /\ f_name (B id) = name
                  /\ lo <= f_end (B id) /\ f_start (B id) <= hi).
      { intros id Hi. destruct (holder_facts k f ids id Ha Hi) as (P & r & src' & G & In' & Bi & S' & GU & Fs).
        exists r. split; [exact G|]. unfold B. rewrite (bt_of_get _ _ _ G). split; [reflexivity|].
        destruct (holders_same_src f r1 r src src' S1 Fs1 S' Fs) as (En & Es). subst src'.
        repeat (split; [assumption|]).
        pose proof In' as In''. apply in_split in In''. destruct In'' as (a & c' & Er).
        destruct (holder_pos name src a0 c0 f S1 Esrc r a c' GU Er) as (_ & M1 & M2).
        split; assumption. }
      assert (Hdis : forall id id', In id ids -> In id' ids -> id <> id' ->
                f_end (B id) < f_start (B id') \/ f_end (B id') < f_start (B id)).
      { intros id id' Hi Hi' Hne.
        destruct (Hall_h id Hi) as (r & G & E & _ & _ & _ & N & _).
        destruct (Hall_h id' Hi') as (r' & G' & E' & _ & _ & _ & N' & _).
        rewrite Forall_forall in Kpos. pose proof (Kpos id Hi). pose proof (Kpos id' Hi').
        assert (Hd : Rdisj (B id) (B id')).
        { rewrite E, E'. eapply (FOP_Rdisj_nth _ (Z.to_nat id) (Z.to_nat id')); [exact HF | lia | |].
          - apply get_ovr_nth_map. exact G.
          - apply get_ovr_nth_map. exact G'. }
        apply Hd. congruence. }
      (* a tile strictly inside the contig is a holder's bait *)
      assert (Hinside : forall t, In t all -> f_name t = name -> lo < f_start t -> f_end t < hi ->
                exists id, In id ids /\ B id = t).
      { intros t Ht Hn H1 H2. pose proof (bait_ok t Ht) as Vt.
        assert (Hm : must inp t).
        { exists src, (length a0). rewrite Hn. split; [exact S1|].
          destruct (split_span _ _ _ _ Esrc) as (X1 & X2 & X3). cbn [row_len] in X3.
          split; [exists f; exact X1|]. unfold meets. unfold lo, hi in *. lia. }
        pose proof (Htrk t Ht Hm) as Hs. apply in_map_iff in Hs. destruct Hs as (rt & Ert & Hrt).
        apply In_nth_error in Hrt. destruct Hrt as (n & Hrt).
        assert (Grt : get_ovr (b_store b) (Z.of_nat n) = Ok rt)
          by (unfold get_ovr; rewrite Nat2Z.id, Hrt; reflexivity).
        pose proof (HK rt (nth_error_In _ _ Hrt)) as Kt.
        destruct (Kt src a0 f c0) as (Er & _).
        - rewrite Ert, Hn. exact S1.
        - exact Esrc.
        - rewrite Ert. exact H1.
        - rewrite Ert. exact H2.
        - destruct (HH (Z.of_nat n) rt f ltac:(lia) Grt) as (f0 & ids0 & Ha0 & Hi0).
          { rewrite Er. left. reflexivity. }
          rewrite K1, Ha in Ha0. injection Ha0 as <- <-.
          exists (Z.of_nat n). split; [exact Hi0|]. unfold B. rewrite (bt_of_get _ _ _ Grt). exact Ert. }
      exists f, ids, lo, hi.
      split; [exact Ha|]. split; [exact K1|]. split; [exact K2|]. split; [unfold lo, hi; lia|].
      split; [exact Hnd|]. split; [discriminate|]. split; [exact Kpos|].
      split; [|split; [|split; [exact Hdis|split]]].
      - (* each holder has f at an end: there is another holder, on a disjoint bait *)
        intros id Hi. destruct (Hall_h id Hi) as (r & G & E & Inr & GU & _).
        exists r. split; [exact G|]. split; [symmetry; exact E|].
        assert (Hother : exists id', In id' ids /\ id' <> id).
        { destruct (Z.eq_dec id id1) as [-> | Hne].
          - exists id2. split; [right; left; reflexivity|]. intros E2. subst id2.
            inversion Hnd as [|? ? Hn _]; subst. apply Hn. left. reflexivity.
          - exists id1. split; [left; reflexivity|]. intros E1. apply Hne. symmetry. exact E1. }
        destruct Hother as (id' & Hi' & Hne).
        destruct (Hall_h id' Hi') as (_ & _ & _ & _ & _ & _ & _ & M1' & M2').
        apply (holder_geo name src a0 c0 f S1 Esrc r (f_start (B id')) (f_end (B id')));
          [exact GU | exact Inr | exact M1' | exact M2'|].
        rewrite <- E. exact (Hdis id id' Hi Hi' (fun E0 => Hne (eq_sym E0))).
      - intros id Hi. destruct (Hall_h id Hi) as (_ & _ & _ & _ & _ & Bi & _ & M1 & M2).
        pose proof (bait_ok _ Bi). split; [lia|]. split; assumption.
      - (* a holder further right: the tile abutting on the right is a holder's bait *)
        intros id id' Hi Hi' Hlt.
        destruct (Hall_h id Hi) as (_ & _ & _ & _ & _ & Bi & N & M1 & M2).
        destruct (Hall_h id' Hi') as (_ & _ & _ & _ & _ & Bi' & N' & M1' & M2').
        destruct (Hnext _ _ Bi Bi' ltac:(congruence) Hlt) as (t & Ht & Hnt & Hst).
        pose proof (bait_ok _ Bi') as V'. pose proof (bait_ok _ Ht) as Vt.
        destruct (Z.eq_dec (f_start (B id')) (f_end (B id) + 1)) as [Et | Net];
          [exists id'; split; assumption|].
        assert (Net' : t <> B id') by (intros E; apply Net; rewrite <- E; exact Hst).
        pose proof (all_disj t (B id') Ht Bi' Net' ltac:(congruence)) as Hd.
        destruct (Hinside t Ht ltac:(congruence) ltac:(unfold lo; lia) ltac:(unfold hi; lia))
          as (id3 & Hi3 & E3).
        exists id3. split; [exact Hi3 | rewrite E3; exact Hst].
      - intros id id' Hi Hi' Hlt.
        destruct (Hall_h id Hi) as (_ & _ & _ & _ & _ & Bi & N & M1 & M2).
        destruct (Hall_h id' Hi') as (_ & _ & _ & _ & _ & Bi' & N' & M1' & M2').
        destruct (Hprev _ _ Bi Bi' ltac:(congruence) Hlt) as (t & Ht & Hnt & Hst).
        pose proof (bait_ok _ Bi') as V'. pose proof (bait_ok _ Ht) as Vt. pose proof (bait_ok _ Bi) as V.
        destruct (Z.eq_dec (f_end (B id') + 1) (f_start (B id))) as [Et | Net];
          [exists id'; split; assumption|].
        assert (Net' : t <> B id') by (intros E; apply Net; rewrite <- E; exact Hst).
        pose proof (all_disj t (B id') Ht Bi' Net' ltac:(congruence)) as Hd.
        destruct (Hinside t Ht ltac:(congruence) ltac:(unfold lo; lia) ltac:(unfold hi; lia))
          as (id3 & Hi3 & E3).
        exists id3. split; [exact Hi3 | rewrite E3; exact Hst].
    Qed.
  End State.
End Ready.

Print Assumptions qc_chain.
Print Assumptions cut_remaining_progress.
Print Assumptions ready_at_cut.
