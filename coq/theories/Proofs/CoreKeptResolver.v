(* C02 core clause: the overhang resolver (discard_loop) preserves
   [GoodU] for every stored result.  The only delicate case is the
   two-premise special case of fix_one, where the dropped terminal row is
   known to be held by a second result with a disjoint bait. *)
From Tola Require Import Py.Base Py.Sort Model.Fragment Model.Scaffold Model.Lookup
  Model.OverlapResult Model.OvrSpec Model.Namer Model.Remap Model.RemapSpec
  Proofs.BaseLemmas Proofs.Rows Proofs.Lookup Proofs.OverlapResult Proofs.RemapHead Proofs.PipelineInv
  Proofs.CoreKeptGood.
From Coq Require Import Lia ZifyBool.

(* two baits on the same scaffold do not overlap *)
Definition Rdisj (a b : frag) : Prop :=
  f_name a = f_name b -> f_end a < f_start b \/ f_end b < f_start a.

Lemma Rdisj_sym a b : Rdisj a b -> Rdisj b a.
Proof. unfold Rdisj. intros H E. symmetry in E. apply H in E. tauto. Qed.

Lemma FOP_nth {A} (R : A -> A -> Prop) l : ForallOrdPairs R l ->
  forall i j a b, (i < j)%nat -> nth_error l i = Some a -> nth_error l j = Some b -> R a b.
Proof.
  induction 1 as [|x l Hx Hl IH]; intros i j a b Hij Hi Hj.
  - destruct i; discriminate.
  - destruct j as [|j]; [lia|]. cbn [nth_error] in Hj. destruct i as [|i]; cbn [nth_error] in Hi.
    + injection Hi as <-. rewrite Forall_forall in Hx. apply Hx. eapply nth_error_In; exact Hj.
    + eapply IH; [|exact Hi|exact Hj]. lia.
Qed.

Lemma FOP_Rdisj_nth l i j a b : ForallOrdPairs Rdisj l -> i <> j ->
  nth_error l i = Some a -> nth_error l j = Some b -> Rdisj a b.
Proof.
  intros H Hne Hi Hj. destruct (lt_dec i j) as [L|L].
  - eapply FOP_nth; eassumption.
  - apply Rdisj_sym. eapply (FOP_nth Rdisj l H j i); [lia | exact Hj | exact Hi].
Qed.

(* a fragment (as an object) sits in one input scaffold only *)
Lemma same_src : forall inp, NoDup (map f_id (in_frags inp)) -> forall n1 s1 n2 s2 f,
  In (n1, s1) inp -> In (n2, s2) inp -> In (RF f) s1 -> In (RF f) s2 -> (n1, s1) = (n2, s2).
Proof.
  induction inp as [|e inp IH]; intros Hnd n1 s1 n2 s2 f H1 H2 F1 F2; [destruct H1|].
  change (in_frags (e :: inp)) with (frags_of (snd e) ++ in_frags inp) in Hnd.
  rewrite map_app in Hnd.
  assert (Hx : forall n s0, In (n, s0) inp -> In (RF f) s0 -> In (RF f) (snd e) -> False).
  { intros n s0 Hin Hf He. apply (proj2 (proj2 (NoDup_app_inv _ _ Hnd)) (f_id f)).
    - apply in_map. apply In_frags_of_iff. exact He.
    - apply in_map. unfold in_frags. apply in_flat_map. exists (n, s0). split; [exact Hin|].
      cbn [snd]. apply In_frags_of_iff. exact Hf. }
  destruct H1 as [E1 | H1], H2 as [E2 | H2].
  - congruence.
  - exfalso. subst e. eapply Hx; [exact H2 | exact F2 | exact F1].
  - exfalso. subst e. eapply Hx; [exact H1 | exact F1 | exact F2].
  - eapply IH; [apply NoDup_app_r in Hnd; exact Hnd | eassumption ..].
Qed.

Lemma src_nodup_g {B} (g : frag -> B) inp name src :
  NoDup (map g (in_frags inp)) -> In (name, src) inp -> NoDup (map g (frags_of src)).
Proof.
  intros Hnd Hsrc. apply in_split in Hsrc. destruct Hsrc as (l1 & l2 & E).
  unfold in_frags in Hnd. rewrite E, flat_map_app in Hnd. cbn [flat_map snd] in Hnd.
  rewrite !map_app in Hnd. apply NoDup_app_r in Hnd. apply NoDup_app_l in Hnd. exact Hnd.
Qed.

Lemma get_ovr_nth_map {B} (g : ovr -> B) st id r :
  get_ovr st id = Ok r -> nth_error (map g st) (Z.to_nat id) = Some (g r).
Proof.
  unfold get_ovr. rewrite nth_error_map.
  destruct (nth_error st (Z.to_nat id)); [|discriminate]. intros H. injection H as ->. reflexivity.
Qed.

Lemma put_ovr_map {B} (g : ovr -> B) st id r r' :
  get_ovr st id = Ok r -> g r' = g r -> map g (put_ovr st id r') = map g st.
Proof.
  intros Hg E. unfold put_ovr. apply map_set_nth_same. rewrite E. apply get_ovr_nth_map. exact Hg.
Qed.

Definition fix_why (err : Z) (st : list ovr) (pl : list premise) (p : premise) : Prop :=
  p_improves st err p = Ok true
  \/ exists q v, (pl = [p; q] \/ pl = [q; p]) /\ p_bait_overlap st p = Ok v /\ v < err.

Definition fix_outcome' (err : Z) (st : list ovr) (pl : list premise) (st' : list ovr)
           (fx : option premise) : Prop :=
  (fx = None /\ st' = st)
  \/ (exists p, fx = Some p /\ In p pl /\ p_apply st p = Ok st' /\ fix_why err st pl p).

Lemma fix_general_cases' err st pl st' fx :
  fix_general err st pl = Ok (st', fx) ->
  (fx = None /\ st' = st)
  \/ (exists p, fx = Some p /\ In p pl /\ p_apply st p = Ok st' /\ p_improves st err p = Ok true).
Proof.
  unfold fix_general. intros H.
  assert (Hno : forall (X : res (list ovr * option premise)), X = Ok (st, None) -> X = Ok (st', fx) ->
     (fx = None /\ st' = st)
     \/ (exists p, fx = Some p /\ In p pl /\ p_apply st p = Ok st' /\ p_improves st err p = Ok true)).
  { intros X -> E. injection E as <- <-. left. auto. }
  destruct pl as [|p1 [|p2 t]]; try (eapply Hno; [reflexivity | exact H]).
  set (pl := p1 :: p2 :: t) in *.
  bind_inv H ds Hds.
  destruct (sort_by_Z fst ds) as [|[d1 bst] [|[d2 nxt] rest]] eqn:Es;
    try (eapply Hno; [reflexivity | exact H]).
  bind_inv H i Hi. destruct i; [|eapply Hno; [reflexivity | exact H]].
  bind_inv H j Hj. destruct j; cbn [negb] in H; [eapply Hno; [reflexivity | exact H]|].
  bind_inv H st1 Hst1. injection H as <- <-. right. exists bst. split; [reflexivity|].
  split; [|split; [exact Hst1 | exact Hi]].
  assert (Hin : In (d1, bst) (sort_by_Z fst ds)) by (rewrite Es; left; reflexivity).
  unfold sort_by_Z in Hin. apply In_stable_sort in Hin.
  destruct (mapM_In _ _ _ Hds _ Hin) as (p0 & Hp0 & Hf). bind_inv Hf d0 Hd0. injection Hf as _ <-. exact Hp0.
Qed.

Lemma fix_one_cases' err st pl st' fx :
  fix_one err st pl = Ok (st', fx) -> fix_outcome' err st pl st' fx.
Proof.
  rewrite fix_one_unfold. intros H.
  assert (Hgen : fix_general err st pl = Ok (st', fx) -> fix_outcome' err st pl st' fx).
  { intros Hg. apply fix_general_cases' in Hg.
    destruct Hg as [Hg | (p & E & Hin & Ha & Hi)]; [left; exact Hg|].
    right. exists p. split; [exact E|]. split; [exact Hin|]. split; [exact Ha|]. left. exact Hi. }
  destruct pl as [|p1 [|p2 [|p3 t]]]; try (apply Hgen; exact H).
  bind_inv H b1 Hb1. destruct (b1 <? err) eqn:E1; [|apply Hgen; exact H].
  bind_inv H b2 Hb2. destruct (b2 <? err) eqn:E2; [|apply Hgen; exact H].
  destruct (b1 <? b2); bind_inv H st1 Hst1; injection H as <- <-; right.
  - exists p1. split; [reflexivity|]. split; [left; reflexivity|]. split; [exact Hst1|].
    right. exists p2, b1. split; [left; reflexivity|]. split; [exact Hb1 | lia].
  - exists p2. split; [reflexivity|]. split; [right; left; reflexivity|]. split; [exact Hst1|].
    right. exists p1, b2. split; [right; reflexivity|]. split; [exact Hb2 | lia].
Qed.

Lemma improves_overhang err st p r :
  p_improves st err p = Ok true -> get_ovr st (pr_rid p) = Ok r ->
  zlen (o_rows r) <> 1
  /\ exists v, match pr_kind p with
               | PStart => overhang_if_start_removed r
               | PEnd => overhang_if_end_removed r
               end = Ok v /\ v > -3 * err.
Proof.
  intros H Hg. unfold p_improves in H. rewrite Hg in H. cbv beta iota delta [bind] in H.
  destruct (zlen (o_rows r) =? 1) eqn:E1; [discriminate|]. split; [lia|].
  bind_inv H d Hd. destruct (d <? 0); [|discriminate].
  bind_inv H o Ho. destruct (o >? -3 * err) eqn:Egt; [|discriminate].
  unfold p_overhang_if_applied in Ho. rewrite Hg in Ho. cbn [bind] in Ho.
  exists o. split; [exact Ho | lia].
Qed.

Lemma overhang_start_nocore err src r f t v :
  pos_rows src -> GoodU err src r -> o_rows r = RF f :: t ->
  overhang_if_start_removed r = Ok v -> v > -3 * err ->
  nocore err (o_bait r) (o_start r) (o_start r + f_len f - 1).
Proof.
  intros Hp HG Er Hv Hgt.
  unfold overhang_if_start_removed in Hv. rewrite Er in Hv. injection Hv as Hv. cbn [row_len] in Hv.
  pose proof (GoodU_rows_pos _ _ _ Hp HG) as Ht. rewrite Er in Ht. apply Forall_inv_tail in Ht.
  pose proof (leading_gaps_nonneg t Ht). unfold nocore. lia.
Qed.

Lemma overhang_end_nocore err src r f t v :
  pos_rows src -> GoodU err src r -> o_rows r = t ++ [RF f] ->
  overhang_if_end_removed r = Ok v -> v > -3 * err ->
  nocore err (o_bait r) (o_end r - f_len f + 1) (o_end r).
Proof.
  intros Hp HG Er Hv Hgt.
  unfold overhang_if_end_removed in Hv. rewrite Er, rev_unit in Hv. injection Hv as Hv.
  cbn [row_len] in Hv.
  pose proof (GoodU_rows_pos _ _ _ Hp HG) as Ht. rewrite Er in Ht. apply pos_rows_app in Ht.
  destruct Ht as [Ht _]. apply Forall_rev in Ht.
  pose proof (leading_gaps_nonneg (rev t) Ht). unfold nocore. lia.
Qed.

Section Resolver.
  Variable inp : list (str * list row).
  Variable err : Z.
  Variable all : list frag.
  Hypothesis Hids : NoDup (map f_id (in_frags inp)).
  Hypothesis Hposr : forall name src, In (name, src) inp -> pos_rows src.
  Hypothesis Herr : 1 <= err.
  Hypothesis Hall : Forall (fun b => 1 <= f_start b <= f_end b) all.

  (* a stored result: its bait is a bait of the map, and it is good w.r.t.
     the input scaffold its bait names *)
  Definition RGd (r : ovr) : Prop :=
    In (o_bait r) all /\ exists src, In (f_name (o_bait r), src) inp /\ GoodU err src r.
  Definition SG (st : list ovr) : Prop := forall r, In r st -> RGd r.

  Lemma bait_valid b : In b all -> 1 <= f_start b <= f_end b.
  Proof. intros H. rewrite Forall_forall in Hall. apply Hall. exact H. Qed.

  Lemma src_nodup name src : In (name, src) inp -> NoDup (map f_id (frags_of src)).
  Proof. intros H. apply (src_nodup_g f_id inp name src Hids H). Qed.

  (* the two-premise special case of fix_one: the row is shared with another result *)
  Lemma shared_row r r2 f lo a c :
    RGd r -> RGd r2 -> Rdisj (o_bait r) (o_bait r2) ->
    (exists src, In (f_name (o_bait r), src) inp /\ at_pos src f lo) ->
    o_rows r2 = a ++ RF f :: c ->
    (f_end (o_bait r) < f_start (o_bait r2) \/ f_end (o_bait r2) < f_start (o_bait r))
    /\ lo <= f_end (o_bait r2) /\ f_start (o_bait r2) <= lo + f_len f - 1.
  Proof.
    intros (Ha & _) (Ha2 & src2 & Hsrc2 & HG2) Hd (src & Hsrc & P1) Er2.
    destruct (good_row err src2 r2 a f c HG2 Er2) as [P2 [N1 N2]].
    pose proof (same_src inp Hids _ _ _ _ f Hsrc Hsrc2 (at_pos_In _ _ _ P1) (at_pos_In _ _ _ P2)) as E.
    injection E as En Es. subst src2.
    pose proof (at_pos_unique src f _ _ (src_nodup _ _ Hsrc) P1 P2) as Ep.
    specialize (Hd En). split; [exact Hd|]. lia.
  Qed.

  (* if r starts at or before its bait, start_overlap_nocore applies; otherwise
     the dropped row begins inside the bait, the other holder's bait is disjoint
     from this one yet meets the row, so the row sticks out beyond the bait's
     end, and an overlap below err puts the row past the core *)
  Lemma special_start r r2 f t v :
    RGd r -> RGd r2 -> Rdisj (o_bait r) (o_bait r2) ->
    o_rows r = RF f :: t -> In (RF f) (o_rows r2) ->
    start_row_bait_overlap r = Ok v -> v < err ->
    nocore err (o_bait r) (o_start r) (o_start r + f_len f - 1).
  Proof.
    intros HR HR2 Hd Er Hin Hov Hlt.
    pose proof HR as (Ha & src & Hsrc & HG).
    pose proof (bait_valid _ Ha) as Hb.
    destruct (Z_le_gt_dec (o_start r) (f_start (o_bait r))) as [Hle|Hgt].
    { eapply start_overlap_nocore; try eassumption; lia. }
    destruct (good_first err src r f t HG Er) as [P1 [M1 M2]].
    apply in_split in Hin. destruct Hin as (a & c & Er2).
    destruct (shared_row r r2 f (o_start r) a c HR HR2 Hd) as (D & N1 & N2); [|exact Er2|].
    { exists src. split; assumption. }
    pose proof (start_row_bait_overlap_spec r (RF f) v (first_row_cons _ _ _ Er) Hov) as E.
    cbn [row_len] in E. destruct HR2 as (Ha2 & _). pose proof (bait_valid _ Ha2) as Hb2.
    unfold nocore. lia.
  Qed.

  Lemma special_end r r2 f t v :
    RGd r -> RGd r2 -> Rdisj (o_bait r) (o_bait r2) ->
    o_rows r = t ++ [RF f] -> In (RF f) (o_rows r2) ->
    end_row_bait_overlap r = Ok v -> v < err ->
    nocore err (o_bait r) (o_end r - f_len f + 1) (o_end r).
  Proof.
    intros HR HR2 Hd Er Hin Hov Hlt.
    pose proof HR as (Ha & src & Hsrc & HG).
    pose proof (bait_valid _ Ha) as Hb.
    destruct (Z_le_gt_dec (f_end (o_bait r)) (o_end r)) as [Hle|Hgt].
    { eapply end_overlap_nocore; try eassumption; lia. }
    destruct (good_last err src r t f HG Er) as [P1 [M1 M2]].
    apply in_split in Hin. destruct Hin as (a & c & Er2).
    destruct (shared_row r r2 f (o_end r - f_len f + 1) a c HR HR2 Hd) as (D & N1 & N2); [|exact Er2|].
    { exists src. split; assumption. }
    pose proof (end_row_bait_overlap_spec r (RF f) v (last_row_snoc _ _ _ Er) Hov) as E.
    cbn [row_len] in E. destruct HR2 as (Ha2 & _). pose proof (bait_valid _ Ha2) as Hb2.
    unfold nocore. lia.
  Qed.

  Definition PLok (st : list ovr) (pl : list premise) : Prop :=
    Forall (pvalid st) pl /\ NoDup (map pr_rid pl)
    /\ (forall p q, In p pl -> In q pl -> pr_frag p = pr_frag q).

  Lemma pvalid_has_row st q :
    pvalid st q -> exists r2, get_ovr st (pr_rid q) = Ok r2 /\ In (RF (pr_frag q)) (o_rows r2).
  Proof.
    intros (_ & r2 & Hg & Hk). exists r2. split; [exact Hg|].
    destruct (pr_kind q); destruct Hk as (t & ->).
    - left. reflexivity.
    - apply in_or_app. right. left. reflexivity.
  Qed.

  Lemma two_rids_differ (pl : list premise) p q :
    NoDup (map pr_rid pl) -> (pl = [p; q] \/ pl = [q; p]) -> pr_rid p <> pr_rid q.
  Proof.
    intros Hnd [-> | ->]; cbn [map] in Hnd; inversion Hnd as [|? ? Hn _]; subst;
      intros E; apply Hn; left; congruence.
  Qed.

  (* the two-premise case: the other premise's result holds the same row
     under a disjoint bait *)
  Lemma other_holder st pl p q r :
    SG st -> ForallOrdPairs Rdisj (map o_bait st) -> PLok st pl -> In p pl ->
    pl = [p; q] \/ pl = [q; p] -> get_ovr st (pr_rid p) = Ok r ->
    exists r2, RGd r2 /\ Rdisj (o_bait r) (o_bait r2) /\ In (RF (pr_frag p)) (o_rows r2).
  Proof.
    intros HS HF (Hv & Hnd & Hsame) Hin Hpl Hg. rewrite Forall_forall in Hv.
    assert (Hq : In q pl) by (destruct Hpl as [-> | ->]; cbn [In]; tauto).
    destruct (pvalid_has_row _ _ (Hv q Hq)) as (r2 & Hg2 & Hrow).
    pose proof (Hv p Hin) as (P0 & _). pose proof (Hv q Hq) as (Q0 & _).
    rewrite <- (Hsame p q Hin Hq) in Hrow.
    exists r2. split; [apply HS; eapply get_ovr_In; exact Hg2|]. split; [|exact Hrow].
    eapply (FOP_Rdisj_nth _ (Z.to_nat (pr_rid p)) (Z.to_nat (pr_rid q))); [exact HF | | |].
    - pose proof (two_rids_differ pl p q Hnd Hpl). lia.
    - apply get_ovr_nth_map. exact Hg.
    - apply get_ovr_nth_map. exact Hg2.
  Qed.

  Lemma p_apply_good st pl p st' :
    SG st -> ForallOrdPairs Rdisj (map o_bait st) -> PLok st pl -> In p pl ->
    fix_why err st pl p -> p_apply st p = Ok st' ->
    SG st' /\ map o_bait st' = map o_bait st.
  Proof.
    intros HS HF Hok Hin Hwhy Happ.
    pose proof Hok as (Hv & _). rewrite Forall_forall in Hv. pose proof (Hv p Hin) as (H0 & r & Hg & Hk).
    unfold p_apply in Happ. rewrite Hg in Happ. cbn [bind] in Happ.
    bind_inv Happ r' Hr'. injection Happ as <-.
    pose proof (HS r (get_ovr_In _ _ _ Hg)) as HR.
    pose proof HR as (Ha & src & Hsrc & HG).
    pose proof (Hposr _ _ Hsrc) as Hp.
    assert (G : GoodU err src r' /\ o_bait r' = o_bait r).
    { destruct (pr_kind p) eqn:Ek; destruct Hk as (t & Er).
      - eapply discard_start_good; [exact HG | exact Er | | exact Hr'].
        destruct Hwhy as [Hi | (q & v & Hpl & Hov & Hlt)].
        + destruct (improves_overhang _ _ _ _ Hi Hg) as (_ & v & Hv1 & Hv2). rewrite Ek in Hv1.
          eapply overhang_start_nocore; eassumption.
        + destruct (other_holder st pl p q r HS HF Hok Hin Hpl Hg) as (r2 & HR2 & Hd & Hrow).
          unfold p_bait_overlap in Hov. rewrite Hg, Ek in Hov. cbn [bind] in Hov.
          eapply (special_start r r2); eassumption.
      - eapply discard_end_good; [exact HG | exact Er | | exact Hr'].
        destruct Hwhy as [Hi | (q & v & Hpl & Hov & Hlt)].
        + destruct (improves_overhang _ _ _ _ Hi Hg) as (_ & v & Hv1 & Hv2). rewrite Ek in Hv1.
          eapply overhang_end_nocore; eassumption.
        + destruct (other_holder st pl p q r HS HF Hok Hin Hpl Hg) as (r2 & HR2 & Hd & Hrow).
          unfold p_bait_overlap in Hov. rewrite Hg, Ek in Hov. cbn [bind] in Hov.
          eapply (special_end r r2); eassumption. }
    destruct G as [G B]. split.
    - intros y Hy. apply put_ovr_In in Hy. destruct Hy as [-> | Hy]; [|apply HS; exact Hy].
      split; [rewrite B; exact Ha|]. exists src. rewrite B. split; assumption.
    - eapply put_ovr_map; eassumption.
  Qed.

  (* a fix for one key leaves the premise lists of the other keys valid *)
  Lemma PLok_after st pl pls p st1 :
    PLok st pl -> In p pl -> Forall (PLok st) pls -> Forall (keys_apart pl) pls ->
    p_apply st p = Ok st1 -> Forall (PLok st1) pls.
  Proof.
    intros (Hvp & _) Hpin Hvpls Hap Happ. rewrite Forall_forall in Hvp. pose proof (Hvp p Hpin) as Hpv.
    rewrite Forall_forall in *. intros pl' Hpl'.
    destruct (Hvpls pl' Hpl') as (Q1 & Q2 & Q3). split; [|split; assumption].
    specialize (Hap pl' Hpl'). rewrite Forall_forall in *. intros q Hq.
    eapply pvalid_pres; [apply Q1; exact Hq | exact Hpv | | exact Happ].
    intros E. apply (Hap p q Hpin Hq). symmetry. exact E.
  Qed.

  Lemma premise_for_static st f id p :
    premise_for st f id = Ok (Some p) -> pr_rid p = id /\ pr_frag p = f.
  Proof.
    intros H. unfold premise_for in H. bind_inv H r Hr. bind_inv H r0 Hr0.
    destruct (row_is r0 f).
    - injection H as <-. split; reflexivity.
    - bind_inv H rl Hrl. destruct (row_is rl f); [|discriminate].
      injection H as <-. split; reflexivity.
  Qed.

  Lemma premises_of_static st f : forall ids ps,
    premises_of st f ids = Ok ps ->
    Forall (fun p => pr_frag p = f /\ In (pr_rid p) ids) ps
    /\ (NoDup ids -> NoDup (map pr_rid ps)).
  Proof.
    induction ids as [|id ids IH]; intros ps H; cbn [premises_of] in H.
    - injection H as <-. split; [constructor | intros _; constructor].
    - bind_inv H p Hp. bind_inv H ps0 Hps0. injection H as <-.
      destruct (IH _ Hps0) as [G1 G2].
      assert (G1' : Forall (fun p => pr_frag p = f /\ In (pr_rid p) (id :: ids)) ps0).
      { eapply Forall_impl; [|exact G1]. cbn beta. intros q (Q1 & Q2). split; [exact Q1 | right; exact Q2]. }
      destruct p as [p|].
      + destruct (premise_for_static _ _ _ _ Hp) as [E1 E2]. split.
        * constructor; [split; [exact E2 | left; symmetry; exact E1] | exact G1'].
        * intros Hnd. inversion Hnd as [|? ? Hn Hnd']; subst. cbn [map]. constructor; [|apply G2; exact Hnd'].
          intros Hin. apply in_map_iff in Hin. destruct Hin as (q & Eq & Hq).
          rewrite Forall_forall in G1. destruct (G1 q Hq) as (_ & Hqi). apply Hn. congruence.
      + split; [exact G1'|]. intros Hnd. inversion Hnd; subst. apply G2. assumption.
  Qed.

  (* every id list of the found table is duplicate-free *)
  Definition NDI (found : list (fkey * (frag * list rid))) : Prop :=
    Forall (fun e => NoDup (snd (snd e))) found.

  Lemma round_static b : NDI (b_found b) -> forall ks pls,
    round_premises b ks = Ok pls ->
    Forall (fun pl => NoDup (map pr_rid pl)
                      /\ (forall p q, In p pl -> In q pl -> pr_frag p = pr_frag q)) pls.
  Proof.
    intros Hnd ks pls H. apply Forall_forall. intros pl Hpl.
    unfold round_premises in H. destruct (mapM_In _ _ _ H _ Hpl) as (k & _ & Hk).
    destruct (aget key_eqb (b_found b) k) as [[f ids]|] eqn:Eg; [|discriminate].
    apply (aget_In key_eqb key_eqb_eq) in Eg. unfold NDI in Hnd. rewrite Forall_forall in Hnd.
    pose proof (Hnd _ Eg) as Hn. cbn [snd] in Hn.
    destruct (premises_of_static _ _ _ _ Hk) as [G1 G2]. split; [apply G2; exact Hn|].
    rewrite Forall_forall in G1. intros p q Hp Hq.
    destruct (G1 p Hp) as [-> _]. destruct (G1 q Hq) as [-> _]. reflexivity.
  Qed.

  Lemma Forall_aset {K V} (keqb : K -> K -> bool) (P : K * V -> Prop) (d : list (K * V)) k v :
    Forall P d -> (forall k', P (k', v)) -> Forall P (aset keqb d k v).
  Proof.
    intros Hd Hv. induction d as [|[k' v'] d IH]; cbn [aset].
    - constructor; [apply Hv | constructor].
    - inversion Hd as [|? ? H1 H2]; subst. destruct (keqb k k').
      + constructor; [apply Hv | exact H2].
      + constructor; [exact H1 | apply IH; exact H2].
  Qed.

  Lemma NoDup_remove_first x : forall l, NoDup l -> NoDup (remove_first Z.eqb x l).
  Proof.
    induction l as [|y l IH]; intros H; cbn [remove_first]; [constructor|].
    inversion H as [|? ? Hn Hnd]; subst. destruct (x =? y); [exact Hnd|].
    constructor; [|apply IH; exact Hnd]. intros Hin. apply Hn. eapply remove_first_incl. exact Hin.
  Qed.

  Lemma NDI_bookkeeping : forall fixes found multi found' multi',
    NDI found -> foldM apply_fix_bookkeeping fixes (found, multi) = Ok (found', multi') ->
    NDI found'.
  Proof.
    induction fixes as [|p fixes IH]; intros found multi found' multi' Hn H; cbn [foldM] in H.
    - injection H as <- _. exact Hn.
    - bind_inv H acc Hacc. destruct acc as [found1 multi1].
      eapply IH; [|exact H]. unfold apply_fix_bookkeeping in Hacc.
      destruct (existsb (key_eqb (key_of (pr_frag p))) multi); [|injection Hacc as <- _; exact Hn].
      destruct (aget key_eqb found (key_of (pr_frag p))) as [[f0 ids]|] eqn:Eg; [|discriminate].
      destruct (existsb (Z.eqb (pr_rid p)) ids); [|discriminate].
      injection Hacc as <- _. apply Forall_aset; [exact Hn|]. intros k'. cbn [snd].
      apply NoDup_remove_first. apply (aget_In key_eqb key_eqb_eq) in Eg.
      unfold NDI in Hn. rewrite Forall_forall in Hn. apply (Hn _ Eg).
  Qed.

  (* the premise lists of a round are fit for fix_one *)
  Lemma PLok_round b pls :
    NDI (b_found b) -> round_premises b (b_multi b) = Ok pls ->
    let pls' := filter (fun pl => match pl with [] => false | _ => true end) pls in
    Forall (Forall (pgood b)) pls' -> Forall (PLok (b_store b)) pls'.
  Proof.
    intros Hndi Hpls pls' G1'. pose proof (round_static b Hndi _ _ Hpls) as G3.
    apply Forall_forall. intros pl Hpl. pose proof Hpl as Hpl0. apply filter_In in Hpl. destruct Hpl as [Hpl _].
    rewrite Forall_forall in G1', G3. destruct (G3 pl Hpl) as [S1 S2].
    split; [|split; assumption]. eapply Forall_impl; [|apply (G1' pl Hpl0)].
    intros p (P1 & _). exact P1.
  Qed.

  (* what the loop carries: good results under pairwise disjoint baits, and
     duplicate-free id lists *)
  Definition RQ (b : bstate) : Prop :=
    SG (b_store b) /\ ForallOrdPairs Rdisj (map o_bait (b_store b)) /\ NDI (b_found b).

End Resolver.
