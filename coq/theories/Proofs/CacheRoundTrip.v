(* Cache round trip: what index_fasta produces (the .fai index and the derived
   assembly) survives being written to and re-loaded from its two cache files. *)
From Tola Require Import Py.Base Py.Dec Model.Fragment Model.Fasta
  Model.FastaSpec Model.AgpTpf Model.AgpTpfSpec.
From Tola Require Import Proofs.BaseLemmas Proofs.Dec Proofs.AgpTpfRoundTrip Proofs.FastaIndex.
From Coq Require Import Lia ZifyBool.

Definition nosp (x : str) : Prop := forallb (fun c => negb (is_space c)) x = true.

Lemma nosp_app x y : nosp x -> nosp y -> nosp (x ++ y).
Proof. unfold nosp. intros Hx Hy. rewrite forallb_app, Hx, Hy. reflexivity. Qed.

Lemma digits_nosp d : forallb is_digit d = true -> nosp d.
Proof.
  apply forallb_impl. intros c Hc. rewrite (is_digit_not_space c Hc). reflexivity.
Qed.

Lemma str_of_Z_nosp z : nosp (str_of_Z z).
Proof.
  unfold str_of_Z. destruct (Z.to_int z) as [u|u].
  - apply digits_nosp, chars_of_uint_digits.
  - change (nosp ([("-")%char] ++ chars_of_uint u)).
    apply nosp_app; [reflexivity | apply digits_nosp, chars_of_uint_digits].
Qed.

Lemma str_of_Z_nonempty z : str_of_Z z <> [].
Proof.
  destruct (Z_lt_le_dec z 0) as [Hneg|Hpos]; [|apply str_of_Z_digits, Hpos].
  destruct z as [|p|p]; try lia.
  change (str_of_Z (Z.neg p)) with ("-"%char :: str_of_Z (Z.pos p)). discriminate.
Qed.

Lemma space_ntl_false c : is_space c = false -> ntl c = true.
Proof.
  intro H. unfold ntl.
  destruct (Ascii.eqb_spec c TAB) as [->|]; [discriminate H|].
  destruct (Ascii.eqb_spec c LF) as [->|]; [discriminate H|]. reflexivity.
Qed.

Lemma nosp_no_tab_lf x : nosp x -> no_tab_lf x.
Proof.
  apply forallb_impl. intros c Hc. apply negb_true_iff in Hc. exact (space_ntl_false c Hc).
Qed.

Lemma words_acc_word w : nosp w -> forall sp rest cur,
  is_space sp = true -> (cur <> [] \/ w <> []) ->
  words_acc (w ++ sp :: rest) cur = (rev cur ++ w) :: words_acc rest [].
Proof.
  unfold nosp. induction w as [|c w IH]; intros H sp rest cur Hsp Hne.
  - cbn [app words_acc]. rewrite Hsp, app_nil_r.
    destruct cur; [destruct Hne; congruence | reflexivity].
  - cbn [forallb] in H. apply andb_true_iff in H as [H1 H2]. apply negb_true_iff in H1.
    cbn [app words_acc]. rewrite H1, (IH H2 sp rest (c :: cur) Hsp) by (left; discriminate).
    cbn [rev]. rewrite <- app_assoc. reflexivity.
Qed.

Lemma words_word w sp rest : nosp w -> w <> [] -> is_space sp = true ->
  words_acc (w ++ sp :: rest) [] = w :: words_acc rest [].
Proof.
  intros Hw Hne Hsp. rewrite (words_acc_word w Hw sp rest [] Hsp) by (right; exact Hne).
  reflexivity.
Qed.

Lemma words_fai_row n i : nosp n -> n <> [] ->
  words (fai_row n i)
  = [n; str_of_Z (fi_length i); str_of_Z (fi_offset i); str_of_Z (fi_rpl i); str_of_Z (fi_mll i)].
Proof.
  intros Hn Hne. unfold words, fai_row.
  rewrite words_word by (try assumption; reflexivity).
  rewrite !words_word by (try apply str_of_Z_nosp; try apply str_of_Z_nonempty; reflexivity).
  reflexivity.
Qed.

Lemma load_index_line_fai_row idx n i : nosp n -> n <> [] ->
  load_index_line idx (fai_row n i) = Ok (aset str_eqb idx n i).
Proof.
  intros Hn Hne. unfold load_index_line. rewrite (words_fai_row n i Hn Hne).
  rewrite !int_of_str_of_Z. cbn [bind]. destruct i; reflexivity.
Qed.

Lemma fai_row_join n i :
  fai_row n i = join [TAB] [n; str_of_Z (fi_length i); str_of_Z (fi_offset i);
                            str_of_Z (fi_rpl i); str_of_Z (fi_mll i)] ++ [LF].
Proof. unfold fai_row. cbn [join]. rewrite <- !app_assoc. reflexivity. Qed.

Lemma fai_row_lf_line n i : nosp n -> lf_line (fai_row n i).
Proof.
  intro Hn. eexists. split; [apply fai_row_join|].
  apply join_no_tab_lf_nolf.
  repeat (constructor; [first [apply nosp_no_tab_lf, Hn | apply str_of_Z_no_tab_lf]|]).
  constructor.
Qed.

Definition idx_ok (idx : list (str * finfo)) : Prop :=
  Forall (fun p => fst p <> [] /\ forallb (fun c => negb (is_space c)) (fst p) = true) idx
  /\ NoDup (map fst idx).

Lemma NoDup_app_fresh {A} (l1 : list A) x l2 : NoDup (l1 ++ x :: l2) -> ~ In x l1.
Proof.
  intros H Hin. apply NoDup_remove_2 in H. apply H, in_or_app. left. exact Hin.
Qed.

Lemma load_lines idx : forall pre,
  Forall (fun p => fst p <> [] /\ nosp (fst p)) idx ->
  NoDup (map fst (pre ++ idx)) ->
  foldM load_index_line (map (fun '(n, i) => fai_row n i) idx) pre = Ok (pre ++ idx).
Proof.
  induction idx as [|[n i] idx IH]; intros pre Hok Hnd.
  - cbn [map foldM]. rewrite app_nil_r. reflexivity.
  - inversion Hok as [|? ? [Hne Hn] Hok']; subst. cbn [fst] in Hne, Hn.
    cbn [map foldM]. rewrite (load_index_line_fai_row pre n i Hn Hne). cbn [bind].
    rewrite (aset_new _ str_eqb_eq).
    + rewrite IH; [rewrite <- app_assoc; reflexivity | exact Hok' |].
      rewrite <- app_assoc. exact Hnd.
    + rewrite map_app in Hnd. cbn [map fst] in Hnd. apply NoDup_app_fresh in Hnd. exact Hnd.
Qed.

Theorem load_write_index : forall idx, idx_ok idx -> load_index (write_index idx) = Ok idx.
Proof.
  intros idx [Hok Hnd]. unfold load_index, write_index.
  rewrite AgpTpfRoundTrip.split_lines_concat.
  - apply (load_lines idx []); [|exact Hnd].
    eapply Forall_impl; [|exact Hok]. intros p [H1 H2]. split; assumption.
  - apply Forall_forall. intros l Hl. apply in_map_iff in Hl as ([n i] & <- & Hin).
    rewrite Forall_forall in Hok. destruct (Hok _ Hin) as [_ Hn]. apply fai_row_lf_line, Hn.
Qed.

Lemma offsets_length w eol recs : forall pos, length (offsets w eol recs pos) = length recs.
Proof. exact (FastaIndex.offsets_length w eol recs). Qed.

(* the record names must also survive str.split() when the .fai is read back
   ([name_loadable]: no FS GS RS US either); a name such as "a<FS>b" is indexed
   correctly but its cached row fails to load -- loudly ([ex_fs_name_breaks]) *)
Theorem expected_index_idx_ok : forall w eol recs,
  fasta_wf w eol recs -> Forall (fun r => name_loadable (r_name r)) recs ->
  idx_ok (expected_index w eol recs).
Proof.
  intros w eol recs (_ & _ & _ & Hok & Hnd) Hload. split.
  - apply Forall_forall. intros p Hp.
    assert (Hin : In (fst p) (map r_name recs)).
    { rewrite <- (expected_index_names w eol). apply in_map, Hp. }
    apply in_map_iff in Hin as (r & <- & Hr).
    rewrite Forall_forall in Hok, Hload. destruct (Hok r Hr) as ([H1 H2] & _).
    split; [assumption | exact (Hload r Hr)].
  - rewrite expected_index_names. exact Hnd.
Qed.

Corollary cache_roundtrip_index : forall w eol recs, fasta_wf w eol recs ->
  Forall (fun r => name_loadable (r_name r)) recs ->
  load_index (write_index (expected_index w eol recs)) = Ok (expected_index w eol recs).
Proof. intros w eol recs H Hl. apply load_write_index, expected_index_idx_ok; assumption. Qed.

Corollary cold_warm_index : forall w eol final_nl recs buf idx asm,
  fasta_wf w eol recs -> Forall (fun r => name_loadable (r_name r)) recs ->
  drop_peak (index_fasta (render w eol final_nl recs) buf) = Ok (idx, asm) ->
  load_index (write_index idx) = Ok idx.
Proof.
  intros w eol fnl recs buf idx asm Hwf Hl H.
  rewrite (index_spec w eol fnl recs buf Hwf) in H. injection H as <- <-.
  apply cache_roundtrip_index; assumption.
Qed.

Definition tile_row_shape (name : str) (r : row) : Prop :=
  (exists a b, r = RF (mkFrag (-1) name a b 1 []) /\ a <= b)
  \/ (exists n, r = RG (mkGap n scaffold_gap)).

Lemma tile_rows_shape name : forall f x pos, Forall (tile_row_shape name) (tile_rows f name x pos).
Proof.
  induction f as [|f IH]; intros x pos; [constructor|].
  destruct x as [|c t]; [constructor|].
  destruct (tile_rows_step f name c t pos)
    as (run & rest & _ & Hne & _ & [(_ & _ & ->)|(_ & _ & ->)]);
    (constructor; [|apply IH]).
  - left. eexists _, _. split; [reflexivity|]. pose proof (zlen_pos run Hne). lia.
  - right. eexists. reflexivity.
Qed.

Lemma tile_rows_nonempty name f c t pos : tile_rows (S f) name (c :: t) pos <> [].
Proof.
  destruct (tile_rows_step f name c t pos) as (run & rest & _ & _ & _ & [(_ & _ & ->)|(_ & _ & ->)]);
    discriminate.
Qed.

Lemma tile_row_shape_ok name r : no_tab_lf name -> tile_row_shape name r -> row_ok_agp r.
Proof.
  intros Hn [(a & b & -> & Hab) | (n & ->)]; cbn [row_ok_agp].
  - unfold frag_ok_agp. cbn [f_id f_name f_start f_end f_strand f_tags].
    repeat split; auto.
  - reflexivity.
Qed.

Lemma NoDup_adjacent_distinct (l : list str) : NoDup l -> adjacent_distinct l.
Proof.
  induction 1 as [|x l Hx Hl IH]; [exact I|].
  destruct l as [|y l]; [exact I|].
  cbn [adjacent_distinct]. split; [|exact IH].
  intro E. apply Hx. left. symmetry. exact E.
Qed.

Lemma expected_asm_names recs : map fst (expected_asm recs) = map r_name recs.
Proof. unfold expected_asm. rewrite map_map. reflexivity. Qed.

Theorem expected_asm_agp_wf : forall w eol recs h,
  fasta_wf w eol recs -> header_ok h ->
  (* names must also be acceptable as AGP object / component names: *)
  Forall (fun r => match r_name r with c :: _ => c <> "#"%char | [] => False end) recs ->
  agp_wf (mkAsm [h] (expected_asm recs)).
Proof.
  intros w eol recs h (_ & _ & _ & Hok & Hnd) Hh Hhash.
  unfold agp_wf. cbn [a_header a_scaffolds]. split; [|split].
  - constructor; [exact Hh | constructor].
  - unfold expected_asm. apply Forall_forall. intros sc Hsc.
    apply in_map_iff in Hsc as (r & <- & Hr). cbn [fst snd].
    rewrite Forall_forall in Hok, Hhash.
    destruct (Hok r Hr) as ([Hne Hsp] & _ & Hseq & _). specialize (Hhash r Hr).
    assert (Hntl : no_tab_lf (r_name r)).
    { unfold no_tab_lf. eapply forallb_impl; [|exact Hsp]. intros a Ha. cbn beta in Ha |- *.
      apply negb_true_iff in Ha.
      destruct (Ascii.eqb_spec a TAB) as [->|]; [discriminate Ha|].
      destruct (Ascii.eqb_spec a LF) as [->|]; [discriminate Ha|]. reflexivity. }
    split; [|split].
    + unfold scaffold_name_ok. destruct (r_name r) as [|c n]; [exact Hhash|].
      split; [exact Hhash | exact Hntl].
    + destruct (r_seq r) as [|c t]; [congruence|]. apply tile_rows_nonempty.
    + eapply Forall_impl; [|apply tile_rows_shape]. intros x. apply tile_row_shape_ok, Hntl.
  - rewrite expected_asm_names. apply NoDup_adjacent_distinct, Hnd.
Qed.

Corollary cache_roundtrip_assembly : forall w eol recs h, fasta_wf w eol recs -> header_ok h ->
  Forall (fun r => match r_name r with c :: _ => c <> "#"%char | [] => False end) recs ->
  exists t, format_agp (mkAsm [h] (expected_asm recs)) = Ok t
            /\ parse_agp t = Ok (mkAsm [h] (expected_asm recs)).
Proof.
  intros w eol recs h Hwf Hh Hhash. apply parse_format_agp.
  apply (expected_asm_agp_wf w eol); assumption.
Qed.

(* non-vacuity *)
Definition ex_recs : list record :=
  [ mkRecord (s "chr1") (s " first record") (s "ACGTNNNNacgtAC");
    mkRecord (s "scaffold_2") [] (s "NNACGTACGTAC") ].
Definition ex_file : str := render 5 [LF] true ex_recs.
Definition ex_hdr : str := s "cached assembly".

Lemma ex_fasta_wf : fasta_wf 5 [LF] ex_recs.
Proof.
  unfold fasta_wf. split; [lia|]. split; [left; reflexivity|]. split; [discriminate|]. split.
  - repeat constructor; try discriminate.
  - repeat constructor; cbn; intro H; repeat (destruct H as [H|H]; try discriminate H); exact H.
Qed.

Lemma ex_header_ok : header_ok ex_hdr.
Proof. split; reflexivity. Qed.

Lemma ex_hash : Forall (fun r => match r_name r with c :: _ => c <> "#"%char | [] => False end) ex_recs.
Proof. repeat constructor; discriminate. Qed.

(* cold: the indexer on the rendered file produces the expected index and assembly;
   warm: both caches give them back, computed by the model itself *)
Example ex_cold :
  drop_peak (index_fasta ex_file 4) = Ok (expected_index 5 [LF] ex_recs, expected_asm ex_recs).
Proof. vm_compute. reflexivity. Qed.

Example ex_warm_index :
  load_index (write_index (expected_index 5 [LF] ex_recs)) = Ok (expected_index 5 [LF] ex_recs)
  /\ write_index (expected_index 5 [LF] ex_recs)
     = s "chr1	14	19	5	6
scaffold_2	12	48	5	6
".
Proof. split; vm_compute; reflexivity. Qed.

Example ex_warm_assembly :
  match format_agp (mkAsm [ex_hdr] (expected_asm ex_recs)) with
  | Ok t => parse_agp t = Ok (mkAsm [ex_hdr] (expected_asm ex_recs))
  | Err _ => False
  end.
Proof. vm_compute. reflexivity. Qed.

Example ex_by_theorem :
  load_index (write_index (expected_index 5 [LF] ex_recs)) = Ok (expected_index 5 [LF] ex_recs)
  /\ exists t, format_agp (mkAsm [ex_hdr] (expected_asm ex_recs)) = Ok t
               /\ parse_agp t = Ok (mkAsm [ex_hdr] (expected_asm ex_recs)).
Proof.
  split.
  - apply cache_roundtrip_index; [apply ex_fasta_wf | repeat constructor].
  - apply (cache_roundtrip_assembly 5 [LF]);
      [apply ex_fasta_wf | apply ex_header_ok | apply ex_hash].
Qed.

(* the hypotheses of idx_ok are needed: a name with a blank, an empty name and a
   duplicated name each break the .fai round trip *)
Example ex_space_name_breaks :
  load_index (write_index [(s "a b", mkInfo 1 2 3 4)]) = Err ValueError.
Proof. vm_compute. reflexivity. Qed.
(* FS (28) is an ordinary byte for the indexer (bytes.split) but white space for
   str.split(): the cached row of such a name cannot be read back -- an error, never
   a silently different index *)
Example ex_fs_name_breaks :
  load_index (write_index [(s "a" ++ [ascii_of_N 28] ++ s "1", mkInfo 1 2 3 4)]) = Err ValueError
  /\ name_ok (s "a" ++ [ascii_of_N 28] ++ s "1")
  /\ ~ name_loadable (s "a" ++ [ascii_of_N 28] ++ s "1").
Proof. split; [vm_compute; reflexivity|]. split; [split; [discriminate | vm_compute; reflexivity]|].
       unfold name_loadable. vm_compute. discriminate. Qed.
Example ex_empty_name_breaks :
  load_index (write_index [([], mkInfo 1 2 3 4)]) = Err ValueError.
Proof. vm_compute. reflexivity. Qed.
Example ex_dup_name_breaks :
  load_index (write_index [(s "a", mkInfo 1 2 3 4); (s "a", mkInfo 5 6 7 8)])
  = Ok [(s "a", mkInfo 5 6 7 8)].
Proof. vm_compute. reflexivity. Qed.
(* and so is the '#' side condition of the assembly round trip: a FASTA record may be called "#x",
   but the AGP parser then reads its lines as comments *)
Example ex_hash_name_breaks :
  let a := mkAsm [ex_hdr] (expected_asm [mkRecord (s "#x") [] (s "ACGT")]) in
  match format_agp a with
  | Ok t => parse_agp t <> Ok a
  | Err _ => True
  end.
Proof. vm_compute. discriminate. Qed.

Print Assumptions load_write_index.
Print Assumptions expected_index_idx_ok.
Print Assumptions cache_roundtrip_index.
Print Assumptions cold_warm_index.
Print Assumptions expected_asm_agp_wf.
Print Assumptions cache_roundtrip_assembly.
Print Assumptions ex_by_theorem.
