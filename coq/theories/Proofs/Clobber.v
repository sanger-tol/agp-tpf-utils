(* C16 -- how one run opens its output files (Model/Clobber.v): with --no-clobber no existing
   file is altered and the run fails exactly at the first output that exists; with --clobber
   every output holds what the run writes. *)
From Tola Require Import Py.Base Model.Clobber Proofs.BaseLemmas.

Lemma lookup_write_same fs p c : lookup (write fs p c) p = Some c.
Proof. apply (aget_aset_same _ str_eqb_eq). Qed.

Lemma lookup_write_other fs p q c : p <> q -> lookup (write fs p c) q = lookup fs q.
Proof. intro N. apply (aget_aset_other _ str_eqb_eq). auto. Qed.

(* a write to a path outside [l] is not seen at the paths of [l] *)
Lemma Forall_lookup_write (P : str * str -> option str -> Prop) fs p c l :
  ~ In p (map fst l) ->
  Forall (fun o => P o (lookup (write fs p c) (fst o))) l -> Forall (fun o => P o (lookup fs (fst o))) l.
Proof.
  induction l as [|o l IH]; intros Hn H; [constructor|].
  inversion H as [|? ? Ho Hl]; subst. cbn [map In] in Hn. constructor.
  - rewrite lookup_write_other in Ho; [exact Ho | intros ->; tauto].
  - apply IH; tauto.
Qed.

Definition exists_in (fs : fsys) (p : str) : Prop := lookup fs p <> None.

Theorem noclobber_spec : forall opens fs fs' st,
  NoDup (map fst opens) ->
  run_opens true fs opens = (fs', st) ->
  (* every pre-existing path keeps its bytes *)
  (forall p c, lookup fs p = Some c -> lookup fs' p = Some c)
  /\ match st with
     | ExitCollision p =>
         (* the named file pre-exists, is an output of the run, and no earlier output pre-exists *)
         exists pre c post, opens = pre ++ (p, c) :: post /\ exists_in fs p
           /\ Forall (fun o => lookup fs (fst o) = None) pre
           (* outputs before it were created with their content, nothing after it was touched *)
           /\ Forall (fun o => lookup fs' (fst o) = Some (snd o)) pre
           /\ Forall (fun o => lookup fs' (fst o) = lookup fs (fst o)) post
     | ExitOk =>
         Forall (fun o => lookup fs (fst o) = None) opens
         /\ Forall (fun o => lookup fs' (fst o) = Some (snd o)) opens
     end
  /\ (forall q, ~ In q (map fst opens) -> lookup fs' q = lookup fs q).
Proof.
  induction opens as [|[p c] t IH]; intros fs fs' st ND H; cbn [run_opens] in H.
  - injection H as <- <-. repeat split; auto.
  - inversion ND as [|? ? Hnot ND']; subst.
    destruct (lookup fs p) as [old|] eqn:L.
    + injection H as <- <-. split; [auto|]. split.
      * exists [], c, t. repeat split; auto.
        -- unfold exists_in. congruence.
        -- apply Forall_forall. auto.
      * auto.
    + specialize (IH (write fs p c) fs' st ND' H) as (Keep & Shape & Other).
      assert (Hp : lookup fs' p = Some c) by (rewrite Other; [apply lookup_write_same | exact Hnot]).
      split; [|split].
      * intros q d Hq. apply Keep. rewrite lookup_write_other; [exact Hq|].
        intro E. subst q. congruence.
      * destruct st as [|p0].
        -- destruct Shape as (S1 & S2). split; constructor; auto.
           apply (Forall_lookup_write (fun _ v => v = None) fs p c); assumption.
        -- destruct Shape as (pre & c0 & post & -> & Ex & P1 & P2 & P3).
           rewrite map_app, in_app_iff in Hnot. cbn [map In fst] in Hnot.
           exists ((p, c) :: pre), c0, post. split; [reflexivity|]. split; [|split; [|split]].
           ++ unfold exists_in in *. rewrite lookup_write_other in Ex; [exact Ex | intros ->; tauto].
           ++ constructor; [exact L|].
              apply (Forall_lookup_write (fun _ v => v = None) fs p c); [tauto | exact P1].
           ++ constructor; [exact Hp | exact P2].
           ++ apply (Forall_lookup_write (fun o v => lookup fs' (fst o) = v) fs p c); [tauto | exact P3].
      * intros q Hq. cbn [map fst In] in Hq. rewrite Other by tauto.
        apply lookup_write_other. intros ->. tauto.
Qed.

(* the run fails iff some output path pre-exists *)
Corollary noclobber_fails_iff : forall opens fs,
  NoDup (map fst opens) ->
  (exists p, snd (run_opens true fs opens) = ExitCollision p)
  <-> Exists (fun o => exists_in fs (fst o)) opens.
Proof.
  intros opens fs ND. destruct (run_opens true fs opens) as [fs' st] eqn:H.
  destruct (noclobber_spec opens fs fs' st ND H) as (_ & Shape & _). cbn [snd]. split.
  - intros [p ->]. destruct Shape as (pre & c & post & -> & Ex & _).
    apply Exists_exists. exists (p, c). split; [apply in_or_app; right; left; reflexivity | exact Ex].
  - intro E. destruct st as [|p]; [|eauto].
    destruct Shape as (S1 & _). apply Exists_exists in E as (o & Ho & Ex).
    rewrite Forall_forall in S1. unfold exists_in in Ex. rewrite (S1 o Ho) in Ex. contradiction.
Qed.

(* clobber: always succeeds, every output holds exactly the run's content,
   other paths untouched *)
Theorem clobber_spec : forall opens fs fs' st,
  NoDup (map fst opens) ->
  run_opens false fs opens = (fs', st) ->
  st = ExitOk
  /\ Forall (fun o => lookup fs' (fst o) = Some (snd o)) opens
  /\ (forall q, ~ In q (map fst opens) -> lookup fs' q = lookup fs q).
Proof.
  induction opens as [|[p c] t IH]; intros fs fs' st ND H; cbn [run_opens] in H.
  - injection H as <- <-. repeat split; auto.
  - inversion ND as [|? ? Hnot ND']; subst.
    assert (H' : run_opens false (write fs p c) t = (fs', st)) by (destruct (lookup fs p); exact H).
    specialize (IH _ _ _ ND' H') as (S & F & O). split; [exact S|]. split.
    + constructor; [|exact F]. cbn [fst snd]. rewrite O; [apply lookup_write_same | exact Hnot].
    + intros q Hq. cbn [map fst] in Hq. rewrite O.
      * apply lookup_write_other. intro E. apply Hq. left. exact E.
      * intro I. apply Hq. right. exact I.
Qed.
