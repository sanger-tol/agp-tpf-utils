(* C02 core clause: the per-result invariant [GoodU] (an untrimmed
   result is a contiguous run of its source scaffold whose rows all meet the
   bait, and no fragment row outside the run has a base in the bait's core),
   its establishment by the lookup, and its preservation by discard_start /
   discard_end (under the "no core base in the dropped row" side condition)
   and by trim_large_overhangs.  Last: the two reasons the pipeline has for a
   discard ([just_start] / [just_end]), neither of which holds of a terminal
   row that overlaps the bait in 3 error lengths. *)
From Tola Require Import Py.Base Model.Fragment Model.Scaffold Model.Lookup
  Model.OverlapResult
  Proofs.BaseLemmas Proofs.Rows Proofs.Lookup Proofs.OverlapResult Proofs.RemapHead Proofs.PipelineInv.
From Coq Require Import Lia ZifyBool.

(* [all_at P pos rows]: every row x of [rows], laid out from scaffold
   coordinate pos + 1 on, satisfies P lo hi x for its span lo .. hi *)
Fixpoint all_at (P : Z -> Z -> row -> Prop) (pos : Z) (rows : list row) : Prop :=
  match rows with
  | [] => True
  | x :: t => P (pos + 1) (pos + row_len x) x /\ all_at P (pos + row_len x) t
  end.

Lemma P_cong (P : Z -> Z -> row -> Prop) lo hi lo' hi' x :
  P lo hi x -> lo = lo' -> hi = hi' -> P lo' hi' x.
Proof. intros H -> ->. exact H. Qed.

Lemma all_at_pos (P : Z -> Z -> row -> Prop) pos pos' rows : all_at P pos rows -> pos = pos' -> all_at P pos' rows.
Proof. intros H ->. exact H. Qed.

Lemma all_at_app (P : Z -> Z -> row -> Prop) : forall a b pos,
  all_at P pos (a ++ b) <-> all_at P pos a /\ all_at P (pos + rows_len a) b.
Proof.
  induction a as [|x a IH]; intros b pos; cbn [app all_at].
  - rewrite rows_len_nil, Z.add_0_r. tauto.
  - rewrite IH, rows_len_cons, Z.add_assoc. tauto.
Qed.

Lemma all_at_impl (P Q : Z -> Z -> row -> Prop) :
  (forall lo hi x, P lo hi x -> Q lo hi x) ->
  forall rows pos, all_at P pos rows -> all_at Q pos rows.
Proof.
  intros Hpq. induction rows as [|x t IH]; intros pos H; cbn [all_at] in *; [exact I|].
  destruct H as [H1 H2]. split; [apply Hpq; exact H1 | apply IH; exact H2].
Qed.

Lemma all_at_gaps (P : Z -> Z -> row -> Prop) :
  (forall lo hi g, P lo hi (RG g)) ->
  forall gaps pos, all_gaps gaps -> all_at P pos gaps.
Proof.
  intros Hg. induction gaps as [|x t IH]; intros pos H; cbn [all_at]; [exact I|].
  inversion H as [|? ? Hx Ht]; subst. destruct x as [f|g]; [discriminate|].
  split; [apply Hg | apply IH; exact Ht].
Qed.

Lemma all_at_split (P : Z -> Z -> row -> Prop) pos rows a x c :
  all_at P pos rows -> rows = a ++ x :: c ->
  P (pos + rows_len a + 1) (pos + rows_len a + row_len x) x.
Proof.
  intros H ->. apply all_at_app in H. destruct H as [_ H]. cbn [all_at] in H. apply H.
Qed.

Lemma all_at_intro (P : Z -> Z -> row -> Prop) : forall rows pos,
  (forall a x c, rows = a ++ x :: c ->
     P (pos + rows_len a + 1) (pos + rows_len a + row_len x) x) ->
  all_at P pos rows.
Proof.
  induction rows as [|x t IH]; intros pos H; cbn [all_at]; [exact I|]. split.
  - eapply P_cong; [apply (H [] x t eq_refl) | |]; rewrite rows_len_nil; lia.
  - apply IH. intros a y c E.
    eapply P_cong; [apply (H (x :: a) y c) | |].
    + rewrite E. reflexivity.
    + rewrite rows_len_cons. lia.
    + rewrite rows_len_cons. lia.
Qed.

Lemma split_span src a x c : src = a ++ x :: c ->
  nth_error src (length a) = Some x
  /\ span_start src (length a) = 1 + rows_len a
  /\ span_end src (length a) = rows_len a + row_len x.
Proof.
  intros ->. split; [|split].
  - rewrite nth_error_app2 by lia. rewrite Nat.sub_diag. reflexivity.
  - unfold span_start. rewrite firstn_length_app. reflexivity.
  - unfold span_end.
    replace (a ++ x :: c) with ((a ++ [x]) ++ c) by (rewrite <- app_assoc; reflexivity).
    replace (S (length a)) with (length (a ++ [x])) by (rewrite app_length; cbn [length]; lia).
    rewrite firstn_length_app, rows_len_app, rows_len_single. reflexivity.
Qed.

(* the rows of a segment, by their index in the whole scaffold *)
Lemma all_at_seg (P : Z -> Z -> row -> Prop) src pre mid post :
  src = pre ++ mid ++ post ->
  (forall k x, (length pre <= k < length pre + length mid)%nat -> nth_error src k = Some x ->
     P (span_start src k) (span_end src k) x) ->
  all_at P (rows_len pre) mid.
Proof.
  intros Hsrc H. apply all_at_intro. intros a x c Ea.
  assert (Es : src = (pre ++ a) ++ x :: (c ++ post)).
  { rewrite Hsrc, Ea. rewrite <- !app_assoc. reflexivity. }
  destruct (split_span _ _ _ _ Es) as (Hn & Hss & Hse).
  eapply P_cong; [apply (H (length (pre ++ a)) x); [|exact Hn] | |].
  - rewrite Ea, !app_length. cbn [length]. lia.
  - rewrite Hss, rows_len_app. lia.
  - rewrite Hse, rows_len_app. lia.
Qed.

Lemma pos_rows_len_nonneg l : pos_rows l -> 0 <= rows_len l.
Proof.
  induction 1 as [|x t Hx _ IH]; [rewrite rows_len_nil; lia|]. rewrite rows_len_cons. lia.
Qed.

(* rows lo .. hi hold no base of the bait's core *)
Definition nocore (err : Z) (b : frag) (lo hi : Z) : Prop :=
  hi < f_start b + 3 * err \/ f_end b - 3 * err < lo
  \/ f_end b - 3 * err < f_start b + 3 * err.

Definition FNC (err : Z) (b : frag) (lo hi : Z) (x : row) : Prop :=
  match x with RF _ => nocore err b lo hi | RG _ => True end.

Definition RMeets (b : frag) (lo hi : Z) (x : row) : Prop :=
  lo <= f_end b /\ f_start b <= hi.

(* "U" for untrimmed: rows are whole source rows.  An emptied result still
   says that no fragment row of the whole source has a core base, which is
   what core_kept needs of it; head_frag / last_frag record that discards
   strip the gaps next to a dropped row, so the run always ends in fragments *)
Definition GoodU (err : Z) (src : list row) (r : ovr) : Prop :=
  (o_rows r = [] /\ all_at (FNC err (o_bait r)) 0 src)
  \/ exists pre post,
       src = pre ++ o_rows r ++ post
       /\ head_frag (o_rows r) /\ last_frag (o_rows r)
       /\ o_start r = 1 + rows_len pre
       /\ o_end r = rows_len pre + rows_len (o_rows r)
       /\ all_at (FNC err (o_bait r)) 0 pre
       /\ all_at (RMeets (o_bait r)) (rows_len pre) (o_rows r)
       /\ all_at (FNC err (o_bait r)) (rows_len pre + rows_len (o_rows r)) post.

Lemma GoodU_ext err src r r' :
  o_bait r' = o_bait r -> o_rows r' = o_rows r -> o_start r' = o_start r -> o_end r' = o_end r ->
  GoodU err src r -> GoodU err src r'.
Proof. intros E0 E1 E2 E3. unfold GoodU. rewrite E0, E1, E2, E3. tauto. Qed.

Lemma FNC_gap err b lo hi g : FNC err b lo hi (RG g).
Proof. exact I. Qed.

#[local] Hint Rewrite rows_len_app rows_len_cons rows_len_nil rows_len_rev : rl.

Lemma discard_end_bait r r' : discard_end r = Ok r' -> o_bait r' = o_bait r /\ o_start r' = o_start r.
Proof.
  intros H. destruct (discard_end_spec _ _ H) as (d & gaps & _ & _ & _ & _ & E).
  rewrite E. split; reflexivity.
Qed.

Lemma discard_start_good err src r r' f t :
  GoodU err src r -> o_rows r = RF f :: t ->
  nocore err (o_bait r) (o_start r) (o_start r + f_len f - 1) ->
  discard_start r = Ok r' ->
  GoodU err src r' /\ o_bait r' = o_bait r.
Proof.
  intros HG Er Hnc Hd.
  destruct HG as [[E _] | (pre & post & Hsrc & Hh & Hl & Hs & He & Hpre & Hrows & Hpost)];
    [rewrite E in Er; discriminate|].
  destruct (discard_start_spec _ _ Hd) as (d & gaps & Erows & Hg & Hrest & _ & Er').
  rewrite Er in Erows. injection Erows as <- Et.
  assert (Eb : o_bait r' = o_bait r) by (rewrite Er'; reflexivity).
  assert (Es' : o_start r' = o_start r + f_len f + rows_len gaps) by (rewrite Er'; reflexivity).
  assert (Ee' : o_end r' = o_end r) by (rewrite Er'; reflexivity).
  split; [|exact Eb]. clear Er' Hd.
  rewrite Er, Et in Hsrc, Hl, He, Hrows, Hpost.
  (* the dropped row and the gaps after it join the part before the run *)
  assert (Hdrop : all_at (FNC err (o_bait r)) 0 (pre ++ RF f :: gaps)).
  { apply all_at_app. split; [exact Hpre|]. cbn [all_at]. split.
    - cbn [FNC row_len]. unfold nocore in *. lia.
    - apply all_at_gaps; [apply FNC_gap | exact Hg]. }
  change (RF f :: gaps ++ o_rows r') with ((RF f :: gaps) ++ o_rows r') in Hsrc, Hl, He, Hrows, Hpost.
  rewrite <- app_assoc in Hsrc. rewrite app_assoc in Hsrc.
  apply all_at_app in Hrows. destruct Hrows as [_ Hrows].
  unfold GoodU. rewrite Eb, Es', Ee'.
  destruct Hrest as [E0 | Hh'].
  - left. split; [exact E0|]. rewrite Hsrc, E0. cbn [app]. apply all_at_app. split; [exact Hdrop|].
    eapply all_at_pos; [exact Hpost|]. rewrite E0. autorewrite with rl. cbn [row_len]. lia.
  - right. exists (pre ++ RF f :: gaps), post.
    split; [exact Hsrc|]. split; [exact Hh'|].
    split; [apply (last_frag_app_r (RF f :: gaps)); [destruct Hh' as (m & t' & ->); discriminate | exact Hl]|].
    split; [autorewrite with rl; cbn [row_len]; lia|].
    split; [rewrite He; autorewrite with rl; cbn [row_len]; lia|].
    split; [exact Hdrop|]. split.
    + eapply all_at_pos; [exact Hrows|]. autorewrite with rl. cbn [row_len]. lia.
    + eapply all_at_pos; [exact Hpost|]. autorewrite with rl. cbn [row_len]. lia.
Qed.

Lemma discard_end_good err src r r' f t :
  GoodU err src r -> o_rows r = t ++ [RF f] ->
  nocore err (o_bait r) (o_end r - f_len f + 1) (o_end r) ->
  discard_end r = Ok r' ->
  GoodU err src r' /\ o_bait r' = o_bait r.
Proof.
  intros HG Er Hnc Hd.
  destruct HG as [[E _] | (pre & post & Hsrc & Hh & Hl & Hs & He & Hpre & Hrows & Hpost)];
    [rewrite E in Er; destruct t; discriminate|].
  destruct (discard_end_spec _ _ Hd) as (d & gaps & Erows & Hg & Hrest & _ & Er').
  rewrite Er, app_assoc in Erows. apply app_inj_tail in Erows. destruct Erows as [Et <-].
  assert (Eb : o_bait r' = o_bait r) by (rewrite Er'; reflexivity).
  assert (Es' : o_start r' = o_start r) by (rewrite Er'; reflexivity).
  assert (Ee' : o_end r' = o_end r - f_len f - rows_len gaps) by (rewrite Er'; reflexivity).
  split; [|exact Eb]. clear Er' Hd.
  rewrite Er, Et in Hsrc, Hh, He, Hrows, Hpost.
  rewrite <- !app_assoc in Hsrc, Hh, He, Hrows, Hpost.
  (* the gaps before the dropped row and the row itself join the part after the run *)
  assert (Hdrop : all_at (FNC err (o_bait r)) (rows_len pre + rows_len (o_rows r')) (gaps ++ RF f :: post)).
  { apply all_at_app. split; [apply all_at_gaps; [apply FNC_gap | exact Hg]|]. cbn [all_at].
    autorewrite with rl in He. cbn [row_len] in He. split.
    - cbn [FNC row_len]. unfold nocore in *. lia.
    - eapply all_at_pos; [exact Hpost|]. autorewrite with rl. cbn [row_len]. lia. }
  apply all_at_app in Hrows. destruct Hrows as [Hrows _].
  unfold GoodU. rewrite Eb, Es', Ee'.
  destruct Hrest as [E0 | (t0 & m & El')].
  - left. split; [exact E0|]. rewrite Hsrc, E0. cbn [app]. apply all_at_app. split; [exact Hpre|].
    rewrite E0 in Hdrop. eapply all_at_pos; [exact Hdrop|]. autorewrite with rl. lia.
  - right. exists pre, (gaps ++ RF f :: post).
    split; [rewrite Hsrc, <- !app_assoc; reflexivity|].
    split; [apply (head_frag_app_l (o_rows r') (gaps ++ [RF f])); [rewrite El'; destruct t0; discriminate | exact Hh]|].
    split; [exists m, t0; exact El'|]. split; [exact Hs|].
    split; [rewrite He; autorewrite with rl; cbn [row_len]; lia|].
    split; [exact Hpre|]. split; [exact Hrows | exact Hdrop].
Qed.

Lemma lookup_good err src bait fo :
  0 <= err -> pos_rows src ->
  lookup_spec src (f_start bait) (f_end bait) (Some fo) ->
  GoodU err src (ovr_of_found bait fo).
Proof.
  intros Herr Hp (i & j & L & R & S1 & E1 & (o1 & Ho1) & (o2 & Ho2) & Mi & Mj & U).
  right. exists (firstn i src), (skipn (S j - i) (skipn i src)).
  cbn [ovr_of_found o_rows o_bait o_start o_end]. rewrite R.
  set (pr := firstn i src). set (rws := firstn (S j - i) (skipn i src)).
  set (pst := skipn (S j - i) (skipn i src)).
  assert (Hsrc : src = pr ++ rws ++ pst).
  { unfold pr, rws, pst. rewrite !firstn_skipn. reflexivity. }
  assert (Lpr : length pr = i) by (apply firstn_length_le; lia).
  assert (Lrws : length rws = (S j - i)%nat).
  { unfold rws. rewrite firstn_length, skipn_length. lia. }
  assert (Hlen : length src = (i + (S j - i) + length pst)%nat).
  { rewrite Hsrc at 1. rewrite !app_length. lia. }
  unfold meets in Mi, Mj.
  split; [exact Hsrc|].
  split.
  { destruct (slice_shape src i j o1 o2 ltac:(lia) Ho1 Ho2) as [[E _] | E]; fold rws in E; rewrite E.
    - exists o1, []. reflexivity.
    - eexists o1, _. reflexivity. }
  split.
  { destruct (slice_shape src i j o1 o2 ltac:(lia) Ho1 Ho2) as [[E _] | E]; fold rws in E; rewrite E.
    - exists o1, []. reflexivity.
    - exists o2, (RF o1 :: firstn (j - i - 1) (skipn (S i) src)). reflexivity. }
  split; [rewrite S1; reflexivity|].
  split.
  { rewrite E1. unfold span_end.
    assert (E : firstn (S j) src = pr ++ rws).
    { unfold pr, rws. rewrite <- firstn_add. f_equal. lia. }
    rewrite E, rows_len_app. reflexivity. }
  split; [|split].
  - apply (all_at_seg _ src [] pr (rws ++ pst) Hsrc). intros k x Hk Hn. cbn [length] in Hk.
    destruct x as [f|g]; [|exact I]. cbn [FNC].
    assert (Nm : ~ meets src (f_start bait) (f_end bait) k).
    { intros Hm. pose proof (U k (ex_intro _ f Hn) Hm). lia. }
    pose proof (pre_mono_le src Hp k i ltac:(lia)) as G.
    unfold meets, Lookup.pre, span_start, span_end, nocore in *. lia.
  - apply (all_at_seg _ src pr rws pst Hsrc). intros k x Hk Hn.
    pose proof (pre_mono_le src Hp k j ltac:(lia)) as G1.
    pose proof (pre_mono_le src Hp (S i) (S k) ltac:(lia)) as G2.
    unfold Lookup.pre, span_start, span_end, RMeets in *. lia.
  - rewrite <- rows_len_app.
    apply (all_at_seg _ src (pr ++ rws) pst [] ltac:(rewrite app_nil_r, <- app_assoc; exact Hsrc)).
    intros k x Hk Hn. rewrite app_length in Hk.
    destruct x as [f|g]; [|exact I]. cbn [FNC].
    assert (Nm : ~ meets src (f_start bait) (f_end bait) k).
    { intros Hm. pose proof (U k (ex_intro _ f Hn) Hm). lia. }
    pose proof (pre_mono_le src Hp (S j) (S k) ltac:(lia)) as G.
    unfold meets, Lookup.pre, span_start, span_end, nocore in *. lia.
Qed.

(* no fragment row meets the bait: no contig base in the bait's core *)
Lemma lookup_none_all err src bait :
  0 <= err -> pos_rows src ->
  lookup_spec src (f_start bait) (f_end bait) None ->
  all_at (FNC err bait) 0 src.
Proof.
  intros Herr Hp U. cbn [lookup_spec] in U.
  apply all_at_intro. intros a x c Ea.
  destruct (split_span _ _ _ _ Ea) as (Hn & Hss & Hse).
  destruct x as [f|g]; [|exact I]. cbn [FNC].
  assert (Nm := U (length a) (ex_intro _ f Hn)). unfold meets in Nm.
  unfold nocore. cbn [row_len] in *. lia.
Qed.

(* fragment f is a row of src beginning at coordinate lo; unique under
   distinct ids, so two results holding f place it at the same coordinates
   (shared_row in CoreKeptResolver) *)
Definition at_pos (src : list row) (f : frag) (lo : Z) : Prop :=
  exists a c, src = a ++ RF f :: c /\ lo = rows_len a + 1.

Lemma good_row err src r a f c :
  GoodU err src r -> o_rows r = a ++ RF f :: c ->
  at_pos src f (o_start r + rows_len a)
  /\ RMeets (o_bait r) (o_start r + rows_len a) (o_start r + rows_len a + f_len f - 1) (RF f).
Proof.
  intros HG Er.
  destruct HG as [[E _] | (pre & post & Hsrc & Hh & Hl & Hs & He & Hpre & Hrows & Hpost)];
    [rewrite E in Er; destruct a; discriminate|].
  split.
  - exists (pre ++ a), (c ++ post). split.
    + rewrite Hsrc, Er. rewrite <- !app_assoc. reflexivity.
    + rewrite rows_len_app. lia.
  - pose proof (all_at_split _ _ _ _ _ _ Hrows Er) as H. cbn [row_len] in H.
    unfold RMeets in *. lia.
Qed.

Lemma good_first err src r f t :
  GoodU err src r -> o_rows r = RF f :: t ->
  at_pos src f (o_start r)
  /\ RMeets (o_bait r) (o_start r) (o_start r + f_len f - 1) (RF f).
Proof.
  intros HG Er. destruct (good_row err src r [] f t HG Er) as [H1 H2].
  rewrite rows_len_nil, Z.add_0_r in H1, H2. split; assumption.
Qed.

Lemma good_end err src r t f :
  GoodU err src r -> o_rows r = t ++ [RF f] ->
  o_end r = o_start r + rows_len t + f_len f - 1.
Proof.
  intros HG Er.
  destruct HG as [[E _] | (pre & post & Hsrc & Hh & Hl & Hs & He & Hpre & Hrows & Hpost)];
    [rewrite E in Er; destruct t; discriminate|].
  rewrite He, Hs, Er, rows_len_app, rows_len_single. cbn [row_len]. lia.
Qed.

Lemma good_last err src r t f :
  GoodU err src r -> o_rows r = t ++ [RF f] ->
  at_pos src f (o_end r - f_len f + 1)
  /\ RMeets (o_bait r) (o_end r - f_len f + 1) (o_end r) (RF f).
Proof.
  intros HG Er. destruct (good_row err src r t f [] HG Er) as [H1 H2].
  pose proof (good_end err src r t f HG Er) as He.
  assert (E1 : o_end r - f_len f + 1 = o_start r + rows_len t) by lia. rewrite E1.
  split; [exact H1|]. unfold RMeets in *. lia.
Qed.

Lemma split_unique {A} (x : A) : forall a c a' c',
  ~ In x a -> ~ In x a' -> a ++ x :: c = a' ++ x :: c' -> a = a'.
Proof.
  induction a as [|y a IH]; intros c [|y' a'] c' H1 H2 E; cbn [app] in E.
  - reflexivity.
  - injection E as E _. exfalso. apply H2. left. congruence.
  - injection E as E _. exfalso. apply H1. left. congruence.
  - injection E as E1 E2. subst y'. f_equal. eapply IH; [| |exact E2].
    + intros H. apply H1. right. exact H.
    + intros H. apply H2. right. exact H.
Qed.

Lemma nodup_ids_notin a f c :
  NoDup (map f_id (frags_of (a ++ RF f :: c))) -> ~ In (RF f) a.
Proof.
  intros H Hin. rewrite frags_of_app, frags_of_RF, map_app in H. cbn [map] in H.
  apply NoDup_remove_2 in H. apply H. apply in_or_app. left.
  apply in_map. apply In_frags_of_iff. exact Hin.
Qed.

Lemma at_pos_unique src f lo lo' :
  NoDup (map f_id (frags_of src)) -> at_pos src f lo -> at_pos src f lo' -> lo = lo'.
Proof.
  intros Hnd (a & c & E & ->) (a' & c' & E' & ->).
  assert (a = a').
  { eapply (split_unique (RF f)); [| |rewrite <- E; exact E'].
    - apply (nodup_ids_notin a f c). rewrite <- E. exact Hnd.
    - apply (nodup_ids_notin a' f c'). rewrite <- E'. exact Hnd. }
  subst a'. reflexivity.
Qed.

Lemma at_pos_In src f lo : at_pos src f lo -> In (RF f) src.
Proof. intros (a & c & -> & _). apply in_or_app. right. left. reflexivity. Qed.

Lemma GoodU_SInv err src r : pos_rows src -> GoodU err src r -> SInv src r.
Proof.
  intros Hp [[E _] | (pre & post & Hsrc & Hh & Hl & Hs & He & _)].
  - split; [left; exact E|]. rewrite E. intros f [].
  - split.
    + right. exists pre, (o_rows r), post, 0, 0.
      split; [exact Hsrc|]. split; [|split; lia].
      destruct Hh as (f & t & Et). destruct Hl as (f' & t' & Et').
      assert (P1 : 1 <= f_len f).
      { apply (pos_rows_In src (RF f) Hp). rewrite Hsrc, Et.
        apply in_or_app. right. left. reflexivity. }
      assert (P2 : 1 <= f_len f').
      { apply (pos_rows_In src (RF f') Hp). rewrite Hsrc, Et'.
        apply in_or_app. right. apply in_or_app. left. apply in_or_app. right. left. reflexivity. }
      destruct (list_snoc_cases t) as [-> | (mid & x & ->)].
      * left. exists f, f. rewrite Et. split; [reflexivity|]. split; [reflexivity|].
        apply trimmed_refl. exact P1.
      * right. rewrite Et in Et'.
        change (RF f :: mid ++ [x]) with ((RF f :: mid) ++ [x]) in Et'.
        apply app_inj_tail in Et'. destruct Et' as [_ ->].
        exists f, f, mid, f', f'. rewrite Et.
        split; [reflexivity|]. split; [reflexivity|].
        split; [apply trimmed_refl; exact P1|]. split; [apply trimmed_refl; exact P2|].
        split; left; reflexivity.
    + intros g Hg. left. rewrite Hsrc. apply in_or_app. right. apply in_or_app. left. exact Hg.
Qed.

Lemma first_row_cons r x t : o_rows r = x :: t -> first_row r = Ok x.
Proof. intros E. unfold first_row. rewrite E. apply py_nth_0. Qed.

Lemma last_row_snoc r t x : o_rows r = t ++ [x] -> last_row r = Ok x.
Proof. intros E. unfold last_row. rewrite E. apply py_nth_m1. Qed.

(* the dropped first row, when the result still begins at or before the bait *)
Lemma start_overlap_nocore err src r f t ov :
  0 <= err -> f_start (o_bait r) <= f_end (o_bait r) ->
  GoodU err src r -> o_rows r = RF f :: t ->
  start_row_bait_overlap r = Ok ov -> ov < err ->
  o_start r <= f_start (o_bait r) ->
  nocore err (o_bait r) (o_start r) (o_start r + f_len f - 1).
Proof.
  intros Herr Hb HG Er Hov Hlt Hle.
  destruct (good_first err src r f t HG Er) as [_ [M1 M2]].
  pose proof (start_row_bait_overlap_spec r (RF f) ov (first_row_cons _ _ _ Er) Hov) as E.
  cbn [row_len] in E. unfold nocore. lia.
Qed.

Lemma end_overlap_nocore err src r f t ov :
  0 <= err -> f_start (o_bait r) <= f_end (o_bait r) ->
  GoodU err src r -> o_rows r = t ++ [RF f] ->
  end_row_bait_overlap r = Ok ov -> ov < err ->
  f_end (o_bait r) <= o_end r ->
  nocore err (o_bait r) (o_end r - f_len f + 1) (o_end r).
Proof.
  intros Herr Hb HG Er Hov Hlt Hle.
  destruct (good_last err src r t f HG Er) as [_ [M1 M2]].
  pose proof (end_row_bait_overlap_spec r (RF f) ov (last_row_snoc _ _ _ Er) Hov) as E.
  cbn [row_len] in E. unfold nocore. lia.
Qed.

Lemma trim_large_cases' r e r' :
  trim_large_overhangs r e = Ok r' ->
  exists r1,
    (r1 = r \/ (discard_start r = Ok r1 /\ start_overhang r > e
                /\ exists ov, start_row_bait_overlap r = Ok ov /\ ov < e))
    /\ (r' = r1 \/ (discard_end r1 = Ok r' /\ end_overhang r1 > e
                    /\ exists ov, end_row_bait_overlap r1 = Ok ov /\ ov < e)).
Proof.
  intros H. unfold trim_large_overhangs in H.
  destruct ((zlen (o_rows r) =? 1) && (f_len (o_bait r) >? e)).
  { injection H as <-. exists r. auto. }
  match type of H with
  | bind ?X _ = _ => destruct X as [r1|] eqn:H1; [|discriminate]
  end.
  cbn [bind] in H. exists r1. split.
  - destruct (start_overhang r >? e) eqn:E1; [|injection H1 as <-; auto].
    destruct (start_row_bait_overlap r) as [ov|] eqn:Eov; cbn [bind] in H1; [|discriminate].
    destruct (ov <? e) eqn:E2; [|injection H1 as <-; auto].
    right. split; [exact H1|]. split; [lia|]. exists ov. split; [reflexivity | lia].
  - destruct (o_rows r1).
    + destruct ((start_overhang r >? e) && negb (zlen (o_rows r) =? 0));
        [injection H as <-; auto|].
      destruct (end_overhang r1 >? e); [|injection H as <-; auto].
      destruct (end_row_bait_overlap r1) as [ov|]; cbn [bind] in H; [|discriminate].
      injection H as <-; auto.
    + destruct (end_overhang r1 >? e) eqn:E1; [|injection H as <-; auto].
      destruct (end_row_bait_overlap r1) as [ov|] eqn:Eov; cbn [bind] in H; [|discriminate].
      destruct (ov <? e) eqn:E2; [|injection H as <-; auto].
      right. split; [exact H|]. split; [lia|]. exists ov. split; [reflexivity | lia].
Qed.

Lemma discard_start_rows_head r r' : discard_start r = Ok r' -> o_rows r <> [].
Proof. intros H. destruct (discard_start_spec _ _ H) as (d & gaps & -> & _). discriminate. Qed.

Lemma discard_end_rows_last r r' : discard_end r = Ok r' -> o_rows r <> [].
Proof.
  intros H. destruct (discard_end_spec _ _ H) as (d & gaps & -> & _).
  destruct (o_rows r'); [destruct gaps|]; discriminate.
Qed.

Lemma GoodU_nonempty_head err src r :
  GoodU err src r -> o_rows r <> [] -> exists f t, o_rows r = RF f :: t.
Proof.
  intros [[E _] | (pre & post & _ & Hh & _)] Hne; [contradiction | exact Hh].
Qed.

Lemma GoodU_nonempty_last err src r :
  GoodU err src r -> o_rows r <> [] -> exists f t, o_rows r = t ++ [RF f].
Proof.
  intros [[E _] | (pre & post & _ & _ & Hl & _)] Hne; [contradiction | exact Hl].
Qed.

Lemma trim_large_good err src r r' :
  0 <= err -> f_start (o_bait r) <= f_end (o_bait r) ->
  GoodU err src r -> trim_large_overhangs r err = Ok r' ->
  GoodU err src r' /\ o_bait r' = o_bait r.
Proof.
  intros Herr Hb HG H.
  apply trim_large_cases' in H. destruct H as (r1 & H1 & H2).
  assert (G1 : GoodU err src r1 /\ o_bait r1 = o_bait r).
  { destruct H1 as [-> | (Hd & Ho & ov & Hov & Hlt)]; [split; [exact HG | reflexivity]|].
    destruct (GoodU_nonempty_head _ _ _ HG (discard_start_rows_head _ _ Hd)) as (f & t & Er).
    eapply discard_start_good; [exact HG | exact Er | | exact Hd].
    eapply start_overlap_nocore; try eassumption. unfold start_overhang in Ho. lia. }
  destruct G1 as [G1 B1].
  destruct H2 as [-> | (Hd & Ho & ov & Hov & Hlt)]; [split; assumption|].
  destruct (GoodU_nonempty_last _ _ _ G1 (discard_end_rows_last _ _ Hd)) as (f & t & Er).
  rewrite <- B1 in Hb.
  destruct (discard_end_good err src r1 r' f t G1 Er) as [G2 B2]; [|exact Hd|].
  - eapply end_overlap_nocore; try eassumption. unfold end_overhang in Ho. lia.
  - split; [exact G2 | congruence].
Qed.

Lemma GoodU_sub err src r : GoodU err src r -> exists pre post, src = pre ++ o_rows r ++ post.
Proof.
  intros [[E _] | (pre & post & Hsrc & _)].
  - exists src, []. rewrite E, app_nil_r. reflexivity.
  - exists pre, post. exact Hsrc.
Qed.

Lemma GoodU_rows_pos err src r : pos_rows src -> GoodU err src r -> pos_rows (o_rows r).
Proof.
  intros Hp HG. destruct (GoodU_sub _ _ _ HG) as (pre & post & E). rewrite E in Hp.
  apply pos_rows_app in Hp. destruct Hp as [_ Hp]. apply pos_rows_app in Hp. apply Hp.
Qed.

Lemma GoodU_rows_nodup {B} (g : frag -> B) err src r :
  NoDup (map g (frags_of src)) -> GoodU err src r -> NoDup (map g (frags_of (o_rows r))).
Proof.
  intros Hn HG. destruct (GoodU_sub _ _ _ HG) as (pre & post & E).
  rewrite E, !frags_of_app, !map_app in Hn. apply NoDup_app_r in Hn. apply NoDup_app_l in Hn. exact Hn.
Qed.

(* the two reasons the pipeline has for a discard: the bait overlap of the
   dropped row is below the error length (trim_large_overhangs, and the
   two-premise case of fix_one), or the overhang after the drop stays above
   -3 error lengths and the result has more than one row (p_improves) *)
Definition just_start (err : Z) (r : ovr) : Prop :=
  (exists ov, start_row_bait_overlap r = Ok ov /\ ov < err)
  \/ (zlen (o_rows r) <> 1 /\ exists v, overhang_if_start_removed r = Ok v /\ v > -3 * err).

Definition just_end (err : Z) (r : ovr) : Prop :=
  (exists ov, end_row_bait_overlap r = Ok ov /\ ov < err)
  \/ (zlen (o_rows r) <> 1 /\ exists v, overhang_if_end_removed r = Ok v /\ v > -3 * err).

(* a terminal fragment row that overlaps the bait in at least 3 error lengths
   is never dropped; the four inequalities say that of the interval
   o_start .. o_start + f_len x - 1 (resp. o_end - f_len x + 1 .. o_end) *)
Lemma no_just_start err r x t :
  1 <= err -> o_rows r = RF x :: t -> pos_rows t ->
  3 * err <= f_end (o_bait r) - f_start (o_bait r) + 1 ->
  3 * err <= f_end (o_bait r) - o_start r + 1 ->
  3 * err <= o_start r + f_len x - f_start (o_bait r) ->
  3 * err <= f_len x ->
  ~ just_start err r.
Proof.
  intros Herr Er Ht H1 H2 H3 H4 [(ov & Hov & Hlt) | (_ & v & Hv & Hgt)].
  - pose proof (start_row_bait_overlap_spec r (RF x) ov (first_row_cons _ _ _ Er) Hov) as E.
    cbn [row_len] in E. lia.
  - unfold overhang_if_start_removed in Hv. rewrite Er in Hv. injection Hv as Hv. cbn [row_len] in Hv.
    pose proof (leading_gaps_nonneg t Ht). lia.
Qed.

Lemma no_just_end err r t x :
  1 <= err -> o_rows r = t ++ [RF x] -> pos_rows t ->
  3 * err <= f_end (o_bait r) - f_start (o_bait r) + 1 ->
  3 * err <= f_end (o_bait r) - o_end r + f_len x ->
  3 * err <= o_end r - f_start (o_bait r) + 1 ->
  3 * err <= f_len x ->
  ~ just_end err r.
Proof.
  intros Herr Er Ht H1 H2 H3 H4 [(ov & Hov & Hlt) | (_ & v & Hv & Hgt)].
  - pose proof (end_row_bait_overlap_spec r (RF x) ov (last_row_snoc _ _ _ Er) Hov) as E.
    cbn [row_len] in E. lia.
  - unfold overhang_if_end_removed in Hv. rewrite Er, rev_unit in Hv. injection Hv as Hv.
    cbn [row_len] in Hv.
    pose proof (leading_gaps_nonneg (rev t) (Forall_rev Ht)). lia.
Qed.

