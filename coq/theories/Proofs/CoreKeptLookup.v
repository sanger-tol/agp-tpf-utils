(* C02 core clause: the lookups (one_bait, one_pretext_scaffold and their
   folds) establish, for every stored result, [GoodU] w.r.t. the input
   scaffold its bait names, and a per-result predicate K that holds of what a
   lookup finds and survives the justified discards of trim_large_overhangs;
   the baits of the stored results are baits of the map that do not overlap
   on a scaffold; the id lists of the found table are duplicate-free; a bait
   that got no result has no contig base of its scaffold in its core, and a
   bait that meets a fragment row of its scaffold does get a result. *)
From Tola Require Import Py.Base Model.Fragment Model.Scaffold Model.Lookup
  Model.OverlapResult Model.OvrSpec Model.Namer Model.Remap Model.RemapSpec
  Proofs.BaseLemmas Proofs.Rows Proofs.Lookup Proofs.OverlapResult Proofs.RemapHead Proofs.PipelineInv
  Proofs.CoreKeptGood Proofs.CoreKeptResolver.
From Coq Require Import Lia ZifyBool.

(* folding with the list of what is still to come *)
Lemma foldM_inv_rem {A S} (f : S -> A -> res S) (P : S -> list A -> Prop) :
  (forall s a rest s', P s (a :: rest) -> f s a = Ok s' -> P s' rest) ->
  forall l rest s s', P s (l ++ rest) -> foldM f l s = Ok s' -> P s' rest.
Proof.
  intros Hstep. induction l as [|a l IH]; intros rest s s' Hs H; cbn [foldM app] in *.
  - injection H as <-. exact Hs.
  - bind_inv H s1 Hs1. eapply IH; [|exact H]. eapply Hstep; eassumption.
Qed.

Lemma FOP_remove_mid {A} (R : A -> A -> Prop) x : forall a c,
  ForallOrdPairs R (a ++ x :: c) -> ForallOrdPairs R (a ++ c).
Proof.
  induction a as [|y a IH]; intros c H; cbn [app] in *.
  - inversion H; subst. assumption.
  - inversion H as [|? ? Hy Hrest]; subst. constructor; [|apply IH; exact Hrest].
    apply Forall_app in Hy. destruct Hy as [H1 H2]. apply Forall_app. split; [exact H1|].
    inversion H2; assumption.
Qed.

Lemma rename_results_baits st ids st' :
  rename_results st ids = Ok st' -> map o_bait st' = map o_bait st.
Proof.
  intros H. apply (kept_map o_bait).
  exact (rename_results_kept o_bait (fun _ _ => eq_refl) st ids st' H).
Qed.

(* while result id is being registered under the keys of gs: the id lists are
   duplicate-free, and id is not yet listed under a key still to come *)
Definition JI (id : rid) (gs : list frag) (found : list (fkey * (frag * list rid))) : Prop :=
  Forall (fun e => NoDup (snd (snd e))
                   /\ (In id (snd (snd e)) -> ~ In (fst e) (map key_of gs))) found.

Lemma store_found_one_JI id g gs found multi found' multi' :
  ~ In (key_of g) (map key_of gs) -> JI id (g :: gs) found ->
  store_found_one id (found, multi) g = (found', multi') -> JI id gs found'.
Proof.
  intros Hk HJ H. unfold store_found_one in H.
  assert (Hw : forall e : fkey * (frag * list rid), (NoDup (snd (snd e))
                 /\ (In id (snd (snd e)) -> ~ In (fst e) (map key_of (g :: gs)))) ->
               NoDup (snd (snd e)) /\ (In id (snd (snd e)) -> ~ In (fst e) (map key_of gs))).
  { intros e [H1 H2]. split; [exact H1|]. intros Hi Hin. apply (H2 Hi). right. exact Hin. }
  destruct (aget key_eqb found (key_of g)) as [[f0 ids]|] eqn:E.
  - destruct (aget_split key_eqb key_eqb_eq _ _ _ E) as (l1 & l2 & Ef & _ & Hs).
    rewrite Hs in H. injection H as <- _.
    unfold JI in *. rewrite Ef in HJ. apply Forall_app in HJ. destruct HJ as [J1 J2].
    apply Forall_cons_iff in J2. destruct J2 as [Jk J2]. cbn [fst snd] in Jk.
    apply Forall_app. split; [eapply Forall_impl; [|exact J1]; exact Hw|].
    constructor; [|eapply Forall_impl; [|exact J2]; exact Hw].
    cbn [fst snd]. split; [|intros _; exact Hk].
    apply NoDup_snoc; [apply Jk|]. intros Hi. apply (proj2 Jk Hi). left. reflexivity.
  - injection H as <- _. unfold JI in *. apply Forall_app. split.
    + eapply Forall_impl; [|exact HJ]. exact Hw.
    + constructor; [|constructor]. cbn [fst snd]. split; [|intros _; exact Hk].
      constructor; [intros []|constructor].
Qed.

Lemma store_found_fold_JI id : forall gs found multi found' multi',
  NoDup (map key_of gs) -> JI id gs found ->
  fold_left (store_found_one id) gs (found, multi) = (found', multi') -> NDI found'.
Proof.
  induction gs as [|g gs IH]; intros found multi found' multi' Hnd HJ H; cbn [fold_left] in H.
  - injection H as <- _. eapply Forall_impl; [|exact HJ]. intros e [H1 _]. exact H1.
  - cbn [map] in Hnd. inversion Hnd as [|? ? Hn Hnd']; subst.
    destruct (store_found_one id (found, multi) g) as [f1 m1] eqn:E1.
    eapply IH; [exact Hnd' | | exact H]. eapply store_found_one_JI; eassumption.
Qed.

Section Lookups.
  Variable inp : list (str * list row).
  Variable err : Z.
  Variable all : list frag.
  Hypothesis Hkeys : NoDup (map key_of (in_frags inp)).
  Hypothesis Hnames : NoDup (map fst inp).
  Hypothesis Hposr : forall name src, In (name, src) inp -> pos_rows src.
  Hypothesis Herr : 1 <= err.
  Hypothesis Hall : Forall (fun b => 1 <= f_start b <= f_end b) all.

  Definition SB (b : bstate) : list frag := map o_bait (b_store b).

  Variable K : ovr -> Prop.
  Hypothesis K_ext : forall r r',
    o_bait r' = o_bait r -> o_rows r' = o_rows r -> o_start r' = o_start r -> o_end r' = o_end r ->
    K r -> K r'.
  (* the instances identify the source scaffold of a result through its bait:
     hence the bait, the source and GoodU among the premises *)
  Hypothesis K_ds : forall src r r',
    In (o_bait r) all -> In (f_name (o_bait r), src) inp -> GoodU err src r -> K r ->
    just_start err r -> discard_start r = Ok r' -> K r'.
  Hypothesis K_de : forall src r r',
    In (o_bait r) all -> In (f_name (o_bait r), src) inp -> GoodU err src r -> K r ->
    just_end err r -> discard_end r = Ok r' -> K r'.
  Hypothesis K_init : forall bait rows fo,
    In bait all -> In (f_name bait, rows) inp ->
    lookup_spec rows (f_start bait) (f_end bait) (Some fo) -> K (ovr_of_found bait fo).


  Definition KS (st : list ovr) : Prop := forall r, In r st -> K r.

  Lemma trim_large_K src r r' :
    In (o_bait r) all -> In (f_name (o_bait r), src) inp -> GoodU err src r -> K r ->
    trim_large_overhangs r err = Ok r' -> K r'.
  Proof.
    intros Ha Hsrc HG HK H.
    assert (Hb : f_start (o_bait r) <= f_end (o_bait r)).
    { rewrite Forall_forall in Hall. pose proof (Hall _ Ha). lia. }
    apply trim_large_cases' in H. destruct H as (r1 & H1 & H2).
    assert (G1 : GoodU err src r1 /\ o_bait r1 = o_bait r /\ K r1).
    { destruct H1 as [-> | (Hd & Ho & ov & Hov & Hlt)]; [split; [exact HG | split; [reflexivity | exact HK]]|].
      destruct (GoodU_nonempty_head _ _ _ HG (discard_start_rows_head _ _ Hd)) as (f & t & Er).
      destruct (discard_start_good err src r r1 f t HG Er) as [G B]; [|exact Hd|].
      - eapply start_overlap_nocore; try eassumption; [lia|]. unfold start_overhang in Ho. lia.
      - split; [exact G|]. split; [exact B|].
        eapply K_ds; try eassumption. left. exists ov. split; assumption. }
    destruct G1 as (G1 & B1 & K1).
    destruct H2 as [-> | (Hd & Ho & ov & Hov & Hlt)]; [exact K1|].
    eapply (K_de src r1); try eassumption; try (rewrite B1; assumption).
    left. exists ov. split; assumption.
  Qed.

  (* the bait meets a fragment row of the scaffold it names *)
  Definition must (bait : frag) : Prop :=
    exists src k, In (f_name bait, src) inp /\ frag_at src k
                  /\ meets src (f_start bait) (f_end bait) k.

  Definition Trk (b : bstate) (rem : list frag) : Prop :=
    forall bait, In bait all -> must bait -> In bait rem \/ In bait (SB b).


  (* the scaffold the bait names holds no contig base of the bait's core *)
  Definition nocore_all (bait : frag) : Prop :=
    forall src, In (f_name bait, src) inp -> all_at (FNC err bait) 0 src.

  (* rem: the baits still to be looked up.  Every bait of the map is still to
     come, has a stored result, or has no core base at all.  LInv keeps
     [SB b ++ rem] pairwise non-overlapping: one_bait moves the head of rem to
     the end of the store or drops it *)
  Definition Cov (b : bstate) (rem : list frag) : Prop :=
    forall bait, In bait all -> In bait rem \/ In bait (SB b) \/ nocore_all bait.

  Definition LInv (b : bstate) (rem : list frag) : Prop :=
    RemapHead.Inv inp b /\ SG inp err all (b_store b)
    /\ ForallOrdPairs Rdisj (SB b ++ rem) /\ incl (SB b ++ rem) all
    /\ NDI (b_found b) /\ Cov b rem /\ KS (b_store b) /\ Trk b rem.

  Lemma input_rows_In name rows : input_rows inp name = Ok rows -> In (name, rows) inp.
  Proof.
    unfold input_rows. destruct (aget str_eqb inp name) as [rows0|] eqn:E; [|discriminate].
    intros H. injection H as <-. apply (aget_In str_eqb str_eqb_eq) in E. exact E.
  Qed.

  Lemma input_rows_unique name rows src :
    input_rows inp name = Ok rows -> In (name, src) inp -> src = rows.
  Proof.
    intros H Hin. unfold input_rows in H.
    rewrite (In_aget str_eqb str_eqb_eq inp name src Hnames Hin) in H. injection H as ->. reflexivity.
  Qed.

  Lemma find_overlaps_lookup rows bs be fo :
    pos_rows rows -> 1 <= bs <= be -> find_overlaps rows bs be = Ok fo -> lookup_spec rows bs be fo.
  Proof.
    intros Hp Hb H.
    assert (Hne : rows <> []) by (intros ->; discriminate).
    destruct (find_overlaps_spec rows bs be Hne Hp Hb) as (r & Er & Hr).
    rewrite Er in H. injection H as <-. exact Hr.
  Qed.

  Lemma one_bait_LInv tags orig b bait rest b' :
    LInv b (bait :: rest) -> one_bait inp err tags orig b bait = Ok b' -> LInv b' rest.
  Proof.
    intros (HI & HS & HF & Hinc & Hnd & Hc & HK & Ht) H.
    pose proof (one_bait_inv inp err tags orig b bait b' HI H) as HI'.
    destruct (one_bait_spec _ _ _ _ _ _ _ H) as (rows & Hrows & Hm).
    assert (Hba : In bait all) by (apply Hinc; apply in_or_app; right; left; reflexivity).
    assert (Hbv : 1 <= f_start bait <= f_end bait) by (rewrite Forall_forall in Hall; apply Hall; exact Hba).
    pose proof (input_rows_In _ _ Hrows) as Hin.
    pose proof (Hposr _ _ Hin) as Hp.
    destruct Hm as [[Hfo ->] | (fo & nm & lab & r1 & Hfo & _ & Htl & Hst & _ & _ & Hcase)];
      pose proof (find_overlaps_lookup _ _ _ _ Hp Hbv Hfo) as Hl.
    - split; [exact HI|]. split; [exact HS|]. split; [|split; [|split; [|split; [|split]]]].
      + eapply FOP_remove_mid. exact HF.
      + intros x Hx. apply Hinc. apply in_app_or in Hx. apply in_or_app.
        destruct Hx as [Hx | Hx]; [left; exact Hx | right; right; exact Hx].
      + exact Hnd.
      + intros bait0 Hb0. destruct (Hc bait0 Hb0) as [[<- | Hr] | [Hs | Hn]].
        * right. right. intros src Hsrc. rewrite (input_rows_unique _ _ _ Hrows Hsrc).
          apply lookup_none_all; [lia | exact Hp | exact Hl].
        * left. exact Hr.
        * right. left. exact Hs.
        * right. right. exact Hn.
      + exact HK.
      + intros bait0 Hb0 Hm0. destruct (Ht bait0 Hb0 Hm0) as [[<- | Hr] | Hs].
        * exfalso. destruct Hm0 as (src & k & Hsrc & Hf & Hmt).
          rewrite (input_rows_unique _ _ _ Hrows Hsrc) in *.
          cbn [lookup_spec] in Hl. exact (Hl k Hf Hmt).
        * left. exact Hr.
        * right. exact Hs.
    - set (r0 := set_labels (ovr_of_found bait fo) lab orig tags) in *.
      assert (G0 : GoodU err rows r0).
      { apply (GoodU_ext err rows (ovr_of_found bait fo)); try reflexivity.
        apply lookup_good; [lia | exact Hp | exact Hl]. }
      assert (K0 : K r0).
      { apply (K_ext (ovr_of_found bait fo)); try reflexivity. eapply K_init; eassumption. }
      assert (K1 : K r1) by (eapply (trim_large_K rows r0); eassumption).
      destruct (trim_large_good err rows r0 r1 ltac:(lia)) as [G1 B1]; [cbn; lia | exact G0 | exact Htl|].
      change (o_bait r0) with bait in B1.
      assert (HSB : SB b' = SB b ++ [bait]).
      { unfold SB. rewrite Hst, map_app. cbn [map]. rewrite B1. reflexivity. }
      split; [exact HI'|]. split; [|split; [|split; [|split; [|split; [|split]]]]].
      + intros r Hr. rewrite Hst in Hr. apply in_app_or in Hr.
        destruct Hr as [Hr | [<- | []]]; [apply HS; exact Hr|].
        split; [rewrite B1; exact Hba|]. exists rows. rewrite B1. split; assumption.
      + rewrite HSB, <- app_assoc. exact HF.
      + rewrite HSB, <- app_assoc. exact Hinc.
      + destruct Hcase as [(_ & _ & -> & _) | (_ & _ & Efm)]; [exact Hnd|].
        destruct (fold_left (store_found_one (zlen (b_store b))) (frags_of (o_rows r1)) (b_found b, b_multi b))
          as [found' multi'] eqn:Ef.
        injection Efm as -> _. eapply store_found_fold_JI; [| |exact Ef].
        * apply (GoodU_rows_nodup key_of err rows); [|exact G1].
          exact (src_nodup_g key_of inp _ _ Hkeys Hin).
        * destruct HI as (_ & (_ & A2) & (_ & _ & F3 & _) & _).
          unfold JI. unfold NDI in Hnd. rewrite Forall_forall in *. intros e He. split; [apply (Hnd e He)|].
          intros Hi. exfalso. destruct (F3 e He) as (_ & _ & K3 & _).
          apply K3 in Hi. apply A2 in Hi. lia.
      + intros bait0 Hb0. destruct (Hc bait0 Hb0) as [[<- | Hr] | [Hs | Hn]].
        * right. left. rewrite HSB. apply in_or_app. right. left. reflexivity.
        * left. exact Hr.
        * right. left. rewrite HSB. apply in_or_app. left. exact Hs.
        * right. right. exact Hn.
      + intros r Hr. rewrite Hst in Hr. apply in_app_or in Hr.
        destruct Hr as [Hr | [<- | []]]; [apply HK; exact Hr | exact K1].
      + intros bait0 Hb0 Hm0. rewrite HSB. destruct (Ht bait0 Hb0 Hm0) as [[<- | Hr] | Hs].
        * right. apply in_or_app. right. left. reflexivity.
        * left. exact Hr.
        * right. apply in_or_app. left. exact Hs.
  Qed.

  Lemma RGd_set_name r n : RGd inp err all r -> RGd inp err all (set_name r n).
  Proof.
    intros (Ha & src & Hsrc & HG). split; [exact Ha|]. exists src. split; [exact Hsrc|].
    apply (GoodU_ext err src r); try reflexivity. exact HG.
  Qed.

  Definition baits (pretext : list (str * list row)) : list frag :=
    flat_map (fun p => frags_of (snd p)) pretext.

  Lemma one_pretext_LInv b psc rest b' :
    LInv b (frags_of (snd psc) ++ baits rest) ->
    one_pretext_scaffold inp err b psc = Ok b' -> LInv b' (baits rest).
  Proof.
    intros HL H. destruct psc as [pname prows]. cbn [snd] in HL.
    destruct (one_pretext_spec _ _ _ _ _ _ H) as (nm & b1 & st & Hnm & Hb1 & Hst & ->).
    assert (HL0 : LInv (with_namer b nm) (frags_of prows ++ baits rest)) by exact HL.
    pose proof (foldM_inv_rem _ LInv (one_bait_LInv (fragment_tags prows) pname) _ _ _ _ HL0 Hb1)
      as (HI & HS & HF & Hinc & Hnd & Hc & HK & Ht).
    assert (HB : map o_bait st = map o_bait (b_store b1)) by (eapply rename_results_baits; exact Hst).
    split; [apply Inv_store_map; [exact HI | eapply rename_results_rows; exact Hst]|].
    unfold SB, Cov, Trk, SB. cbn [with_store b_store b_found]. rewrite HB.
    split; [|split; [exact HF|split; [exact Hinc|split; [exact Hnd | split; [exact Hc | split; [|exact Ht]]]]]];
      intros x Hx; destruct (rename_results_In _ _ _ Hst x Hx) as (r & Hr & [-> | (n & ->)]).
    - apply HS. exact Hr.
    - apply RGd_set_name. apply HS. exact Hr.
    - apply HK. exact Hr.
    - apply (K_ext r); try reflexivity. apply HK. exact Hr.
  Qed.

  Lemma pretext_LInv pretext b0 b1 :
    LInv b0 (baits pretext) -> foldM (one_pretext_scaffold inp err) pretext b0 = Ok b1 ->
    LInv b1 [].
  Proof.
    intros HL H.
    apply (foldM_inv_rem (one_pretext_scaffold inp err) (fun b rem => LInv b (baits rem))
             (fun s a rest s' => one_pretext_LInv s a rest s') pretext [] b0 b1); [|exact H].
    rewrite app_nil_r. exact HL.
  Qed.

  Lemma LInv_init nm : ForallOrdPairs Rdisj all -> LInv (mkB [] [] [] [] nm 0) all.
  Proof.
    intros Hd. split; [apply RemapHead.Inv_init|]. unfold SB. cbn [b_store b_found map app].
    split; [intros r []|]. split; [exact Hd|]. split; [apply incl_refl|].
    split; [constructor|]. split; [intros bait Hb; left; exact Hb|].
    split; [intros r []|]. intros bait Hb _. left. exact Hb.
  Qed.
End Lookups.
