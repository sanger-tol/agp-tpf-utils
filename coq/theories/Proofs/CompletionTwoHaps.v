(* C02 completion for well-paired TWO-HAPLOTYPE painted maps.  Every bait of
   Pretext scaffold [nm] carries exactly ["Painted"; hapf nm]; then every
   stored result carries the labels (nm, no tag, haplotype hapf nm, rank 1,
   original name nm); every Pretext scaffold with a core contig base leaves a
   rank-1 fused scaffold, so the ChrNamer items of the run are the Pretext
   scaffolds in map order; they pair up h1, h2 and the namer raises nothing. *)
From Tola Require Import Py.Base Model.Fragment Model.Scaffold Model.OverlapResult Model.Namer
  Model.Remap Model.RemapSpec Proofs.BaseLemmas Proofs.RemapHead Proofs.CoreKept Proofs.Routing
  Proofs.UniqueNames Proofs.Completion Proofs.MultiHap Proofs.CompletionPainted
  Proofs.CompletionTagged Proofs.ChromosomeNumbersHead Proofs.CompletionTwoHapsGlue.
From Tola Require Proofs.RemapTail Proofs.RoutingEndToEnd Proofs.JoinGaps Proofs.EndToEndC02
  Proofs.EndToEndC02Total.
From Coq Require Import Lia Bool.

Section Labels.
  Variables h1 h2 : str.
  Hypothesis Hlow : lower h1 <> lower h2.
  Hypothesis Hh1 : is_hap_tag h1 = true.
  Hypothesis Hh2 : is_hap_tag h2 = true.

  (* one of the two haplotype tags of the map *)
  Definition is12 (h : str) : Prop := h = h1 \/ h = h2.

  Lemma is12_hap h : is12 h -> is_hap_tag h = true.
  Proof. intros [-> | ->]; assumption. Qed.

  (* the case table of the namer knows h1 and h2 only under their own spelling *)
  Definition lcg (lc : list (str * str)) : Prop :=
    forall h, is12 h -> aget str_eqb lc (lower h) = None \/ aget str_eqb lc (lower h) = Some h.

  Lemma gsh_12 lc h : lcg lc -> is12 h -> exists lc', get_set_haplotype lc h = (h, lc') /\ lcg lc'.
  Proof.
    intros L I. unfold get_set_haplotype. destruct (L h I) as [E|E]; rewrite E.
    - eexists. split; [reflexivity|]. intros x Ix.
      destruct (L x Ix) as [Ex|Ex].
      + rewrite aget_app, Ex. cbn [aget].
        destruct (str_eqb (lower x) (lower h)) eqn:Q; [|left; reflexivity].
        apply str_eqb_eq in Q. right. f_equal.
        destruct I as [-> | ->], Ix as [-> | ->]; try reflexivity; exfalso; apply Hlow; congruence.
      + right. rewrite aget_app, Ex. reflexivity.
    - eexists. split; [reflexivity | exact L].
  Qed.

  (* the namer between two Pretext scaffolds: no Target mode, no Primary, nothing
     registered for renaming *)
  Definition hap_namer_ok (nm : namer) : Prop :=
    nm_target nm = false /\ truthy (nm_primary nm) = false /\ nm_unloc_scaffolds nm = []
    /\ nm_hap_scaffolds nm = [] /\ lcg (nm_hap_lc nm).

  Lemma msn_hap nm name rows f t h :
    hap_namer_ok nm -> rows = RF f :: t -> is12 h ->
    exists nm', make_scaffold_name nm name rows [s "Painted"; h] = Ok nm' /\ hap_namer_ok nm'
      /\ nm_cur_name nm' = Some name /\ nm_cur_rank nm' = 1 /\ nm_cur_hap nm' = Some h.
  Proof.
    intros (T & P & U & Hs & L) Hrows I. pose proof (is12_hap h I) as Hh.
    rewrite make_scaffold_name_eq. cbn [eff_tags foldM]. rewrite scan_painted. cbn [bind].
    rewrite scan_tag_cls, (hap_tag_cls h Hh). unfold scan0.
    cbn [scan_cls ts_hap truthy ts_lc ts_name ts_painted ts_rank ts_primary ts_target].
    destruct (gsh_12 (nm_hap_lc nm) h L I) as (lc' & -> & L'). cbn [bind].
    unfold finish, fin_hap. cbn [ts_hap ts_lc].
    assert (Et : truthy (Some h) = true) by (apply truthy_nonempty, hap_tag_nonempty, Hh). rewrite Et. cbn [bind].
    unfold fin_prim, fin_name. cbn [ts_primary andb bind ts_name ts_painted ts_rank ts_target]. rewrite P.
    eexists. split; [reflexivity|].
    cbn [nm_cur_name nm_cur_rank nm_cur_hap]. repeat split; cbn; assumption.
  Qed.

  Lemma known_not_hap X h : is_hap_tag h = true -> In X other_known_tags ->
    mem_str X [s "Painted"; h] = false.
  Proof.
    intros H I. destruct (mem_str X [s "Painted"; h]) eqn:E; [|reflexivity]. exfalso.
    apply mem_str_in in E. destruct E as [E|[E|[]]]; subst X.
    - cbn in I. intuition discriminate.
    - unfold is_hap_tag in H. destruct h; [discriminate|].
      apply andb_true_iff in H as [_ H]. apply negb_true_iff in H. apply mem_str_in in I. congruence.
  Qed.

  Lemma label_hap nm id h stags : nm_target nm = false -> is_hap_tag h = true ->
    label_scaffold nm id [s "Painted"; h] stags
    = Ok (nm, mkLabel (match nm_cur_name nm with Some n => n | None => [] end) None (nm_cur_hap nm) (nm_cur_rank nm)).
  Proof.
    intros T H. unfold label_scaffold. rewrite T.
    rewrite !(known_not_hap _ h H) by (cbn; tauto). reflexivity.
  Qed.

  Variable names : list str.
  Variable hapf : str -> str.

  (* the labels of every result of Pretext scaffold nm; what the lookups keep *)
  Definition lab_of (nm : str) : labs := (nm, None, Some (hapf nm), 1, Some nm).
  Definition labP (l : labs) : Prop := exists nm, In nm names /\ nm <> [] /\ l = lab_of nm.
  Definition hap_store_ok (b : bstate) : Prop := hap_namer_ok (b_namer b) /\ Forall (fun r => labP (o_labs r)) (b_store b).

  Lemma one_bait_SI inp err sc_tags pname b bait b' :
    In pname names -> pname <> [] -> f_tags bait = [s "Painted"; hapf pname] -> is12 (hapf pname) ->
    nm_cur_name (b_namer b) = Some pname -> nm_cur_rank (b_namer b) = 1 ->
    nm_cur_hap (b_namer b) = Some (hapf pname) ->
    hap_store_ok b -> one_bait inp err sc_tags pname b bait = Ok b' -> hap_store_ok b' /\ b_namer b' = b_namer b.
  Proof.
    intros Hin Hne Ht I C1 C2 C3 [N F] H.
    destruct (one_bait_spec _ _ _ _ _ _ _ H)
      as (rows & _ & [[_ ->] | (fo & nm & lab & r1 & _ & EL & ET & ES & EN & _)]);
      [split; [split; assumption | reflexivity]|].
    rewrite Ht, (label_hap _ _ _ _ (proj1 N) (is12_hap _ I)), C1, C2, C3 in EL. injection EL as <- <-.
    split; [|exact EN]. unfold hap_store_ok. rewrite ES, EN. split; [exact N|].
    apply Forall_app. split; [exact F|]. constructor; [|constructor].
    rewrite (trim_large_labs _ _ _ ET). exists pname. split; [exact Hin|]. split; [exact Hne|]. reflexivity.
  Qed.

  Lemma one_pretext_SI inp err b pname prows b' :
    In pname names -> pname <> [] -> (exists b0 t, prows = RF b0 :: t) ->
    Forall (fun bt => f_tags bt = [s "Painted"; hapf pname]) (frags_of prows) -> is12 (hapf pname) ->
    hap_store_ok b -> one_pretext_scaffold inp err b (pname, prows) = Ok b' -> hap_store_ok b'.
  Proof.
    intros Hin Hne (f & t & Hrows) Hb I [N F] H.
    destruct (one_pretext_spec _ _ _ _ _ _ H) as (nm' & b1 & st & Hnm & EF & ER & ->).
    assert (Et : fragment_tags prows = [s "Painted"; hapf pname]).
    { subst prows. change (frags_of (RF f :: t)) with (f :: frags_of t) in *.
      inversion Hb as [|? ? B1 B2]; subst.
      unfold fragment_tags. change (frags_of (RF f :: t)) with (f :: frags_of t).
      cbn [flat_map]. rewrite B1.
      unfold dedup. cbn [app dedup_acc existsb].
      assert (Q : str_eqb (hapf pname) (s "Painted") = false).
      { apply str_eqb_neq. intro Q. pose proof (is12_hap _ I) as X. rewrite Q in X. vm_compute in X. discriminate. }
      rewrite Q. cbn [orb]. rewrite dedup_acc_all_in; [reflexivity|].
      intros x Hx. apply in_flat_map in Hx as (bt & Ibt & Hx). rewrite Forall_forall in B2.
      rewrite (B2 bt Ibt) in Hx. destruct Hx as [<-|[<-|[]]]; [right; left; reflexivity | left; reflexivity]. }
    rewrite Et in Hnm, EF.
    destruct (msn_hap (b_namer b) pname prows f t (hapf pname) N Hrows I) as (nm & Em & N' & C1 & C2 & C3).
    rewrite Em in Hnm. injection Hnm as <-.
    assert (I1 : hap_store_ok b1 /\ b_namer b1 = nm).
    { apply (foldM_inv_In (one_bait inp err [s "Painted"; hapf pname] pname)
               (fun b => hap_store_ok b /\ b_namer b = nm) (frags_of prows)) with (3 := EF).
      - intros s0 a s1 Ia [Hs En] E. rewrite Forall_forall in Hb.
        destruct (one_bait_SI _ _ _ _ _ _ _ Hin Hne (Hb a Ia) I
                    ltac:(rewrite En; exact C1) ltac:(rewrite En; exact C2) ltac:(rewrite En; exact C3) Hs E) as [K1 K2].
        split; [exact K1 | congruence].
      - split; [|reflexivity]. split; [exact N' | exact F]. }
    destruct I1 as [[J1 J2] J3]. pose proof J1 as (_ & _ & T3 & _).
    rewrite T3, RemapTail.rename_results_nil in ER. injection ER as <-.
    split; [exact J1 | exact J2].
  Qed.
End Labels.

Definition hap_baits (hapf : str -> str) (pretext : list (str * list row)) : Prop :=
  Forall (fun p => Forall (fun bt => f_tags bt = [s "Painted"; hapf (fst p)]) (frags_of (snd p))) pretext.

Lemma concat_tags_two h : forall frs, Forall (fun bt : frag => f_tags bt = [s "Painted"; h]) frs ->
  forall t, In t (concat (map f_tags frs)) -> t = s "Painted" \/ t = h.
Proof.
  induction frs as [|x l IH]; intros F t I; [destruct I|]. inversion F as [|? ? X1 X2]; subst.
  cbn [map concat] in I. rewrite X1 in I. destruct I as [<-|[<-|I]]; auto.
Qed.

Lemma two_tags_consistent h frs : is_hap_tag h = true ->
  Forall (fun bt : frag => f_tags bt = [s "Painted"; h]) frs ->
  scaffold_tags_consistent (map f_tags frs).
Proof.
  intros Hh F. pose proof (concat_tags_two h frs F) as C.
  assert (Nn : is_name_tag h = false).
  { destruct (is_name_tag h) eqn:E; [|reflexivity]. rewrite (name_not_hap h E) in Hh. discriminate. }
  split; [|split; [|split]].
  - intros t1 t2 I1 _ N1 _. destruct (C t1 I1) as [-> | ->]; [vm_compute in N1|]; congruence.
  - intros t1 t2 I1 I2 N1 N2. destruct (C t1 I1) as [-> | ->]; [vm_compute in N1; discriminate|].
    destruct (C t2 I2) as [-> | ->]; [vm_compute in N2; discriminate | reflexivity].
  - intro I. destruct (C _ I) as [E|E]; [discriminate E|]. rewrite <- E in Hh. vm_compute in Hh. discriminate.
  - intros l Il Hu. exfalso. apply in_map_iff in Il as (bt & <- & Ib). rewrite Forall_forall in F.
    rewrite (F bt Ib) in Hu. unfold unloc_piece in Hu.
    rewrite (known_not_hap (s "Unloc") h Hh) in Hu by (cbn; tauto). discriminate.
Qed.

(* the labels of a left-over scaffold *)
Definition left3 (l : labs) : Prop := let '(_, tag, _, rank, orig) := l in tag = None /\ rank = 3 /\ orig = None.

Lemma alternating_is12 h1 h2 k (hapf : str -> str) names :
  map hapf names = alternating h1 h2 k -> forall nm, In nm names -> is12 h1 h2 (hapf nm).
Proof. intros E nm I. apply (alternating_in h1 h2 _ k). rewrite <- E. apply in_map, I. Qed.

(* the labels of the run: every stored result carries those of its Pretext
   scaffold, every fused scaffold those or the ones of a left-over *)
Lemma two_hap_labels g prefix bpt input pretext h1 h2 (hapf : str -> str) rs :
  Forall (fun f => f_tags f = []) (in_frags input) ->
  Forall (fun p => exists b t, snd p = RF b :: t) pretext ->
  lower h1 <> lower h2 -> is_hap_tag h1 = true -> is_hap_tag h2 = true ->
  hap_baits hapf pretext ->
  (forall nm, In nm (map fst pretext) -> is12 h1 h2 (hapf nm)) ->
  Forall (fun p => fst p <> []) pretext ->
  remap_to_input repaired g prefix bpt input pretext = Ok rs ->
  Forall (fun r => labP (map fst pretext) hapf (o_labs r)) (b_store (rs_b rs))
  /\ forall fused0, fuse_all repaired g rs = Ok fused0 ->
       Forall (fun sc => labP (map fst pretext) hapf (sc_labs sc) \/ left3 (sc_labs sc)) fused0.
Proof.
  intros Hunt Hpre Hlow Hh1 Hh2 Hbaits H12 Hne Hrs. set (names := map fst pretext) in *.
  destruct (remap_to_input_stages _ _ _ _ _ _ _ Hrs)
    as (_ & b1 & b2 & b3 & st & [nm left] & E1 & E2 & E3 & E4 & E5 & ->).
  assert (O1 : hap_store_ok h1 h2 names hapf b1).
  { apply (foldM_inv_In _ (hap_store_ok h1 h2 names hapf) pretext) with (3 := E1).
    - intros s0 [pname prows] s1 Ia Hs E. unfold hap_baits in Hbaits. rewrite Forall_forall in Hpre, Hbaits, Hne.
      apply (one_pretext_SI h1 h2 Hlow Hh1 Hh2 names hapf (number_input input 0) (error_length bpt) s0 pname prows s1); try assumption.
      + apply (in_map fst _ _ Ia).
      + exact (Hne _ Ia).
      + exact (Hpre _ Ia).
      + exact (Hbaits _ Ia).
      + apply H12. apply (in_map fst _ _ Ia).
    - split; [|constructor]. repeat split. intros h _. left. reflexivity. }
  destruct O1 as [(T1 & T2 & T3 & T4 & T5) F1].
  destruct (Proofs.EndToEndC02Total.later_stages_same _ _ _ _ _ _ _ E2 E3 T4 E4) as (_ & EL & Nb3).
  assert (F3 : Forall (fun r => labP names hapf (o_labs r)) st).
  { exact (Forall_map_eq o_labs (labP names hapf) (b_store b1) st EL F1). }
  cbn [rs_b rs_left with_namer with_store b_store fst snd].
  split; [exact F3|]. intros fused0 HF.
  assert (Hunt' : Forall (fun f => f_tags f = []) (in_frags (number_input input 0))).
  { apply number_input_frags; [intros f id P; exact P | exact Hunt]. }
  assert (T3' : nm_target (b_namer b3) = false) by (rewrite Nb3; exact T1).
  pose proof (leftovers_fine repaired g _ _ _ _ _ _ Hunt' T3' (Forall_nil _) E5) as FL.
  pose proof (leftovers_left_lab repaired g _ _ _ _ _ _ (Forall_nil _) E5) as FL2.
  apply (fuse_all_labs (fun l => labP names hapf l \/ left3 l) repaired g _ fused0) with (3 := HF).
  - cbn [rs_b with_namer with_store b_store]. eapply Forall_impl; [|exact F3]. intros r Hr. left. exact Hr.
  - cbn [rs_left]. rewrite Forall_forall in *. intros sc Isc. right.
    destruct (FL sc Isc) as [K1 K2]. destruct (FL2 sc Isc) as [_ K3]. unfold left3, sc_labs. auto.
Qed.

(* the second half of the pipeline completes when the ChrNamer items are well
   interleaved two-haplotype items *)
Lemma two_hap_tail_total : forall g prefix input rs fused0 h1 h2 p0 pairs,
  Forall (fun f => f_strand f = 1 \/ f_strand f = -1) (in_frags input) ->
  fuse_all repaired g rs = Ok fused0 ->
  (forall sc, In sc fused0 -> spm (sc_rows sc)) ->
  h1 <> h2 ->
  chr_items (map (prefix_rank2 prefix) fused0) = items_of (map (chrom2 h1 h2) (p0 :: pairs)) ->
  Forall (fun p => sub_ok (map (prefix_rank2 prefix) fused0) (fst p) /\ sub_ok (map (prefix_rank2 prefix) fused0) (snd p)) (p0 :: pairs) ->
  NoDup (map snd (items_of (map (chrom2 h1 h2) (p0 :: pairs)))) ->
  exists o, assemblies_with_scaffolds_fused repaired g prefix input rs = Ok o.
Proof.
  intros g prefix input rs fused0 h1 h2 p0 pairs Hpm HF Hrows0 Hne Hitems Hsub Hidx.
  destruct (two_hap_names prefix (map (prefix_rank2 prefix) fused0) h1 h2 p0 pairs Hne Hsub Hidx)
    as (fused & NC & [Hsame _] & _).
  apply (tail_after_namer g prefix input rs fused0 fused Hpm HF).
  - rewrite Hitems. exact NC.
  - intros sc Isc. destruct (Forall2_In_r _ _ _ Hsame sc Isc) as (sc1 & I1 & Er & _). rewrite Er.
    apply in_map_iff in I1 as (sc0 & <- & I0).
    destruct (prefix_rank2_sbn prefix sc0) as (Rr & _). rewrite Rr. exact (Hrows0 sc0 I0).
Qed.

Lemma fuse_fold_keeps c g : forall pieces acc k v0, In (k, v0) acc ->
  exists v, In (k, v) (fold_left (fuse_step c g) pieces acc) /\ sc_labs v = sc_labs v0.
Proof.
  induction pieces as [|[sc isr] pieces IH]; intros acc k v0 I; cbn [fold_left]; [exists v0; auto|].
  assert (S : exists v1, In (k, v1) (fuse_step c g acc (sc, isr)) /\ sc_labs v1 = sc_labs v0).
  { destruct (Proofs.ChromosomeNumbersHead.fuse_step_cases c g acc sc isr)
      as [E|[(l1 & k' & w0 & w & l2 & E1 & E2 & E3)|(k' & w & E2 & E3)]].
    - rewrite E. exists v0. auto.
    - rewrite E2. rewrite E1 in I. apply in_app_or in I as [I|[I|I]].
      + exists v0. split; [apply in_or_app; left; exact I | reflexivity].
      + injection I as <- <-. exists w. split; [apply in_or_app; right; left; reflexivity | exact E3].
      + exists v0. split; [apply in_or_app; right; right; exact I | reflexivity].
    - rewrite E2. exists v0. split; [apply in_or_app; left; exact I | reflexivity]. }
  destruct S as (v1 & I1 & L1). destruct (IH _ k v1 I1) as (v & Iv & Lv). exists v. split; [exact Iv | congruence].
Qed.

(* a stored result with rows that was added lands in a fused scaffold that has
   its name and the labels of some stored result *)
Lemma result_in_fused_labs (Q : labs -> Prop) g rs fused0 id r :
  Forall (fun r => Q (o_labs r)) (b_store (rs_b rs)) ->
  fuse_all repaired g rs = Ok fused0 ->
  In id (b_added (rs_b rs)) -> get_ovr (b_store (rs_b rs)) id = Ok r -> o_rows r <> [] ->
  exists v, In v fused0 /\ sc_name v = o_name r /\ Q (sc_labs v).
Proof.
  intros FQ F Hid Hget NE. unfold fuse_all in F. bind_inv F results Hres. injection F as <-.
  rewrite fold_left_app.
  set (sc := fst (piece_of_result r)).
  assert (Hin : In (sc, true) (map piece_of_result results)).
  { apply in_map_iff. exists r. split; [reflexivity|].
    eapply Proofs.RoutingEndToEnd.mapM_ok_In_l; eassumption. }
  assert (NE' : sc_rows sc <> []).
  { unfold sc. cbn [piece_of_result fst sc_rows]. intros E. apply NE.
    apply Proofs.JoinGaps.to_scaffold_rows_nil_iff. exact E. }
  destruct (Proofs.Routing.routing_gen g _ [] sc true Proofs.Routing.fused_ok_nil Hin NE')
    as (b & pre & suf & Hg & _ & _ & _ & Nm).
  apply (aget_In fuse_key_eqb Proofs.JoinGaps.fuse_key_eqb_eq) in Hg.
  assert (Qb : Q (sc_labs b)).
  { assert (K : Forall (fun kb : fuse_key * scaffold => Q (sc_labs (snd kb)))
                       (fold_left (fuse_step repaired g) (map piece_of_result results) [])).
    { apply fuse_fold_labs; [|constructor]. apply Forall_map.
      pose proof (mapM_get_in _ _ _ Hres) as I. rewrite Forall_forall in I, FQ |- *.
      intros x Hx. exact (FQ x (I x Hx)). }
    rewrite Forall_forall in K. exact (K _ Hg). }
  destruct (fuse_fold_keeps repaired g (map (fun sc => (sc, false)) (rs_left rs)) _ _ _ Hg) as (v & Iv & Lv).
  exists v. split; [apply in_map_iff; exists (Proofs.Routing.key_of_piece sc, v); split; [reflexivity | exact Iv]|].
  split; [|rewrite Lv; exact Qb].
  unfold sc_labs in Lv. injection Lv as Ln _ _ _ _. rewrite Ln, Nm. reflexivity.
Qed.

Lemma nodup_flat_map_unique {A B} (f : A -> list B) : forall l a b x,
  NoDup (flat_map f l) -> In a l -> In b l -> In x (f a) -> In x (f b) -> a = b.
Proof.
  induction l as [|y l IH]; intros a b x N Ia Ib Xa Xb; [destruct Ia|].
  cbn [flat_map] in N.
  assert (D : forall z, In z l -> In x (f y) -> In x (f z) -> False).
  { intros z Iz X1 X2. clear IH. induction (f y) as [|w fy IHy]; [destruct X1|].
    cbn [app] in N. inversion N as [|? ? N1 N2]; subst. destruct X1 as [->|X1]; [|exact (IHy N2 X1)].
    apply N1. apply in_or_app. right. apply in_flat_map. exists z. split; assumption. }
  destruct Ia as [->|Ia], Ib as [->|Ib]; [reflexivity | exfalso; eapply D; eassumption
    | exfalso; eapply D; eassumption |].
  apply (IH a b x); try assumption. clear -N. induction (f y) as [|w fy IHy]; [exact N|].
  inversion N; subst. apply IHy. assumption.
Qed.

(* every Pretext scaffold with a core contig base leaves a fused scaffold that
   carries the labels of one of its results *)
Theorem core_scaffold_in_fused : forall (Q : labs -> Prop) g prefix n d input pretext rs fused0,
  0 < d -> d <= n ->
  Forall input_ok input -> NoDup (map fst input) ->
  NoDup (map key_of (in_frags input)) ->
  Forall (fun b => In (f_name b) (map fst input)) (baits_of pretext) ->
  Forall (scaffold_tiled n d (baits_of pretext)) input ->
  remap_to_input repaired g prefix (n, d) input pretext = Ok rs ->
  fuse_all repaired g rs = Ok fused0 ->
  Forall (fun r => Q (o_labs r)) (b_store (rs_b rs)) ->
  forall p b src x, In p pretext -> In b (frags_of (snd p)) ->
    In (f_name b, src) (number_input input 0) ->
    in_core (error_length (n, d)) b x -> contig_base src x ->
    exists r v, In r (b_store (rs_b rs)) /\ o_orig r = Some (fst p)
      /\ In v fused0 /\ sc_name v = o_name r /\ Q (sc_labs v).
Proof.
  intros Q g prefix n d input pretext rs fused0 Hd Hdn Hin Hnm Hkeys Hnamed Htile Hrs HF FQ
    p bait src x Ip Ib Hsrc Hcore Hbase.
  assert (Hbait : In bait (baits_of pretext)) by (apply (Proofs.EndToEndC02Total.in_baits_of p); assumption).
  destruct (Proofs.EndToEndC02.core_result g prefix n d input pretext rs Hd Hdn Hin Hnm Hkeys Hnamed Htile Hrs
              bait src x Hbait Hsrc Hcore Hbase) as (k & r & Hk & Eb & _ & _ & Hne & Hin_added).
  pose proof (nth_error_In _ _ Hk) as Hr.
  destruct (result_in_fused_labs Q g rs fused0 _ r FQ HF Hin_added (Proofs.EndToEndC02.get_ovr_of_nat _ _ _ Hk) Hne) as (v & Iv & Nv & Qv).
  exists r, v. split; [exact Hr|]. split; [|auto].
  (* its original name is that of the one Pretext scaffold that holds the bait *)
  destruct (Proofs.RoutingEndToEnd.labels_from_label_scaffold _ _ _ _ _ _ _ Hrs k r Hk)
    as (pname & prows & _ & _ & _ & Ip' & Ib' & Eo & _).
  rewrite Eb in Ib'.
  rewrite (nodup_flat_map_unique (fun p => frags_of (snd p)) pretext p (pname, prows) bait
             (Proofs.EndToEndC02.baits_nodup n d input pretext Hnamed Htile) Ip Ip' Ib Ib'). exact Eo.
Qed.

Section TwoHapRun.
  Variables (g : gap) (prefix : str) (n d : Z) (input pretext : list (str * list row)) (h1 h2 : str)
    (hapf : str -> str) (k : nat).
  Hypothesis Hd : 0 < d.
  Hypothesis Hdn : d <= n.
  Hypothesis Hin : Forall input_ok input.
  Hypothesis Hnm : NoDup (map fst input).
  Hypothesis Hkeys : NoDup (map key_of (in_frags input)).
  Hypothesis Hunt : Forall (fun f => f_tags f = []) (in_frags input).
  Hypothesis Hpm : Forall (fun f => f_strand f = 1 \/ f_strand f = -1) (in_frags input).
  Hypothesis Hpre : Forall (fun p => exists b t, snd p = RF b :: t) pretext.
  Hypothesis Hb : Forall (fun b => (f_strand b = 1 \/ f_strand b = -1) /\ In (f_name b) (map fst input))
                         (baits_of pretext).
  Hypothesis Htile : Forall (scaffold_tiled n d (baits_of pretext)) input.
  Hypothesis Hlow : lower h1 <> lower h2.
  Hypothesis Hh1 : is_hap_tag h1 = true.
  Hypothesis Hh2 : is_hap_tag h2 = true.
  Hypothesis Hbaits : hap_baits hapf pretext.
  Hypothesis Halt : map hapf (map fst pretext) = alternating h1 h2 (S k).
  Hypothesis Hnd : NoDup (map fst pretext).
  Hypothesis Hne : Forall (fun p => fst p <> []) pretext.
  (* every Pretext scaffold has a bait with a contig base in its core *)
  Hypothesis Hcore :
    Forall (fun p => exists b src x, In b (frags_of (snd p)) /\ In (f_name b, src) (number_input input 0)
                       /\ in_core (error_length (n, d)) b x /\ contig_base src x) pretext.

(* the ChrNamer items of the run are the Pretext scaffolds in map order, each
   with the index of the one rank-1 fused scaffold painted in it *)
Lemma two_hap_run_items rs fused0 :
  remap_to_input repaired g prefix (n, d) input pretext = Ok rs ->
  fuse_all repaired g rs = Ok fused0 ->
  let fused1 := map (prefix_rank2 prefix) fused0 in
  (exists idxs, chr_items fused1 = combine (map hapf (map fst pretext)) idxs
                /\ Forall2 (at_off fused1 0) (map fst pretext) idxs)
  /\ (forall sc, In sc fused1 -> sc_rank sc = 1 ->
        sc_tag sc = None /\ exists nm, sc_name sc = nm /\ sc_orig sc = Some nm /\ sc_hap sc = Some (hapf nm) /\ hapf nm <> []).
Proof.
  intros Hrs HF fused1.
  set (names := map fst pretext) in *.
  pose proof (alternating_is12 h1 h2 (S k) hapf names Halt) as H12.
  destruct (two_hap_labels g prefix (n, d) input pretext h1 h2 hapf rs Hunt Hpre Hlow Hh1 Hh2 Hbaits H12 Hne Hrs)
    as [FQ HQ].
  fold names in FQ, HQ. specialize (HQ fused0 HF).
  destruct (fused_order repaired g prefix (n, d) input pretext rs fused0 Hnd Hrs HF) as [Hsorted _].
  pose proof (fuse_keys_nodup g rs fused0 HF) as Hkeysnd.
  rewrite Forall_forall in HQ.
  assert (Hr1 : forall sc, In sc fused0 -> sc_rank sc = 1 ->
            exists nm, In nm names /\ nm <> [] /\ sc_labs sc = lab_of hapf nm).
  { intros sc I R. destruct (HQ sc I) as [(nm & A & B & C)|L]; [exists nm; auto|].
    unfold left3, sc_labs in L. destruct L as (_ & L & _). rewrite R in L. discriminate. }
  split.
  - apply (items_by_names hapf fused1 0 [] names); cbn [app].
    + exact Hnd.
    + apply Forall_forall. intros sc1 I1 R1. apply in_map_iff in I1 as (sc0 & <- & I0).
      destruct (prefix_rank2_sbn prefix sc0) as (_ & _ & _ & Rk & Ro & _). rewrite Rk in R1.
      destruct (Hr1 sc0 I0 R1) as (nm & A & B & C). exists nm. split; [exact A|]. split; [exact B|].
      unfold sc_labs, lab_of in C. injection C as _ Ct Ch _ Co. split; [congruence|].
      rewrite (same_but_name_asm_k _ _ (prefix_rank2_sbn prefix sc0)). unfold asm_k, asm_key_of.
      rewrite Ct, Ch. change (truthy None) with false. cbv iota.
      pose proof (hap_tag_nonempty _ (is12_hap h1 h2 Hh1 Hh2 _ (H12 nm A))) as Xne.
      destruct (hapf nm) as [|c0 t0]; [congruence | reflexivity].
    + unfold fused1. rewrite map_map.
      erewrite map_ext; [exact Hsorted|]. intro sc0. unfold skey.
      destruct (prefix_rank2_sbn prefix sc0) as (_ & _ & _ & _ & Ro & _). rewrite Ro. reflexivity.
    + intros i j a b Ea Eb Ra Rb Eo. unfold fused1 in Ea, Eb. rewrite nth_error_map in Ea, Eb.
      destruct (nth_error fused0 i) as [a0|] eqn:Ia; [|discriminate].
      destruct (nth_error fused0 j) as [b0|] eqn:Ib; [|discriminate].
      cbn [option_map] in Ea, Eb. injection Ea as <-. injection Eb as <-.
      destruct (prefix_rank2_sbn prefix a0) as (_ & _ & _ & Rka & Roa & _).
      destruct (prefix_rank2_sbn prefix b0) as (_ & _ & _ & Rkb & Rob & _).
      rewrite Rka in Ra. rewrite Rkb in Rb. rewrite Roa, Rob in Eo.
      destruct (Hr1 a0 (nth_error_In _ _ Ia) Ra) as (na & _ & _ & Ca).
      destruct (Hr1 b0 (nth_error_In _ _ Ib) Rb) as (nb & _ & _ & Cb).
      destruct (Nat.eq_dec i j) as [E|NE]; [exact E|]. exfalso.
      apply (NoDup_map_nth fuse_key_of fused0 i j a0 b0 Hkeysnd NE Ia Ib).
      unfold sc_labs, lab_of in Ca, Cb. injection Ca as Ca1 Ca2 Ca3 _ Ca5. injection Cb as Cb1 Cb2 Cb3 _ Cb5.
      assert (na = nb) by congruence. subst nb.
      unfold fuse_key_of, key_of_piece. congruence.
    + intros nm Inm. apply in_map_iff in Inm as (p & <- & Ip).
      rewrite Forall_forall in Hcore. destruct (Hcore p Ip) as (b & src & x & Ib & Hsrc & Hc & Hbase).
      assert (Hnamed : Forall (fun b => In (f_name b) (map fst input)) (baits_of pretext)).
      { eapply Forall_impl; [|exact Hb]. intros b0 (_ & H). exact H. }
      destruct (core_scaffold_in_fused (labP names hapf) g prefix n d input pretext rs fused0
                  Hd Hdn Hin Hnm Hkeys Hnamed Htile Hrs HF FQ p b src x Ip Ib Hsrc Hc Hbase)
        as (r & v & Hr & Eo & Iv & Nv & (nv & _ & _ & Lv)).
      rewrite Forall_forall in FQ. destruct (FQ r Hr) as (nr & _ & _ & Lr).
      unfold o_labs, lab_of in Lr. injection Lr as Lr1 _ _ _ Lr5.
      assert (nr = fst p) by congruence. subst nr.
      unfold sc_labs, lab_of in Lv. injection Lv as Lv1 _ _ Lv4 Lv5.
      assert (nv = fst p) by congruence. subst nv.
      exists (prefix_rank2 prefix v).
      destruct (prefix_rank2_sbn prefix v) as (_ & _ & _ & Rk & Ro & _).
      split; [apply in_map, Iv|]. split; congruence.
  - intros sc1 I1 R1. apply in_map_iff in I1 as (sc0 & <- & I0).
    destruct (prefix_rank2_sbn prefix sc0) as (_ & St & Sh & Rk & Ro & _). rewrite Rk in R1.
    destruct (Hr1 sc0 I0 R1) as (nm & A & B & C).
    unfold sc_labs, lab_of in C. injection C as Cn Ct Ch _ Co.
    split; [congruence|]. exists nm. split; [|split; [congruence|split; [congruence|]]].
    + unfold prefix_rank2. rewrite R1. exact Cn.
    + exact (hap_tag_nonempty _ (is12_hap h1 h2 Hh1 Hh2 _ (H12 nm A))).
Qed.

Theorem two_haplotype_maps_complete : exists o, remap repaired g prefix (n, d) input pretext = Ok o.
Proof.
  pose proof (alternating_is12 h1 h2 (S k) hapf (map fst pretext) Halt) as H12.
  destruct (completion_of_tagged_tiling_maps g prefix n d input pretext Hd Hdn Hin Hnm Hkeys Hunt Hpre Hb)
    as (rs & Hrs); [|exact Htile|].
  { apply Forall_forall. intros p Ip. unfold hap_baits in Hbaits. rewrite Forall_forall in Hbaits.
    apply (two_tags_consistent (hapf (fst p))); [|exact (Hbaits p Ip)].
    apply (is12_hap h1 h2 Hh1 Hh2), H12. apply in_map, Ip. }
  unfold remap. rewrite Hrs. cbn [bind].
  destruct (fuse_all_ok _ g _ _ _ _ _ Hrs) as (fused0 & HF).
  (* the items pair up: H1 chromosome, its H2 homologue, ... *)
  destruct (two_hap_run_items rs fused0 Hrs HF) as [(idxs & Eitems & F2) _].
  destruct (pair_up_explicit _ hapf h1 h2 (S k) _ idxs Halt F2) as (Lp & E & Fp & _).
  destruct (pairs_of (map fst pretext) idxs) as [|p0 pairs]; [discriminate Lp|].
  rewrite Halt, E in Eitems.
  apply (two_hap_tail_total g prefix input rs fused0 h1 h2 p0 pairs Hpm HF).
  - apply (fuse_all_spm repaired g rs fused0);
      [exact (store_pm _ _ _ _ _ _ _ Hpm Hrs) | exact (left_pm _ _ _ _ _ _ _ Hpm Hrs) | exact HF].
  - intro X. apply Hlow. rewrite X. reflexivity.
  - exact Eitems.
  - exact Fp.
  - rewrite <- Eitems. apply chr_items_nodup.
Qed.
End TwoHapRun.

Module TwoHapEx.
  Definition g10 := mkGap 10 (s "scaffold").
  Definition ctg (name : str) : frag := mkFrag 0 name 1 100 1 [].
  Definition hb (name h : str) : frag := mkFrag 0 name 1 100 1 [s "Painted"; h].
  Definition input := [(s "sA", [RF (ctg (s "cA"))]); (s "sB", [RF (ctg (s "cB"))]);
                       (s "sC", [RF (ctg (s "cC"))]); (s "sD", [RF (ctg (s "cD"))])].
  (* NOT paired: two first-haplotype scaffolds in a row *)
  Definition input3 := [(s "sA", [RF (ctg (s "cA"))]); (s "sB", [RF (ctg (s "cB"))]); (s "sC", [RF (ctg (s "cC"))])].
  Definition pretext_bad := [(s "P1", [RF (hb (s "sA") (s "HAP1"))]); (s "P2", [RF (hb (s "sB") (s "HAP1"))]);
                             (s "P3", [RF (hb (s "sC") (s "HAP2"))])].
  (* two pairs *)
  Definition pretext_ok := [(s "P1", [RF (hb (s "sA") (s "HAP1"))]); (s "P2", [RF (hb (s "sB") (s "HAP2"))]);
                            (s "P3", [RF (hb (s "sC") (s "HAP1"))]); (s "P4", [RF (hb (s "sD") (s "HAP2"))])].
  Definition hapf (nm : str) : str :=
    if str_eqb nm (s "P1") || str_eqb nm (s "P3") then s "HAP1" else s "HAP2".
End TwoHapEx.

(* the pairing is needed: h1, h1, h2 passes the first half and fails in ChrNamer *)
Example two_haplotype_maps_need_pairing :
  (exists rs, remap_to_input repaired TwoHapEx.g10 (s "SUPER_") (2, 1) TwoHapEx.input3 TwoHapEx.pretext_bad = Ok rs)
  /\ remap repaired TwoHapEx.g10 (s "SUPER_") (2, 1) TwoHapEx.input3 TwoHapEx.pretext_bad = Err ChrNamerError.
Proof. split; [eexists|]; vm_compute; reflexivity. Qed.

(* non-vacuity: a two-pair map, its tag hypotheses, and the run *)
Example two_pair_map_completes :
  hap_baits TwoHapEx.hapf TwoHapEx.pretext_ok
  /\ map TwoHapEx.hapf (map fst TwoHapEx.pretext_ok) = alternating (s "HAP1") (s "HAP2") 2
  /\ is_hap_tag (s "HAP1") = true /\ is_hap_tag (s "HAP2") = true /\ lower (s "HAP1") <> lower (s "HAP2")
  /\ exists o, remap repaired TwoHapEx.g10 (s "SUPER_") (2, 1) TwoHapEx.input TwoHapEx.pretext_ok = Ok o
       /\ map (fun a => (oa_key a, map sc_name (oa_scaffolds a))) (out_asms o)
          = [(Some (s "HAP1"), [s "SUPER_1"; s "SUPER_2"]); (Some (s "HAP2"), [s "SUPER_1"; s "SUPER_2"])].
Proof.
  split; [repeat constructor|]. split; [reflexivity|]. split; [reflexivity|]. split; [reflexivity|].
  split; [vm_compute; discriminate|]. eexists. split; vm_compute; reflexivity.
Qed.

(* non-vacuity of the full theorem: the two-pair map satisfies every hypothesis *)
Example two_pair_map_completes_by_theorem :
  exists o, remap repaired TwoHapEx.g10 (s "SUPER_") (2, 1) TwoHapEx.input TwoHapEx.pretext_ok = Ok o.
Proof.
  destruct (tiling_map_okb_sound 2 1 TwoHapEx.input TwoHapEx.pretext_ok)
    as (H1 & H2 & H3 & H4 & H5 & H7 & H8 & H9); [vm_compute; reflexivity|].
  apply (two_haplotype_maps_complete TwoHapEx.g10 (s "SUPER_") 2 1 TwoHapEx.input TwoHapEx.pretext_ok
           (s "HAP1") (s "HAP2") TwoHapEx.hapf 1 H1 H2 H3 H4 H5).
  - repeat constructor.
  - cbn. repeat (apply Forall_cons; [cbn; lia|]). apply Forall_nil.
  - exact H7.
  - exact H8.
  - exact H9.
  - vm_compute. discriminate.
  - reflexivity.
  - reflexivity.
  - repeat constructor.
  - reflexivity.
  - cbn. repeat constructor; cbn; intuition discriminate.
  - repeat constructor; discriminate.
  - repeat (apply Forall_cons; [eexists _, _, 50; split; [left; reflexivity|];
      split; [cbn; auto 6|]; split; [unfold in_core; vm_compute; split; discriminate|];
      exists 0%nat; split; [eexists; reflexivity | vm_compute; split; discriminate]|]).
    apply Forall_nil.
Qed.

Print Assumptions two_hap_tail_total.
Print Assumptions core_scaffold_in_fused.
Print Assumptions two_haplotype_maps_complete.
Print Assumptions two_pair_map_completes_by_theorem.
Print Assumptions two_haplotype_maps_need_pairing.
Print Assumptions two_pair_map_completes.
