(* The converse of [Held] ([Lst]: a result listed under a
   key still holds that fragment as a row), carried through the lookups and the
   overhang resolver; and PROGRESS of the resolver: under [RI] ([Inv], [Lst]
   and duplicate-free id lists) the loop [discard_loop] never raises (it
   returns Ok or runs out of fuel, and Proofs.Fuel excludes the latter). *)
From Tola Require Import Py.Base Py.Sort Model.Fragment Model.Scaffold Model.Lookup
  Model.OverlapResult Model.Namer Model.Remap Model.RemapSpec
  Proofs.BaseLemmas Proofs.Rows Proofs.Sort Proofs.OverlapResult Proofs.RemapHead Proofs.CoreKeptResolver Proofs.CoreKeptHeld Proofs.Fuel.
From Coq Require Import Lia ZifyBool.

Definition holds (st : list ovr) (id : rid) (f : frag) : Prop :=
  exists r, get_ovr st id = Ok r /\ In (RF f) (o_rows r).

Definition Lst (st : list ovr) (found : list (fkey * (frag * list rid))) : Prop :=
  forall k f ids id, aget key_eqb found k = Some (f, ids) -> In id ids -> holds st id f.

Lemma holds_nonempty st id f : holds st id f -> exists r, get_ovr st id = Ok r /\ o_rows r <> [].
Proof. intros (r & Hg & Hin). exists r. split; [exact Hg|]. intros E. rewrite E in Hin. destruct Hin. Qed.

Lemma holds_app st r1 id f : holds st id f -> holds (st ++ [r1]) id f.
Proof.
  unfold holds, get_ovr. intros (r & Hg & Hin).
  destruct (nth_error st (Z.to_nat id)) as [r0|] eqn:E; [|discriminate]. injection Hg as ->.
  exists r. rewrite nth_error_app1 by (apply nth_error_Some; congruence). rewrite E. auto.
Qed.

Lemma holds_rows_eq st st' id f :
  map o_rows st' = map o_rows st -> holds st id f -> holds st' id f.
Proof.
  intros Hm (r & Hg & Hin).
  pose proof (get_ovr_nth_map o_rows _ _ _ Hg) as Hn. rewrite <- Hm, nth_error_map in Hn.
  destruct (nth_error st' (Z.to_nat id)) as [r'|] eqn:E; [|discriminate]. cbn [option_map] in Hn.
  injection Hn as Hn. exists r'. split; [unfold get_ovr; rewrite E; reflexivity|].
  rewrite Hn. exact Hin.
Qed.

Lemma Lst_rows_eq st st' found :
  map o_rows st' = map o_rows st -> Lst st found -> Lst st' found.
Proof. intros Hm HL k f ids id Ha Hi. eapply holds_rows_eq; [exact Hm|]. eapply HL; eassumption. Qed.

Lemma store_found_one_aget id g found multi found' multi' :
  store_found_one id (found, multi) g = (found', multi') ->
  forall k, aget key_eqb found' k =
    if key_eqb k (key_of g)
    then Some (match aget key_eqb found (key_of g) with
               | Some (f, ids) => (f, ids ++ [id])
               | None => (g, [id])
               end)
    else aget key_eqb found k.
Proof.
  intros H k. unfold store_found_one in H.
  destruct (aget key_eqb found (key_of g)) as [[f1 ids1]|] eqn:E; injection H as <- _.
  - destruct (key_eqb k (key_of g)) eqn:Ek.
    + apply key_eqb_eq in Ek. subst k. apply aget_aset_same.
    + apply key_eqb_neq in Ek. apply (aget_aset_other key_eqb key_eqb_eq). exact Ek.
  - destruct (key_eqb k (key_of g)) eqn:Ek.
    + apply key_eqb_eq in Ek. subst k. rewrite (aget_app_None key_eqb _ _ _ E). cbn [fst snd].
      rewrite key_eqb_refl. reflexivity.
    + destruct (aget key_eqb found k) eqn:E2.
      * apply (aget_app_Some key_eqb _ _ _ _ E2).
      * rewrite (aget_app_None key_eqb _ _ _ E2). cbn [fst snd]. rewrite Ek. reflexivity.
Qed.

Lemma store_found_one_src id g found multi found' multi' k f ids' id' :
  store_found_one id (found, multi) g = (found', multi') ->
  aget key_eqb found' k = Some (f, ids') -> In id' ids' ->
  (exists ids, aget key_eqb found k = Some (f, ids) /\ In id' ids)
  \/ (id' = id /\ k = key_of g /\ (f = g \/ exists ids, aget key_eqb found k = Some (f, ids))).
Proof.
  intros H Ha Hi. rewrite (store_found_one_aget _ _ _ _ _ _ H k) in Ha.
  destruct (key_eqb k (key_of g)) eqn:Ek; [|left; exists ids'; split; assumption].
  apply key_eqb_eq in Ek. subst k.
  destruct (aget key_eqb found (key_of g)) as [[f1 ids1]|]; injection Ha as <- <-.
  - apply in_app_or in Hi. destruct Hi as [Hi | [<- | []]].
    + left. exists ids1. split; [reflexivity | exact Hi].
    + right. split; [reflexivity|]. split; [reflexivity|]. right. exists ids1. reflexivity.
  - destruct Hi as [<- | []]. right. split; [reflexivity|]. split; [reflexivity|]. left. reflexivity.
Qed.

Lemma store_found_one_entry id g found multi found' multi' k f ids' :
  store_found_one id (found, multi) g = (found', multi') ->
  aget key_eqb found' k = Some (f, ids') ->
  (exists ids, aget key_eqb found k = Some (f, ids)) \/ (k = key_of g /\ f = g).
Proof.
  intros H Ha. rewrite (store_found_one_aget _ _ _ _ _ _ H k) in Ha.
  destruct (key_eqb k (key_of g)) eqn:Ek; [|left; exists ids'; exact Ha].
  apply key_eqb_eq in Ek. subst k.
  destruct (aget key_eqb found (key_of g)) as [[f1 ids1]|]; injection Ha as <- <-.
  - left. exists ids1. reflexivity.
  - right. split; reflexivity.
Qed.

Lemma store_found_fold_src id : forall gs found multi found' multi' k f ids' id',
  fold_left (store_found_one id) gs (found, multi) = (found', multi') ->
  aget key_eqb found' k = Some (f, ids') -> In id' ids' ->
  (exists ids, aget key_eqb found k = Some (f, ids) /\ In id' ids)
  \/ (id' = id /\ (exists g, In g gs /\ key_of g = k)
      /\ ((exists g, In g gs /\ key_of g = k /\ f = g)
          \/ exists ids, aget key_eqb found k = Some (f, ids))).
Proof.
  induction gs as [|g0 gs IH]; intros found multi found' multi' k f ids' id' H Ha Hi; cbn [fold_left] in H.
  - injection H as <- _. left. exists ids'. split; assumption.
  - destruct (store_found_one id (found, multi) g0) as [found1 multi1] eqn:E1.
    destruct (IH _ _ _ _ _ _ _ _ H Ha Hi) as [(ids1 & Ha1 & Hi1) | (-> & (g & Hg & Ek) & Hf)].
    + destruct (store_found_one_src _ _ _ _ _ _ _ _ _ _ E1 Ha1 Hi1) as [L | (-> & -> & Hf)].
      * left. exact L.
      * right. split; [reflexivity|]. split; [exists g0; split; [left; reflexivity | reflexivity]|].
        destruct Hf as [-> | Hf]; [left; exists g0; repeat split; left; reflexivity | right; exact Hf].
    + right. split; [reflexivity|]. split; [exists g; split; [right; exact Hg | exact Ek]|].
      destruct Hf as [(g' & Hg' & Ek' & ->) | (ids1 & Ha1)].
      * left. exists g'. split; [right; exact Hg' | split; [exact Ek' | reflexivity]].
      * destruct (store_found_one_entry _ _ _ _ _ _ _ _ _ E1 Ha1) as [L | (-> & ->)].
        -- right. exact L.
        -- left. exists g0. split; [left; reflexivity | split; reflexivity].
Qed.

Section LstLookups.
  Variable inp : list (str * list row).
  Hypothesis Hkeys : NoDup (map key_of (in_frags inp)).

  Lemma Inv_entry b k f ids : Inv inp b -> aget key_eqb (b_found b) k = Some (f, ids) ->
    key_of f = k /\ In f (in_frags inp) /\ incl ids (b_added b)
    /\ Forall (fun a => 0 <= a) ids /\ (In k (b_multi b) <-> (2 <= length ids)%nat).
  Proof.
    intros (_ & IA & (_ & _ & F3 & _) & _) Ha.
    pose proof (aget_In key_eqb key_eqb_eq _ _ _ Ha) as Hent.
    rewrite Forall_forall in F3. destruct (F3 _ Hent) as (K1 & K2 & K3 & K4 & K5).
    cbn [fst snd] in *. split; [exact K1|]. split; [exact K2|]. split; [exact K3|]. split; [|exact K5].
    apply Forall_forall. intros a Ha'. apply K3 in Ha'.
    pose proof (AddedOk_pos _ _ IA) as Hp. rewrite Forall_forall in Hp. apply Hp. exact Ha'.
  Qed.

  Lemma one_bait_Lst err tags orig b bait b' :
    Inv inp b -> Lst (b_store b) (b_found b) -> one_bait inp err tags orig b bait = Ok b' ->
    Lst (b_store b') (b_found b').
  Proof.
    intros HI HL H. pose proof (one_bait_inv inp err tags orig b bait b' HI H) as HI'.
    destruct (one_bait_spec _ _ _ _ _ _ _ H)
      as (rows & _ & [(_ & ->) | (fo & nm & lab & r1 & _ & _ & _ & Hst & _ & _ & Hc)]); [exact HL|].
    intros k f ids' id' Ha Hi. rewrite Hst.
    destruct Hc as [(_ & _ & Ef & _) | (_ & _ & Hfm)].
    { rewrite Ef in Ha. apply holds_app. eapply HL; eassumption. }
    destruct (fold_left _ _ _) as [found' multi'] eqn:Ef. injection Hfm as Ef' _. rewrite Ef' in Ha.
    destruct (store_found_fold_src _ _ _ _ _ _ _ _ _ _ Ef Ha Hi)
      as [(ids & Ha0 & Hi0) | (-> & (g & Hg & Ek) & Hf)].
    - apply holds_app. eapply HL; eassumption.
    - exists r1. split; [apply get_ovr_app_new|].
      destruct Hf as [(g' & Hg' & _ & ->) | (ids & Ha0)]; [apply In_frags_of_iff; exact Hg'|].
      destruct (Inv_entry _ _ _ _ HI Ha0) as (K1 & K2 & _).
      assert (Hgin : In g (in_frags inp)).
      { destruct HI' as (S1 & _). apply (S1 r1).
        - rewrite Hst. apply in_or_app. right. left. reflexivity.
        - apply In_frags_of_iff. exact Hg. }
      assert (f = g).
      { eapply (NoDup_map_inj key_of); [exact Hkeys | exact K2 | exact Hgin | congruence]. }
      subst g. apply In_frags_of_iff. exact Hg.
  Qed.

  Definition IL (b : bstate) : Prop := Inv inp b /\ Lst (b_store b) (b_found b).

  Lemma one_pretext_Lst err b psc b' :
    IL b -> one_pretext_scaffold inp err b psc = Ok b' -> IL b'.
  Proof.
    intros (HI & HL) H.
    split; [apply Inv_InvW; eapply one_pretext_scaffold_invW; [apply Inv_InvW; exact HI | exact H]|].
    unfold one_pretext_scaffold in H. destruct psc as [pname prows].
    bind_inv H nm Hnm. bind_inv H b1 Hb1. bind_inv H st Hst. injection H as <-.
    assert (H1 : IL b1).
    { eapply (foldM_inv (one_bait inp err (fragment_tags prows) pname) IL); [| |exact Hb1].
      - intros s a s' (A1 & A2) Hs. split; [eapply one_bait_inv; eassumption|].
        eapply one_bait_Lst; eassumption.
      - split; [exact HI | exact HL]. }
    cbn [with_store b_store b_found]. eapply Lst_rows_eq; [|apply H1].
    eapply rename_results_rows. exact Hst.
  Qed.

  Lemma pretext_Lst err pretext b0 b1 :
    IL b0 -> foldM (one_pretext_scaffold inp err) pretext b0 = Ok b1 -> IL b1.
  Proof.
    intros H0 H. eapply (foldM_inv (one_pretext_scaffold inp err) IL); [|exact H0|exact H].
    intros s a s' Hs Hstep. eapply one_pretext_Lst; eassumption.
  Qed.

  Lemma IL_init nm : IL (mkB [] [] [] [] nm 0).
  Proof. split; [apply Inv_init|]. intros k f ids id Ha. discriminate. Qed.
End LstLookups.

(* every fragment row of st survives in st', except the rows the fixes drop *)
Definition keepsF (st st' : list ovr) (fixes : list premise) : Prop :=
  forall id r g, 0 <= id -> get_ovr st id = Ok r -> In (RF g) (o_rows r) ->
    (forall p, In p fixes -> pr_rid p = id -> pr_frag p <> g) -> holds st' id g.

Lemma keepsF_refl st : keepsF st st [].
Proof. intros id r g _ Hg Hin _. exists r. auto. Qed.

Lemma p_apply_keeps st p st' : pvalid st p -> p_apply st p = Ok st' -> keepsF st st' [p].
Proof.
  intros (H0 & r & Hr & Hk) H id r2 g Hid Hg2 Hin Hne.
  unfold p_apply in H. rewrite Hr in H. cbn [bind] in H. bind_inv H r' Hr'. injection H as <-.
  destruct (Z.eq_dec (pr_rid p) id) as [E | N].
  2:{ exists r2. split; [|exact Hin]. rewrite get_put_other by assumption. exact Hg2. }
  subst id. rewrite Hr in Hg2. injection Hg2 as <-.
  exists r'. split; [eapply get_put_same; exact Hr|].
  specialize (Hne p (or_introl eq_refl) eq_refl).
  destruct (pr_kind p).
  - destruct Hk as (t & Et). destruct (discard_start_rows _ _ Hr') as (d & gaps & E & Hgp).
    rewrite E in Et. injection Et as -> _. rewrite E in Hin.
    destruct Hin as [Hin | Hin]; [injection Hin as Hin; congruence|].
    apply in_app_or in Hin. destruct Hin as [Hin | Hin]; [|exact Hin].
    exfalso. exact (not_gap_in g gaps Hgp Hin).
  - destruct Hk as (t & Et). destruct (discard_end_rows _ _ Hr') as (d & gaps & E & Hgp).
    rewrite E in Et. rewrite app_assoc in Et. apply app_inj_tail in Et. destruct Et as [_ ->].
    rewrite E in Hin. apply in_app_or in Hin. destruct Hin as [Hin | Hin]; [exact Hin|].
    apply in_app_or in Hin. destruct Hin as [Hin | [Hin | []]].
    + exfalso. exact (not_gap_in g gaps Hgp Hin).
    + injection Hin as Hin. congruence.
Qed.

Lemma keepsF_trans st st1 st2 fx1 fx2 :
  keepsF st st1 fx1 -> keepsF st1 st2 fx2 -> keepsF st st2 (fx1 ++ fx2).
Proof.
  intros H1 H2 id r g Hid Hg Hin Hne.
  destruct (H1 id r g Hid Hg Hin) as (r1 & Hg1 & Hin1).
  { intros p Hp. apply Hne. apply in_or_app. left. exact Hp. }
  apply (H2 id r1 g Hid Hg1 Hin1). intros p Hp. apply Hne. apply in_or_app. right. exact Hp.
Qed.

Lemma fix_one_pvalid err st pl st1 fx pls :
  Forall (pvalid st) pl -> Forall (Forall (pvalid st)) pls -> Forall (keys_apart pl) pls ->
  fix_one err st pl = Ok (st1, fx) -> Forall (Forall (pvalid st1)) pls.
Proof.
  intros Hvpl Hvpls Hap H. apply fix_one_cases in H.
  destruct H as [(_ & ->) | (p & _ & Hpin & Happ)]; [exact Hvpls|].
  rewrite Forall_forall in Hvpl. pose proof (Hvpl p Hpin) as Hpv.
  rewrite Forall_forall in *. intros pl' Hpl'. specialize (Hap pl' Hpl').
  rewrite Forall_forall. intros q Hq.
  eapply pvalid_pres; [|exact Hpv| |exact Happ].
  - pose proof (Hvpls pl' Hpl') as Q. rewrite Forall_forall in Q. apply Q. exact Hq.
  - intros E. apply (Hap p q Hpin Hq). symmetry. exact E.
Qed.

Lemma make_fixes_keeps err : forall pls st st' fixes,
  Forall (Forall (pvalid st)) pls -> ForallOrdPairs keys_apart pls ->
  make_fixes err st pls = Ok (st', fixes) -> keepsF st st' fixes.
Proof.
  induction pls as [|pl pls IH]; intros st st' fixes Hv Hop H; cbn [make_fixes] in H.
  - injection H as <- <-. apply keepsF_refl.
  - bind_inv H r1 Hr1. destruct r1 as [st1 fx]. bind_inv H r2 Hr2. destruct r2 as [st2 fxs].
    injection H as <- <-.
    inversion Hv as [|? ? Hvpl Hvpls]; subst. inversion Hop as [|? ? Hap Hop']; subst.
    pose proof (IH _ _ _ (fix_one_pvalid _ _ _ _ _ _ Hvpl Hvpls Hap Hr1) Hop' Hr2) as K2.
    apply fix_one_cases in Hr1. destruct Hr1 as [(-> & ->) | (p & -> & Hpin & Happ)]; [exact K2|].
    rewrite Forall_forall in Hvpl.
    exact (keepsF_trans _ _ _ [p] fxs (p_apply_keeps _ _ _ (Hvpl p Hpin) Happ) K2).
Qed.

Definition LstW (st : list ovr) (found : list (fkey * (frag * list rid))) (fixes : list premise) : Prop :=
  forall k f ids id, aget key_eqb found k = Some (f, ids) -> In id ids ->
    (forall p, In p fixes -> pkey p = k -> pr_rid p <> id) -> holds st id f.

Lemma In_remove_first_ne x : forall l y, NoDup l -> In y (remove_first Z.eqb x l) -> In y l /\ y <> x.
Proof.
  induction l as [|z l IH]; intros y Hnd Hin; cbn [remove_first] in Hin; [destruct Hin|].
  inversion Hnd as [|? ? Hn Hnd']; subst. destruct (x =? z) eqn:E.
  - assert (x = z) by lia. subst z. split; [right; exact Hin|]. intros ->. contradiction.
  - destruct Hin as [<- | Hin]; [split; [left; reflexivity | lia]|].
    destruct (IH y Hnd' Hin) as [A B]. split; [right; exact A | exact B].
Qed.

Lemma Lst_bookkeeping st : forall fixes found multi found' multi',
  NDI found -> NoDup (map pkey fixes) -> Forall (fix_booked found multi) fixes ->
  LstW st found fixes ->
  foldM apply_fix_bookkeeping fixes (found, multi) = Ok (found', multi') ->
  Lst st found'.
Proof.
  induction fixes as [|p fixes IH]; intros found multi found' multi' Hndi Hnd Hb HW H; cbn [foldM] in H.
  - injection H as <- _. intros k f ids id Ha Hi. apply (HW k f ids id Ha Hi). intros q [].
  - bind_inv H acc Hacc. destruct acc as [found1 multi1].
    cbn [map] in Hnd. inversion Hnd as [|? ? Hnp Hnd']; subst.
    inversion Hb as [|? ? Hbp Hb']; subst.
    destruct Hbp as (Hpm & ids0 & Ha0 & Hi0).
    rewrite (bookkeeping_step _ _ _ _ Hpm Ha0 Hi0) in Hacc. injection Hacc as <- <-.
    assert (Hnd0 : NoDup ids0).
    { apply (aget_In key_eqb key_eqb_eq) in Ha0. unfold NDI in Hndi. rewrite Forall_forall in Hndi.
      apply (Hndi _ Ha0). }
    eapply IH; [| exact Hnd' | | | exact H].
    + apply Forall_aset; [exact Hndi|]. intros k'. cbn [snd]. apply NoDup_remove_first. exact Hnd0.
    + exact (fix_booked_step _ _ _ _ _ Hnp Hb' _).
    + intros k f ids id Ha Hi Hq.
      destruct (key_eqb k (pkey p)) eqn:Ek.
      * apply key_eqb_eq in Ek. subst k. rewrite aget_aset_same in Ha. injection Ha as <- <-.
        destruct (In_remove_first_ne _ _ _ Hnd0 Hi) as [Hi' Hne].
        apply (HW (pkey p) (pr_frag p) ids0 id Ha0 Hi').
        intros q [<- | Hq'] Eq; [exact (fun E => Hne (eq_sym E))|]. apply Hq; assumption.
      * apply key_eqb_neq in Ek. rewrite (aget_aset_other key_eqb key_eqb_eq) in Ha by exact Ek.
        apply (HW k f ids id Ha Hi).
        intros q [<- | Hq'] Eq; [exfalso; apply Ek; symmetry; exact Eq|]. apply Hq; assumption.
Qed.

Lemma premise_for_progress st f id r :
  get_ovr st id = Ok r -> o_rows r <> [] -> exists o, premise_for st f id = Ok o.
Proof.
  intros Hg Hne. unfold premise_for. rewrite Hg. cbn [bind].
  destruct (first_row_ok r Hne) as (x & ->). destruct (last_row_ok r Hne) as (y & ->). cbn [bind].
  destruct (row_is x f); [eauto|]. destruct (row_is y f); eauto.
Qed.

Lemma premises_of_progress st f : forall ids,
  Forall (fun id => exists r, get_ovr st id = Ok r /\ o_rows r <> []) ids ->
  exists ps, premises_of st f ids = Ok ps.
Proof.
  induction ids as [|id ids IH]; intros H; cbn [premises_of]; [eauto|].
  inversion H as [|? ? (r & Hg & Hne) Hl]; subst.
  destruct (premise_for_progress st f id r Hg Hne) as (o & ->).
  destruct (IH Hl) as (ps & ->). cbn [bind]. eauto.
Qed.

Lemma pvalid_nonempty st p : pvalid st p ->
  exists r, get_ovr st (pr_rid p) = Ok r /\ o_rows r <> []
            /\ match pr_kind p with
               | PStart => exists t, o_rows r = RF (pr_frag p) :: t
               | PEnd => exists t, o_rows r = t ++ [RF (pr_frag p)]
               end.
Proof.
  intros (_ & r & Hg & Hk). exists r. split; [exact Hg|]. split; [|exact Hk].
  destruct (pr_kind p); destruct Hk as (t & ->); [discriminate | destruct t; discriminate].
Qed.

Lemma p_bait_overlap_progress st p : pvalid st p -> exists v, p_bait_overlap st p = Ok v.
Proof.
  intros Hv. destruct (pvalid_nonempty _ _ Hv) as (r & Hg & Hne & _).
  unfold p_bait_overlap. rewrite Hg. cbn [bind]. destruct (pr_kind p).
  - unfold start_row_bait_overlap. destruct (first_row_ok r Hne) as (x & ->). cbn [bind]. eauto.
  - unfold end_row_bait_overlap. destruct (last_row_ok r Hne) as (x & ->). cbn [bind]. eauto.
Qed.

Lemma p_overhang_progress st p : pvalid st p -> exists v, p_overhang_if_applied st p = Ok v.
Proof.
  intros Hv. destruct (pvalid_nonempty _ _ Hv) as (r & Hg & Hne & _).
  unfold p_overhang_if_applied. rewrite Hg. cbn [bind]. destruct (pr_kind p).
  - unfold overhang_if_start_removed. destruct (o_rows r); [congruence | eauto].
  - unfold overhang_if_end_removed. destruct (rev (o_rows r)) as [|d t] eqn:E; [|eauto].
    exfalso. apply Hne. rewrite <- (rev_involutive (o_rows r)), E. reflexivity.
Qed.

Lemma p_delta_progress st p : pvalid st p -> exists v, p_delta st p = Ok v.
Proof.
  intros Hv. destruct (pvalid_nonempty _ _ Hv) as (r & Hg & _).
  destruct (p_overhang_progress _ _ Hv) as (o & Ho).
  unfold p_delta. rewrite Hg, Ho. cbn [bind]. eauto.
Qed.

Lemma p_improves_progress st err p : pvalid st p -> exists v, p_improves st err p = Ok v.
Proof.
  intros Hv. destruct (pvalid_nonempty _ _ Hv) as (r & Hg & _).
  destruct (p_overhang_progress _ _ Hv) as (o & Ho). destruct (p_delta_progress _ _ Hv) as (dd & Hd).
  unfold p_improves. rewrite Hg. cbv beta iota delta [bind].
  destruct (zlen (o_rows r) =? 1); [eauto|]. rewrite Hd. destruct (dd <? 0); [|eauto].
  rewrite Ho. eauto.
Qed.

Lemma p_apply_progress st p : pvalid st p -> exists st', p_apply st p = Ok st'.
Proof.
  intros Hv. destruct (pvalid_nonempty _ _ Hv) as (r & Hg & Hne & _).
  unfold p_apply. rewrite Hg. cbn [bind]. destruct (pr_kind p).
  - destruct (discard_start_ok r Hne) as (r' & ->). cbn [bind]. eauto.
  - destruct (discard_end_ok r Hne) as (r' & ->). cbn [bind]. eauto.
Qed.

Lemma fix_general_progress err st pl :
  Forall (pvalid st) pl -> exists x, fix_general err st pl = Ok x.
Proof.
  intros Hv. unfold fix_general. destruct pl as [|p1 [|p2 t]]; [eauto | eauto|].
  set (pl := p1 :: p2 :: t) in *.
  destruct (mapM_total (fun p => do d <- p_delta st p; Ok (d, p)) pl) as (ds & Hds).
  { intros p Hp. rewrite Forall_forall in Hv. destruct (p_delta_progress _ _ (Hv p Hp)) as (dd & ->).
    cbn [bind]. eauto. }
  rewrite Hds. cbn [bind].
  destruct (sort_by_Z fst ds) as [|[d1 bst] [|[d2 nxt] rest]] eqn:Es; [eauto | eauto|].
  assert (Hin : forall dd q, In (dd, q) (sort_by_Z fst ds) -> pvalid st q).
  { intros dd q Hq. unfold sort_by_Z in Hq. apply In_stable_sort in Hq.
    destruct (mapM_In _ _ _ Hds _ Hq) as (p0 & Hp0 & Hf). bind_inv Hf d0 Hd0. injection Hf as _ <-.
    rewrite Forall_forall in Hv. apply Hv. exact Hp0. }
  assert (Hb : pvalid st bst) by (apply (Hin d1); rewrite Es; left; reflexivity).
  assert (Hn : pvalid st nxt) by (apply (Hin d2); rewrite Es; right; left; reflexivity).
  destruct (p_improves_progress st err bst Hb) as (i & ->). cbn [bind]. destruct i; [|eauto].
  destruct (p_improves_progress st err nxt Hn) as (j & ->). cbn [bind]. destruct j; cbn [negb]; [eauto|].
  destruct (p_apply_progress st bst Hb) as (st' & ->). cbn [bind]. eauto.
Qed.

Lemma fix_one_progress err st pl :
  Forall (pvalid st) pl -> exists x, fix_one err st pl = Ok x.
Proof.
  intros Hv. rewrite fix_one_unfold.
  pose proof (fix_general_progress err st pl Hv) as Hg.
  destruct pl as [|p1 [|p2 [|p3 t]]]; try exact Hg.
  inversion Hv as [|? ? Hp1 Hv2]; subst. inversion Hv2 as [|? ? Hp2 _]; subst.
  destruct (p_bait_overlap_progress st p1 Hp1) as (b1 & ->). cbn [bind].
  destruct (b1 <? err); [|exact Hg].
  destruct (p_bait_overlap_progress st p2 Hp2) as (b2 & ->). cbn [bind].
  destruct (b2 <? err); [|exact Hg].
  destruct (b1 <? b2).
  - destruct (p_apply_progress st p1 Hp1) as (st' & ->). cbn [bind]. eauto.
  - destruct (p_apply_progress st p2 Hp2) as (st' & ->). cbn [bind]. eauto.
Qed.

Lemma make_fixes_progress err : forall pls st,
  Forall (Forall (pvalid st)) pls -> ForallOrdPairs keys_apart pls ->
  exists x, make_fixes err st pls = Ok x.
Proof.
  induction pls as [|pl pls IH]; intros st Hv Hop; cbn [make_fixes]; [eauto|].
  inversion Hv as [|? ? Hvpl Hvpls]; subst. inversion Hop as [|? ? Hap Hop']; subst.
  destruct (fix_one_progress err st pl Hvpl) as ([st1 fx] & Hr1). rewrite Hr1. cbn [bind].
  destruct (IH st1 (fix_one_pvalid _ _ _ _ _ _ Hvpl Hvpls Hap Hr1) Hop') as ([st2 fxs] & ->). cbn [bind]. eauto.
Qed.

Lemma bookkeeping_progress : forall fixes found multi,
  NoDup (map pkey fixes) -> Forall (fix_booked found multi) fixes ->
  exists x, foldM apply_fix_bookkeeping fixes (found, multi) = Ok x.
Proof.
  induction fixes as [|p fixes IH]; intros found multi Hnd Hb; cbn [foldM]; [eauto|].
  cbn [map] in Hnd. inversion Hnd as [|? ? Hnp Hnd']; subst.
  inversion Hb as [|? ? Hbp Hb']; subst.
  destruct Hbp as (Hpm & ids0 & Ha0 & Hi0).
  rewrite (bookkeeping_step _ _ _ _ Hpm Ha0 Hi0). cbn [bind].
  apply IH; [exact Hnd'|]. exact (fix_booked_step _ _ _ _ _ Hnp Hb' _).
Qed.

Section LoopProgress.
  Variable inp : list (str * list row).
  Variable err : Z.
  Hypothesis Hids : NoDup (map f_id (in_frags inp)).

  Definition RI (b : bstate) : Prop :=
    Inv inp b /\ Lst (b_store b) (b_found b) /\ NDI (b_found b).

  Lemma round_premises_progress b : RI b -> exists pls, round_premises b (b_multi b) = Ok pls.
  Proof.
    intros (HI & HL & _). unfold round_premises. apply mapM_total. intros k Hk.
    pose proof HI as (_ & _ & (_ & _ & _ & F4) & _).
    destruct (aget key_eqb (b_found b) k) as [[f ids]|] eqn:Ea.
    - apply premises_of_progress. apply Forall_forall. intros id Hid.
      apply (holds_nonempty _ _ f). eapply HL; eassumption.
    - exfalso. apply (aget_None key_eqb key_eqb_eq) in Ea. apply Ea. apply F4. exact Hk.
  Qed.

  Lemma round_good b pls : RI b -> round_premises b (b_multi b) = Ok pls ->
    Forall (Forall (pgood b)) (filter (fun pl => match pl with [] => false | _ => true end) pls)
    /\ ForallOrdPairs keys_apart (filter (fun pl => match pl with [] => false | _ => true end) pls).
  Proof.
    intros (HI & _) Hpls. pose proof HI as (_ & _ & (_ & F2 & _) & _).
    destruct (round_premises_okW inp Hids _ b (proj1 (Inv_InvW inp b) HI) _ _ F2 (incl_refl _) Hpls)
      as (G1 & G2 & _).
    split; [|apply FOP_filter; exact G2].
    apply Forall_forall. intros pl Hpl. apply filter_In in Hpl. rewrite Forall_forall in G1. apply G1. tauto.
  Qed.

  Lemma pgood_valid b pls : Forall (Forall (pgood b)) pls -> Forall (Forall (pvalid (b_store b))) pls.
  Proof.
    intros G. eapply Forall_impl; [|exact G]. intros pl Hpl. eapply Forall_impl; [|exact Hpl].
    intros p (P1 & _). exact P1.
  Qed.

  (* one round: the fixes are booked under distinct keys, and the invariant holds
     after the round, whether or not it made a fix *)
  Lemma round_RI b pls st fixes :
    RI b -> round_premises b (b_multi b) = Ok pls ->
    make_fixes err (b_store b) (filter (fun pl => match pl with [] => false | _ => true end) pls)
      = Ok (st, fixes) ->
    NoDup (map pkey fixes) /\ Forall (fix_booked (b_found b) (b_multi b)) fixes
    /\ (fixes = [] -> RI (with_store b st))
    /\ (forall found' multi',
          foldM apply_fix_bookkeeping fixes (b_found b, b_multi b) = Ok (found', multi') ->
          RI (mkB st (b_added b) found' multi' (b_namer b) (b_cuts b))).
  Proof.
    intros (HI & HL & Hndi) Hpls Hr.
    destruct (discard_roundW inp Hids _ err b pls st fixes (proj1 (Inv_InvW inp b) HI) Hpls Hr)
      as (G1 & G2 & _ & M5 & Hb & Inil & Icons).
    pose proof (make_fixes_keeps err _ _ _ _ (pgood_valid _ _ G1) G2 Hr) as Hkeep.
    (* what is listed is still held, except under the keys and results just fixed *)
    assert (HW : LstW st (b_found b) fixes).
    { intros k f ids id Ha Hi Hq.
      destruct (Inv_entry inp b k f ids HI Ha) as (K1 & _ & _ & Kpos & _).
      destruct (HL k f ids id Ha Hi) as (r & Hg & Hin).
      apply (Hkeep id r f); [|exact Hg|exact Hin|].
      + rewrite Forall_forall in Kpos. apply Kpos. exact Hi.
      + intros p Hp Erid Ef. apply (Hq p Hp); [|exact Erid]. unfold pkey. rewrite Ef. exact K1. }
    split; [exact M5|]. split; [exact Hb|]. split.
    - intros E. split; [apply (Inv_InvW inp), Inil, E|]. split; [|exact Hndi]. subst fixes.
      intros k f ids id Ha Hi. apply (HW k f ids id Ha Hi). intros q [].
    - intros found' multi' Hfm. split; [apply (Inv_InvW inp), Icons, Hfm|]. split.
      + cbn [b_store b_found]. eapply Lst_bookkeeping; [exact Hndi | exact M5 | exact Hb | exact HW | exact Hfm].
      + cbn [b_found]. eapply NDI_bookkeeping; eassumption.
  Qed.

  Lemma discard_loop_total : forall fuel b, RI b ->
    discard_loop fuel err b = Err OutOfFuel \/ exists b', discard_loop fuel err b = Ok b' /\ RI b'.
  Proof.
    induction fuel as [|fuel IH]; intros b HR; cbn [discard_loop]; [left; reflexivity|].
    destruct (b_multi b) as [|k0 m0] eqn:Em; [right; eauto|].
    rewrite <- Em. fold (round_premises b (b_multi b)).
    destruct (round_premises_progress b HR) as (pls & Hpls). rewrite Hpls. cbn [bind].
    destruct (round_good b pls HR Hpls) as (G1 & G2).
    destruct (make_fixes_progress err _ (b_store b) (pgood_valid _ _ G1) G2) as ([st fixes] & Hr).
    rewrite Hr. cbn [bind].
    destruct (round_RI b pls st fixes HR Hpls Hr) as (M5 & Hb & R1 & R2).
    destruct fixes as [|p0 fx0]; [right; eexists; split; [reflexivity | apply R1; reflexivity]|].
    destruct (bookkeeping_progress _ _ _ M5 Hb) as ([found' multi'] & Hfm). rewrite Hfm. cbn [bind].
    apply IH. apply R2. exact Hfm.
  Qed.

  Theorem discard_loop_ok fuel b :
    RI b -> (total_result_rows (b_store b) < fuel)%nat ->
    exists b', discard_loop fuel err b = Ok b' /\ RI b'.
  Proof.
    intros HR Hf. destruct (discard_loop_total fuel b HR) as [E | E]; [|exact E].
    exfalso. exact (discard_loop_fuel_suffices fuel err b Hf E).
  Qed.
End LoopProgress.

Print Assumptions discard_loop_ok.
Print Assumptions pretext_Lst.
