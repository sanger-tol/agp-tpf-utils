(* FastaStream (Model/Stream.v): the line-wrapping state machine is independent
   of how the residues are cut into chunks and rows, wraps exactly as
   FastaSpec.wrap_body, and write_scaffold / write_assembly produce the expected
   bytes for every buffer size.  The facts about the chunk iterators
   (fwd_chunks, rev_chunks, gap_chunks) are premises of the theorems that need
   them; nothing is assumed globally. *)
From Tola Require Import Py.Base Model.Fragment Model.Fasta Model.Stream Model.FastaSpec
  Proofs.BaseLemmas Proofs.Chunks.
From Coq Require Import Lia ZifyBool.

(* Specification of one logical line state.  [want] residues are still
   missing on the current output line: take min(want,|x|) residues; if that
   completes the line emit LF and go on with a fresh line of [L]. *)
Fixpoint wrap_from (fuel : nat) (L : nat) (want : nat) (x : str) : str * nat :=
  match fuel with
  | O => ([], want)
  | S f =>
      match x with
      | [] => ([], want)
      | _ :: _ =>
          let seq := firstn want x in
          if Nat.eqb (length seq) want then
            let r := wrap_from f L L (skipn want x) in (seq ++ LF :: fst r, snd r)
          else (seq, (want - length seq)%nat)
      end
  end.
(* enough fuel for any body *)
Definition wrap_st (L want : nat) (x : str) : str * nat := wrap_from (S (length x)) L want x.

(* the same machine one residue at a time (proof device: structural, so
   composition over [++] is a plain induction) *)
Fixpoint wrap_c (L want : nat) (x : str) : str * nat :=
  match x with
  | [] => ([], want)
  | c :: t =>
      if Nat.eqb want 1 then let r := wrap_c L L t in (c :: LF :: fst r, snd r)
      else let r := wrap_c L (want - 1) t in (c :: fst r, snd r)
  end.

Section WrapNat.
Local Open Scope nat_scope.
Variable L : nat.
Hypothesis HL : 1 <= L.

Lemma wrap_c_short : forall x w, length x < w -> wrap_c L w x = (x, w - length x).
Proof.
  induction x as [|c t IH]; intros w H; cbn [wrap_c length] in *.
  - now rewrite Nat.sub_0_r.
  - destruct (Nat.eqb_spec w 1); [lia|].
    rewrite IH by lia. cbn [fst snd]. f_equal. lia.
Qed.

Lemma wrap_c_long : forall x w, 1 <= w <= length x ->
  wrap_c L w x = (firstn w x ++ LF :: fst (wrap_c L L (skipn w x)), snd (wrap_c L L (skipn w x))).
Proof.
  induction x as [|c t IH]; intros w H; cbn [length] in H; [lia|].
  destruct w as [|[|w]]; [lia| |].
  - reflexivity.
  - cbn [wrap_c]. change (S (S w) =? 1) with false. cbv iota.
    replace (S (S w) - 1) with (S w) by lia.
    rewrite IH by lia. reflexivity.
Qed.

Lemma wrap_c_app : forall a b w,
  wrap_c L w (a ++ b) =
  (fst (wrap_c L w a) ++ fst (wrap_c L (snd (wrap_c L w a)) b),
   snd (wrap_c L (snd (wrap_c L w a)) b)).
Proof.
  induction a as [|c a IH]; intros b w; cbn [app wrap_c fst snd].
  - now destruct (wrap_c L w b).
  - destruct (w =? 1); rewrite IH; reflexivity.
Qed.

Lemma wrap_c_want : forall x w, 1 <= w <= L -> 1 <= snd (wrap_c L w x) <= L.
Proof.
  induction x as [|c t IH]; intros w H; cbn [wrap_c].
  - exact H.
  - destruct (Nat.eqb_spec w 1); cbn [snd]; apply IH; lia.
Qed.

(* with enough fuel the specification machine is the residue-by-residue one *)
Lemma wrap_from_c : forall fuel x w, 1 <= w -> length x < fuel ->
  wrap_from fuel L w x = wrap_c L w x.
Proof.
  induction fuel as [|f IH]; intros x w Hw Hf; [lia|].
  destruct x as [|a x]; [reflexivity|].
  cbn [wrap_from]. cbv zeta. rewrite firstn_length.
  destruct (Nat.eqb_spec (Nat.min w (length (a :: x))) w) as [E|E].
  - rewrite wrap_c_long by lia. rewrite IH; [reflexivity|lia|].
    rewrite skipn_length. cbn [length] in *. lia.
  - rewrite wrap_c_short by lia. rewrite firstn_all2 by lia. f_equal. lia.
Qed.

Lemma wrap_st_c : forall x w, 1 <= w -> wrap_st L w x = wrap_c L w x.
Proof. intros. apply wrap_from_c; [assumption|lia]. Qed.

Lemma emit_chunk_c : forall fuel c w, 1 <= w -> length c < fuel ->
  emit_chunk fuel (Z.of_nat L) (Z.of_nat w) c
  = Ok (fst (wrap_c L w c), Z.of_nat (snd (wrap_c L w c))).
Proof.
  induction fuel as [|f IH]; intros c w Hw Hf; [lia|].
  cbn [emit_chunk]. unfold cread.
  destruct (Z.ltb_spec (Z.of_nat w) 0) as [?|_]; [lia|].
  rewrite Nat2Z.id.
  destruct c as [|a c].
  - rewrite firstn_nil. reflexivity.
  - (* the read is not empty: needed only to get past the model's [match seq with [] => _] *)
    remember (firstn w (a :: c)) as sq eqn:Esq.
    destruct sq as [|b sq].
    { destruct w; [lia|discriminate]. }
    rewrite Esq. clear b sq Esq.
    unfold zlen at 1 2. rewrite firstn_length.
    destruct (Nat.le_gt_cases w (length (a :: c))) as [Hle|Hgt].
    + replace (Z.of_nat w - Z.of_nat (Nat.min w (length (a :: c))))%Z with 0%Z by lia.
      change (0 =? 0)%Z with true. cbv iota.
      rewrite (IH (skipn w (a :: c)) L HL).
      2:{ rewrite skipn_length. cbn [length] in *. lia. }
      cbn [bind fst snd]. rewrite (wrap_c_long (a :: c) w) by lia. reflexivity.
    + replace (Z.of_nat w - Z.of_nat (Nat.min w (length (a :: c))))%Z
        with (Z.of_nat (w - length (a :: c))) by lia.
      destruct (Z.eqb_spec (Z.of_nat (w - length (a :: c))) 0) as [?|_]; [lia|].
      rewrite IH.
      2:{ lia. }
      2:{ rewrite skipn_length. cbn [length] in *. lia. }
      rewrite skipn_all2 by lia. rewrite firstn_all2 by lia.
      rewrite (wrap_c_short (a :: c) w) by lia.
      cbn [wrap_c bind fst snd]. rewrite app_nil_r. reflexivity.
Qed.

Lemma emit_chunks_c : forall chunks w, 1 <= w <= L ->
  emit_chunks (Z.of_nat L) (Z.of_nat w) chunks
  = Ok (fst (wrap_c L w (concat chunks)), Z.of_nat (snd (wrap_c L w (concat chunks)))).
Proof.
  induction chunks as [|c t IH]; intros w Hw; cbn [emit_chunks concat].
  - reflexivity.
  - rewrite emit_chunk_c by lia. cbn [bind fst snd].
    rewrite IH by (apply wrap_c_want; exact Hw).
    cbn [bind fst snd]. rewrite wrap_c_app. reflexivity.
Qed.

Lemma wrap_fuel : forall f1 f2 x, length x < f1 -> length x < f2 -> wrap f1 L x = wrap f2 L x.
Proof.
  induction f1 as [|f1 IH]; intros f2 x H1 H2; [lia|].
  destruct f2 as [|f2]; [lia|].
  destruct x as [|a x]; [reflexivity|].
  cbn [wrap]. do 2 f_equal.
  assert (length (skipn L (a :: x)) < length (a :: x)).
  { rewrite skipn_length. cbn [length]. lia. }
  apply IH; lia.
Qed.

Lemma wrap_body_nil : wrap_body L [] = [].
Proof. reflexivity. Qed.

Lemma wrap_body_step : forall x, x <> [] ->
  wrap_body L x = firstn L x ++ LF :: wrap_body L (skipn L x).
Proof.
  intros x Hx. unfold wrap_body. destruct x as [|a x]; [congruence|].
  assert (length (skipn L (a :: x)) < length (a :: x)).
  { rewrite skipn_length. cbn [length]. lia. }
  rewrite (wrap_fuel (S (length (skipn L (a :: x)))) (length (a :: x))) by lia.
  reflexivity.
Qed.

(* induction along the lines of a body *)
Lemma skipn_ind (P : str -> Prop) :
  P [] -> (forall x, x <> [] -> P (skipn L x) -> P x) -> forall x, P x.
Proof.
  intros H0 Hs x. remember (length x) as n eqn:E. revert x E.
  induction n as [n IH] using lt_wf_ind. intros x ->.
  destruct x as [|a x]; [exact H0|]. apply Hs; [discriminate|].
  apply (IH (length (skipn L (a :: x)))); [rewrite skipn_length; cbn [length]; lia | reflexivity].
Qed.

Lemma wrap_body_c : forall x,
  fst (wrap_c L L x) ++ (if snd (wrap_c L L x) =? L then [] else [LF]) = wrap_body L x.
Proof.
  apply skipn_ind.
  - cbn [wrap_c fst snd]. rewrite Nat.eqb_refl. reflexivity.
  - intros x Hx IH. rewrite wrap_body_step by exact Hx.
    assert (1 <= length x) by (destruct x; [contradiction | cbn [length]; lia]).
    destruct (Nat.le_gt_cases L (length x)) as [Hle|Hgt].
    + rewrite wrap_c_long by lia. cbn [fst snd].
      rewrite <- app_assoc. cbn [app]. do 2 f_equal. exact IH.
    + rewrite wrap_c_short by lia. cbn [fst snd].
      destruct (Nat.eqb_spec (L - length x) L) as [E|_]; [lia|].
      rewrite firstn_all2 by lia. rewrite skipn_all2 by lia.
      rewrite wrap_body_nil. reflexivity.
Qed.

Lemma wrap_body_lines_nat : forall x,
  exists lines, wrap_body L x = concat (map (fun l => l ++ [LF]) lines) /\ concat lines = x
    /\ Forall (fun l => 1 <= length l <= L) lines
    /\ (forall k l, nth_error lines k = Some l -> S k < length lines -> length l = L).
Proof.
  apply skipn_ind.
  - exists []. repeat split; [constructor|]. intros [|k] l H; discriminate.
  - intros x Hx (lines & E1 & E2 & F & A).
    assert (1 <= length x) by (destruct x; [contradiction | cbn [length]; lia]).
    exists (firstn L x :: lines).
    split; [|split; [|split]].
    + rewrite wrap_body_step by exact Hx. cbn [map concat].
      rewrite <- app_assoc. cbn [app]. now rewrite E1.
    + cbn [concat]. rewrite E2. apply firstn_skipn.
    + constructor; [|exact F]. rewrite firstn_length. lia.
    + intros [|k] l Hk Hlen; cbn [nth_error length] in *.
      * injection Hk as <-. rewrite firstn_length.
        destruct lines as [|l0 lines]; [cbn [length] in Hlen; lia|].
        assert (1 <= length (skipn L x)).
        { rewrite <- E2. cbn [concat]. rewrite app_length.
          apply Forall_inv in F. lia. }
        rewrite skipn_length in *. lia.
      * apply (A k l Hk). lia.
Qed.

End WrapNat.

Theorem emit_chunks_spec : forall L want chunks, 1 <= L -> 1 <= want <= L ->
  exists out want', emit_chunks L want chunks = Ok (out, want') /\ 1 <= want' <= L
    /\ (out, want') =
       (fst (wrap_st (Z.to_nat L) (Z.to_nat want) (concat chunks)),
        Z.of_nat (snd (wrap_st (Z.to_nat L) (Z.to_nat want) (concat chunks)))).
Proof.
  intros L want chunks HL Hw.
  assert (EL : L = Z.of_nat (Z.to_nat L)) by lia.
  assert (Ew : want = Z.of_nat (Z.to_nat want)) by lia.
  assert (HL' : (1 <= Z.to_nat L)%nat) by lia.
  rewrite wrap_st_c by lia.
  pose proof (wrap_c_want _ HL' (concat chunks) (Z.to_nat want) ltac:(lia)) as W.
  do 2 eexists. split; [|split; [|reflexivity]].
  - rewrite EL at 1. rewrite Ew at 1. apply emit_chunks_c; lia.
  - lia.
Qed.

Corollary emit_chunks_concat : forall L want c1 c2, 1 <= L -> 1 <= want <= L ->
  concat c1 = concat c2 -> emit_chunks L want c1 = emit_chunks L want c2.
Proof.
  intros L want c1 c2 HL Hw E.
  destruct (emit_chunks_spec L want c1 HL Hw) as (o1 & w1 & E1 & _ & S1).
  destruct (emit_chunks_spec L want c2 HL Hw) as (o2 & w2 & E2 & _ & S2).
  rewrite E1, E2, S1, S2, E. reflexivity.
Qed.

Corollary emit_chunks_one : forall L want chunks, 1 <= L -> 1 <= want <= L ->
  emit_chunks L want chunks = emit_chunks L want [concat chunks].
Proof.
  intros. apply emit_chunks_concat; try assumption.
  cbn [concat]. now rewrite app_nil_r.
Qed.

Theorem wrap_st_app : forall L want a b, (1 <= L)%nat -> (1 <= want <= L)%nat ->
  wrap_st L want (a ++ b) =
  (fst (wrap_st L want a) ++ fst (wrap_st L (snd (wrap_st L want a)) b),
   snd (wrap_st L (snd (wrap_st L want a)) b)).
Proof.
  intros L want a b HL Hw.
  pose proof (wrap_c_want L HL a want Hw) as W.
  rewrite (wrap_st_c L HL a want) in * by lia.
  rewrite (wrap_st_c L HL (a ++ b) want) by lia.
  rewrite (wrap_st_c L HL b) by lia.
  apply wrap_c_app.
Qed.

Theorem wrap_body_spec : forall L x, (1 <= L)%nat ->
  let '(out, want') := wrap_st L L x in
  out ++ (if (want' =? L)%nat then [] else [LF]) = wrap_body L x.
Proof.
  intros L x HL. rewrite wrap_st_c by lia.
  pose proof (wrap_body_c L HL x) as H.
  destruct (wrap_c L L x) as [out w]. exact H.
Qed.

Theorem wrap_body_lines : forall L x, (1 <= L)%nat ->
  exists lines, wrap_body L x = concat (map (fun l => l ++ [LF]) lines) /\ concat lines = x
    /\ Forall (fun l => (1 <= length l <= L)%nat) lines
    /\ (forall k l, nth_error lines k = Some l -> (S k < length lines)%nat -> length l = L).
Proof. intros L x HL. apply (wrap_body_lines_nat L HL). Qed.

Local Notation gaps_nonneg :=
  (Forall (fun r => match r with RG g => 0 <= g_len g | RF _ => True end)).

Lemma row_bytes_length : forall seqs gap_char r b,
  match r with RG g => 0 <= g_len g | RF _ => True end ->
  row_bytes seqs gap_char r = Some b -> zlen b = row_len r.
Proof.
  intros seqs gap_char [f|g] b Hg H; cbn [row_bytes row_len] in *.
  - destruct (aget str_eqb seqs (f_name f)) as [x|]; [|discriminate].
    destruct ((1 <=? f_start f) && (f_start f <=? f_end f) && (f_end f <=? zlen x)) eqn:C;
      [|discriminate].
    injection H as <-. unfold f_len.
    destruct (f_strand f =? -1); rewrite ?reverse_complement_zlen, zlen_slice1; lia.
  - injection H as <-. unfold zlen. rewrite repeat_length. lia.
Qed.

Theorem rows_bytes_length : forall seqs gap_char rows body,
  Forall (fun r => match r with RG g => 0 <= g_len g | RF _ => True end) rows ->
  rows_bytes seqs gap_char rows = Some body -> zlen body = rows_len rows.
Proof.
  intros seqs gap_char rows. unfold rows_len.
  induction rows as [|r t IH]; intros body F H; cbn [rows_bytes map] in *.
  - injection H as <-. reflexivity.
  - destruct (row_bytes seqs gap_char r) as [a|] eqn:Ea; [|discriminate].
    destruct (rows_bytes seqs gap_char t) as [b|] eqn:Eb; [|discriminate].
    injection H as <-. inversion F as [|? ? Fr Ft]; subst.
    rewrite zlen_app, sumZ_cons, (IH b Ft eq_refl).
    now rewrite (row_bytes_length _ _ _ _ Fr Ea).
Qed.

Definition fwd_chunks_ok : Prop :=
  forall file buf i residues s e, good_access file i residues -> 1 <= buf -> 1 <= s -> s <= e ->
    e <= zlen residues ->
    exists cs, fwd_chunks file buf i s e = Ok cs /\ concat cs = slice1 residues s e
      /\ Forall (fun c => 1 <= zlen c <= buf) cs /\ zlen cs = (e - s) / buf + 1.
Definition rev_chunks_ok : Prop :=
  forall file buf i residues s e, good_access file i residues -> 1 <= buf -> 1 <= s -> s <= e ->
    e <= zlen residues ->
    exists cs, rev_chunks file buf i s e = Ok cs
      /\ concat cs = reverse_complement (slice1 residues s e)
      /\ Forall (fun c => 1 <= zlen c <= buf) cs /\ zlen cs = (e - s) / buf + 1.
Definition gap_chunks_ok : Prop :=
  forall buf c len, 1 <= buf -> 0 <= len ->
    exists cs, gap_chunks buf c len = Ok cs /\ concat cs = repeat c (Z.to_nat len)
      /\ Forall (fun x => zlen x <= buf) cs /\ zlen cs = len / buf + 1.

(* every record the rows mention is accessible *)
Definition seqs_accessible (file : str) (idx : list (str * finfo)) (seqs : list (str * str)) : Prop :=
  forall n x, aget str_eqb seqs n = Some x ->
    exists i, aget str_eqb idx n = Some i /\ good_access file i x.

(* what write_assembly must produce *)
Fixpoint expected_assembly (seqs : list (str * str)) (gap_char : ascii) (L : nat)
         (scs : list (str * list row)) : option str :=
  match scs with
  | [] => Some []
  | (name, rows) :: t =>
      do' a <- expected_scaffold seqs gap_char L name rows;
      do' b <- expected_assembly seqs gap_char L t;
      Some (a ++ b)
  end.

Section Scaffold.
Hypothesis H_fwd : fwd_chunks_ok.
Hypothesis H_rev : rev_chunks_ok.
Hypothesis H_gap : gap_chunks_ok.

Lemma row_chunks_spec : forall file idx seqs buf gap_char r b,
  1 <= buf -> seqs_accessible file idx seqs ->
  match r with RG g => 0 <= g_len g | RF _ => True end ->
  row_bytes seqs gap_char r = Some b ->
  exists cs, row_chunks file idx buf gap_char r = Ok cs /\ concat cs = b.
Proof.
  intros file idx seqs buf gap_char [f|g] b Hbuf Hacc Hg H; cbn [row_bytes row_chunks] in *.
  - destruct (aget str_eqb seqs (f_name f)) as [x|] eqn:Ex; [|discriminate].
    destruct ((1 <=? f_start f) && (f_start f <=? f_end f) && (f_end f <=? zlen x)) eqn:C;
      [|discriminate].
    injection H as <-.
    destruct (Hacc _ _ Ex) as (i & Ei & Gi).
    unfold sequence_chunks, get_info. rewrite Ei. cbn [bind].
    destruct (f_strand f =? -1).
    + destruct (H_rev file buf i x (f_start f) (f_end f) Gi Hbuf) as (cs & E1 & E2 & _);
        try lia. eauto.
    + destruct (H_fwd file buf i x (f_start f) (f_end f) Gi Hbuf) as (cs & E1 & E2 & _);
        try lia. eauto.
  - injection H as <-.
    destruct (H_gap buf gap_char (g_len g) Hbuf Hg) as (cs & E1 & E2 & _). eauto.
Qed.

Lemma emit_rows_c : forall file idx seqs buf L gap_char rows w body,
  1 <= buf -> (1 <= L)%nat -> (1 <= w <= L)%nat -> seqs_accessible file idx seqs ->
  gaps_nonneg rows -> rows_bytes seqs gap_char rows = Some body ->
  emit_rows file idx buf (Z.of_nat L) gap_char rows (Z.of_nat w)
  = Ok (fst (wrap_c L w body), Z.of_nat (snd (wrap_c L w body))).
Proof.
  intros file idx seqs buf L gap_char rows.
  induction rows as [|r t IH]; intros w body Hbuf HL Hw Hacc F H; cbn [rows_bytes emit_rows] in *.
  - injection H as <-. reflexivity.
  - destruct (row_bytes seqs gap_char r) as [a|] eqn:Ea; [|discriminate].
    destruct (rows_bytes seqs gap_char t) as [b|] eqn:Eb; [|discriminate].
    injection H as <-. inversion F as [|? ? Fr Ft]; subst.
    destruct (row_chunks_spec file idx seqs buf gap_char r a Hbuf Hacc Fr Ea) as (cs & E1 & E2).
    rewrite E1. cbn [bind]. rewrite emit_chunks_c by assumption. cbn [bind fst snd].
    rewrite (IH _ b Hbuf HL) by (try apply wrap_c_want; auto).
    cbn [bind fst snd]. rewrite E2, wrap_c_app. reflexivity.
Qed.

Theorem emit_rows_spec : forall file idx seqs buf L gap_char rows want body,
  1 <= buf -> (1 <= L)%nat -> (1 <= want <= L)%nat -> seqs_accessible file idx seqs ->
  gaps_nonneg rows -> rows_bytes seqs gap_char rows = Some body ->
  emit_rows file idx buf (Z.of_nat L) gap_char rows (Z.of_nat want)
  = Ok (fst (wrap_st L want body), Z.of_nat (snd (wrap_st L want body))).
Proof. intros. rewrite wrap_st_c by lia. eapply emit_rows_c; eauto. Qed.

Theorem write_scaffold_spec : forall file idx seqs buf L gap_char name rows body,
  1 <= buf -> (1 <= L)%nat ->
  (forall n x, aget str_eqb seqs n = Some x ->
     exists i, aget str_eqb idx n = Some i /\ good_access file i x) ->
  Forall (fun r => match r with RG g => 0 <= g_len g | RF _ => True end) rows ->
  rows_bytes seqs gap_char rows = Some body ->
  write_scaffold file idx buf (Z.of_nat L) gap_char name rows
  = Ok (GT :: name ++ LF :: wrap_body L body).
Proof.
  intros file idx seqs buf L gap_char name rows body Hbuf HL Hacc F H.
  unfold write_scaffold.
  rewrite (emit_rows_c file idx seqs buf L gap_char rows L body) by (auto; lia).
  cbn [bind fst snd]. do 4 f_equal.
  rewrite <- (wrap_body_c L HL body). f_equal.
  destruct (Z.eqb_spec (Z.of_nat (snd (wrap_c L L body))) (Z.of_nat L)),
           (Nat.eqb_spec (snd (wrap_c L L body)) L); try reflexivity; lia.
Qed.

Corollary write_scaffold_expected : forall file idx seqs buf L gap_char name rows out,
  1 <= buf -> (1 <= L)%nat -> seqs_accessible file idx seqs -> gaps_nonneg rows ->
  expected_scaffold seqs gap_char L name rows = Some out ->
  write_scaffold file idx buf (Z.of_nat L) gap_char name rows = Ok out.
Proof.
  intros file idx seqs buf L gap_char name rows out Hbuf HL Hacc F H.
  unfold expected_scaffold in H.
  destruct (rows_bytes seqs gap_char rows) as [body|] eqn:Eb; [|discriminate].
  injection H as <-. eapply write_scaffold_spec; eauto.
Qed.

Corollary write_scaffold_buffer_independent :
  forall file idx seqs b1 b2 L gap_char name rows body,
  1 <= b1 -> 1 <= b2 -> (1 <= L)%nat ->
  (forall n x, aget str_eqb seqs n = Some x ->
     exists i, aget str_eqb idx n = Some i /\ good_access file i x) ->
  Forall (fun r => match r with RG g => 0 <= g_len g | RF _ => True end) rows ->
  rows_bytes seqs gap_char rows = Some body ->
  write_scaffold file idx b1 (Z.of_nat L) gap_char name rows
  = write_scaffold file idx b2 (Z.of_nat L) gap_char name rows.
Proof.
  intros file idx seqs b1 b2 L gap_char name rows body H1 H2 HL Hacc F H.
  rewrite (write_scaffold_spec file idx seqs b1 L gap_char name rows body) by assumption.
  rewrite (write_scaffold_spec file idx seqs b2 L gap_char name rows body) by assumption.
  reflexivity.
Qed.

Theorem write_assembly_spec : forall file idx seqs buf L gap_char scs out,
  1 <= buf -> (1 <= L)%nat ->
  (forall n x, aget str_eqb seqs n = Some x ->
     exists i, aget str_eqb idx n = Some i /\ good_access file i x) ->
  Forall (fun sc => Forall (fun r => match r with RG g => 0 <= g_len g | RF _ => True end)
                           (snd sc)) scs ->
  expected_assembly seqs gap_char L scs = Some out ->
  write_assembly file idx buf (Z.of_nat L) gap_char scs = Ok out.
Proof.
  intros file idx seqs buf L gap_char scs out Hbuf HL Hacc.
  revert out. induction scs as [|[name rows] t IH]; intros out F H;
    cbn [expected_assembly write_assembly] in *.
  - injection H as <-. reflexivity.
  - destruct (expected_scaffold seqs gap_char L name rows) as [a|] eqn:Ea; [|discriminate].
    destruct (expected_assembly seqs gap_char L t) as [b|] eqn:Eb; [|discriminate].
    injection H as <-. inversion F as [|? ? Fr Ft]; subst. cbn [snd] in Fr.
    rewrite (write_scaffold_expected file idx seqs buf L gap_char name rows a) by assumption.
    cbn [bind]. rewrite (IH b Ft eq_refl). reflexivity.
Qed.

Corollary write_assembly_buffer_independent : forall file idx seqs b1 b2 L gap_char scs out,
  1 <= b1 -> 1 <= b2 -> (1 <= L)%nat -> seqs_accessible file idx seqs ->
  Forall (fun sc => gaps_nonneg (snd sc)) scs ->
  expected_assembly seqs gap_char L scs = Some out ->
  write_assembly file idx b1 (Z.of_nat L) gap_char scs
  = write_assembly file idx b2 (Z.of_nat L) gap_char scs.
Proof.
  intros file idx seqs b1 b2 L gap_char scs out H1 H2 HL Hacc F H.
  rewrite (write_assembly_spec file idx seqs b1 L gap_char scs out) by assumption.
  rewrite (write_assembly_spec file idx seqs b2 L gap_char scs out) by assumption.
  reflexivity.
Qed.

End Scaffold.

(* non-vacuity: a concrete file, a forward fragment, a gap and a reverse
   fragment; L = 4, buf = 3 *)
Definition ex_file : str := s ">a
ACGTAC
GT
".
Definition ex_idx : list (str * finfo) := [(s "a", mkInfo 8 3 6 7)].
Definition ex_seqs : list (str * str) := [(s "a", s "ACGTACGT")].
Definition ex_rows : list row :=
  [RF (mkFrag 0 (s "a") 2 8 1 []); RG (mkGap 5 (s "scaffold")); RF (mkFrag 1 (s "a") 1 6 (-1) [])].

Example ex_write_scaffold :
  write_scaffold ex_file ex_idx 3 4 "N"%char (s "sc1") ex_rows
  = Ok (s ">sc1
CGTA
CGTN
NNNN
GTAC
GT
").
Proof. vm_compute. reflexivity. Qed.

Example ex_expected_scaffold :
  expected_scaffold ex_seqs "N"%char 4 (s "sc1") ex_rows
  = Some (s ">sc1
CGTA
CGTN
NNNN
GTAC
GT
").
Proof. vm_compute. reflexivity. Qed.

(* the same bytes for every buffer size 1..12 *)
Example ex_buffers :
  forallb (fun buf => match write_scaffold ex_file ex_idx buf 4 "N"%char (s "sc1") ex_rows,
                            expected_scaffold ex_seqs "N"%char 4 (s "sc1") ex_rows with
                      | Ok a, Some b => str_eqb a b
                      | _, _ => false
                      end) [1; 2; 3; 4; 5; 6; 7; 8; 9; 10; 11; 12] = true.
Proof. vm_compute. reflexivity. Qed.

(* the access premise of write_scaffold_spec holds for the example *)
Example ex_good_access : seqs_accessible ex_file ex_idx ex_seqs.
Proof.
  intros n x H. cbn [ex_seqs aget] in H.
  destruct (str_eqb n (s "a")) eqn:E; [|discriminate].
  injection H as <-. apply str_eqb_eq in E. subst n.
  exists (mkInfo 8 3 6 7). split; [reflexivity|].
  exact Proofs.Chunks.ex_good_access.
Qed.

(* the state machine on a small input, cut in two different ways *)
Example ex_emit_chunks :
  emit_chunks 4 3 [s "AC"; []; s "GTACG"; s "T"] = Ok (s "ACG
TACG
T", 3)
  /\ emit_chunks 4 3 [s "ACGTACGT"] = Ok (s "ACG
TACG
T", 3)
  /\ wrap_st 4 3 (s "ACGTACGT") = (s "ACG
TACG
T", 3%nat).
Proof. vm_compute. repeat split. Qed.

Print Assumptions emit_chunks_spec.
Print Assumptions emit_chunks_concat.
Print Assumptions emit_chunks_one.
Print Assumptions wrap_st_app.
Print Assumptions wrap_body_spec.
Print Assumptions wrap_body_lines.
Print Assumptions rows_bytes_length.
Print Assumptions emit_rows_spec.
Print Assumptions write_scaffold_spec.
Print Assumptions write_scaffold_expected.
Print Assumptions write_scaffold_buffer_independent.
Print Assumptions write_assembly_spec.
Print Assumptions write_assembly_buffer_independent.
Print Assumptions ex_write_scaffold.
Print Assumptions ex_expected_scaffold.
Print Assumptions ex_buffers.
Print Assumptions ex_good_access.
Print Assumptions ex_emit_chunks.
