(* Facts shared by the proof files, about the prelude of Py/Base.v (str_eqb and
   characters, sumZ, zlen, py_nth, set_nth, mapM, foldM, str.replace, association
   lists) and about lists (NoDup and its boolean test nodupb, Forall2, StronglySorted, membership in a
   stable_sort). *)
From Tola Require Import Py.Base Py.Sort.
From Coq Require Import Lia Sorted Permutation.

Lemma list_eqb_spec {A} (eqb : A -> A -> bool) :
  (forall x y, eqb x y = true <-> x = y) ->
  forall a b, list_eqb eqb a b = true <-> a = b.
Proof.
  intros H a; induction a as [|x a IH]; intros [|y b]; cbn; split; intro E;
    try reflexivity; try discriminate.
  - destruct (eqb x y) eqn:E1; [|discriminate]. apply H in E1. apply IH in E. congruence.
  - injection E as -> ->. assert (E1 : eqb y y = true) by (apply H; reflexivity).
    rewrite E1. apply IH. reflexivity.
Qed.

Lemma str_eqb_eq a b : str_eqb a b = true <-> a = b.
Proof. apply list_eqb_spec. intros x y. apply Ascii.eqb_eq. Qed.

Lemma str_eqb_refl a : str_eqb a a = true.
Proof. apply str_eqb_eq. reflexivity. Qed.

Lemma str_eqb_neq a b : str_eqb a b = false <-> a <> b.
Proof.
  split; intro H.
  - intro E. apply str_eqb_eq in E. congruence.
  - destruct (str_eqb a b) eqn:E; [apply str_eqb_eq in E; contradiction | reflexivity].
Qed.

Lemma str_eqb_sym a b : str_eqb a b = str_eqb b a.
Proof.
  destruct (str_eqb a b) eqn:E1, (str_eqb b a) eqn:E2; try reflexivity.
  - apply str_eqb_eq in E1. subst. rewrite str_eqb_refl in E2. discriminate.
  - apply str_eqb_eq in E2. subst. rewrite str_eqb_refl in E1. discriminate.
Qed.

Lemma strs_eqb_eq a b : strs_eqb a b = true <-> a = b.
Proof. apply list_eqb_spec. apply str_eqb_eq. Qed.

Lemma opt_str_eqb_eq a b : opt_eqb str_eqb a b = true <-> a = b.
Proof.
  destruct a as [x|], b as [y|]; cbn [opt_eqb]; try (split; [discriminate | congruence]).
  - rewrite str_eqb_eq. split; congruence.
  - split; intros _; reflexivity.
Qed.

Lemma starts_with_app old sfx : starts_with old (old ++ sfx) = true.
Proof.
  induction old as [|c old IH]; cbn [starts_with app]; [reflexivity|].
  rewrite Ascii.eqb_refl, IH. reflexivity.
Qed.

Lemma is_digit_neq c d : is_digit c = true -> is_digit d = false -> Ascii.eqb c d = false.
Proof. intros Hc Hd. apply Ascii.eqb_neq. intros ->. congruence. Qed.

Lemma is_digit_not_space c : is_digit c = true -> is_space c = false.
Proof.
  unfold is_digit, is_space. intro H. apply andb_true_iff in H as [H1 H2].
  apply N.leb_le in H1, H2.
  apply orb_false_iff. split; apply andb_false_iff; right; apply N.leb_gt; lia.
Qed.

Lemma sumZ_cons x l : sumZ (x :: l) = x + sumZ l.
Proof.
  unfold sumZ. cbn [fold_left].
  assert (G : forall l a b, fold_left Z.add l (a + b) = a + fold_left Z.add l b).
  { clear. induction l as [|y l IH]; intros a b; cbn [fold_left]; [reflexivity|].
    rewrite <- IH. f_equal. lia. }
  rewrite <- G. f_equal. lia.
Qed.

Lemma sumZ_nil : sumZ [] = 0.
Proof. reflexivity. Qed.

Lemma sumZ_app a b : sumZ (a ++ b) = sumZ a + sumZ b.
Proof.
  induction a as [|x a IH]; [reflexivity|].
  cbn [app]. rewrite !sumZ_cons, IH. lia.
Qed.

Lemma sumZ_rev a : sumZ (rev a) = sumZ a.
Proof.
  induction a as [|x a IH]; [reflexivity|].
  cbn [rev]. rewrite sumZ_app, sumZ_cons, IH, sumZ_cons, sumZ_nil. lia.
Qed.

Lemma zlen_nil {A} : zlen (@nil A) = 0.
Proof. reflexivity. Qed.

Lemma zlen_cons {A} (x : A) l : zlen (x :: l) = 1 + zlen l.
Proof. unfold zlen. cbn [length]. lia. Qed.

Lemma zlen_app {A} (a b : list A) : zlen (a ++ b) = zlen a + zlen b.
Proof. unfold zlen. rewrite app_length. lia. Qed.

Lemma zlen_snoc {A} (l : list A) x : zlen (l ++ [x]) = zlen l + 1.
Proof. rewrite zlen_app. reflexivity. Qed.

Lemma zlen_nonneg {A} (l : list A) : 0 <= zlen l.
Proof. unfold zlen. lia. Qed.

Lemma zlen_pos {A} (l : list A) : l <> [] -> 0 < zlen l.
Proof. destruct l; [contradiction|]. intros _. rewrite zlen_cons. pose proof (zlen_nonneg l). lia. Qed.

Lemma list_snoc_cases {A} (l : list A) : l = [] \/ exists l' x, l = l' ++ [x].
Proof.
  destruct l as [|a l]; [left; reflexivity | right].
  destruct (exists_last (l := a :: l)) as (l' & x & E); [discriminate|]. eauto.
Qed.

Lemma map_removelast {A B} (f : A -> B) l : map f (removelast l) = removelast (map f l).
Proof.
  induction l as [|x l IH]; [reflexivity|].
  destruct l as [|y l]; [reflexivity|]. cbn [removelast map] in *. rewrite IH. reflexivity.
Qed.

Lemma combine_app {A B} (a b : list A) : forall (c d : list B), length a = length c ->
  combine (a ++ b) (c ++ d) = combine a c ++ combine b d.
Proof.
  induction a as [|x a IH]; intros [|y c] d H; try discriminate; [reflexivity|].
  cbn. rewrite IH by (cbn in H; lia). reflexivity.
Qed.

Lemma map_pair_eq {A B C} (f : A -> B) (h : A -> C) : forall l l' : list A,
  map f l' = map f l -> map h l' = map h l -> map (fun x => (f x, h x)) l' = map (fun x => (f x, h x)) l.
Proof.
  induction l as [|x l IH]; intros [|y l'] Ef Eh; try discriminate; [reflexivity|].
  cbn [map] in *. injection Ef as Ef1 Ef2. injection Eh as Eh1 Eh2.
  rewrite Ef1, Eh1, (IH l' Ef2 Eh2). reflexivity.
Qed.

Lemma map_id_in {A} (f : A -> A) l : (forall x, In x l -> f x = x) -> map f l = l.
Proof.
  induction l as [|x l IH]; intro H; [reflexivity|]. cbn [map].
  rewrite (H x (or_introl eq_refl)), IH; [reflexivity|]. intros y Hy. apply H. right. exact Hy.
Qed.

Lemma flat_map_nil_in {A B} (f : A -> list B) l : (forall x, In x l -> f x = []) -> flat_map f l = [].
Proof.
  induction l as [|x l IH]; intro H; [reflexivity|]. cbn [flat_map].
  rewrite (H x (or_introl eq_refl)), IH; [reflexivity|]. intros y Hy. apply H. right. exact Hy.
Qed.

Lemma firstn_length_app {A} (a b : list A) : firstn (length a) (a ++ b) = a.
Proof. induction a as [|x a IH]; cbn; [destruct b|]; congruence. Qed.

Lemma skipn_length_app {A} (a b : list A) : skipn (length a) (a ++ b) = b.
Proof. induction a as [|x a IH]; cbn; congruence. Qed.

Lemma forallb_impl {A} (p q : A -> bool) l :
  (forall x, p x = true -> q x = true) -> forallb p l = true -> forallb q l = true.
Proof. intro H. rewrite !forallb_forall. auto. Qed.

Lemma forallb_rev {A} (p : A -> bool) l : forallb p (rev l) = forallb p l.
Proof.
  induction l as [|x l IH]; [reflexivity|]. cbn [rev forallb].
  rewrite forallb_app, IH. cbn [forallb]. rewrite andb_true_r. apply andb_comm.
Qed.

Lemma forallb_Forall {A} (p : A -> bool) (P : A -> Prop) l :
  forallb p l = true -> (forall x, p x = true -> P x) -> Forall P l.
Proof. intros H HP. rewrite forallb_forall in H. apply Forall_forall. auto. Qed.

Lemma forallb_firstn {A} (f : A -> bool) n l : forallb f l = true -> forallb f (firstn n l) = true.
Proof.
  intro H. rewrite <- (firstn_skipn n l), forallb_app in H. apply andb_true_iff in H. tauto.
Qed.

Lemma forallb_skipn {A} (f : A -> bool) n l : forallb f l = true -> forallb f (skipn n l) = true.
Proof.
  intro H. rewrite <- (firstn_skipn n l), forallb_app in H. apply andb_true_iff in H. tauto.
Qed.

Lemma rev_nonempty {A} (l : list A) : l <> [] -> rev l <> [].
Proof.
  intros H E. apply (f_equal (@rev A)) in E. rewrite rev_involutive in E. contradiction.
Qed.

Lemma last_cons_ne {A} (x : A) l d : l <> [] -> last (x :: l) d = last l d.
Proof. destruct l; [congruence | reflexivity]. Qed.

Lemma last_forallb {A} (p : A -> bool) l d :
  l <> [] -> forallb p l = true -> p (last l d) = true.
Proof.
  intros Hne H. rewrite forallb_forall in H. apply H.
  destruct (exists_last Hne) as (l' & x & ->). rewrite last_last. apply in_or_app. right. left. reflexivity.
Qed.

Lemma filter_nil_iff {A} (p : A -> bool) l : filter p l = [] <-> forall x, In x l -> p x = false.
Proof.
  induction l as [|x l IH]; cbn [filter In]; [tauto|].
  destruct (p x) eqn:E; [split; [discriminate | intro H; specialize (H x (or_introl eq_refl)); congruence]|].
  rewrite IH. split; [intros H y [<-|Hy]; auto | auto].
Qed.

Lemma NoDup_app_inv {A} (a b : list A) :
  NoDup (a ++ b) -> NoDup a /\ NoDup b /\ (forall x, In x a -> ~ In x b).
Proof.
  induction a as [|x a IH]; cbn [app]; intro N.
  - split; [constructor|]. split; [exact N|]. intros x [].
  - inversion N as [|? ? N1 N2]; subst. destruct (IH N2) as (I1 & I2 & I3).
    split; [|split; [exact I2|]].
    + constructor; [|exact I1]. intro G. apply N1, in_or_app. left. exact G.
    + intros y [<-|Hy] G; [apply N1, in_or_app; right; exact G | exact (I3 y Hy G)].
Qed.

Lemma NoDup_app_l {A} (a b : list A) : NoDup (a ++ b) -> NoDup a.
Proof. intro N. apply NoDup_app_inv in N. tauto. Qed.

Lemma NoDup_app_r {A} (a b : list A) : NoDup (a ++ b) -> NoDup b.
Proof. intro N. apply NoDup_app_inv in N. tauto. Qed.

Lemma NoDup_app_intro {A} (a b : list A) :
  NoDup a -> NoDup b -> (forall x, In x a -> In x b -> False) -> NoDup (a ++ b).
Proof.
  induction a as [|x a IH]; intros Na Nb D; cbn [app]; [assumption|].
  inversion Na as [|? ? Hx Na']; subst. constructor.
  - rewrite in_app_iff. intros [H|H]; [contradiction|]. apply (D x); [left; reflexivity | assumption].
  - apply IH; [assumption | assumption |]. intros y Hy. apply D. right. assumption.
Qed.

Lemma NoDup_snoc {A} (l : list A) x : NoDup l -> ~ In x l -> NoDup (l ++ [x]).
Proof.
  intros N I. apply NoDup_rev in N. rewrite <- (rev_involutive (l ++ [x])), rev_app_distr.
  apply NoDup_rev. cbn [rev app]. constructor; [rewrite <- in_rev; exact I | exact N].
Qed.

Lemma NoDup_map_filter {A B} (g : A -> B) p l : NoDup (map g l) -> NoDup (map g (filter p l)).
Proof.
  induction l as [|x l IH]; cbn [map filter]; intros H; [constructor|].
  inversion H as [|? ? Hn Hnd]; subst. destruct (p x); [|auto].
  cbn [map]. constructor; [|auto].
  intros Hin. apply Hn. apply in_map_iff in Hin. destruct Hin as (y & E & Hy).
  apply filter_In in Hy. apply in_map_iff. exists y. tauto.
Qed.

Lemma NoDup_fst_inj {K V} (l : list (K * V)) k v1 v2 :
  NoDup (map fst l) -> In (k, v1) l -> In (k, v2) l -> v1 = v2.
Proof.
  induction l as [|[k0 v0] l IH]; intros N I1 I2; [destruct I1|].
  cbn [map fst] in N. inversion N as [|? ? N1 N2]; subst.
  assert (G : forall v, In (k0, v) l -> False).
  { intros v I. apply N1. change k0 with (fst (k0, v)). apply in_map, I. }
  destruct I1 as [E1|I1], I2 as [E2|I2].
  - congruence.
  - injection E1 as -> _. destruct (G _ I2).
  - injection E2 as -> _. destruct (G _ I1).
  - exact (IH N2 I1 I2).
Qed.

Fixpoint nodupb {A} (eqb : A -> A -> bool) (l : list A) : bool :=
  match l with
  | [] => true
  | x :: t => negb (existsb (eqb x) t) && nodupb eqb t
  end.

Lemma nodupb_ok {A} (eqb : A -> A -> bool) : (forall a, eqb a a = true) ->
  forall l, nodupb eqb l = true -> NoDup l.
Proof.
  intros R. induction l as [|x t IH]; cbn [nodupb]; intro H; constructor; apply andb_prop in H as [H1 H2].
  - intro I. assert (E : existsb (eqb x) t = true) by (apply existsb_exists; exists x; auto).
    rewrite E in H1. discriminate.
  - exact (IH H2).
Qed.

Lemma mem_str_in x l : mem_str x l = true <-> In x l.
Proof.
  unfold mem_str. rewrite existsb_exists. split.
  - intros (y & Hy & E). apply str_eqb_eq in E. subst. exact Hy.
  - intro H. exists x. split; [exact H | apply str_eqb_refl].
Qed.

Lemma existsb_str_in x l : In x l -> existsb (str_eqb x) l = true.
Proof. apply mem_str_in. Qed.

Lemma existsb_str_notin x l : ~ In x l -> existsb (str_eqb x) l = false.
Proof.
  intro H. destruct (existsb (str_eqb x) l) eqn:E; [|reflexivity]. apply mem_str_in in E. contradiction.
Qed.

Lemma last_opt_snoc {A} (l : list A) x : last_opt (l ++ [x]) = Some x.
Proof. unfold last_opt. rewrite rev_app_distr. reflexivity. Qed.

Lemma set_last_snoc {A} (l : list A) x y : set_last (l ++ [x]) y = l ++ [y].
Proof.
  unfold set_last. destruct (l ++ [x]) eqn:E.
  - destruct l; discriminate.
  - rewrite <- E. rewrite removelast_last. reflexivity.
Qed.

Lemma py_nth_0 {A} (x : A) l : py_nth (x :: l) 0 = Ok x.
Proof.
  unfold py_nth, zlen. cbv zeta. cbn [length].
  change (0 <? 0) with false. cbv iota.
  destruct (Z.leb_spec (Z.of_nat (S (length l))) 0); [lia|]. reflexivity.
Qed.

Lemma py_nth_m1 {A} (l : list A) x : py_nth (l ++ [x]) (-1) = Ok x.
Proof.
  unfold py_nth, zlen. cbv zeta. rewrite app_length. cbn [length].
  change (-1 <? 0) with true. cbv iota.
  replace (-1 + Z.of_nat (length l + 1)) with (Z.of_nat (length l)) by lia.
  destruct (Z.ltb_spec (Z.of_nat (length l)) 0); [lia|].
  destruct (Z.leb_spec (Z.of_nat (length l + 1)) (Z.of_nat (length l))); [lia|].
  cbn [orb]. rewrite Nat2Z.id. rewrite nth_error_app2 by lia.
  rewrite Nat.sub_diag. reflexivity.
Qed.

Lemma set_nth_length {A} (l : list A) n x : length (set_nth l n x) = length l.
Proof. revert n; induction l as [|y l IH]; intros [|n]; cbn [set_nth length]; auto. Qed.

Lemma set_nth_same {A} (l : list A) n x : (n < length l)%nat -> nth_error (set_nth l n x) n = Some x.
Proof.
  revert n; induction l as [|y l IH]; intros [|n] H; cbn [set_nth nth_error length] in *; try lia.
  - reflexivity.
  - apply IH. lia.
Qed.

Lemma set_nth_other {A} (l : list A) n m x : n <> m -> nth_error (set_nth l n x) m = nth_error l m.
Proof.
  revert n m; induction l as [|y l IH]; intros [|n] [|m] H; cbn [set_nth nth_error]; try reflexivity.
  - contradiction.
  - apply IH. congruence.
Qed.

Lemma set_nth_In {A} (l : list A) n x y : In y (set_nth l n x) -> y = x \/ In y l.
Proof.
  revert n; induction l as [|z l IH]; intros [|n]; cbn [set_nth In]; try tauto.
  - intros [H | H]; auto.
  - intros [H | H]; auto. destruct (IH _ H); auto.
Qed.

Lemma map_set_nth {A B} (f : A -> B) : forall l i x, map f (set_nth l i x) = set_nth (map f l) i (f x).
Proof.
  induction l as [|y l IH]; intros [|i] x; cbn [set_nth map]; try reflexivity. rewrite IH. reflexivity.
Qed.

Lemma Forall2_length {A B} (R : A -> B -> Prop) l l' : Forall2 R l l' -> length l = length l'.
Proof. induction 1; cbn [length]; congruence. Qed.

Lemma Forall2_Forall_r {A B} (R : A -> B -> Prop) (P : B -> Prop) l l' :
  (forall x y, R x y -> P y) -> Forall2 R l l' -> Forall P l'.
Proof. intros H; induction 1; constructor; eauto. Qed.

Lemma Forall2_map_r {A B} (P : A -> Prop) (R : A -> B -> Prop) (f : A -> B) l :
  (forall x, P x -> R x (f x)) -> Forall P l -> Forall2 R l (map f l).
Proof. intro H. induction 1; cbn [map]; constructor; auto. Qed.

Lemma Forall2_impl' {A B} (P Q : A -> B -> Prop) : (forall a b, P a b -> Q a b) ->
  forall l l', Forall2 P l l' -> Forall2 Q l l'.
Proof. intros H l l' F. induction F; constructor; auto. Qed.

Lemma Forall2_In_r {A B} (R : A -> B -> Prop) : forall a b, Forall2 R a b ->
  forall y, In y b -> exists x, In x a /\ R x y.
Proof.
  induction 1 as [|x y a b Hxy Hab IH]; intros z Hz; [destruct Hz|]. destruct Hz as [->|Hz].
  - exists x. split; [left; reflexivity | exact Hxy].
  - destruct (IH z Hz) as (x' & I & H'). exists x'. split; [right; exact I | exact H'].
Qed.

Lemma Forall2_nth_error_r {A B} (R : A -> B -> Prop) : forall a b, Forall2 R a b ->
  forall i y, nth_error b i = Some y -> exists x, nth_error a i = Some x /\ R x y.
Proof.
  induction 1 as [|x y a b Hxy Hab IH]; intros [|i] z Hz; cbn [nth_error] in *; try discriminate.
  - injection Hz as <-. exists x. split; [reflexivity | exact Hxy].
  - exact (IH i z Hz).
Qed.

Lemma mapM_Forall2 {A B} (f : A -> res B) l : forall l',
  mapM f l = Ok l' <-> Forall2 (fun x y => f x = Ok y) l l'.
Proof.
  induction l as [|x l IH]; intros l'; cbn [mapM].
  - split; [intros [= <-]; constructor | intro H; inversion H; reflexivity].
  - split.
    + destruct (f x) as [y|] eqn:E; cbn [bind]; [|discriminate].
      destruct (mapM f l) as [ys|]; cbn [bind]; [|discriminate].
      intros [= <-]. constructor; [exact E | apply IH; reflexivity].
    + intro H. inversion H as [|? y ? ys E Hl]; subst.
      rewrite E. cbn [bind]. apply IH in Hl. rewrite Hl. reflexivity.
Qed.

Lemma mapM_length {A B} (f : A -> res B) : forall l l', mapM f l = Ok l' -> length l' = length l.
Proof. intros l l' H. apply mapM_Forall2, Forall2_length in H. auto. Qed.

Lemma mapM_In {A B} (f : A -> res B) : forall l l', mapM f l = Ok l' ->
  forall y, In y l' -> exists x, In x l /\ f x = Ok y.
Proof. intros l l' H. apply mapM_Forall2 in H. exact (Forall2_In_r _ _ _ H). Qed.

Lemma mapM_ok_each {A B} (f : A -> res B) l l' :
  mapM f l = Ok l' -> forall x, In x l -> exists y, f x = Ok y.
Proof.
  intro H. apply mapM_Forall2 in H.
  induction H as [|x y l l' E _ IH]; intros z Hz; [destruct Hz|].
  destruct Hz as [<-|Hz]; eauto.
Qed.

Lemma mapM_total {A B} (f : A -> res B) : forall l,
  (forall x, In x l -> exists y, f x = Ok y) -> exists l', mapM f l = Ok l'.
Proof.
  induction l as [|x l IH]; intros Hs; cbn [mapM]; [eexists; reflexivity|].
  destruct (Hs x (or_introl eq_refl)) as (y & E). rewrite E. cbn [bind].
  destruct (IH (fun x' Ix => Hs x' (or_intror Ix))) as (l' & E'). rewrite E'. cbn [bind].
  eexists. reflexivity.
Qed.

Lemma mapM_map {A B C} (g : A -> B) (f : B -> res C) l : mapM f (map g l) = mapM (fun x => f (g x)) l.
Proof. induction l as [|x l IH]; cbn [map mapM]; [reflexivity|]. rewrite IH. reflexivity. Qed.

Lemma mapM_ext {A B} (f g : A -> res B) l : (forall x, In x l -> f x = g x) -> mapM f l = mapM g l.
Proof.
  induction l as [|x l IH]; intro H; cbn [mapM]; [reflexivity|].
  rewrite (H x (or_introl eq_refl)), IH by (intros y Hy; apply H; right; exact Hy). reflexivity.
Qed.

Lemma foldM_app {A S} (f : S -> A -> res S) l1 l2 st :
  foldM f (l1 ++ l2) st = (do s' <- foldM f l1 st; foldM f l2 s').
Proof.
  revert st; induction l1 as [|x l1 IH]; intro st; cbn [app foldM bind]; [reflexivity|].
  destruct (f st x); cbn [bind]; [apply IH | reflexivity].
Qed.

(* running a fold in two legs *)
Lemma foldM_cons_ok {A S} (f : S -> A -> res S) x l s s1 r :
  f s x = Ok s1 -> foldM f l s1 = r -> foldM f (x :: l) s = r.
Proof. intros E H. cbn [foldM]. rewrite E. exact H. Qed.

Lemma foldM_app_ok {A S} (f : S -> A -> res S) a b s s1 r :
  foldM f a s = Ok s1 -> foldM f b s1 = r -> foldM f (a ++ b) s = r.
Proof. intros E H. rewrite foldM_app, E. exact H. Qed.

Lemma foldM_concat_mapM {A B} (g : A -> res (list B)) (f : list B -> A -> res (list B)) :
  (forall acc a, f acc a = do x <- g a; Ok (acc ++ x)) ->
  forall l acc, foldM f l acc = do xs <- mapM g l; Ok (acc ++ concat xs).
Proof.
  intros H l; induction l as [|a l IH]; intros acc; cbn [foldM mapM bind concat].
  - rewrite app_nil_r. reflexivity.
  - rewrite H. destruct (g a) as [x|e]; cbn [bind]; [|reflexivity].
    rewrite IH. destruct (mapM g l); cbn [bind concat]; [|reflexivity].
    rewrite app_assoc. reflexivity.
Qed.

Lemma foldM_map {A B} (h : A -> B) (f : list B -> A -> res (list B)) : forall l,
  (forall acc a, In a l -> f acc a = Ok (acc ++ [h a])) ->
  forall acc, foldM f l acc = Ok (acc ++ map h l).
Proof.
  induction l as [|a l IH]; intros H acc; cbn [foldM map bind].
  - rewrite app_nil_r. reflexivity.
  - rewrite H by (left; reflexivity). cbn [bind].
    rewrite IH by (intros; apply H; right; assumption).
    rewrite <- app_assoc. reflexivity.
Qed.

Lemma foldM_inv_In {A S} (f : S -> A -> res S) (P : S -> Prop) : forall l,
  (forall s a s', In a l -> P s -> f s a = Ok s' -> P s') ->
  forall s s', P s -> foldM f l s = Ok s' -> P s'.
Proof.
  induction l as [|a l IH]; intros Hstep s0 s' Hs H; cbn [foldM] in H.
  - injection H as <-. exact Hs.
  - destruct (f s0 a) as [s1|] eqn:E; cbn [bind] in H; [|discriminate].
    apply (IH (fun s a' s'' Ia => Hstep s a' s'' (or_intror Ia)) s1 s'); [|exact H].
    exact (Hstep s0 a s1 (or_introl eq_refl) Hs E).
Qed.

Lemma fold_left_inv_In {A S} (f : S -> A -> S) (P : S -> Prop) : forall l,
  (forall s a, In a l -> P s -> P (f s a)) -> forall s, P s -> P (fold_left f l s).
Proof.
  induction l as [|a l IH]; intros Hstep s Hs; cbn [fold_left]; [exact Hs|].
  apply IH; [intros s0 a0 I; apply Hstep; right; exact I|].
  apply Hstep; [left; reflexivity | exact Hs].
Qed.

Lemma replace_fuel_count0 old new : forall fuel x, replace_fuel fuel old new x (Some 0%nat) = x.
Proof.
  induction fuel as [|fuel IH]; intros x; [reflexivity|].
  destruct x as [|c x]; [reflexivity|]. cbn [replace_fuel negb andb]. f_equal. apply IH.
Qed.

Lemma replace_fuel_no_occurrence old new : forall x fuel count,
  (forall j, (j < length x)%nat -> starts_with old (skipn j x) = false) ->
  replace_fuel fuel old new x count = x.
Proof.
  induction x as [|c x IH]; intros fuel count H; destruct fuel as [|fuel]; cbn [replace_fuel]; try reflexivity.
  assert (H0 := H 0%nat). cbn [skipn length] in H0. rewrite H0 by lia.
  rewrite andb_false_r. f_equal.
  apply IH. intros j Hj. apply (H (S j)). cbn [length]; lia.
Qed.

Lemma replace_fuel_prefix old new sfx fuel count : old <> [] -> count <> Some 0%nat ->
  replace_fuel (S fuel) old new (old ++ sfx) count
  = new ++ replace_fuel fuel old new sfx (match count with Some (S n) => Some n | o => o end).
Proof.
  intros Hne Hc. destruct old as [|c old']; [congruence|].
  change ((c :: old') ++ sfx) with (c :: old' ++ sfx) at 1. cbn [replace_fuel].
  change (c :: old' ++ sfx) with ((c :: old') ++ sfx).
  rewrite starts_with_app, skipn_length_app.
  destruct count as [[|n]|]; [congruence | reflexivity | reflexivity].
Qed.

Theorem replace_no_occurrence : forall old new x count,
  (forall j, (j < length x)%nat -> starts_with old (skipn j x) = false) ->
  replace old new x count = x.
Proof.
  intros old new x count H. unfold replace. destruct old; [reflexivity|].
  apply replace_fuel_no_occurrence. exact H.
Qed.

Theorem replace_once_prefix : forall old new sfx, old <> [] ->
  replace old new (old ++ sfx) (Some 1%nat) = new ++ sfx.
Proof.
  intros old new sfx Hne. unfold replace. destruct old as [|c old'] eqn:E; [congruence|]. rewrite <- E in *.
  rewrite replace_fuel_prefix, replace_fuel_count0 by (assumption || discriminate). reflexivity.
Qed.

Section AssocLemmas.
  Context {K V : Type} (keqb : K -> K -> bool).
  Hypothesis keqb_eq : forall a b, keqb a b = true <-> a = b.

  Lemma keqb_refl a : keqb a a = true.
  Proof. apply keqb_eq. reflexivity. Qed.

  Lemma aget_None (d : list (K * V)) k : aget keqb d k = None <-> ~ In k (map fst d).
  Proof.
    induction d as [|[k' v] d IH]; cbn [aget map fst In].
    - split; [intros _ [] | reflexivity].
    - destruct (keqb k k') eqn:E.
      + apply keqb_eq in E. subst. split; [discriminate | intros H; exfalso; apply H; left; reflexivity].
      + rewrite IH. split.
        * intros H [H1 | H1]; [subst; rewrite keqb_refl in E; discriminate | contradiction].
        * intros H H1. apply H. right. exact H1.
  Qed.

  Lemma aget_notin (d : list (K * V)) k : ~ In k (map fst d) -> aget keqb d k = None.
  Proof. apply aget_None. Qed.

  Lemma aget_in (d : list (K * V)) k : In k (map fst d) -> exists v, aget keqb d k = Some v.
  Proof.
    intro H. destruct (aget keqb d k) as [v|] eqn:E; [eauto|]. apply aget_None in E. contradiction.
  Qed.

  Lemma aset_new (d : list (K * V)) k v : ~ In k (map fst d) -> aset keqb d k v = d ++ [(k, v)].
  Proof.
    induction d as [|[k0 v0] d IH]; cbn [aset map fst In app]; [reflexivity|]. intro H.
    destruct (keqb k k0) eqn:E; [apply keqb_eq in E; subst; tauto|]. rewrite IH by tauto. reflexivity.
  Qed.

  Lemma aget_split (d : list (K * V)) k v :
    aget keqb d k = Some v ->
    exists l1 l2, d = l1 ++ (k, v) :: l2 /\ ~ In k (map fst l1)
                  /\ forall v', aset keqb d k v' = l1 ++ (k, v') :: l2.
  Proof.
    induction d as [|[k' v0] d IH]; cbn [aget]; [discriminate|].
    destruct (keqb k k') eqn:E.
    - intros H. injection H as ->. apply keqb_eq in E. subst k'.
      exists [], d. split; [reflexivity|]. split; [intros []|].
      intros v'. cbn [aset]. rewrite keqb_refl. reflexivity.
    - intros H. destruct (IH H) as (l1 & l2 & -> & Hn & Hs).
      exists ((k', v0) :: l1), l2. split; [reflexivity|]. split.
      + cbn [map fst In]. intros [H1 | H1]; [subst; rewrite keqb_refl in E; discriminate | contradiction].
      + intros v'. cbn [aset]. rewrite E, Hs. reflexivity.
  Qed.

  Lemma aget_In (d : list (K * V)) k v : aget keqb d k = Some v -> In (k, v) d.
  Proof.
    intros H. destruct (aget_split _ _ _ H) as (l1 & l2 & -> & _).
    apply in_or_app. right. left. reflexivity.
  Qed.

  Lemma In_aget (d : list (K * V)) k v : NoDup (map fst d) -> In (k, v) d -> aget keqb d k = Some v.
  Proof.
    induction d as [|[k' v0] d IH]; cbn [map fst aget]; intros Hnd Hin; [destruct Hin|].
    inversion Hnd as [|? ? Hn Hnd']; subst. destruct Hin as [E | Hin].
    - injection E as -> ->. rewrite keqb_refl. reflexivity.
    - destruct (keqb k k') eqn:E.
      + apply keqb_eq in E. subst. exfalso. apply Hn. apply in_map_iff. exists (k', v). auto.
      + apply IH; assumption.
  Qed.

  Lemma aget_app (d1 d2 : list (K * V)) k :
    aget keqb (d1 ++ d2) k = match aget keqb d1 k with Some v => Some v | None => aget keqb d2 k end.
  Proof.
    induction d1 as [|[k0 v0] d1 IH]; cbn [app aget]; [reflexivity|].
    destruct (keqb k k0); [reflexivity | exact IH].
  Qed.

  Lemma aget_app_None (d : list (K * V)) k e : aget keqb d k = None ->
    aget keqb (d ++ [e]) k = (if keqb k (fst e) then Some (snd e) else None).
  Proof. intro H. rewrite aget_app, H. destruct e. reflexivity. Qed.

  Lemma aget_app_Some (d : list (K * V)) k e v : aget keqb d k = Some v ->
    aget keqb (d ++ [e]) k = Some v.
  Proof. intro H. rewrite aget_app, H. reflexivity. Qed.

  Lemma aget_aset_same (d : list (K * V)) k v : aget keqb (aset keqb d k v) k = Some v.
  Proof.
    induction d as [|[k0 v0] d IH]; cbn [aset aget].
    - rewrite keqb_refl. reflexivity.
    - destruct (keqb k k0) eqn:E; cbn [aget]; rewrite E; auto.
  Qed.

  Lemma aget_aset_other (d : list (K * V)) k k2 v : k2 <> k ->
    aget keqb (aset keqb d k v) k2 = aget keqb d k2.
  Proof.
    intros Hne. induction d as [|[k' v0] d IH]; cbn [aset aget].
    - destruct (keqb k2 k) eqn:E; [apply keqb_eq in E; contradiction | reflexivity].
    - destruct (keqb k k') eqn:E; cbn [aget].
      + apply keqb_eq in E. subst k'.
        destruct (keqb k2 k) eqn:E2; [apply keqb_eq in E2; contradiction | reflexivity].
      + rewrite IH. reflexivity.
  Qed.
End AssocLemmas.

Section SS.
  Context {A : Type} (R : A -> A -> Prop).

  Lemma SS_nth l : StronglySorted R l ->
    forall i j x y, (i < j)%nat -> nth_error l i = Some x -> nth_error l j = Some y -> R x y.
  Proof.
    induction 1 as [|a l Hs IH Ha]; intros i j x y Hij Hi Hj.
    - destruct i; discriminate.
    - destruct j as [|j]; [lia|]. cbn [nth_error] in Hj. destruct i as [|i]; cbn [nth_error] in Hi.
      + injection Hi as <-. rewrite Forall_forall in Ha. apply Ha. eapply nth_error_In. exact Hj.
      + eapply IH; [|exact Hi | exact Hj]. lia.
  Qed.

  Lemma SS_app_intro a b : StronglySorted R a -> StronglySorted R b ->
    (forall x y, In x a -> In y b -> R x y) -> StronglySorted R (a ++ b).
  Proof.
    induction a as [|z a IH]; intros Ha Hb H; cbn [app]; [exact Hb|].
    inversion Ha as [|? ? Ha1 Ha2]; subst. constructor.
    - apply IH; [exact Ha1 | exact Hb|]. intros x y Ix Iy. apply H; [right; exact Ix | exact Iy].
    - apply Forall_app. split; [exact Ha2|]. apply Forall_forall. intros y Iy.
      apply H; [left; reflexivity | exact Iy].
  Qed.

  Lemma SS_app_inv a b : StronglySorted R (a ++ b) ->
    StronglySorted R a /\ StronglySorted R b /\ (forall x y, In x a -> In y b -> R x y).
  Proof.
    induction a as [|z a IH]; cbn [app]; intro H.
    - split; [constructor|]. split; [exact H|]. intros x y [].
    - inversion H as [|? ? H1 H2]; subst. destruct (IH H1) as (Sa & Sb & C).
      apply Forall_app in H2 as [F1 F2]. split; [constructor; assumption|]. split; [exact Sb|].
      intros x y [<-|Ix] Iy; [|exact (C x y Ix Iy)]. rewrite Forall_forall in F2. exact (F2 y Iy).
  Qed.

  Lemma SS_remove_mid a x b : StronglySorted R (a ++ x :: b) -> StronglySorted R (a ++ b).
  Proof.
    intro H. apply SS_app_inv in H as (Sa & Sb & C). inversion Sb as [|? ? Sb1 _]; subst.
    apply SS_app_intro; [exact Sa | exact Sb1|]. intros u v Iu Iv. apply C; [exact Iu | right; exact Iv].
  Qed.
End SS.

Lemma SS_lt_NoDup : forall l, StronglySorted lt l -> NoDup l.
Proof.
  induction 1 as [|x l S IH F]; constructor; [|exact IH].
  intro I. rewrite Forall_forall in F. specialize (F x I). lia.
Qed.

Lemma insert_front_in {A} (le : A -> A -> bool) x y l : In y (insert_front le x l) -> y = x \/ In y l.
Proof.
  induction l as [|z l IH]; cbn [insert_front In]; [intros [->|[]]; auto|].
  destruct (le x z); cbn [In]; intro H.
  - destruct H as [->|[->|H]]; auto.
  - destruct H as [->|H]; [auto|]. destruct (IH H); auto.
Qed.

Lemma stable_sort_in {A} (le : A -> A -> bool) y l : In y (stable_sort le l) -> In y l.
Proof.
  induction l as [|x l IH]; cbn [stable_sort In]; [tauto|]. intro H.
  apply insert_front_in in H as [->|H]; auto.
Qed.

Lemma insert_front_ext_in {A} (le le' : A -> A -> bool) x l :
  (forall y, In y l -> le x y = le' x y) -> insert_front le x l = insert_front le' x l.
Proof.
  induction l as [|z l IH]; intro H; cbn [insert_front]; [reflexivity|].
  rewrite <- (H z) by (left; reflexivity). destruct (le x z); [reflexivity|].
  f_equal. apply IH. intros y Hy. apply H. right. exact Hy.
Qed.

Lemma stable_sort_ext_in {A} (le le' : A -> A -> bool) l :
  (forall x y, In x l -> In y l -> le x y = le' x y) -> stable_sort le l = stable_sort le' l.
Proof.
  induction l as [|x l IH]; intro H; cbn [stable_sort]; [reflexivity|].
  rewrite <- IH by (intros; apply H; right; assumption).
  apply insert_front_ext_in. intros y Hy. apply H; [left; reflexivity | right].
  eapply stable_sort_in. exact Hy.
Qed.

Lemma FOP_impl {A} (R R' : A -> A -> Prop) l :
  (forall a b, R a b -> R' a b) -> ForallOrdPairs R l -> ForallOrdPairs R' l.
Proof.
  intros Himp H. induction H as [|x l Hx Hl IH].
  - constructor.
  - constructor; [| exact IH].
    eapply Forall_impl; [| exact Hx]. intros a Ha. apply Himp. exact Ha.
Qed.

Lemma FOP_perm {A} (R : A -> A -> Prop) :
  (forall a b, R a b -> R b a) ->
  forall l l', Permutation l l' -> ForallOrdPairs R l -> ForallOrdPairs R l'.
Proof.
  intros Hsym l l' HP. induction HP as [| x l l' HP IH | x y l | l l' l'' HP1 IH1 HP2 IH2]; intro H.
  - exact H.
  - inversion H as [| a m Hx Hl]; subst. constructor.
    + rewrite Forall_forall in *. intros z Hz. apply Hx.
      eapply Permutation_in; [apply Permutation_sym; exact HP | exact Hz].
    + apply IH. exact Hl.
  - inversion H as [| a m Hy Hl]; subst.
    inversion Hl as [| a' m' Hx Hl']; subst.
    pose proof (Forall_inv Hy) as Hyx. pose proof (Forall_inv_tail Hy) as Hyl.
    constructor.
    + constructor; [apply Hsym; exact Hyx | exact Hx].
    + constructor; [exact Hyl | exact Hl'].
  - apply IH2. apply IH1. exact H.
Qed.

Lemma FOP_tail {A} (R : A -> A -> Prop) x l :
  ForallOrdPairs R (x :: l) -> ForallOrdPairs R l.
Proof. intro H. inversion H; subst. assumption. Qed.

Lemma Forall2_Forall_lr {A B} (Q : A -> Prop) (R : A -> B -> Prop) (P : B -> Prop) l l' :
  (forall x y, Q x -> R x y -> P y) -> Forall Q l -> Forall2 R l l' -> Forall P l'.
Proof. intros H HQ F. induction F; inversion HQ; subst; constructor; eauto. Qed.

Lemma foldM_total {A S} (f : S -> A -> res S) : forall l,
  (forall s a, In a l -> exists s', f s a = Ok s') ->
  forall s, exists s', foldM f l s = Ok s'.
Proof.
  induction l as [|a l IH]; intros Hs s0; cbn [foldM]; [eexists; reflexivity|].
  destruct (Hs s0 a (or_introl eq_refl)) as (s1 & E). rewrite E. cbn [bind].
  apply IH. intros s a' Ia. apply Hs. right. exact Ia.
Qed.
