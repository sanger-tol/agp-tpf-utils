(* C02, last clause, end to end on the model: a Pretext cut lying at least
   three error lengths inside a contig splits the contig exactly at the
   position the Pretext coordinate designates.  One input scaffold
   [pr ++ RF f :: po] is shown as two Pretext scaffolds [1, k] and [k+1, E], k
   inside f, each with its own orientation; the two baits are followed through
   remap_to_input.  The margin is what keeps the overhang resolver from
   handing f whole to one side, and it is sharp. *)
From Tola Require Import Py.Base Py.Sort Model.Fragment Model.Scaffold Model.Lookup
  Model.OverlapResult Model.Namer Model.Remap
  Proofs.BaseLemmas Proofs.Rows Proofs.Lookup Proofs.OverlapResult Proofs.NullMapAndCuts.
From Tola Require Proofs.NullMap.
From Coq Require Import Lia ZifyBool.

(* rows with the object ids erased (number_input assigns ids; the outputs carry them) *)
Definition erase_id (r : row) : row :=
  match r with
  | RF f => RF (mkFrag (-1) (f_name f) (f_start f) (f_end f) (f_strand f) (f_tags f))
  | RG g => RG g
  end.

(* an input scaffold the theorem speaks about (as in the null-map theorem) *)
Definition sc_ok (sc : str * list row) : Prop :=
  snd sc <> [] /\ pos_rows (snd sc)
  /\ (exists f t, snd sc = RF f :: t) /\ (exists f t, snd sc = t ++ [RF f])
  /\ Forall (fun f => f_tags f = [] /\ (f_strand f = 1 \/ f_strand f = -1) /\ f_start f <= f_end f)
            (frags_of (snd sc))
  /\ haplotype_prefix_of_name (fst sc) = None
  /\ (forall f t, snd sc = RF f :: t -> haplotype_prefix_of_name (f_name f) = None).

(* Scaffold orientation chosen in Pretext: -1 = reversed (order and strands) *)
Definition orient (sg : Z) (x : list row) : list row := if sg =? -1 then rows_reverse x else x.

(* the two pieces of a contig cut [m] bases from its scaffold-left end; the
   scaffold-left end of a reverse-strand contig is its high end *)
Definition cut_left (f : frag) (m : Z) : frag :=
  if f_strand f =? 1
  then mkFrag (-1) (f_name f) (f_start f) (f_start f + m - 1) (f_strand f) [s "Cut"]
  else mkFrag (-1) (f_name f) (f_end f - m + 1) (f_end f) (f_strand f) [s "Cut"].
Definition cut_right (f : frag) (m : Z) : frag :=
  if f_strand f =? 1
  then mkFrag (-1) (f_name f) (f_start f + m) (f_end f) (f_strand f) [s "Cut"]
  else mkFrag (-1) (f_name f) (f_start f) (f_end f - m) (f_strand f) [s "Cut"].


Lemma aset_present {V} : forall (d : list (fkey * V)) k v,
  In k (map fst d) ->
  map fst (aset key_eqb d k v) = map fst d /\ aget key_eqb (aset key_eqb d k v) k = Some v.
Proof.
  induction d as [|[k0 v0] d IH]; intros k v H; [destruct H|].
  cbn [aset]. destruct (key_eqb k k0) eqn:E.
  - cbn [map fst aget]. rewrite E. split; reflexivity.
  - cbn [map fst aget]. rewrite E. destruct H as [H|H].
    + cbn [fst] in H. subst k0. rewrite key_eqb_refl in E. discriminate.
    + destruct (IH k v H) as [I1 I2]. rewrite I1, I2. split; reflexivity.
Qed.

Lemma In_frags_of g l : In (RF g) l -> In g (frags_of l).
Proof.
  induction l as [|[h|h] l IH]; intro H; [destruct H| |].
  - rewrite frags_of_RF. destruct H as [H|H]; [injection H as ->; left; reflexivity | right; auto].
  - rewrite frags_of_RG. destruct H as [H|H]; [discriminate | auto].
Qed.

Lemma number_rows_snd : forall rows n, snd (number_rows rows n) = n + zlen rows.
Proof.
  induction rows as [|r rows IH]; intro n; cbn [number_rows].
  - unfold zlen. cbn [snd length]. lia.
  - specialize (IH (n + 1)). destruct r as [f|g]; destruct (number_rows rows (n + 1)) as [t' n'];
      cbn [snd] in *; unfold zlen in *; cbn [length]; lia.
Qed.

Lemma number_rows_app : forall a b n,
  fst (number_rows (a ++ b) n) = fst (number_rows a n) ++ fst (number_rows b (n + zlen a)).
Proof.
  induction a as [|r a IH]; intros b n.
  - cbn [app number_rows fst]. unfold zlen. cbn [length]. f_equal. f_equal. lia.
  - cbn [app number_rows]. specialize (IH b (n + 1)).
    replace (n + zlen (r :: a)) with (n + 1 + zlen a) by (unfold zlen; cbn [length]; lia).
    destruct r as [f|g]; destruct (number_rows (a ++ b) (n + 1)) as [t' n'];
      destruct (number_rows a (n + 1)) as [t'' n'']; cbn [fst app] in *; rewrite IH; reflexivity.
Qed.

Lemma number_rows_ids : forall rows n g,
  In (RF g) (fst (number_rows rows n)) -> n <= f_id g < n + zlen rows.
Proof.
  induction rows as [|r rows IH]; intros n g H; [destruct H|].
  cbn [number_rows] in H. specialize (IH (n + 1) g).
  assert (Z : zlen (r :: rows) = 1 + zlen rows) by (unfold zlen; cbn [length]; lia).
  assert (Z0 : 0 <= zlen rows) by (unfold zlen; lia).
  destruct r as [f|h]; destruct (number_rows rows (n + 1)) as [t' n']; cbn [fst In] in *.
  - destruct H as [H|H]; [injection H as <-; cbn [f_id]; lia | specialize (IH H); lia].
  - destruct H as [H|H]; [discriminate | specialize (IH H); lia].
Qed.

Lemma erase_same_keys a b :
  map erase_id a = map erase_id b -> map key_of (frags_of a) = map key_of (frags_of b).
Proof.
  intro E. apply (f_equal frags_of) in E. rewrite !NullMap.frags_of_erase in E.
  apply (f_equal (map key_of)) in E. rewrite !map_map in E. exact E.
Qed.

Lemma erase_rows_reverse x : map erase_id (rows_reverse x) = rows_reverse (map erase_id x).
Proof.
  unfold rows_reverse. rewrite <- map_rev, !map_map. apply map_ext.
  intros [f|g]; reflexivity.
Qed.

Lemma erase_orient sg x : map erase_id (orient sg x) = orient sg (map erase_id x).
Proof. unfold orient. destruct (sg =? -1); [apply erase_rows_reverse | reflexivity]. Qed.

Lemma app_head_RF pr f po f0 t : pr ++ RF f :: po = RF f0 :: t -> exists t1, pr ++ [RF f] = RF f0 :: t1.
Proof. destruct pr as [|x pr']; cbn [app]; intro H; injection H as -> _; eauto. Qed.

Lemma app_last_RF (pr m tl : list row) fl : pr ++ m = tl ++ [RF fl] -> m <> [] -> exists t2, m = t2 ++ [RF fl].
Proof.
  intros H NE. destruct (list_snoc_cases m) as [->|(t2 & x & ->)]; [congruence|].
  rewrite app_assoc in H. apply app_inj_tail in H as [_ ->]. eauto.
Qed.

Lemma map_fst_found (id : rid) (fs : list frag) :
  map fst (map (fun g => (key_of g, (g, [id]))) fs) = map key_of fs.
Proof. rewrite map_map. reflexivity. Qed.

Definition nm_after (nm : namer) (name : str) : namer :=
  mkNamer (nm_prefix nm) (Some name) 3 None (nm_hap_n nm) (nm_hap_scaffolds nm) None
          (nm_target nm) 0 [] (nm_hap_lc nm).

Lemma one_pretext_single rows name pname bs be sg err b fo found' multi' :
  haplotype_prefix_of_name name = None ->
  nm_primary (b_namer b) = None -> nm_target (b_namer b) = false ->
  let bait := mkFrag (-1) name bs be sg [] in
  let r := mkOvr bait (fo_start fo) (fo_end fo) (fo_rows fo) name None None 3 (Some pname) [] in
  find_overlaps rows bs be = Ok (Some fo) ->
  trim_large_overhangs r err = Ok r ->
  fo_rows fo <> [] ->
  fold_left (store_found_one (zlen (b_store b))) (frags_of (fo_rows fo)) (b_found b, b_multi b)
    = (found', multi') ->
  one_pretext_scaffold [(name, rows)] err b (pname, [RF bait])
  = Ok (mkB (b_store b ++ [r]) (b_added b ++ [zlen (b_store b)]) found' multi'
            (nm_after (b_namer b) name) (b_cuts b)).
Proof.
  intros HP NP NT bait r FO TR NE FS.
  apply (NullMap.one_pretext_one_bait [(name, rows)] err b pname bait rows (nm_after (b_namer b) name)
           (mkLabel name None None 3) fo found' multi'); try assumption.
  - cbn [aget f_name bait]. rewrite str_eqb_refl. reflexivity.
  - exact (NullMap.msn_plain (b_namer b) pname [RF bait] name eq_refl eq_refl HP NP).
  - reflexivity.
  - exact (NullMap.label_plain (nm_after (b_namer b) name) _ name eq_refl NT).
Qed.

(* a premise whose result has a single row, or whose application would leave an
   overhang of three error lengths or more, is no improvement *)
Lemma improves_false st e p r o :
  get_ovr st (pr_rid p) = Ok r -> p_overhang_if_applied st p = Ok o ->
  zlen (o_rows r) = 1 \/ o <= -3 * e ->
  (exists dd, p_delta st p = Ok dd) /\ p_improves st e p = Ok false.
Proof.
  intros G O C. split.
  - unfold p_delta. rewrite G, O. cbn [bind]. eexists. reflexivity.
  - unfold p_improves. rewrite G. cbn [bind].
    destruct (zlen (o_rows r) =? 1) eqn:Z1; [reflexivity|].
    unfold p_delta. rewrite G, O. cbn [bind].
    destruct (_ <? 0); [|reflexivity]. replace (o >? -3 * e) with false by lia. reflexivity.
Qed.

Lemma qc_two orig A B :
  f_name A = f_name B -> f_start A <= f_end A -> f_end A + 1 = f_start B -> f_start B <= f_end B ->
  f_len orig = f_len A + f_len B ->
  qc_sub_fragments orig [A; B] = Ok tt.
Proof.
  intros HN HA HAB HB HL. unfold qc_sub_fragments.
  cbn [stable_sort insert_front].
  replace ((f_start A <? f_start B) || (f_start A =? f_start B) && (f_end A <=? f_end B)) with true by lia.
  cbn [tl combine filter].
  assert (AB : abuts A B = true).
  { unfold abuts. rewrite HN, str_eqb_refl. cbn [negb]. lia. }
  assert (OV : overlaps A B = false).
  { unfold overlaps. rewrite HN, str_eqb_refl. cbn [negb]. lia. }
  assert (GB : gap_between A B = Some 0).
  { unfold gap_between. rewrite HN, str_eqb_refl. cbn [negb]. cbv zeta.
    replace (Z.min (f_end A) (f_end B) <? Z.max (f_start A) (f_start B)) with true by lia.
    f_equal. lia. }
  rewrite AB, OV, GB. change (negb (0 =? 0)) with false. cbv iota.
  cbn [map]. unfold sumZ. cbn [fold_left].
  replace (f_len orig =? 0 + f_len A + f_len B) with true by lia.
  reflexivity.
Qed.

(* remap_to_input after the duplicate-name check and the numbering *)
Definition run_body (c : cfg) (default_gap : gap) (err : Z) (input pretext : list (str * list row))
           (b0 : bstate) : res run_state :=
  do b1 <- foldM (one_pretext_scaffold input err) pretext b0;
  do b2 <- discard_loop (S (S (total_rows pretext + length (b_store b1)
                               + length (concat (map o_rows (b_store b1)))))) err b1;
  do b3 <- cut_remaining_overhangs c b2;
  do st <- rename_results (b_store b3) (nm_hap_scaffolds (b_namer b3));
  let b4 := with_store b3 st in
  do nl <- foldM (add_missing_one c default_gap (b_found b4)) input (b_namer b4, []);
  Ok (mkRun (with_namer b4 (fst nl)) (snd nl)).

Lemma remap_to_input_body c g prefix bpt input0 pretext :
  remap_to_input c g prefix bpt input0 pretext
  = if has_dup_names (map fst input0) then Err ValueError
    else run_body c g (error_length bpt) (number_input input0 0) pretext
                  (mkB [] [] [] [] (new_namer prefix) 0).
Proof. reflexivity. Qed.

Section Core.
  Variables (n d : Z) (prefix name p1 p2 : str) (pr po : list row) (f : frag) (k E s1 s2 : Z).
  Let rows := pr ++ RF f :: po.
  Let err := error_length (n, d).
  Let Sp := rows_len pr.
  Let L := rows_len rows.
  Hypothesis Hn : 0 <= n.
  Hypothesis Hd : 0 < d.
  Hypothesis OK : sc_ok (name, rows).
  Hypothesis ND : NoDup (map key_of (frags_of rows)).
  (* object identities: f is not the same object as any other row *)
  Hypothesis IDpr : forall g, In (RF g) pr -> f_id g <> f_id f.
  Hypothesis IDpo : forall g, In (RF g) po -> f_id g <> f_id f.
  (* both pieces of f are at least three error lengths long *)
  Hypothesis M1 : Sp + 3 * err <= k.
  Hypothesis M2 : k + 3 * err <= Sp + f_len f.
  Hypothesis HE1 : rows_len (removelast rows) < E.
  Hypothesis HE2 : d * (L - E) < n.

  Let bait1 := mkFrag (-1) name 1 k s1 [].
  Let bait2 := mkFrag (-1) name (k + 1) E s2 [].
  Let r0 := mkOvr bait1 1 (Sp + f_len f) (pr ++ [RF f]) name None None 3 (Some p1) [].
  Let r1 := mkOvr bait2 (Sp + 1) L (RF f :: po) name None None 3 (Some p2) [].
  Let nm1 := mkNamer prefix (Some name) 3 None 0 [] None false 0 [] [].

  Lemma err_pos : 1 <= err.
  Proof. apply error_length_pos; assumption. Qed.

  Lemma Hp : pos_rows rows.
  Proof. apply OK. Qed.

  Lemma Hppr : pos_rows pr.
  Proof. pose proof Hp as H. unfold rows in H. apply pos_rows_app in H. tauto. Qed.

  Lemma Hppo : pos_rows po.
  Proof.
    pose proof Hp as H. unfold rows in H. apply pos_rows_app in H as [_ H].
    inversion H; assumption.
  Qed.

  Lemma Sp_nonneg : 0 <= Sp.
  Proof. apply rows_len_nonneg, Hppr. Qed.

  Lemma po_nonneg : 0 <= rows_len po.
  Proof. apply rows_len_nonneg, Hppo. Qed.

  Lemma L_eq : L = Sp + f_len f + rows_len po.
  Proof. unfold L, rows, Sp. rewrite rows_len_app, rows_len_cons. cbn [row_len]. lia. Qed.

  Lemma LE : L - E < err.
  Proof.
    pose proof (within_texel n d (L - E) Hn Hd HE2). unfold err. lia.
  Qed.

  Lemma strand_f : f_strand f = 1 \/ f_strand f = -1.
  Proof.
    destruct OK as (_ & _ & _ & _ & H & _). cbn [snd] in H. rewrite Forall_forall in H.
    apply (H f). unfold rows. rewrite frags_of_app, frags_of_RF. apply in_or_app. right. left. reflexivity.
  Qed.

  Lemma hap_name : haplotype_prefix_of_name name = None.
  Proof. apply OK. Qed.

  (* the arithmetic every stage needs: 1 <= err, 0 <= Sp, 0 <= rows_len po,
     L = Sp + f_len f + rows_len po, L - E < err; with M1 and M2 they feed lia *)
  Ltac facts :=
    pose proof err_pos; pose proof Sp_nonneg; pose proof po_nonneg; pose proof L_eq; pose proof LE.

  Lemma rows_split : rows = (pr ++ [RF f]) ++ po.
  Proof. unfold rows. rewrite <- app_assoc. reflexivity. Qed.

  Lemma fo1 : find_overlaps rows 1 k = Ok (Some (mkFound 1 (Sp + f_len f) (pr ++ [RF f]))).
  Proof.
    facts. pose proof Hp as P. destruct OK as (_ & _ & (f0 & t0 & First) & _). cbn [snd] in First.
    destruct (app_head_RF pr f po f0 t0 First) as (t1 & Hm).
    assert (Len1 : 1 <= f_len f0) by (rewrite First in P; inversion P; assumption).
    rewrite rows_split in P |- *.
    replace (Sp + f_len f) with (rows_len (pr ++ [RF f])) by (rewrite rows_len_app, rows_len_single; reflexivity).
    apply (find_overlaps_segment [] (pr ++ [RF f]) po 1 k f0 t1 f pr); try assumption; try reflexivity;
      rewrite ?rows_len_nil, ?rows_len_app, ?rows_len_single; cbn [row_len]; fold Sp; lia.
  Qed.

  Lemma fo2 : find_overlaps rows (k + 1) E = Ok (Some (mkFound (Sp + 1) L (RF f :: po))).
  Proof.
    facts. pose proof Hp as P. pose proof HE1 as HE. destruct OK as (_ & _ & _ & (fl & tl & Hl) & _). cbn [snd] in Hl.
    destruct (app_last_RF pr (RF f :: po) tl fl Hl ltac:(discriminate)) as (t2 & Hm).
    fold rows in Hl. unfold rows in HE. rewrite Hm, app_assoc, removelast_last, rows_len_app in HE.
    unfold L, rows. rewrite rows_len_app. rewrite <- (app_nil_r (RF f :: po)) at 1.
    unfold rows in P. rewrite <- (app_nil_r (RF f :: po)) in P.
    apply (find_overlaps_segment pr (RF f :: po) [] (k + 1) E f po fl t2); try assumption; try reflexivity;
      fold Sp; try lia.
    left. reflexivity.
  Qed.

  Lemma ebo0 : end_row_bait_overlap r0 = Ok (k - Sp).
  Proof.
    facts. unfold end_row_bait_overlap, last_row, r0. cbn [o_rows o_bait o_end].
    rewrite py_nth_m1. cbn [bind row_len]. cbv zeta. unfold bait1. cbn [f_start f_end].
    f_equal. destruct (_ <? _) eqn:Q; lia.
  Qed.

  Lemma sbo1 : start_row_bait_overlap r1 = Ok (Z.min E (Sp + f_len f) - k).
  Proof.
    facts. unfold start_row_bait_overlap, first_row, r1. cbn [o_rows o_bait o_start].
    rewrite py_nth_0. cbn [bind row_len]. cbv zeta. unfold bait2. cbn [f_start f_end].
    f_equal. destruct (_ <? _) eqn:Q; lia.
  Qed.

  Lemma trim0 : trim_large_overhangs r0 err = Ok r0.
  Proof.
    facts. apply trim_large_keep.
    - left. unfold start_overhang, r0, bait1. cbn [o_bait o_start f_start]. lia.
    - right. exists (k - Sp). split; [exact ebo0 | lia].
  Qed.

  Lemma trim1 : trim_large_overhangs r1 err = Ok r1.
  Proof.
    facts. apply trim_large_keep.
    - right. eexists. split; [exact sbo1 | lia].
    - left. unfold end_overhang, r1, bait2. cbn [o_bait o_end f_end]. lia.
  Qed.

  Let found0 : list (fkey * (frag * list rid)) :=
    map (fun g => (key_of g, (g, [0]))) (frags_of (pr ++ [RF f])).
  Let found1 : list (fkey * (frag * list rid)) :=
    aset key_eqb found0 (key_of f) (f, [0; 1]) ++ map (fun g => (key_of g, (g, [1]))) (frags_of po).
  Let b0 := mkB [] [] [] [] (new_namer prefix) 0.
  Let bA := mkB [r0] [0] found0 [] nm1 0.
  Let bB := mkB [r0; r1] [0; 1] found1 [key_of f] nm1 0.

  (* stageA1, stageA2: the lookups of the two baits; stageB: the overhang resolver
     changes nothing; stageC: the two cuts; stageD: no scaffold is left over *)
  Lemma stageA1 : one_pretext_scaffold [(name, rows)] err b0 (p1, [RF bait1]) = Ok bA.
  Proof.
    pose proof (one_pretext_single rows name p1 1 k s1 err b0
                  (mkFound 1 (Sp + f_len f) (pr ++ [RF f])) found0 [] hap_name eq_refl eq_refl) as H.
    cbv zeta in H. apply H; clear H.
    - exact fo1.
    - exact trim0.
    - cbn [fo_rows]. destruct pr; discriminate.
    - cbn [fo_rows b0 b_store b_found b_multi]. rewrite NullMap.store_found_fresh; [reflexivity|].
      cbn [map app]. pose proof ND as N. rewrite rows_split, frags_of_app, map_app in N.
      apply NoDup_app_inv in N. tauto.
  Qed.

  Lemma keys_found0 : map fst found0 = map key_of (frags_of (pr ++ [RF f])).
  Proof. unfold found0. apply map_fst_found. Qed.

  Lemma key_f_in0 : In (key_of f) (map fst found0).
  Proof.
    rewrite keys_found0, frags_of_app, map_app. apply in_or_app. right. left. reflexivity.
  Qed.

  Lemma aget_found0 : aget key_eqb found0 (key_of f) = Some (f, [0]).
  Proof.
    unfold found0. rewrite frags_of_app, map_app, aget_app.
    rewrite (aget_notin key_eqb key_eqb_eq).
    - cbn [frags_of flat_map app map aget]. rewrite key_eqb_refl. reflexivity.
    - rewrite map_fst_found. pose proof ND as N. unfold rows in N.
      rewrite frags_of_app, frags_of_RF, map_app in N. cbn [map] in N.
      apply NoDup_remove_2 in N. intro G. apply N, in_or_app. left. exact G.
  Qed.

  Lemma foldA2 :
    fold_left (store_found_one 1) (frags_of (RF f :: po)) (found0, []) = (found1, [key_of f]).
  Proof.
    rewrite frags_of_RF. cbn [fold_left].
    assert (E1 : store_found_one 1 (found0, []) f
                 = (aset key_eqb found0 (key_of f) (f, [0; 1]), [key_of f])).
    { unfold store_found_one. rewrite aget_found0. reflexivity. }
    rewrite E1, NullMap.store_found_fresh; [reflexivity|].
    destruct (aset_present found0 (key_of f) (f, [0; 1]) key_f_in0) as [-> _].
    rewrite keys_found0, <- map_app, <- frags_of_app, <- rows_split. exact ND.
  Qed.

  Lemma stageA2 : one_pretext_scaffold [(name, rows)] err bA (p2, [RF bait2]) = Ok bB.
  Proof.
    pose proof (one_pretext_single rows name p2 (k + 1) E s2 err bA
                  (mkFound (Sp + 1) L (RF f :: po)) found1 [key_of f] hap_name eq_refl eq_refl) as H.
    cbv zeta in H. apply H; clear H.
    - exact fo2.
    - exact trim1.
    - discriminate.
    - exact foldA2.
  Qed.

  Lemma aget_found1 : aget key_eqb found1 (key_of f) = Some (f, [0; 1]).
  Proof.
    unfold found1. rewrite aget_app.
    destruct (aset_present found0 (key_of f) (f, [0; 1]) key_f_in0) as [_ ->]. reflexivity.
  Qed.

  Lemma keys_found1 : map fst found1 = map key_of (frags_of rows).
  Proof.
    unfold found1. rewrite map_app, map_fst_found.
    destruct (aset_present found0 (key_of f) (f, [0; 1]) key_f_in0) as [-> _].
    rewrite keys_found0, <- map_app, <- frags_of_app, <- rows_split. reflexivity.
  Qed.

  Let kind0 := match pr with [] => PStart | _ => PEnd end.
  Let P0 := mkPrem kind0 0 f.
  Let P1 := mkPrem PStart 1 f.
  Let store := [r0; r1].

  Lemma get0 : get_ovr store 0 = Ok r0.
  Proof. reflexivity. Qed.
  Lemma get1 : get_ovr store 1 = Ok r1.
  Proof. reflexivity. Qed.

  Lemma row_is_pr x : In x pr -> row_is x f = false.
  Proof. intro H. destruct x as [g|g]; [|reflexivity]. cbn [row_is]. apply IDpr in H. lia. Qed.
  Lemma row_is_po x : In x po -> row_is x f = false.
  Proof. intro H. destruct x as [g|g]; [|reflexivity]. cbn [row_is]. apply IDpo in H. lia. Qed.

  Lemma premise0 : premise_for store f 0 = Ok (Some P0).
  Proof.
    unfold premise_for. rewrite get0. cbn [bind]. unfold first_row, last_row, r0. cbn [o_rows].
    unfold P0, kind0. pose proof row_is_pr as R. destruct pr as [|x t].
    - cbn [app]. rewrite py_nth_0. cbn [bind row_is]. rewrite Z.eqb_refl. reflexivity.
    - cbn [app]. rewrite py_nth_0. cbn [bind]. rewrite R by (left; reflexivity).
      rewrite py_nth_last_cons.
      cbn [bind row_is]. rewrite Z.eqb_refl. reflexivity.
  Qed.

  Lemma premise1 : premise_for store f 1 = Ok (Some P1).
  Proof.
    unfold premise_for. rewrite get1. cbn [bind]. unfold first_row, r1. cbn [o_rows].
    rewrite py_nth_0. cbn [bind row_is]. rewrite Z.eqb_refl. reflexivity.
  Qed.

  Lemma premises : premises_of store f [0; 1] = Ok [P0; P1].
  Proof. cbn [premises_of]. rewrite premise0, premise1. reflexivity. Qed.

  Lemma pbo0 : exists v, p_bait_overlap store P0 = Ok v /\ err <= v.
  Proof.
    facts. unfold p_bait_overlap, P0. cbn [pr_rid pr_kind]. rewrite get0. cbn [bind].
    pose proof ebo0 as Q. unfold kind0. unfold r0, Sp in *. destruct pr as [|x t].
    - unfold start_row_bait_overlap, first_row. cbn [o_rows app]. rewrite py_nth_0.
      cbn [bind row_len o_bait o_start]. cbv zeta. unfold bait1. cbn [f_start f_end].
      eexists. split; [reflexivity|]. rewrite rows_len_nil in *.
      destruct (_ <? _) eqn:Z; lia.
    - exists (k - rows_len (x :: t)). split; [exact Q | lia].
  Qed.

  (* case analysis on [pr] / [po] by rewriting, so that the hypotheses about them stay in place *)
  Lemma pr_cases : pr = [] \/ exists x t, pr = x :: t.
  Proof. destruct pr; eauto. Qed.
  Lemma po_cases : po = [] \/ exists x t, po = x :: t.
  Proof. destruct po; eauto. Qed.

  Lemma improves0 : (exists dd, p_delta store P0 = Ok dd) /\ p_improves store err P0 = Ok false.
  Proof.
    facts. pose proof Hppr as PP.
    destruct pr_cases as [EP|(x & t & EP)].
    - assert (K : kind0 = PStart) by (unfold kind0; rewrite EP; reflexivity).
      assert (O : p_overhang_if_applied store P0 = Ok (1 - (1 + f_len f + 0))).
      { unfold p_overhang_if_applied, P0. rewrite K. cbn [pr_rid pr_kind]. rewrite get0. cbn [bind].
        unfold overhang_if_start_removed, r0. rewrite EP. reflexivity. }
      apply (improves_false store err P0 r0 _ get0 O). left. unfold r0. rewrite EP. reflexivity.
    - assert (K : kind0 = PEnd) by (unfold kind0; rewrite EP; reflexivity).
      assert (O : p_overhang_if_applied store P0
                  = Ok (Sp + f_len f - f_len f - leading_gaps_len (rev pr) - k)).
      { unfold p_overhang_if_applied, P0. rewrite K. cbn [pr_rid pr_kind]. rewrite get0. cbn [bind].
        unfold overhang_if_end_removed, r0. cbn [o_rows o_bait o_end].
        rewrite rev_app_distr. reflexivity. }
      apply (improves_false store err P0 r0 _ get0 O). right.
      assert (G : 0 <= leading_gaps_len (rev pr)).
      { apply leading_gaps_nonneg. unfold pos_rows. apply Forall_rev. exact PP. }
      lia.
  Qed.

  Lemma improves1 : (exists dd, p_delta store P1 = Ok dd) /\ p_improves store err P1 = Ok false.
  Proof.
    facts. pose proof Hppo as PP.
    assert (O : p_overhang_if_applied store P1
                = Ok (k + 1 - (Sp + 1 + f_len f + leading_gaps_len po))).
    { unfold p_overhang_if_applied, P1. cbn [pr_rid pr_kind]. rewrite get1. reflexivity. }
    apply (improves_false store err P1 r1 _ get1 O).
    destruct po_cases as [EP|(x & t & EP)]; [left; unfold r1; rewrite EP; reflexivity | right].
    assert (G := leading_gaps_nonneg _ PP). lia.
  Qed.

  Lemma fix_none : fix_one err store [P0; P1] = Ok (store, None).
  Proof.
    destruct pbo0 as (v & B0 & V). destruct improves0 as ((d0 & D0) & I0).
    destruct improves1 as ((d1 & D1) & I1).
    unfold fix_one. rewrite B0. cbn [bind]. replace (v <? err) with false by lia.
    cbn [mapM bind]. rewrite D0, D1. cbn [bind].
    unfold sort_by_Z. cbn [stable_sort insert_front fst].
    destruct (d0 <=? d1); [rewrite I0 | rewrite I1]; reflexivity.
  Qed.

  Lemma stageB fuel : discard_loop (S fuel) err bB = Ok bB.
  Proof.
    cbn [discard_loop]. unfold bB at 1. cbn [b_multi]. unfold bB at 1 2. cbn [b_found b_store mapM].
    rewrite aget_found1. fold store. rewrite premises. cbn [bind filter].
    cbn [make_fixes]. change (b_store bB) with store. rewrite fix_none. cbn [bind]. reflexivity.
  Qed.

  Let e := Sp + f_len f - k.          (* what result 0 overhangs its bait by *)
  Let m := k - Sp.                    (* what result 1 overhangs its bait by *)
  Let fl := mkFrag (-2) (f_name f)
                   (if f_strand f =? 1 then f_start f else f_start f + e)
                   (if f_strand f =? 1 then f_end f - e else f_end f) (f_strand f) [s "Cut"].
  Let idr := match po with [] => -2 | _ => -1 end.
  Let fr := mkFrag idr (f_name f)
                   (if f_strand f =? 1 then f_start f + m else f_start f)
                   (if f_strand f =? 1 then f_end f else f_end f - m) (f_strand f) [s "Cut"].
  Let r0' := set_span_rows r0 1 k (pr ++ [RF fl]).
  Let r1' := set_span_rows r1 (k + 1) L (RF fr :: po).

  Lemma f_len_big : 6 * err <= f_len f.
  Proof. lia. Qed.

  Lemma T0 : trim_fragment r0 f true false = Ok (fl, r0').
  Proof.
    facts. apply (trim_end_ok r0 pr f eq_refl strand_f).
    unfold end_overhang, r0, bait1. cbn [o_end o_bait f_end]. lia.
  Qed.

  Lemma T1 : trim_fragment r1 f false true = Ok (fr, r1').
  Proof.
    facts. pose proof (trim_start_ok r1 f po eq_refl row_is_po strand_f) as G. cbv zeta in G.
    replace (start_overhang r1) with m in G
      by (unfold start_overhang, r1, bait2, m; cbn [o_start o_bait f_start]; lia).
    apply G. unfold m. lia.
  Qed.

  (* the order in which cut_fragments visits the two results *)
  Lemma fsit : exists st0 st1,
    fragment_start_if_trimmed r0 f = Ok st0 /\ fragment_start_if_trimmed r1 f = Ok st1
    /\ (f_strand f = 1 -> st0 <= st1) /\ (f_strand f = -1 -> st1 < st0).
  Proof.
    facts.
    assert (S0 : start_overhang r0 = 0) by reflexivity.
    assert (S1 : start_overhang r1 = m)
      by (unfold start_overhang, r1, bait2, m; cbn [o_start o_bait f_start]; lia).
    assert (E0 : end_overhang r0 = e) by reflexivity.
    assert (E1 : end_overhang r1 = L - E) by reflexivity.
    destruct strand_f as [SF|SF].
    - destruct (start_if_trimmed_cases r0 f) as (v & V & C); [unfold r0; cbn [o_rows]; destruct pr; discriminate|].
      exists v, (f_start f + start_overhang r1). split; [exact V|].
      split; [apply (start_if_trimmed_first r1 f po eq_refl SF)|].
      rewrite SF in C. change (1 =? 1) with true in C. cbv iota in C. unfold m, e in *. split; lia.
    - destruct (start_if_trimmed_cases r1 f) as (v & V & C); [discriminate|].
      exists (f_start f + end_overhang r0), v.
      split; [apply (start_if_trimmed_last r0 pr f eq_refl); lia|]. split; [exact V|].
      rewrite SF in C. change (-1 =? 1) with false in C. cbv iota in C. unfold m, e in *. split; lia.
  Qed.

  (* the id lists are written at type [list rid], as they stand in the goal of stageC
     after the sort, so that the two lemmas rewrite there *)
  Lemma trim_all_fwd : f_strand f = 1 ->
    trim_all repaired store f (@cons rid 0 (@cons rid 1 (@nil rid))) 0 1 = Ok ([r0'; r1'], [fl; fr]).
  Proof.
    intro SF. cbn [trim_all fix_swap_keep repaired]. rewrite SF.
    change (1 =? 1) with true. change (0 =? 0) with true. change (0 =? 1) with false.
    change (0 + 1 =? 0) with false. change (0 + 1 =? 1) with true. cbn [negb andb].
    rewrite get0. cbn [bind]. rewrite T0. cbn [bind].
    change (put_ovr store 0 r0') with [r0'; r1].
    change (get_ovr [r0'; r1] 1) with (Ok r1). cbn [bind]. rewrite T1. cbn [bind fst snd].
    reflexivity.
  Qed.

  Lemma trim_all_rev : f_strand f = -1 ->
    trim_all repaired store f (@cons rid 1 (@cons rid 0 (@nil rid))) 0 1 = Ok ([r0'; r1'], [fr; fl]).
  Proof.
    intro SF. cbn [trim_all fix_swap_keep repaired]. rewrite SF.
    change (-1 =? 1) with false. change (0 =? 0) with true. change (0 =? 1) with false.
    change (0 + 1 =? 0) with false. change (0 + 1 =? 1) with true. cbn [negb andb].
    rewrite get1. cbn [bind]. rewrite T1. cbn [bind].
    change (put_ovr store 1 r1') with [r0; r1'].
    change (get_ovr [r0; r1'] 0) with (Ok r0). cbn [bind]. rewrite T0. cbn [bind fst snd].
    reflexivity.
  Qed.

  Lemma qc_fwd : f_strand f = 1 -> qc_sub_fragments f [fl; fr] = Ok tt.
  Proof.
    intro SF. facts. unfold f_len in *.
    apply qc_two; unfold fl, fr, e, m, f_len; rewrite SF; change (1 =? 1) with true;
      cbn [f_name f_start f_end]; try reflexivity; lia.
  Qed.

  Lemma qc_rev : f_strand f = -1 -> qc_sub_fragments f [fr; fl] = Ok tt.
  Proof.
    intro SF. facts. unfold f_len in *.
    apply qc_two; unfold fl, fr, e, m, f_len; rewrite SF; change (-1 =? 1) with false;
      cbn [f_name f_start f_end]; try reflexivity; lia.
  Qed.

  Let bC := mkB [r0'; r1'] [0; 1] found1 [] nm1 1.

  Lemma stageC : cut_remaining_overhangs repaired bB = Ok bC.
  Proof.
    destruct fsit as (st0 & st1 & F0 & F1 & O1 & O2).
    unfold cut_remaining_overhangs. unfold bB at 1. cbn [b_multi foldM].
    unfold cut_fragments. unfold bB at 1. cbn [b_found]. rewrite aget_found1.
    unfold bB at 1 2. cbn [b_store mapM]. fold store. rewrite get0, get1. cbn [bind].
    rewrite F0, F1. cbn [bind]. unfold sort_by_Z. cbn [stable_sort insert_front fst].
    destruct strand_f as [SF|SF].
    - replace (st0 <=? st1) with true by (specialize (O1 SF); lia). cbn [map snd].
      change (zlen [0; 1] - 1) with 1. rewrite (trim_all_fwd SF). cbn [bind].
      rewrite (qc_fwd SF). cbn [bind]. reflexivity.
    - replace (st0 <=? st1) with false by (specialize (O2 SF); lia). cbn [map snd].
      change (zlen [1; 0] - 1) with 1. rewrite (trim_all_rev SF). cbn [bind].
      rewrite (qc_rev SF). cbn [bind]. reflexivity.
  Qed.

  Lemma stageD g :
    add_missing_one repaired g found1 (nm1, []) (name, rows) = Ok (nm1, []).
  Proof.
    unfold add_missing_one. rewrite NullMap.missing_all_found; [reflexivity|]. unfold NullMap.all_found.
    rewrite Forall_forall. intros h Hh.
    destruct (aget_in key_eqb key_eqb_eq found1 (key_of h)) as (v & ->); [|discriminate].
    rewrite keys_found1. apply in_map, Hh.
  Qed.

  Lemma rows_r0' : map erase_id (o_rows r0') = map erase_id pr ++ [RF (cut_left f (k - Sp))].
  Proof.
    unfold r0'. cbn [set_span_rows o_rows]. rewrite map_app. cbn [map erase_id]. f_equal.
    unfold fl, cut_left, e, f_len. cbn [f_name f_start f_end f_strand f_tags].
    destruct (f_strand f =? 1); do 3 f_equal; lia.
  Qed.

  Lemma rows_r1' : map erase_id (o_rows r1') = RF (cut_right f (k - Sp)) :: map erase_id po.
  Proof.
    unfold r1'. cbn [set_span_rows o_rows map erase_id]. f_equal.
    unfold fr, cut_right, m. cbn [f_name f_start f_end f_strand f_tags].
    destruct (f_strand f =? 1); reflexivity.
  Qed.

  Lemma core_result g :
    exists ra rb bfinal,
      run_body repaired g err [(name, rows)] [(p1, [RF bait1]); (p2, [RF bait2])] b0
        = Ok (mkRun bfinal [])
      /\ b_cuts bfinal = 1
      /\ mapM (get_ovr (b_store bfinal)) (b_added bfinal) = Ok [ra; rb]
      /\ map erase_id (to_scaffold_rows ra) = orient s1 (map erase_id pr ++ [RF (cut_left f (k - Sp))])
      /\ map erase_id (to_scaffold_rows rb) = orient s2 (RF (cut_right f (k - Sp)) :: map erase_id po)
      /\ (o_name ra = name /\ o_orig ra = Some p1 /\ o_start ra = 1 /\ o_end ra = k)
      /\ (o_name rb = name /\ o_orig rb = Some p2 /\ o_start rb = k + 1 /\ o_end rb = rows_len rows).
  Proof.
    exists r0', r1', bC. split.
    { unfold run_body. cbn [foldM]. rewrite stageA1. cbn [bind]. rewrite stageA2. cbn [bind].
      rewrite stageB. cbn [bind]. rewrite stageC. cbn [bind].
      unfold bC at 1 2. cbn [b_namer b_store nm1 nm_hap_scaffolds]. unfold rename_results.
      cbn [mapM bind]. unfold rename_by_size. cbn [map combine fold_left].
      unfold with_store. cbn [b_store b_added b_found b_multi b_namer b_cuts bC].
      fold nm1. rewrite stageD. cbn [bind fst snd]. reflexivity. }
    split; [reflexivity|]. split; [reflexivity|].
    split; [|split; [|split; [repeat split | repeat split]]].
    - unfold to_scaffold_rows. change (f_strand (o_bait r0')) with s1.
      rewrite <- rows_r0', <- erase_orient. reflexivity.
    - unfold to_scaffold_rows. change (f_strand (o_bait r1')) with s2.
      rewrite <- rows_r1', <- erase_orient. reflexivity.
  Qed.
End Core.

Lemma number_input_single name rows :
  number_input [(name, rows)] 0 = [(name, fst (number_rows rows 0))].
Proof. cbn [number_input]. destruct (number_rows rows 0). reflexivity. Qed.

Lemma number_rows_cons_RF f t n :
  fst (number_rows (RF f :: t) n)
  = RF (mkFrag n (f_name f) (f_start f) (f_end f) (f_strand f) (f_tags f)) :: fst (number_rows t (n + 1)).
Proof. cbn [number_rows]. destruct (number_rows t (n + 1)). reflexivity. Qed.

Theorem two_piece_cut : forall g prefix n d name pr f po k E s1 s2 p1 p2,
  0 <= n -> 0 < d ->
  let rows := pr ++ RF f :: po in
  let err := error_length (n, d) in
  let Sp := rows_len pr in               (* f occupies scaffold coordinates Sp+1 .. Sp+f_len f *)
  sc_ok (name, rows) ->
  NoDup (map key_of (frags_of rows)) ->   (* distinct contigs *)
  Sp + 3 * err <= k ->                    (* the piece of f left of the cut is >= 3 error lengths *)
  k + 3 * err <= Sp + f_len f ->          (* and so is the piece right of it *)
  rows_len (removelast rows) < E -> d * (rows_len rows - E) < n ->   (* E: scaffold end, rounded by < 1 texel *)
  exists rs ra rb,
    remap_to_input repaired g prefix (n, d) [(name, rows)]
       [(p1, [RF (mkFrag (-1) name 1 k s1 [])]); (p2, [RF (mkFrag (-1) name (k + 1) E s2 [])])] = Ok rs
    /\ b_cuts (rs_b rs) = 1
    /\ rs_left rs = []
    /\ mapM (get_ovr (b_store (rs_b rs))) (b_added (rs_b rs)) = Ok [ra; rb]
    /\ map erase_id (to_scaffold_rows ra) = orient s1 (map erase_id pr ++ [RF (cut_left f (k - Sp))])
    /\ map erase_id (to_scaffold_rows rb) = orient s2 (RF (cut_right f (k - Sp)) :: map erase_id po)
    /\ (o_name ra = name /\ o_orig ra = Some p1 /\ o_start ra = 1 /\ o_end ra = k)
    /\ (o_name rb = name /\ o_orig rb = Some p2 /\ o_start rb = k + 1 /\ o_end rb = rows_len rows).
Proof.
  intros g prefix n d name pr f po k E s1 s2 p1 p2 Hn Hd rows err Sp OK ND M1 M2 HE1 HE2.
  rewrite remap_to_input_body.
  change (has_dup_names (map fst [(name, rows)])) with false. cbv iota.
  rewrite number_input_single.
  unfold rows at 1. rewrite number_rows_app, number_rows_cons_RF.
  set (pr' := fst (number_rows pr 0)).
  set (f' := mkFrag (0 + zlen pr) (f_name f) (f_start f) (f_end f) (f_strand f) (f_tags f)).
  set (po' := fst (number_rows po (0 + zlen pr + 1))).
  assert (Epr : map erase_id pr' = map erase_id pr) by apply NullMap.number_rows_erase.
  assert (Epo : map erase_id po' = map erase_id po) by apply NullMap.number_rows_erase.
  assert (Er : map erase_id (pr' ++ RF f' :: po') = map erase_id rows).
  { unfold rows. rewrite !map_app. cbn [map]. rewrite Epr, Epo. reflexivity. }
  assert (Lpr : rows_len pr' = rows_len pr) by (apply NullMap.rows_len_erase, Epr).
  destruct (core_result n d prefix name p1 p2 pr' po' f' k E s1 s2 Hn Hd) with (g := g)
    as (ra & rb & bf & RUN & C & MM & RA & RB & NA & NB).
  - apply (NullMap.sc_ok_erase name rows); [symmetry; exact Er | exact OK].
  - rewrite (erase_same_keys _ _ Er). exact ND.
  - intros h Hh. apply number_rows_ids in Hh. unfold f'. cbn [f_id]. lia.
  - intros h Hh. apply number_rows_ids in Hh. unfold f'. cbn [f_id]. lia.
  - rewrite Lpr. exact M1.
  - rewrite Lpr. exact M2.
  - rewrite (NullMap.rows_len_erase (removelast (pr' ++ RF f' :: po')) (removelast rows)); [exact HE1|].
    rewrite !map_removelast. exact (f_equal (@removelast row) Er).
  - rewrite (NullMap.rows_len_erase _ _ Er). exact HE2.
  - exists (mkRun bf []), ra, rb. split; [exact RUN|]. cbn [rs_b rs_left].
    split; [exact C|]. split; [reflexivity|]. split; [exact MM|].
    rewrite Lpr, Epr in RA. rewrite Lpr, Epo in RB.
    split; [exact RA|]. split; [exact RB|]. split; [exact NA|].
    rewrite (NullMap.rows_len_erase _ _ Er) in NB. exact NB.
Qed.

Definition ex_F (nm : string) (a b st : Z) : row := RF (mkFrag (-1) (list_ascii_of_string nm) a b st []).
Arguments ex_F nm%string_scope a b st.
Definition ex_C (nm : string) (a b st : Z) : row :=
  RF (mkFrag (-1) (list_ascii_of_string nm) a b st [s "Cut"]).
Arguments ex_C nm%string_scope a b st.
Definition ex_G (len : Z) : row := RG (mkGap len (s "scaffold")).
Definition ex_dg : gap := mkGap 200 (s "scaffold").
Definition ex_ptx (k E s1 s2 : Z) : list (str * list row) :=
  [ (s "Scaffold_1", [RF (mkFrag (-1) (s "scaffold_1") 1 k s1 [])]);
    (s "Scaffold_2", [RF (mkFrag (-1) (s "scaffold_1") (k + 1) E s2 [])]) ].

(* A non-trivial instance: texel 7/2 bp (error length 4), gaps on both
   sides of the contig, the contig on the reverse strand, the first Pretext
   scaffold reversed.  Scaffold coordinates: ctg1 1-20, gap 21-25, ctg2 26-125
   (contig 101-200 reversed), gap 126-132, ctg3 133-162.  Cut after 60: 35 bases
   of ctg2 (its high end, 166-200) go left, 65 (101-165) go right. *)
Definition ex_pre : list row := [ex_F "ctg1" 1 20 1; ex_G 5].
Definition ex_f : frag := mkFrag (-1) (s "ctg2") 101 200 (-1) [].
Definition ex_post : list row := [ex_G 7; ex_F "ctg3" 1 30 1].

(* the witnesses of the examples below, read off the run without evaluating it *)
Definition run_of (r : res run_state) : run_state :=
  match r with Ok rs => rs | Err _ => mkRun (mkB [] [] [] [] (new_namer []) 0) [] end.
Definition run_result (r : res run_state) (i : nat) : ovr :=
  nth i (match mapM (get_ovr (b_store (rs_b (run_of r)))) (b_added (rs_b (run_of r))) with
         | Ok l => l | Err _ => [] end)
      (mkOvr (mkFrag 0 [] 0 0 0 []) 0 0 [] [] None None 0 None []).

Definition instance_statement : Prop :=
  exists rs ra rb,
    remap_to_input repaired ex_dg (s "SUPER_") (7, 2) [(s "scaffold_1", ex_pre ++ RF ex_f :: ex_post)]
                   (ex_ptx 60 161 (-1) 1) = Ok rs
    /\ b_cuts (rs_b rs) = 1
    /\ rs_left rs = []
    /\ mapM (get_ovr (b_store (rs_b rs))) (b_added (rs_b rs)) = Ok [ra; rb]
    /\ map erase_id (to_scaffold_rows ra) = [ex_C "ctg2" 166 200 1; ex_G 5; ex_F "ctg1" 1 20 (-1)]
    /\ map erase_id (to_scaffold_rows rb) = [ex_C "ctg2" 101 165 (-1); ex_G 7; ex_F "ctg3" 1 30 1].

(* by running the model *)
Example two_piece_cut_instance : instance_statement.
Proof.
  unfold instance_statement. set (run := remap_to_input _ _ _ _ _ _).
  exists (run_of run), (run_result run 0), (run_result run 1).
  split; [vm_compute; reflexivity|]. split; [vm_compute; reflexivity|]. split; [vm_compute; reflexivity|]. split; [vm_compute; reflexivity|]. split; [vm_compute; reflexivity|]. vm_compute; reflexivity.
Qed.

(* by the theorem: its hypotheses are satisfiable *)
Example two_piece_cut_instance_by_theorem : instance_statement.
Proof.
  destruct (two_piece_cut ex_dg (s "SUPER_") 7 2 (s "scaffold_1") ex_pre ex_f ex_post 60 161 (-1) 1
              (s "Scaffold_1") (s "Scaffold_2"))
    as (rs & ra & rb & H1 & H2 & H3 & H4 & H5 & H6 & _).
  - lia.
  - lia.
  - apply NullMap.sc_okb_ok. vm_compute. reflexivity.
  - apply (nodupb_ok key_eqb key_eqb_refl). vm_compute. reflexivity.
  - vm_compute. easy.
  - vm_compute. easy.
  - vm_compute. easy.
  - vm_compute. easy.
  - exists rs, ra, rb. split; [exact H1|]. split; [exact H2|]. split; [exact H3|]. split; [exact H4|].
    split; [rewrite H5 | rewrite H6]; vm_compute; reflexivity.
Qed.

(* The margin is sharp.  No gap next to the contig; error length 4, so the
   margin is 12.  ctg2 (100 bases) occupies 21-120. *)
Definition sh_pre : list row := [ex_F "ctg1" 1 20 1].
Definition sh_f : frag := mkFrag (-1) (s "ctg2") 101 200 1 [].
Definition sh_post : list row := [ex_F "ctg3" 1 30 1].

Lemma sh_ok : sc_ok (s "scaffold_1", sh_pre ++ RF sh_f :: sh_post)
  /\ NoDup (map key_of (frags_of (sh_pre ++ RF sh_f :: sh_post))).
Proof.
  split.
  - apply NullMap.sc_okb_ok. vm_compute. reflexivity.
  - apply (nodupb_ok key_eqb key_eqb_refl). vm_compute. reflexivity.
Qed.

(* a cut 11 = 3*4 - 1 bases into ctg2 is not made: ctg2 goes whole to the right *)
Example margin_sharp_left :
  rows_len sh_pre + 3 * error_length (7, 2) = 31 + 1
  /\ 31 + 3 * error_length (7, 2) <= rows_len sh_pre + f_len sh_f
  /\ exists rs ra rb,
    remap_to_input repaired ex_dg (s "SUPER_") (7, 2) [(s "scaffold_1", sh_pre ++ RF sh_f :: sh_post)]
                   (ex_ptx 31 150 1 1) = Ok rs
    /\ b_cuts (rs_b rs) = 0
    /\ mapM (get_ovr (b_store (rs_b rs))) (b_added (rs_b rs)) = Ok [ra; rb]
    /\ map erase_id (to_scaffold_rows ra) = [ex_F "ctg1" 1 20 1]
    /\ map erase_id (to_scaffold_rows rb) = [ex_F "ctg2" 101 200 1; ex_F "ctg3" 1 30 1].
Proof.
  split; [reflexivity|]. split; [vm_compute; easy|]. set (run := remap_to_input _ _ _ _ _ _).
  exists (run_of run), (run_result run 0), (run_result run 1).
  split; [vm_compute; reflexivity|]. split; [vm_compute; reflexivity|]. split; [vm_compute; reflexivity|]. split; [vm_compute; reflexivity|]. vm_compute; reflexivity.
Qed.

(* ... and 12 bases in, it is *)
Example margin_attained_left :
  rows_len sh_pre + 3 * error_length (7, 2) = 32
  /\ exists rs ra rb,
    remap_to_input repaired ex_dg (s "SUPER_") (7, 2) [(s "scaffold_1", sh_pre ++ RF sh_f :: sh_post)]
                   (ex_ptx 32 150 1 1) = Ok rs
    /\ b_cuts (rs_b rs) = 1
    /\ mapM (get_ovr (b_store (rs_b rs))) (b_added (rs_b rs)) = Ok [ra; rb]
    /\ map erase_id (to_scaffold_rows ra) = [ex_F "ctg1" 1 20 1; ex_C "ctg2" 101 112 1]
    /\ map erase_id (to_scaffold_rows rb) = [ex_C "ctg2" 113 200 1; ex_F "ctg3" 1 30 1].
Proof.
  split; [reflexivity|]. set (run := remap_to_input _ _ _ _ _ _).
  exists (run_of run), (run_result run 0), (run_result run 1).
  split; [vm_compute; reflexivity|]. split; [vm_compute; reflexivity|]. split; [vm_compute; reflexivity|]. split; [vm_compute; reflexivity|]. vm_compute; reflexivity.
Qed.

(* a cut 11 bases before the end of ctg2 is not made either: ctg2 goes whole to the left *)
Example margin_sharp_right :
  rows_len sh_pre + 3 * error_length (7, 2) <= 109
  /\ 109 + 3 * error_length (7, 2) = rows_len sh_pre + f_len sh_f + 1
  /\ exists rs ra rb,
    remap_to_input repaired ex_dg (s "SUPER_") (7, 2) [(s "scaffold_1", sh_pre ++ RF sh_f :: sh_post)]
                   (ex_ptx 109 150 1 1) = Ok rs
    /\ b_cuts (rs_b rs) = 0
    /\ mapM (get_ovr (b_store (rs_b rs))) (b_added (rs_b rs)) = Ok [ra; rb]
    /\ map erase_id (to_scaffold_rows ra) = [ex_F "ctg1" 1 20 1; ex_F "ctg2" 101 200 1]
    /\ map erase_id (to_scaffold_rows rb) = [ex_F "ctg3" 1 30 1].
Proof.
  split; [vm_compute; easy|]. split; [reflexivity|]. set (run := remap_to_input _ _ _ _ _ _).
  exists (run_of run), (run_result run 0), (run_result run 1).
  split; [vm_compute; reflexivity|]. split; [vm_compute; reflexivity|]. split; [vm_compute; reflexivity|]. split; [vm_compute; reflexivity|]. vm_compute; reflexivity.
Qed.

(* The hypothesis is sufficient, not necessary: a gap next to the contig is
   credited to the margin (here 5 + 7 = 12), and at the very start of a scaffold an
   error length (4) is enough.  Observations by computation only. *)
Example gap_counts_towards_margin :
  exists rs ra rb,
    remap_to_input repaired ex_dg (s "SUPER_") (7, 2) [(s "scaffold_1", ex_pre ++ RF ex_f :: ex_post)]
                   (ex_ptx 32 161 1 1) = Ok rs
    /\ b_cuts (rs_b rs) = 1
    /\ mapM (get_ovr (b_store (rs_b rs))) (b_added (rs_b rs)) = Ok [ra; rb]
    /\ map erase_id (to_scaffold_rows ra) = [ex_F "ctg1" 1 20 1; ex_G 5; ex_C "ctg2" 194 200 (-1)]
    /\ map erase_id (to_scaffold_rows rb) = [ex_C "ctg2" 101 193 (-1); ex_G 7; ex_F "ctg3" 1 30 1].
Proof.
  set (run := remap_to_input _ _ _ _ _ _).
  exists (run_of run), (run_result run 0), (run_result run 1).
  split; [vm_compute; reflexivity|]. split; [vm_compute; reflexivity|]. split; [vm_compute; reflexivity|]. split; [vm_compute; reflexivity|]. vm_compute; reflexivity.
Qed.

Example first_contig_needs_one_error_length :
  exists rs ra rb,
    remap_to_input repaired ex_dg (s "SUPER_") (7, 2) [(s "scaffold_1", RF sh_f :: sh_post)]
                   (ex_ptx 4 130 1 1) = Ok rs
    /\ b_cuts (rs_b rs) = 1
    /\ mapM (get_ovr (b_store (rs_b rs))) (b_added (rs_b rs)) = Ok [ra; rb]
    /\ map erase_id (to_scaffold_rows ra) = [ex_C "ctg2" 101 104 1]
    /\ map erase_id (to_scaffold_rows rb) = [ex_C "ctg2" 105 200 1; ex_F "ctg3" 1 30 1].
Proof.
  set (run := remap_to_input _ _ _ _ _ _).
  exists (run_of run), (run_result run 0), (run_result run 1).
  split; [vm_compute; reflexivity|]. split; [vm_compute; reflexivity|]. split; [vm_compute; reflexivity|]. split; [vm_compute; reflexivity|]. vm_compute; reflexivity.
Qed.

Print Assumptions two_piece_cut.
Print Assumptions two_piece_cut_instance.
Print Assumptions two_piece_cut_instance_by_theorem.
Print Assumptions sh_ok.
Print Assumptions margin_sharp_left.
Print Assumptions margin_attained_left.
Print Assumptions margin_sharp_right.
Print Assumptions gap_counts_towards_margin.
Print Assumptions first_contig_needs_one_error_length.
