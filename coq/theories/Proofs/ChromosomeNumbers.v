(* C10, END TO END through [remap] for single-haplotype maps: the painted
   scaffolds without a name tag (rank 1) of a completed run are named
   <prefix><k><suffix>, where the chromosomes -- one per Pretext scaffold name,
   i.e. the chromosome together with its unloc pieces -- are numbered k = 1..n
   without holes in order of non-increasing sequence length (fragment bases of
   all rank-1 scaffolds that came from that Pretext scaffold), ties in the order
   of the map, and the suffix is what the scaffold's name had after its Pretext
   scaffold name before the chromosomes were numbered ("" for the chromosome
   itself, "_unloc_<m>" for its unlocs).  The statement as first written,
   without the hypothesis that the Pretext scaffold names are pairwise
   different, is false: two Pretext scaffolds with the same name (the second
   one with an Unloc piece) get two numbers. *)
From Tola Require Import Py.Base Py.Dec Py.Sort Model.Fragment Model.Scaffold Model.Namer Model.Remap
  Proofs.BaseLemmas Proofs.Naming Proofs.RemapTail Proofs.UniqueNames.
From Tola Require Import Proofs.ChromosomeNumbersHead Proofs.ChromosomeNumbersGroups.
From Tola Require Proofs.RemapHead Proofs.Dec.
From Coq Require Import Lia ZifyBool Permutation Sorted.

Lemma filter_perm {A} (p : A -> bool) l l' : Permutation l l' -> Permutation (filter p l) (filter p l').
Proof.
  induction 1 as [|x l l' P IH|x y l|l l' l'' P1 IH1 P2 IH2]; cbn [filter].
  - constructor.
  - destruct (p x); [constructor|]; exact IH.
  - destruct (p x), (p y); try apply perm_swap; apply Permutation_refl.
  - eapply perm_trans; eassumption.
Qed.

Lemma NoDup_flat_map_in {A B} (f : A -> list B) : forall l x, NoDup (flat_map f l) -> In x l -> NoDup (f x).
Proof.
  induction l as [|a l IH]; intros x N I; [destruct I|]. cbn [flat_map] in N. destruct I as [<-|I].
  - exact (NoDup_app_l _ _ N).
  - apply IH; [exact (NoDup_app_r _ _ N) | exact I].
Qed.

Lemma SS_map_transfer {A B} (f : A -> Z) (F : B -> Z) (m : A -> B) : forall l,
  StronglySorted (fun a b => f a >= f b) l -> (forall x, In x l -> f x = F (m x)) ->
  StronglySorted (fun a b => F a >= F b) (map m l).
Proof.
  induction 1 as [|x l Sd IH Fx]; intro E; cbn [map]; constructor.
  - apply IH. intros z Iz. apply E. right. exact Iz.
  - apply Forall_forall. intros y Iy. apply in_map_iff in Iy as (z & <- & Iz).
    rewrite <- (E x (or_introl eq_refl)), <- (E z (or_intror Iz)).
    rewrite Forall_forall in Fx. exact (Fx z Iz).
Qed.

(* sums over the positions of the elements that satisfy a test *)
Definition atF {A} (f : A -> Z) (l : list A) (i : nat) : Z :=
  match nth_error l i with Some x => f x | None => 0 end.
Definition atQ {A} (p : A -> bool) (l : list A) (i : nat) : bool :=
  match nth_error l i with Some x => p x | None => false end.

Lemma filter_map_S (q : nat -> bool) : forall l, filter q (map S l) = map S (filter (fun i => q (S i)) l).
Proof.
  induction l as [|a l IH]; cbn [map filter]; [reflexivity|]. destruct (q (S a)); cbn [map]; rewrite IH; reflexivity.
Qed.

Lemma filter_seq_sum {A} (f : A -> Z) (p : A -> bool) : forall l,
  sumZ (map (atF f l) (filter (atQ p l) (seq 0 (length l)))) = sumZ (map f (filter p l)).
Proof.
  induction l as [|x l IH]; [reflexivity|].
  cbn [length seq]. rewrite <- seq_shift. cbn [filter]. change (atQ p (x :: l) 0) with (p x).
  rewrite filter_map_S.
  rewrite (filter_ext (fun i => atQ p (x :: l) (S i)) (atQ p l)) by (intro; reflexivity).
  destruct (p x); cbn [map]; rewrite ?sumZ_cons, map_map;
    rewrite (map_ext (fun i => atF f (x :: l) (S i)) (atF f l)) by (intro; reflexivity);
    rewrite IH; reflexivity.
Qed.

Lemma sum_over_indices {A} (f : A -> Z) (p : A -> bool) (l : list A) (idxs : list nat) :
  NoDup idxs -> (forall i, In i idxs <-> exists x, nth_error l i = Some x /\ p x = true) ->
  sumZ (map (atF f l) idxs) = sumZ (map f (filter p l)).
Proof.
  intros N H. rewrite <- filter_seq_sum. apply sumZ_perm, Permutation_map.
  apply NoDup_Permutation; [exact N | apply NoDup_filter, seq_NoDup|].
  intro i. rewrite H, filter_In, in_seq. unfold atQ. split.
  - intros (x & Hn & Hp). rewrite Hn. split; [|exact Hp].
    assert (i < length l)%nat by (apply nth_error_Some; congruence). lia.
  - intros [_ Hq]. destruct (nth_error l i) as [x|]; [|discriminate]. exists x. auto.
Qed.

Lemma items_sorted (key : scaffold -> nat) (fs : list scaffold) : forall l pre, fs = pre ++ l ->
  StronglySorted le (map key l) ->
  StronglySorted le (map (fun it : str * nat => match nth_error fs (snd it) with Some sc => key sc | None => O end)
                         (chr_items_from (length pre) l)).
Proof.
  induction l as [|x l IH]; intros pre E Sd; [apply SSorted_nil|].
  unfold chr_items_from. cbn [length seq combine flat_map]. fold (chr_items_from (S (length pre)) l).
  cbn [map] in Sd. inversion Sd as [|? ? S1 S2]; subst.
  assert (IH' := IH (pre ++ [x])). rewrite app_length, Nat.add_1_r, <- app_assoc in IH'. specialize (IH' eq_refl S1).
  destruct (sc_rank x =? 1); [|exact IH'].
  cbn [app map snd]. constructor; [exact IH'|]. apply Forall_forall. intros y Iy.
  apply in_map_iff in Iy as ([h' i] & <- & I). cbn [snd].
  apply chr_items_in in I as (Li & sc & Hn & _).
  rewrite nth_error_app2 by lia. rewrite Nat.sub_diag. cbn [nth_error].
  rewrite (nth_error_app2 pre) by lia. replace (i - length pre)%nat with (S (i - S (length pre))) by lia.
  cbn [nth_error]. rewrite Hn. rewrite Forall_forall in S2. apply S2. apply in_map. eapply nth_error_In. exact Hn.
Qed.

Lemma map_snd_unchunk : forall cs, map snd (unchunk cs) = flat_map snd cs.
Proof.
  induction cs as [|[o idxs] cs IH]; [reflexivity|]. unfold unchunk in *. cbn [flat_map fst snd].
  rewrite map_app, IH, map_map. cbn [snd]. rewrite map_id. reflexivity.
Qed.

(* all scaffolds of all output assemblies *)
Definition out_scaffolds (o : outputs) : list scaffold := flat_map oa_scaffolds (out_asms o).

(* sequence length: fragment bases, gaps not counted *)
Definition seq_length (sc : scaffold) : Z := frags_length (sc_rows sc).

(* the rank-1 scaffolds that came from Pretext scaffold [orig] *)
Definition members (o : outputs) (orig : str) : list scaffold :=
  filter (fun sc => (sc_rank sc =? 1) && opt_eqb str_eqb (sc_orig sc) (Some orig)) (out_scaffolds o).

(* As first written.  FALSE (chromosome_numbers_original_refuted below): nothing
   says that the Pretext scaffold names are pairwise different, and when one
   name comes back later in the map with an Unloc piece, the fusion keeps
   <name> where it was but puts <name>_unloc_1 behind the scaffolds in between,
   so ChrNamer opens a second group for the same name and the name gets two
   numbers. *)
Definition chromosome_numbers_statement_original : Prop :=
  forall g prefix bpt input pretext o,
  remap repaired g prefix bpt input pretext = Ok o ->
  input_namespace_ok prefix input pretext ->
  (length (filter painted_b pretext) <= 191)%nat ->
  no_haplotypes input -> no_haplotypes pretext ->
  exists chroms : list str,          (* Pretext scaffold names, in numbering order *)
    NoDup chroms
    (* every rank-1 scaffold belongs to exactly one of them and is named by its number *)
    /\ (forall sc, In sc (out_scaffolds o) -> sc_rank sc = 1 ->
          exists k orig sfx, nth_error chroms k = Some orig /\ sc_orig sc = Some orig
            /\ sc_name sc = prefix ++ str_of_Z (Z.of_nat k + 1) ++ sfx)
    (* no number without a scaffold *)
    /\ (forall k orig, nth_error chroms k = Some orig -> members o orig <> [])
    (* numbered by non-increasing sequence length of the chromosome with its unlocs *)
    /\ StronglySorted (fun a b => sumZ (map seq_length (members o a)) >= sumZ (map seq_length (members o b))) chroms.

(* The statement that holds: one more hypothesis (the Pretext scaffold names
   are pairwise different -- hypotheses otherwise exactly those of
   names_nodup_no_haplotypes) and, in the conclusion, what the suffix is
   ([unloc_sfx]: "" or "_unloc_<digits>").  The bound 191 = 256 - 65 comes
   with those hypotheses: the letters A, B, ... are chr(65 + k) in the byte
   model (UniqueNames.v). *)
Definition numbered_by_length (prefix : str) (o : outputs) : Prop :=
  exists chroms : list str,          (* Pretext scaffold names, in numbering order *)
    NoDup chroms
    (* every rank-1 scaffold belongs to exactly one of them and is named by its number *)
    /\ (forall sc, In sc (out_scaffolds o) -> sc_rank sc = 1 ->
          exists k orig sfx, nth_error chroms k = Some orig /\ sc_orig sc = Some orig
            /\ sc_name sc = prefix ++ str_of_Z (Z.of_nat k + 1) ++ sfx /\ unloc_sfx sfx = true)
    (* no number without a scaffold *)
    /\ (forall k orig, nth_error chroms k = Some orig -> members o orig <> [])
    (* numbered by non-increasing sequence length of the chromosome with its unlocs *)
    /\ StronglySorted (fun a b => sumZ (map seq_length (members o a)) >= sumZ (map seq_length (members o b))) chroms.

Definition chromosome_numbers_statement : Prop :=
  forall g prefix bpt input pretext o,
  remap repaired g prefix bpt input pretext = Ok o ->
  input_namespace_ok prefix input pretext ->
  (length (filter painted_b pretext) <= 191)%nat ->
  no_haplotypes input -> no_haplotypes pretext ->
  NoDup (map fst pretext) ->
  numbered_by_length prefix o.

(* the test inside [members] *)
Definition memb (orig : str) (sc : scaffold) : bool :=
  (sc_rank sc =? 1) && opt_eqb str_eqb (sc_orig sc) (Some orig).

(* the original name of a one-haplotype group *)
Definition gorig (g : chr_group) : str :=
  match g with (_, (o, _) :: _) :: _ => o | _ => [] end.

(* renaming ([same_but_name]) changes neither the members nor their lengths *)
Lemma sbn_filter_len o : forall l l', Forall2 same_but_name l l' ->
  map seq_length (filter (memb o) l') = map seq_length (filter (memb o) l).
Proof.
  induction 1 as [|x y l l' Hxy Hl IH]; [reflexivity|]. cbn [filter].
  destruct Hxy as (Rw & _ & _ & Rk & Or & _).
  assert (E : memb o y = memb o x) by (unfold memb; rewrite Rk, Or; reflexivity).
  rewrite E. destruct (memb o x); cbn [map]; [|exact IH].
  f_equal; [unfold seq_length; rewrite Rw; reflexivity | exact IH].
Qed.

Section Tail.
  Variables (prefix : str) (fused0 fused : list scaffold) (names : list str).
  Let fused1 := map (prefix_rank2 prefix) fused0.
  Let items := chr_items fused1.
  (* [hap_str None]: the key ChrNamer sees for scaffolds without tag and haplotype *)
  Let h : str := s "None".
  Hypothesis NS : namespace_ok prefix fused0.
  Hypothesis R1 : Forall (fun sc => sc_rank sc = 1 ->
                    sc_tag sc = None /\ sc_hap sc = None /\ exists o, sc_orig sc = Some o /\ In o names) fused0.
  Hypothesis Srt : StronglySorted le (map (skey names) fused0).
  Hypothesis NC : name_chromosomes prefix fused1 items = Ok fused.

  Lemma rank1_fixed a0 : sc_rank a0 = 1 -> prefix_rank2 prefix a0 = a0.
  Proof. intro R. unfold prefix_rank2. rewrite R. reflexivity. Qed.

  Lemma fused1_rank1 i sc : nth_error fused1 i = Some sc -> sc_rank sc = 1 -> nth_error fused0 i = Some sc.
  Proof.
    unfold fused1. rewrite nth_error_map. destruct (nth_error fused0 i) as [a0|]; [|discriminate].
    cbn [option_map]. intros E R. injection E as <-.
    destruct (prefix_rank2_sbn prefix a0) as (_ & _ & _ & R' & _).
    rewrite rank1_fixed by congruence. reflexivity.
  Qed.

  Lemma rank1_untagged sc : In sc fused0 -> sc_rank sc = 1 -> hap_str (asm_k sc) = h.
  Proof.
    intros I R. rewrite Forall_forall in R1. destruct (R1 sc I R) as (Tg & Hp & _).
    unfold asm_k, asm_key_of. rewrite Tg, Hp. reflexivity.
  Qed.

  Lemma item_facts h' i : In (h', i) items ->
    exists sc c o sfx, nth_error fused0 i = Some sc /\ nth_error fused1 i = Some sc /\ sc_rank sc = 1 /\ h' = h
      /\ sc_orig sc = Some (c :: o) /\ In (c :: o) names /\ is_upper c = true
      /\ sc_name sc = (c :: o) ++ sfx /\ unloc_sfx sfx = true /\ orig_of fused1 i = c :: o.
  Proof.
    intro I. unfold items, chr_items in I. apply chr_items_in in I as (_ & sc & Hn & R & Eh).
    rewrite Nat.sub_0_r in Hn. pose proof (fused1_rank1 i sc Hn R) as H0.
    pose proof (name_ok_at prefix fused0 NS i sc H0) as OK. unfold name_ok in OK.
    rewrite (proj2 (Z.eqb_eq _ _) R) in OK. destruct (rank1_ok_inv sc OK) as (c & o & sfx & Ho & Hc & Hnm & Hs).
    pose proof (nth_error_In _ _ H0) as Isc.
    pose proof R1 as R1'. rewrite Forall_forall in R1'. destruct (R1' sc Isc R) as (_ & _ & o' & Ho' & Io').
    rewrite Ho in Ho'. injection Ho' as <-.
    exists sc, c, o, sfx. split; [exact H0|]. split; [exact Hn|]. split; [exact R|].
    split; [rewrite Eh; exact (rank1_untagged sc Isc R)|]. split; [exact Ho|]. split; [exact Io'|].
    split; [exact Hc|]. split; [exact Hnm|]. split; [exact Hs|].
    unfold orig_of. rewrite Hn, Ho. reflexivity.
  Qed.

  Lemma rank1_item i sc : nth_error fused0 i = Some sc -> sc_rank sc = 1 -> In (h, i) items.
  Proof.
    intros H0 R. unfold items, chr_items. apply chr_items_in. split; [lia|]. exists sc. rewrite Nat.sub_0_r.
    split; [unfold fused1; rewrite (fused1_nth prefix fused0 i sc H0), (rank1_fixed sc R); reflexivity|].
    split; [exact R|]. symmetry. exact (rank1_untagged sc (nth_error_In _ _ H0) R).
  Qed.

  Lemma items_one_key : Forall (fun it => fst it = h) items.
  Proof.
    apply Forall_forall. intros [h' i] I.
    destruct (item_facts h' i I) as (sc & c & o & sfx & _ & _ & _ & E & _). exact E.
  Qed.

  Lemma items_have_orig : Forall (has_orig fused1) items.
  Proof.
    apply Forall_forall. intros [h' i] I.
    destruct (item_facts h' i I) as (sc & c & o & sfx & _ & Hn & _ & _ & Ho & _).
    exists sc, (c :: o). split; [exact Hn|]. split; [exact Ho | discriminate].
  Qed.

  Let cs := chunks (map (oi_of fused1) items).
  Let sorted := sort_by_Z_desc (group_length fused1 [h]) (map (G h) cs).

  Lemma fused_as_ops : fused = fold_left apply_rop (all_ops prefix sorted) (map (prefix_rank2 prefix) fused0).
  Proof.
    destruct (name_chromosomes_chunks prefix fused1 h items items_one_key items_have_orig) as [E _].
    rewrite NC in E. injection E as E. exact E.
  Qed.

  Lemma slots_perm : Permutation (slots sorted)
               (map (slot_of (map (prefix_rank2 prefix) fused0)) (chr_items (map (prefix_rank2 prefix) fused0))).
  Proof. exact (proj2 (name_chromosomes_chunks prefix fused1 h items items_one_key items_have_orig)). Qed.

  Lemma fused_same_but_name : Forall2 same_but_name (map (prefix_rank2 prefix) fused0) fused.
  Proof.
    destruct (apply_ops_upd_ok (all_ops prefix sorted) (map (prefix_rank2 prefix) fused0)) as [F _].
    rewrite <- fused_as_ops in F. exact F.
  Qed.

  Lemma ois_item oi : In oi (unchunk cs) ->
    exists h', In (h', snd oi) items /\ fst oi = orig_of fused1 (snd oi).
  Proof.
    unfold cs. rewrite unchunk_chunks. intro I. apply in_map_iff in I as ([h' i] & <- & I).
    exists h'. split; [exact I | reflexivity].
  Qed.

  Lemma chunk_names_nodup : NoDup (map fst cs).
  Proof.
    apply (chunk_origs_nodup (fun x => index_of x names) (fun x => In x names)).
    - intros x y. apply index_of_inj.
    - apply Forall_forall. intros oi I. apply in_map_iff in I as ([h' i] & <- & I).
      destruct (item_facts h' i I) as (sc & c & o & sfx & _ & _ & _ & _ & _ & Io & _ & _ & _ & Eo).
      unfold oi_of. cbn [fst snd]. rewrite Eo. exact Io.
    - cbv beta. rewrite map_map.
      assert (S1 : StronglySorted le (map (skey names) fused1)).
      { unfold fused1. rewrite map_map.
        rewrite (map_ext (fun x => skey names (prefix_rank2 prefix x)) (skey names)); [exact Srt|].
        intro a. unfold skey. destruct (prefix_rank2_sbn prefix a) as (_ & _ & _ & _ & O & _).
        rewrite O. reflexivity. }
      pose proof (items_sorted (skey names) fused1 fused1 [] eq_refl S1) as IS. cbn [length] in IS.
      fold (chr_items fused1) in IS. fold items in IS.
      erewrite map_ext_in; [exact IS|]. intros [h' i] I. cbv beta.
      destruct (item_facts h' i I) as (sc & c & o & sfx & _ & Hn & _ & _ & Ho & _ & _ & _ & _ & Eo).
      unfold oi_of. cbn [fst snd]. rewrite Eo, Hn. unfold skey. rewrite Ho. reflexivity.
  Qed.

  Lemma sorted_in g : In g sorted -> exists c, In c cs /\ g = G h c.
  Proof.
    intro I. apply (Permutation_in _ (sort_desc_perm _ _)) in I. apply in_map_iff in I as (c & <- & I). eauto.
  Qed.

  (* the new name of a rank-1 scaffold: the number of the group of its original name *)
  Lemma naming i a0 : nth_error fused0 i = Some a0 -> sc_rank a0 = 1 ->
    exists k c o idxs sfx, nth_error sorted k = Some (G h (c :: o, idxs)) /\ sc_orig a0 = Some (c :: o)
      /\ unloc_sfx sfx = true
      /\ nth_error fused i = Some (with_name a0 (prefix ++ str_of_Z (Z.of_nat k + 1) ++ sfx)).
  Proof.
    intros H0 R.
    destruct (rank1_renamed prefix fused0 fused sorted NS fused_as_ops slots_perm i a0 H0 R)
      as (k & g & d & q & idxs & c & o & sfx & Hg & Hd & Hq & Ho & _ & Hs & A).
    destruct (sorted_in g (nth_error_In _ _ Hg)) as ([og ig] & Icc & ->).
    unfold G, one_group in Hd. cbn [fst snd] in Hd. destruct Hd as [Hd|[]]. injection Hd as _ Ed. subst d.
    destruct q as [|q]; [|destruct q; discriminate]. cbn [nth_error] in Hq. injection Hq as -> ->.
    cbn [length letter app] in A.
    exists k, c, o, idxs, sfx. split; [exact Hg|]. split; [exact Ho|]. split; [exact Hs|].
    rewrite A, <- app_assoc. reflexivity.
  Qed.

  Definition chroms : list str := map gorig sorted.

  Lemma chroms_nodup : NoDup chroms.
  Proof.
    unfold chroms. apply (Permutation_NoDup (l := map fst cs)); [|exact chunk_names_nodup].
    eapply perm_trans; [|apply Permutation_map, Permutation_sym, sort_desc_perm].
    rewrite map_map. erewrite map_ext; [apply Permutation_refl|]. intros [o idxs]. reflexivity.
  Qed.

  Lemma named_rank1 i a' : nth_error fused i = Some a' -> sc_rank a' = 1 ->
    exists k orig sfx, nth_error chroms k = Some orig /\ sc_orig a' = Some orig
      /\ sc_name a' = prefix ++ str_of_Z (Z.of_nat k + 1) ++ sfx /\ unloc_sfx sfx = true.
  Proof.
    intros Ha R.
    assert (Li : (i < length fused0)%nat).
    { rewrite <- (fused_length prefix fused0 fused sorted fused_as_ops). apply nth_error_Some. congruence. }
    destruct (nth_error fused0 i) as [a0|] eqn:H0; [|apply nth_error_None in H0; lia].
    destruct (Forall2_nth_error _ _ _ fused_same_but_name i _ (fused1_nth prefix fused0 i a0 H0)) as (y & Hy & Sy).
    rewrite Ha in Hy. injection Hy as <-.
    assert (R0 : sc_rank a0 = 1).
    { destruct Sy as (_ & _ & _ & Ry & _). destruct (prefix_rank2_sbn prefix a0) as (_ & _ & _ & R' & _). congruence. }
    destruct (naming i a0 H0 R0) as (k & c & o & idxs & sfx & Hg & Ho & Hs & A).
    rewrite Ha in A. injection A as ->.
    exists k, (c :: o), sfx. split; [|split; [exact Ho|split; [reflexivity | exact Hs]]].
    unfold chroms. erewrite map_nth_error; [|exact Hg]. reflexivity.
  Qed.

  Lemma number_has_member k orig : nth_error chroms k = Some orig ->
    exists sc, In sc fused /\ memb orig sc = true.
  Proof.
    unfold chroms. intro Hk. rewrite nth_error_map in Hk.
    destruct (nth_error sorted k) as [g|] eqn:Hg; [|discriminate]. cbn [option_map] in Hk. injection Hk as <-.
    destruct (sorted_in g (nth_error_In _ _ Hg)) as ([og ig] & Icc & ->). change (gorig (G h (og, ig))) with og.
    pose proof (chunks_ne (map (oi_of fused1) items)) as NE. fold cs in NE. rewrite Forall_forall in NE.
    specialize (NE _ Icc). cbn [snd] in NE. destruct ig as [|i ig]; [congruence|].
    assert (Iu : In (og, i) (unchunk cs)).
    { unfold unchunk. apply in_flat_map. exists (og, i :: ig). split; [exact Icc|]. left. reflexivity. }
    destruct (ois_item _ Iu) as (h' & I & Eo). cbn [fst snd] in I, Eo.
    destruct (item_facts h' i I) as (sc & c & o & sfx & H0 & _ & R & _ & Ho & _ & _ & _ & _ & Eo').
    rewrite Eo' in Eo. subst og.
    destruct (naming i sc H0 R) as (k' & c2 & o2 & idxs2 & sfx2 & _ & _ & _ & A).
    eexists. split; [eapply nth_error_In; exact A|].
    unfold memb. cbn [with_name sc_rank sc_orig]. rewrite R, Ho. cbn [opt_eqb]. rewrite str_eqb_refl. reflexivity.
  Qed.

  Definition fused_len (o : str) : Z := sumZ (map seq_length (filter (memb o) fused)).

  Lemma group_len_members c : In c cs -> group_length fused1 [h] (G h c) = fused_len (fst c).
  Proof.
    intro Ic. rewrite group_length_G. unfold fused_len. rewrite (sbn_filter_len (fst c) _ _ fused_same_but_name).
    fold fused1. apply (sum_over_indices seq_length (memb (fst c)) fused1 (snd c)).
    - apply (NoDup_flat_map_in snd cs c); [|exact Ic]. rewrite <- map_snd_unchunk.
      unfold cs. rewrite unchunk_chunks, map_map. cbn [oi_of snd].
      change (map (fun x : str * nat => snd x) items) with (map snd items).
      unfold items, chr_items. apply chr_items_nodup.
    - intro i. split.
      + intro Ii.
        assert (Iu : In (fst c, i) (unchunk cs)).
        { unfold unchunk. apply in_flat_map. exists c. split; [exact Ic|]. apply in_map. exact Ii. }
        destruct (ois_item _ Iu) as (h' & I & Eo). cbn [fst snd] in I, Eo.
        destruct (item_facts h' i I) as (sc & c0 & o & sfx & _ & Hn & R & _ & Ho & _ & _ & _ & _ & Eo').
        exists sc. split; [exact Hn|]. unfold memb. rewrite R, Ho, Eo, Eo'. cbn [opt_eqb].
        rewrite str_eqb_refl. reflexivity.
      + intros (x & Hn & Mx). unfold memb in Mx. apply andb_prop in Mx as [Rx Ox].
        apply Z.eqb_eq in Rx. apply opt_str_eqb_eq in Ox.
        pose proof (rank1_item i x (fused1_rank1 i x Hn Rx) Rx) as I.
        assert (Iu : In (fst c, i) (unchunk cs)).
        { unfold cs. rewrite unchunk_chunks. apply in_map_iff. exists (h, i). split; [|exact I].
          unfold oi_of, orig_of. cbn [snd]. rewrite Hn, Ox. reflexivity. }
        unfold unchunk in Iu. apply in_flat_map in Iu as (c' & Ic' & Ii).
        apply in_map_iff in Ii as (j & E & Ij). injection E as Ef ->.
        rewrite (RemapHead.NoDup_map_inj fst cs c c' chunk_names_nodup Ic Ic' (eq_sym Ef)). exact Ij.
  Qed.

  Lemma chroms_sorted : StronglySorted (fun a b => fused_len a >= fused_len b) chroms.
  Proof.
    unfold chroms. apply (SS_map_transfer (group_length fused1 [h]) fused_len gorig); [apply sort_desc_sorted|].
    intros g Ig. destruct (sorted_in g Ig) as (c & Ic & ->). rewrite (group_len_members c Ic).
    destruct c as [o idxs]. reflexivity.
  Qed.
End Tail.

Lemma remap_stages : forall g prefix bpt input pretext o,
  remap repaired g prefix bpt input pretext = Ok o ->
  exists rs fused0 fused,
    remap_to_input repaired g prefix bpt input pretext = Ok rs
    /\ fuse_all repaired g rs = Ok fused0
    /\ name_chromosomes prefix (map (prefix_rank2 prefix) fused0) (chr_items (map (prefix_rank2 prefix) fused0))
       = Ok fused
    /\ Permutation (out_scaffolds o) fused.
Proof.
  intros g prefix bpt input pretext o H0. destruct (RemapTail.remap_stages _ _ _ _ _ _ _ H0) as (rs & R & H).
  destruct (RemapTail.assemblies_stages _ _ _ _ _ _ H) as (fused0 & fused & asms & stt & F & NC & MM & _ & ->).
  exists rs, fused0, fused. split; [exact R|]. split; [exact F|]. split; [exact NC|].
  unfold out_scaffolds. cbn [out_asms].
  eapply perm_trans; [apply (sort_groups_perm _ _ MM)|]. apply (group_fold_perm fused []).
Qed.

Theorem chromosome_numbers_end_to_end : chromosome_numbers_statement.
Proof.
  intros g prefix bpt input pretext o H INS B NHi NHp N.
  destruct (remap_stages _ _ _ _ _ _ H) as (rs & fused0 & fused & R & HF & NC & Pm).
  destruct (remap_to_input_labels prefix input pretext INS _ _ _ _ R) as [FR FL].
  pose proof (fuse_all_PL _ _ _ _ _ _ FR FL HF) as FPL.
  destruct (PL_namespace prefix pretext fused0 FPL B) as [_ NS].
  pose proof (no_haplotypes_fused _ _ _ _ _ _ _ _ NHi NHp R HF) as NH.
  destruct (fused_order _ _ _ _ _ _ _ _ N R HF) as [Srt Tag].
  set (names := map fst pretext) in *.
  assert (R1 : Forall (fun sc => sc_rank sc = 1 ->
                 sc_tag sc = None /\ sc_hap sc = None /\ exists o, sc_orig sc = Some o /\ In o names) fused0).
  { apply Forall_forall. intros sc I Rk. rewrite Forall_forall in Tag, NH, FPL.
    split; [exact (Tag sc I Rk)|]. split; [exact (NH sc I)|].
    pose proof (FPL sc I) as Psc. unfold PL, sc_labs, lab_ok in Psc. destruct Psc as (_ & _ & _ & P1 & _).
    destruct (P1 Rk) as (c & o' & prows & Eo & _ & _ & _ & Ip & _).
    exists (c :: o'). split; [exact Eo|]. unfold names. apply in_map_iff. exists (c :: o', prows). auto. }
  exists (chroms prefix fused0). split; [|split; [|split]].
  - exact (chroms_nodup prefix fused0 names NS R1 Srt).
  - intros sc I Rk. apply (Permutation_in _ Pm) in I. apply In_nth_error in I as [i Hi].
    exact (named_rank1 prefix fused0 fused names NS R1 NC i sc Hi Rk).
  - intros k orig Hk.
    destruct (number_has_member prefix fused0 fused names NS R1 NC k orig Hk) as (sc & Isc & M).
    apply (Permutation_in _ (Permutation_sym Pm)) in Isc.
    intro E. assert (X : In sc (members o orig)) by (unfold members; apply filter_In; split; [exact Isc | exact M]).
    rewrite E in X. destruct X.
  - eapply StronglySorted_weaken; [|exact (chroms_sorted prefix fused0 fused names NS R1 Srt NC)].
    cbv beta. intros a b Hab.
    assert (L : forall x, sumZ (map seq_length (members o x)) = fused_len fused x).
    { intro x. unfold members, fused_len. apply sumZ_perm, Permutation_map. apply (filter_perm (memb x)). exact Pm. }
    rewrite !L. exact Hab.
Qed.

(* Input: four scaffolds a, b, c, d.  Map: Scaffold_1 = a; Scaffold_2 = b;
   then Scaffold_1 AGAIN = c and, as an Unloc piece, d.  The pieces a and c fuse
   under the name Scaffold_1 (first place), the piece d becomes
   Scaffold_1_unloc_1 (third place, behind Scaffold_2), ChrNamer sees the
   original names Scaffold_1, Scaffold_2, Scaffold_1 and opens three groups:
   SUPER_1 = Scaffold_2 (3000), SUPER_2 = Scaffold_1 (1500),
   SUPER_3_unloc_1 = the unloc of Scaffold_1 (200). *)
Definition cx_input : list (str * list row) :=
  [(s "a", [exF (s "c1") 1 1000 []]); (s "b", [exF (s "c2") 1 3000 []]);
   (s "c", [exF (s "c3") 1 500 []]); (s "d", [exF (s "c4") 1 200 []])].
Definition cx_pretext : list (str * list row) :=
  [(s "Scaffold_1", [exF (s "a") 1 1000 [s "Painted"]]);
   (s "Scaffold_2", [exF (s "b") 1 3000 [s "Painted"]]);
   (s "Scaffold_1", [exF (s "c") 1 500 [s "Painted"]; RG ex_gap; exF (s "d") 1 200 [s "Painted"; s "Unloc"]])].
Definition cx_out : outputs :=
  match remap repaired ex_gap (s "SUPER_") (10, 1) cx_input cx_pretext with
  | Ok o => o
  | Err _ => mkOut [] 0 0 0 []
  end.

(* [cx_out] is that run's result, so this says that the run does not fail *)
Lemma cx_run : remap repaired ex_gap (s "SUPER_") (10, 1) cx_input cx_pretext = Ok cx_out.
Proof. vm_compute. reflexivity. Qed.

Example cx_names :
  map (fun sc => (sc_name sc, sc_rank sc, sc_orig sc, seq_length sc)) (out_scaffolds cx_out)
  = [(s "SUPER_1", 1, Some (s "Scaffold_2"), 3000);
     (s "SUPER_2", 1, Some (s "Scaffold_1"), 1500);
     (s "SUPER_3_unloc_1", 1, Some (s "Scaffold_1"), 200)].
Proof. vm_compute. reflexivity. Qed.

Definition is_sc (n orig : str) (sc : scaffold) : bool :=
  str_eqb (sc_name sc) n && (sc_rank sc =? 1) && opt_eqb str_eqb (sc_orig sc) (Some orig).

Lemma find_sc n orig l : existsb (is_sc n orig) l = true ->
  exists sc, In sc l /\ sc_name sc = n /\ sc_rank sc = 1 /\ sc_orig sc = Some orig.
Proof.
  intro H. apply existsb_exists in H as (sc & I & B). exists sc. split; [exact I|].
  unfold is_sc in B. apply andb_prop in B as [B B3]. apply andb_prop in B as [B1 B2].
  apply str_eqb_eq in B1. apply Z.eqb_eq in B2. apply opt_str_eqb_eq in B3. auto.
Qed.

Theorem chromosome_numbers_original_refuted : ~ chromosome_numbers_statement_original.
Proof.
  intro St.
  destruct (St ex_gap (s "SUPER_") (10, 1) cx_input cx_pretext cx_out cx_run) as (chroms0 & ND & C2 & _).
  - apply input_namespace_ok_b_sound. vm_compute. reflexivity.
  - apply Nat.leb_le. vm_compute. reflexivity.
  - apply no_haplotypes_b_sound. vm_compute. reflexivity.
  - apply no_haplotypes_b_sound. vm_compute. reflexivity.
  - assert (E2 : existsb (is_sc (s "SUPER_2") (s "Scaffold_1")) (out_scaffolds cx_out) = true)
      by (vm_compute; reflexivity).
    assert (E3 : existsb (is_sc (s "SUPER_3_unloc_1") (s "Scaffold_1")) (out_scaffolds cx_out) = true)
      by (vm_compute; reflexivity).
    destruct (find_sc _ _ _ E2) as (b & Ib & Nb & Rb & Ob).
    destruct (find_sc _ _ _ E3) as (c & Ic & Nc & Rc & Oc).
    destruct (C2 b Ib Rb) as (k2 & o2 & sfx2 & Hk2 & Ho2 & Hn2).
    destruct (C2 c Ic Rc) as (k3 & o3 & sfx3 & Hk3 & Ho3 & Hn3).
    rewrite Ob in Ho2. injection Ho2 as <-. rewrite Oc in Ho3. injection Ho3 as <-.
    assert (K : k2 = k3).
    { apply (proj1 (NoDup_nth_error chroms0) ND k2 k3); [|rewrite Hk2, Hk3; reflexivity].
      apply nth_error_Some. rewrite Hk2. discriminate. }
    subst k3. rewrite Nb in Hn2. rewrite Nc in Hn3.
    change (s "SUPER_2") with (s "SUPER_" ++ s "2") in Hn2.
    change (s "SUPER_3_unloc_1") with (s "SUPER_" ++ s "3_unloc_1") in Hn3.
    apply app_inv_head in Hn2, Hn3.
    assert (P : 0 <= Z.of_nat k2 + 1) by (apply Z.add_nonneg_nonneg; [apply Nat2Z.is_nonneg | exact Z.le_0_1]).
    destruct (Proofs.Dec.str_of_Z_digits _ P) as [NE _].
    destruct (str_of_Z (Z.of_nat k2 + 1)) as [|ch t]; [exact (NE eq_refl)|].
    cbn [s list_ascii_of_string app] in Hn2, Hn3. injection Hn2 as X2 _. injection Hn3 as X3 _.
    rewrite <- X2 in X3. discriminate X3.
Qed.

(* three painted Pretext scaffolds, not in order of size: Scaffold_1 = a (1000),
   Scaffold_2 = b (3000) with an Unloc piece (400), Scaffold_3 = c (2000) *)
Definition cn_input : list (str * list row) :=
  [(s "a", [exF (s "c1") 1 1000 []]);
   (s "b", [exF (s "c2") 1 3000 []; RG ex_gap; exF (s "c3") 1 400 []]);
   (s "c", [exF (s "c4") 1 2000 []])].
Definition cn_pretext : list (str * list row) :=
  [(s "Scaffold_1", [exF (s "a") 1 1000 [s "Painted"]]);
   (s "Scaffold_2", [exF (s "b") 1 3000 [s "Painted"]; RG ex_gap;
                     exF (s "b") 3201 3600 [s "Painted"; s "Unloc"]]);
   (s "Scaffold_3", [exF (s "c") 1 2000 [s "Painted"]])].

(* the run: Scaffold_2 with its unloc (3400) is 1, Scaffold_3 (2000) is 2, Scaffold_1 (1000) is 3 *)
Example chromosome_numbers_example_run :
  match remap repaired ex_gap (s "SUPER_") (10, 1) cn_input cn_pretext with
  | Ok o => map (fun sc => (sc_name sc, sc_rank sc, sc_orig sc, seq_length sc)) (out_scaffolds o)
  | Err _ => []
  end
  = [(s "SUPER_1", 1, Some (s "Scaffold_2"), 3000);
     (s "SUPER_1_unloc_1", 1, Some (s "Scaffold_2"), 400);
     (s "SUPER_2", 1, Some (s "Scaffold_3"), 2000);
     (s "SUPER_3", 1, Some (s "Scaffold_1"), 1000)].
Proof. vm_compute. reflexivity. Qed.

(* the theorem applied to it (not by computation on the output) *)
Example chromosome_numbers_example : forall o,
  remap repaired ex_gap (s "SUPER_") (10, 1) cn_input cn_pretext = Ok o ->
  numbered_by_length (s "SUPER_") o.
Proof.
  intros o H. apply (chromosome_numbers_end_to_end _ _ _ _ _ _ H).
  - apply input_namespace_ok_b_sound. vm_compute. reflexivity.
  - apply Nat.leb_le. vm_compute. reflexivity.
  - apply no_haplotypes_b_sound. vm_compute. reflexivity.
  - apply no_haplotypes_b_sound. vm_compute. reflexivity.
  - repeat (apply NoDup_cons; [vm_compute; intuition discriminate|]). apply NoDup_nil.
Qed.

Print Assumptions chromosome_numbers_original_refuted.
Print Assumptions chromosome_numbers_example.
Print Assumptions chromosome_numbers_end_to_end.
