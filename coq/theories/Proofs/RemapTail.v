(* C01, second half of the pipeline: from [Post] (the state after
   cut_remaining_overhangs) to [conserved].  Re-adding the input fragments that
   were never found, fusing, naming and sorting only permute fragments (up to
   strand), so coverage is preserved. *)
From Tola Require Import Py.Base Py.Sort Model.Fragment Model.Scaffold Model.Lookup
  Model.OverlapResult Model.NaturalKey Model.Namer Model.Remap Model.RemapSpec.
From Tola Require Import Proofs.BaseLemmas Proofs.Rows Proofs.NaturalKey.
From Tola Require Proofs.RemapHead.
From Coq Require Import Lia ZifyBool Permutation Sorted.

Lemma flat_map_map {A B C} (g : A -> B) (f : B -> list C) l :
  flat_map f (map g l) = flat_map (fun x => f (g x)) l.
Proof. induction l as [|x l IH]; cbn [flat_map map]; [reflexivity|]. rewrite IH. reflexivity. Qed.

Lemma flat_map_perm {A B} (f : A -> list B) a b :
  Permutation a b -> Permutation (flat_map f a) (flat_map f b).
Proof.
  induction 1; cbn [flat_map].
  - apply perm_nil.
  - apply Permutation_app_head. assumption.
  - rewrite !app_assoc. apply Permutation_app_tail, Permutation_app_comm.
  - eapply perm_trans; eassumption.
Qed.

Lemma fold_left_inv {S A} (P : S -> Prop) (f : S -> A -> S) :
  (forall s a, P s -> P (f s a)) -> forall l s, P s -> P (fold_left f l s).
Proof. intros H l. induction l as [|x l IH]; intros s0 Hs; cbn [fold_left]; [assumption|]. apply IH, H, Hs. Qed.

Lemma map_set_nth_same {A B} (f : A -> B) : forall l i x y,
  nth_error l i = Some x -> f y = f x -> map f (set_nth l i y) = map f l.
Proof.
  induction l as [|z l IH]; intros [|i] x y H E; cbn in *; try discriminate.
  - injection H as ->. rewrite E. reflexivity.
  - rewrite (IH i x y H E). reflexivity.
Qed.

Lemma aset_found {K V} (keqb : K -> K -> bool) : forall (d : list (K * V)) k v v',
  aget keqb d k = Some v ->
  exists l1 k' l2, d = l1 ++ (k', v) :: l2 /\ aset keqb d k v' = l1 ++ (k', v') :: l2.
Proof.
  induction d as [|[k0 v0] d IH]; intros k v v' H; cbn [aget aset] in *; [discriminate|].
  destruct (keqb k k0).
  - injection H as ->. exists [], k0, d. split; reflexivity.
  - destruct (IH k v v' H) as (l1 & k' & l2 & E1 & E2).
    exists ((k0, v0) :: l1), k', l2. cbn [app]. rewrite <- E1, E2. split; reflexivity.
Qed.

Lemma aset_missing {K V} (keqb : K -> K -> bool) : forall (d : list (K * V)) k v',
  aget keqb d k = None -> aset keqb d k v' = d ++ [(k, v')].
Proof.
  induction d as [|[k0 v0] d IH]; intros k v' H; cbn [aget aset app] in *; [reflexivity|].
  destruct (keqb k k0); [discriminate|]. rewrite (IH k v' H). reflexivity.
Qed.

Lemma mapM_ok_length {A B} (f : A -> res B) : forall l r, mapM f l = Ok r -> length r = length l.
Proof. exact (mapM_length f). Qed.

Lemma sumZ_perm a b : Permutation a b -> sumZ a = sumZ b.
Proof.
  induction 1; rewrite ?sumZ_cons; lia.
Qed.

Lemma ssort_perm {A} (le : A -> A -> bool) l : Permutation (stable_sort le l) l.
Proof. apply (stable_sort_perm (fun x : A => x) le). Qed.

Lemma ssort_sorted {A} (le : A -> A -> bool) :
  (forall a b c, le a b = true -> le b c = true -> le a c = true) ->
  (forall a b, le a b = true \/ le b a = true) ->
  forall l, StronglySorted (fun a b => le a b = true) (stable_sort le l).
Proof. intros T Tot l. apply (stable_sort_sorted (fun x : A => x) le T Tot). Qed.

Lemma coverage_nil n x : coverage [] n x = 0%nat.
Proof. reflexivity. Qed.

Lemma coverage_cons f l n x :
  coverage (f :: l) n x = ((if covers f n x then 1 else 0) + coverage l n x)%nat.
Proof. unfold coverage. cbn [filter]. destruct (covers f n x); reflexivity. Qed.

Lemma coverage_app : forall a b n x, coverage (a ++ b) n x = (coverage a n x + coverage b n x)%nat.
Proof. intros a b n x. unfold coverage. rewrite filter_app, app_length. reflexivity. Qed.

Lemma coverage_perm : forall a b n x, Permutation a b -> coverage a n x = coverage b n x.
Proof.
  intros a b n x P. induction P; rewrite ?coverage_cons; lia.
Qed.

Lemma coverage_perm_keys a b n x :
  Permutation (map key_of a) (map key_of b) -> coverage a n x = coverage b n x.
Proof.
  intro P. apply Nat2Z.inj. rewrite !RemapHead.coverage_zsum. unfold RemapHead.cvf.
  rewrite <- !(RemapHead.zsum_map (fun k => RemapHead.cvz k n x) key_of). apply RemapHead.zsum_perm, P.
Qed.

Lemma coverage_same_keys : forall a b n x, map key_of a = map key_of b -> coverage a n x = coverage b n x.
Proof. intros a b n x E. apply coverage_perm_keys. rewrite E. apply Permutation_refl. Qed.

Lemma coverage_filter_split (p : frag -> bool) l n x :
  (coverage (filter p l) n x + coverage (filter (fun f => negb (p f)) l) n x)%nat = coverage l n x.
Proof.
  induction l as [|f l IH]; [reflexivity|].
  cbn [filter]. destruct (p f); cbn [negb]; rewrite !coverage_cons; lia.
Qed.

Lemma key_of_reverse f : key_of (frag_reverse f) = key_of f.
Proof. reflexivity. Qed.

Lemma keys_rows_reverse rows :
  Permutation (map key_of (frags_of (rows_reverse rows))) (map key_of (frags_of rows)).
Proof.
  rewrite frags_of_reverse, map_map.
  erewrite map_ext by (intro; apply key_of_reverse).
  apply Permutation_map, Permutation_sym, Permutation_rev.
Qed.

Lemma sub_of_input_key input f g :
  key_of f = key_of g -> sub_of_input input f -> sub_of_input input g.
Proof.
  unfold key_of. intros E (c & Hc & H). injection E as E1 E2 E3.
  exists c. rewrite <- E1, <- E2, <- E3. split; assumption.
Qed.

Definition unfound (found : list (fkey * (frag * list rid))) (f : frag) : bool :=
  match aget key_eqb found (key_of f) with Some _ => false | None => true end.

Lemma missing_rows_frags_gen c found g : forall rows between i la,
  frags_of (missing_rows c found g rows between i la) = filter (unfound found) (frags_of rows).
Proof. exact (RemapHead.missing_rows_frags c found g). Qed.

Theorem missing_rows_frags : forall c found g rows,
  frags_of (missing_rows c found g rows [] 0 None)
  = filter (fun f => match aget key_eqb found (key_of f) with Some _ => false | None => true end) (frags_of rows).
Proof. intros. apply missing_rows_frags_gen. Qed.

Definition left_frags (l : list scaffold) : list frag := flat_map (fun sc => frags_of (sc_rows sc)) l.

Lemma add_missing_frags_gen c g found : forall input nm acc nm' left,
  foldM (add_missing_one c g found) input (nm, acc) = Ok (nm', left) ->
  left_frags left = left_frags acc ++ filter (unfound found) (in_frags input).
Proof. exact (RemapHead.add_missing_fold c g found). Qed.

Theorem add_missing_frags : forall c g found input nm nm' left,
  foldM (add_missing_one c g found) input (nm, []) = Ok (nm', left) ->
  flat_map (fun sc => frags_of (sc_rows sc)) left
  = filter (fun f => match aget key_eqb found (key_of f) with Some _ => false | None => true end) (in_frags input).
Proof. intros c g found input nm nm' left H. apply add_missing_frags_gen in H. exact H. Qed.

Lemma left_frags_app a b : left_frags (a ++ b) = left_frags a ++ left_frags b.
Proof. apply flat_map_app. Qed.

Lemma frags_append_rows self othr g :
  frags_of (append_rows self othr g) = frags_of self ++ frags_of othr.
Proof.
  unfold append_rows. destruct g as [g'|], self as [|r self]; rewrite ?frags_of_app; try reflexivity.
Qed.

Lemma fuse_step_frags c g acc sc b :
  Permutation (left_frags (map snd (fuse_step c g acc (sc, b))))
              (left_frags (map snd acc) ++ frags_of (sc_rows sc)).
Proof.
  unfold fuse_step. destruct (sc_rows sc) as [|r0 rows0] eqn:R.
  - cbn [frags_of flat_map]. rewrite app_nil_r. apply Permutation_refl.
  - set (k := (if fix_tag_key c then sc_tag sc else None, sc_hap sc, sc_name sc)).
    set (gg := if b || fix_leftover_gap c then Some g else None).
    destruct (aget fuse_key_eqb acc k) as [bsc|] eqn:G.
    + match goal with |- context [aset fuse_key_eqb acc k ?v] =>
        destruct (aset_found fuse_key_eqb acc k bsc v G) as (l1 & k' & l2 & E1 & E2); rewrite E2 end.
      rewrite E1, !map_app. cbn [map snd]. rewrite !left_frags_app.
      change (left_frags (?x :: ?t)) with (frags_of (sc_rows x) ++ left_frags t).
      cbn [sc_rows]. rewrite frags_append_rows.
      rewrite <- !app_assoc. apply Permutation_app_head. apply Permutation_app_head.
      apply Permutation_app_comm.
    + rewrite (aset_missing fuse_key_eqb acc k _ G), map_app, left_frags_app. cbn [map snd].
      unfold left_frags at 2. cbn [flat_map sc_rows]. rewrite frags_append_rows, app_nil_r.
      apply Permutation_refl.
Qed.

Lemma fuse_fold_frags c g : forall pieces acc,
  Permutation (left_frags (map snd (fold_left (fuse_step c g) pieces acc)))
              (left_frags (map snd acc) ++ flat_map (fun p => frags_of (sc_rows (fst p))) pieces).
Proof.
  induction pieces as [|[sc b] pieces IH]; intro acc; cbn [fold_left flat_map fst].
  - rewrite app_nil_r. apply Permutation_refl.
  - eapply perm_trans; [apply IH|]. rewrite app_assoc. apply Permutation_app_tail, fuse_step_frags.
Qed.

Lemma result_frags_mapM store : forall ids results,
  mapM (get_ovr store) ids = Ok results ->
  flat_map (fun id => match get_ovr store id with Ok r => frags_of (o_rows r) | Err _ => [] end) ids
  = flat_map (fun r => frags_of (o_rows r)) results.
Proof.
  induction ids as [|id ids IH]; intros results H; cbn [mapM] in H.
  - injection H as <-. reflexivity.
  - destruct (get_ovr store id) as [r|] eqn:G; cbn [bind] in H; [|discriminate].
    destruct (mapM (get_ovr store) ids) as [rs'|]; cbn [bind] in H; [|discriminate].
    injection H as <-. cbn [flat_map]. rewrite G, (IH _ eq_refl). reflexivity.
Qed.

Lemma keys_to_scaffold_rows r :
  Permutation (map key_of (frags_of (to_scaffold_rows r))) (map key_of (frags_of (o_rows r))).
Proof.
  unfold to_scaffold_rows. destruct (f_strand (o_bait r) =? -1); [apply keys_rows_reverse | apply Permutation_refl].
Qed.

Theorem fuse_all_keys : forall c g rs fused, fuse_all c g rs = Ok fused ->
  Permutation (map key_of (flat_map (fun sc => frags_of (sc_rows sc)) fused))
              (map key_of (result_frags (rs_b rs) ++ flat_map (fun sc => frags_of (sc_rows sc)) (rs_left rs))).
Proof.
  intros c g rs fused H. unfold fuse_all in H.
  destruct (mapM (get_ovr (b_store (rs_b rs))) (b_added (rs_b rs))) as [results|] eqn:M; cbn [bind] in H; [|discriminate].
  injection H as <-. fold left_frags.
  eapply perm_trans; [apply Permutation_map, fuse_fold_frags|].
  cbn [map left_frags flat_map app]. rewrite flat_map_app, !flat_map_map. cbn [fst piece_of_result sc_rows].
  unfold result_frags. rewrite (result_frags_mapM _ _ _ M). rewrite !map_app.
  apply Permutation_app; [|apply Permutation_refl].
  clear M. induction results as [|r results IH]; cbn [flat_map]; [apply perm_nil|].
  rewrite !map_app. apply Permutation_app; [apply keys_to_scaffold_rows | apply IH].
Qed.

Lemma left_frags_rows l : left_frags l = flat_map frags_of (map sc_rows l).
Proof. unfold left_frags. rewrite flat_map_map. reflexivity. Qed.

Lemma left_frags_same_rows a b : map sc_rows a = map sc_rows b -> left_frags a = left_frags b.
Proof. intro E. rewrite !left_frags_rows, E. reflexivity. Qed.

Lemma name_group_rows prefix n fused g :
  map sc_rows (name_group prefix n fused g) = map sc_rows fused.
Proof.
  unfold name_group.
  apply (fold_left_inv (fun fs => map sc_rows fs = map sc_rows fused)); [|reflexivity].
  intros fs [h hap_set] Hfs.
  apply (fold_left_inv (fun fs => map sc_rows fs = map sc_rows fused)); [|exact Hfs].
  clear fs Hfs. intros fs [[orig idxs] this_chr] Hfs.
  apply (fold_left_inv (fun fs => map sc_rows fs = map sc_rows fused)); [|exact Hfs].
  clear fs Hfs. intros fs i Hfs.
  destruct (nth_error fs i) as [sc|] eqn:N; [|exact Hfs].
  rewrite (map_set_nth_same sc_rows fs i sc _ N); [exact Hfs | reflexivity].
Qed.

Lemma name_chromosomes_rows prefix fused items r :
  name_chromosomes prefix fused items = Ok r -> map sc_rows r = map sc_rows fused.
Proof.
  unfold name_chromosomes. destruct (dedup str_eqb (map fst items)) as [|h0 haps].
  - intro H. injection H as <-. reflexivity.
  - destruct (foldM _ items _) as [st|]; cbn [bind]; [|discriminate].
    destruct (existsb _ _); [discriminate|]. intro H. injection H as <-.
    apply (fold_left_inv (fun s : list scaffold * Z => map sc_rows (fst s) = map sc_rows fused)); [|reflexivity].
    intros [fs n] g Hfs. cbn [fst] in *. rewrite name_group_rows. exact Hfs.
Qed.

(* grouping by assembly key is a partition *)
Definition group_step (acc : list (option str * (bool * list scaffold))) (sc : scaffold) :=
  let '(k, curated) := asm_key_of sc in
  match aget (opt_eqb str_eqb) acc k with
  | Some (cur, scs) => aset (opt_eqb str_eqb) acc k (cur, scs ++ [sc])
  | None => acc ++ [(k, (curated, [sc]))]
  end.

Definition grouped (acc : list (option str * (bool * list scaffold))) : list scaffold :=
  flat_map (fun e => snd (snd e)) acc.

Lemma group_step_perm acc sc : Permutation (grouped (group_step acc sc)) (grouped acc ++ [sc]).
Proof.
  unfold group_step. destruct (asm_key_of sc) as [k curated].
  destruct (aget (opt_eqb str_eqb) acc k) as [[cur scs]|] eqn:G.
  - destruct (aset_found (opt_eqb str_eqb) acc k (cur, scs) (cur, scs ++ [sc]) G) as (l1 & k' & l2 & E1 & E2).
    rewrite E2, E1. unfold grouped. rewrite !flat_map_app. cbn [flat_map snd].
    rewrite <- !app_assoc. apply Permutation_app_head. apply Permutation_app_head.
    apply Permutation_app_comm.
  - unfold grouped. rewrite flat_map_app. cbn [flat_map snd]. rewrite app_nil_r. apply Permutation_refl.
Qed.

Lemma group_fold_perm : forall l acc,
  Permutation (grouped (fold_left group_step l acc)) (grouped acc ++ l).
Proof.
  induction l as [|sc l IH]; intro acc; cbn [fold_left].
  - rewrite app_nil_r. apply Permutation_refl.
  - eapply perm_trans; [apply IH|].
    change (sc :: l) with ([sc] ++ l). rewrite app_assoc. apply Permutation_app_tail, group_step_perm.
Qed.

Lemma sort_groups_perm : forall (asms0 : list (option str * (bool * list scaffold))) asms,
  mapM (fun '(k, (curated, scs)) =>
          do sorted <- smart_sort sc_rank sc_name scs; Ok (mkOutAsm k curated sorted)) asms0 = Ok asms ->
  Permutation (flat_map oa_scaffolds asms) (grouped asms0).
Proof.
  induction asms0 as [|[k [curated scs]] asms0 IH]; intros asms H; cbn [mapM] in H.
  - injection H as <-. apply perm_nil.
  - destruct (smart_sort_total sc_rank sc_name scs) as (r & E & P). rewrite E in H. cbn [bind] in H.
    destruct (mapM _ asms0) as [asms'|]; cbn [bind] in H; [|discriminate].
    injection H as <-. unfold grouped. cbn [flat_map oa_scaffolds snd].
    apply Permutation_app; [exact P | apply IH; reflexivity].
Qed.

Lemma out_frags_left o : out_frags o = left_frags (flat_map oa_scaffolds (out_asms o)).
Proof.
  unfold out_frags, left_frags. induction (out_asms o) as [|a l IH]; [reflexivity|].
  cbn [flat_map]. rewrite flat_map_app, IH. reflexivity.
Qed.

(* the binds of assemblies_with_scaffolds_fused *)
Lemma assemblies_stages c g prefix input rs o :
  assemblies_with_scaffolds_fused c g prefix input rs = Ok o ->
  exists fused0 fused asms stt,
    fuse_all c g rs = Ok fused0
    /\ (let fused1 := map (fun sc => if (sc_rank sc =? 2) && negb (starts_with prefix (sc_name sc))
                                     then with_name sc (prefix ++ sc_name sc) else sc) fused0 in
        name_chromosomes prefix fused1
          (flat_map (fun '(i, sc) => if sc_rank sc =? 1 then [(hap_str (fst (asm_key_of sc)), i)] else [])
                    (combine (seq 0 (length fused1)) fused1)) = Ok fused)
    /\ mapM (fun '(k, (curated, scs)) =>
               do sorted <- smart_sort sc_rank sc_name scs; Ok (mkOutAsm k curated sorted))
            (fold_left group_step fused []) = Ok asms
    /\ make_stats c (number_input input 0) asms = Ok stt
    /\ o = mkOut asms (b_cuts (rs_b rs)) (fst (fst stt)) (snd (fst stt)) (snd stt).
Proof.
  unfold assemblies_with_scaffolds_fused. intros H.
  destruct (fuse_all c g rs) as [fused0|]; cbn [bind] in H; [|discriminate].
  match type of H with context [name_chromosomes prefix ?f1 ?it] =>
    destruct (name_chromosomes prefix f1 it) as [fused|] eqn:NC end;
    cbn [bind] in H; [|discriminate].
  match type of H with context [mapM ?f ?a0] =>
    destruct (mapM f a0) as [asms|] eqn:MM end; cbn [bind] in H; [|discriminate].
  destruct (make_stats _ _ _) as [[[breaks joins] per]|] eqn:MS; cbn [bind] in H; [|discriminate].
  injection H as <-. exists fused0, fused, asms, (breaks, joins, per).
  split; [reflexivity|]. split; [exact NC|]. split; [exact MM|]. split; [exact MS | reflexivity].
Qed.

Lemma assemblies_out_perm : forall c g prefix input rs o,
  assemblies_with_scaffolds_fused c g prefix input rs = Ok o ->
  exists fused0 fused, fuse_all c g rs = Ok fused0 /\ map sc_rows fused = map sc_rows fused0
    /\ Permutation (flat_map oa_scaffolds (out_asms o)) fused.
Proof.
  intros c g prefix input rs o H.
  destruct (assemblies_stages _ _ _ _ _ _ H) as (fused0 & fused & asms & stt & F & NC & MM & _ & ->).
  exists fused0, fused. split; [exact F|]. cbn [out_asms]. split.
  - rewrite (name_chromosomes_rows _ _ _ _ NC). rewrite map_map.
    apply map_ext. intro sc. destruct (_ && _); reflexivity.
  - eapply perm_trans; [apply (sort_groups_perm _ _ MM)|].
    apply (group_fold_perm fused []).
Qed.

(* every output scaffold has the rows of a scaffold that fuse_all built *)
Lemma out_scaffold_rows c g prefix input rs o a sc :
  assemblies_with_scaffolds_fused c g prefix input rs = Ok o ->
  In a (out_asms o) -> In sc (oa_scaffolds a) ->
  exists fused0 sc0, fuse_all c g rs = Ok fused0 /\ In sc0 fused0 /\ sc_rows sc = sc_rows sc0.
Proof.
  intros H Ha Hsc. destruct (assemblies_out_perm _ _ _ _ _ _ H) as (fused0 & fused & F & R & P).
  assert (Hin : In sc fused).
  { eapply Permutation_in; [exact P|]. apply in_flat_map. exists a. split; assumption. }
  assert (Hr : In (sc_rows sc) (map sc_rows fused0)) by (rewrite <- R; apply in_map; exact Hin).
  apply in_map_iff in Hr. destruct Hr as (sc0 & E & Hsc0).
  exists fused0, sc0. split; [exact F|]. split; [exact Hsc0 | symmetry; exact E].
Qed.

Lemma remap_stages c g prefix bpt input pretext o :
  remap c g prefix bpt input pretext = Ok o ->
  exists rs, remap_to_input c g prefix bpt input pretext = Ok rs
    /\ assemblies_with_scaffolds_fused c g prefix input rs = Ok o.
Proof.
  unfold remap. intros H.
  destruct (remap_to_input c g prefix bpt input pretext) as [rs|]; cbn [bind] in H; [|discriminate].
  exists rs. split; [reflexivity | exact H].
Qed.

Theorem assemblies_keys : forall c g prefix input rs o,
  assemblies_with_scaffolds_fused c g prefix input rs = Ok o ->
  Permutation (map key_of (out_frags o))
              (map key_of (result_frags (rs_b rs) ++ flat_map (fun sc => frags_of (sc_rows sc)) (rs_left rs))).
Proof.
  intros c g prefix input rs o H.
  destruct (assemblies_out_perm _ _ _ _ _ _ H) as (fused0 & fused & F & R & P).
  eapply perm_trans; [|apply (fuse_all_keys _ _ _ _ F)].
  apply Permutation_map. rewrite out_frags_left. fold (left_frags fused0).
  rewrite <- (left_frags_same_rows _ _ R). apply flat_map_perm, P.
Qed.

Lemma number_input_keys : forall input n, map key_of (in_frags (number_input input n)) = map key_of (in_frags input).
Proof. intros input n. apply (RemapHead.number_input_spec input n). Qed.

Lemma set_nth_same {A} : forall (l : list A) i x, nth_error l i = Some x -> set_nth l i x = l.
Proof.
  induction l as [|y l IH]; intros [|i] x H; cbn in *; try discriminate.
  - injection H as ->. reflexivity.
  - rewrite (IH i x H). reflexivity.
Qed.

Lemma rename_results_rows : forall store ids store', rename_results store ids = Ok store' ->
  map o_rows store' = map o_rows store.
Proof. exact RemapHead.rename_results_rows. Qed.

(* Without well-formed input contigs the statement is false: an input contig
   with start > end that no bait finds is copied to the output, and
   [sub_of_input] demands start <= end of every output fragment. *)
Definition cex_input : list (str * list row) := [(s "sc", [RF (mkFrag 0 (s "c") 5 3 1 [])])].
Definition cex_rs : run_state :=
  mkRun (mkB [] [] [] [] (new_namer (s "SUPER_")) 0)
        [mkScaffold (s "sc") [RF (mkFrag 0 (s "c") 5 3 1 [])] None None 3 None []].

Lemma remap_tail_needs_wf :
  exists o,
    Post cex_input (rs_b cex_rs)
    /\ map key_of (flat_map (fun sc => frags_of (sc_rows sc)) (rs_left cex_rs))
       = map key_of (filter (fun f => negb (is_found (rs_b cex_rs) f)) (in_frags cex_input))
    /\ assemblies_with_scaffolds_fused repaired (mkGap 200 (s "scaffold")) (s "SUPER_") cex_input cex_rs = Ok o
    /\ ~ conserved cex_input o.
Proof.
  eexists. split; [|split; [|split]].
  - split; [intros; reflexivity | constructor].
  - reflexivity.
  - vm_compute. reflexivity.
  - intros [_ F]. cbn in F. inversion F as [|? ? (c & Hc & _ & _ & W & _) _]. cbn in W. lia.
Qed.

(* [stats_input] only feeds make_stats: in [remap] it is the un-numbered input
   while [Post] speaks about the numbered one *)
Theorem remap_tail_gen : forall c g prefix input stats_input rs o,
  Forall (fun f => f_start f <= f_end f) (in_frags input) ->     (* first half of input_ok; see remap_tail_needs_wf *)
  Post input (rs_b rs) ->
  map key_of (flat_map (fun sc => frags_of (sc_rows sc)) (rs_left rs))
    = map key_of (filter (fun f => negb (is_found (rs_b rs) f)) (in_frags input)) ->
  assemblies_with_scaffolds_fused c g prefix stats_input rs = Ok o ->
  conserved input o.
Proof.
  intros c g prefix input stats_input rs o WF [PC PS] L H.
  pose proof (assemblies_keys _ _ _ _ _ _ H) as K. split.
  - intros n x. rewrite (coverage_perm_keys _ _ n x K), coverage_app, PC.
    rewrite (coverage_same_keys _ _ n x L). apply coverage_filter_split.
  - apply Forall_forall. intros f Hf.
    assert (Hk : In (key_of f) (map key_of (out_frags o))) by (apply in_map, Hf).
    eapply Permutation_in in Hk; [|exact K].
    apply in_map_iff in Hk. destruct Hk as (f' & Ek & Hf'). apply in_app_or in Hf'.
    apply (sub_of_input_key input f' f Ek). destruct Hf' as [Hr|Hl].
    + rewrite Forall_forall in PS. apply PS, Hr.
    + assert (Hk : In (key_of f') (map key_of (flat_map (fun sc => frags_of (sc_rows sc)) (rs_left rs))))
        by (apply in_map, Hl).
      rewrite L in Hk. apply in_map_iff in Hk. destruct Hk as (c0 & Ec & Hc).
      apply filter_In in Hc. destruct Hc as [Hc _].
      apply (sub_of_input_key input c0 f' Ec).
      rewrite Forall_forall in WF. specialize (WF c0 Hc). cbv beta in WF.
      exists c0. repeat split; try assumption; lia.
Qed.

Theorem remap_tail : forall c g prefix input rs o,
  Forall (fun f => f_start f <= f_end f) (in_frags input) ->     (* extra hypothesis; see remap_tail_needs_wf *)
  Post input (rs_b rs) ->
  map key_of (flat_map (fun sc => frags_of (sc_rows sc)) (rs_left rs))
    = map key_of (filter (fun f => negb (is_found (rs_b rs) f)) (in_frags input)) ->
  assemblies_with_scaffolds_fused c g prefix input rs = Ok o ->
  conserved input o.
Proof. intros c g prefix input. apply remap_tail_gen. Qed.

Definition qle (a b : frag) : bool :=
  (f_start a <? f_start b) || ((f_start a =? f_start b) && (f_end a <=? f_end b)).

Lemma qle_trans a b c : qle a b = true -> qle b c = true -> qle a c = true.
Proof. unfold qle. lia. Qed.
Lemma qle_total a b : qle a b = true \/ qle b a = true.
Proof. unfold qle. lia. Qed.

Lemma filter_length_le' {A} (p : A -> bool) l : (length (filter p l) <= length l)%nat.
Proof. induction l as [|x l IH]; cbn [filter length]; [lia|]. destruct (p x); cbn [length]; lia. Qed.

Lemma filter_length_all {A} (p : A -> bool) l :
  length (filter p l) = length l -> Forall (fun x => p x = true) l.
Proof.
  induction l as [|x l IH]; cbn [filter length]; intro H; [constructor|].
  destruct (p x) eqn:E; cbn [length] in H.
  - constructor; [exact E | apply IH; lia].
  - pose proof (filter_length_le' p l). lia.
Qed.

Lemma combine_tl_length {A} (l : list A) : length (combine l (tl l)) = pred (length l).
Proof. rewrite combine_length. destruct l; cbn [tl length]; lia. Qed.

(* consecutive elements: end + 1 = next start *)
Fixpoint chain (l : list frag) : Prop :=
  match l with
  | a :: (b :: _) as t => f_end a + 1 = f_start b /\ chain t
  | _ => True
  end.

Fixpoint lastf (a : frag) (t : list frag) : frag :=
  match t with [] => a | b :: t' => lastf b t' end.

Lemma lastf_in : forall t a, In (lastf a t) (a :: t).
Proof. induction t as [|b t IH]; intro a; cbn [lastf]; [left; reflexivity | right; apply IH]. Qed.

Lemma sorted_abut_chain : forall l,
  StronglySorted (fun a b => qle a b = true) l ->
  Forall (fun f => f_start f <= f_end f) l ->
  Forall (fun p : frag * frag => (let '(a, b) := p in abuts a b) = true) (combine l (tl l)) ->
  chain l.
Proof.
  induction l as [|a [|b t] IH]; intros S W AB; cbn [chain]; try exact I.
  cbn [tl combine] in AB. inversion AB as [|? ? Hab AB']; subst.
  inversion S as [|? ? S' Ha]; subst. inversion W as [|? ? Wa W']; subst.
  split; [|apply IH; assumption].
  inversion Ha as [|? ? Hab' _]; subst. inversion W' as [|? ? Wb _]; subst.
  unfold abuts in Hab. unfold qle in Hab'. destruct (str_eqb (f_name a) (f_name b)); cbn [negb] in Hab; [|discriminate].
  lia.
Qed.

Lemma chain_cov nm : forall t a,
  chain (a :: t) ->
  Forall (fun f => f_name f = nm /\ f_start f <= f_end f) (a :: t) ->
  f_start a <= f_end (lastf a t)
  /\ sumZ (map f_len (a :: t)) = f_end (lastf a t) - f_start a + 1
  /\ forall n x, coverage (a :: t) n x
                 = if str_eqb nm n && (f_start a <=? x) && (x <=? f_end (lastf a t)) then 1%nat else 0%nat.
Proof.
  induction t as [|b t IH]; intros a C F.
  - pose proof (Forall_inv F) as [Na Wa]. cbv beta in Na, Wa. cbn [lastf map]. rewrite sumZ_cons, sumZ_nil. unfold f_len.
    repeat split; try lia. intros n x. rewrite coverage_cons, coverage_nil. unfold covers. rewrite Na.
    destruct (str_eqb nm n && (f_start a <=? x) && (x <=? f_end a)); reflexivity.
  - pose proof (Forall_inv F) as [Na Wa]. cbv beta in Na, Wa. pose proof (Forall_inv_tail F) as F'.
    destruct C as [Cab C].
    destruct (IH b C F') as (B1 & B2 & B3). cbn [lastf].
    split; [lia|]. split.
    + change (map f_len (a :: b :: t)) with (f_len a :: map f_len (b :: t)). rewrite sumZ_cons, B2. unfold f_len. lia.
    + intros n x. rewrite coverage_cons, B3. unfold covers. rewrite Na.
      destruct (str_eqb nm n); cbn [andb]; [|reflexivity].
      destruct (f_start a <=? x) eqn:E1, (x <=? f_end a) eqn:E2, (f_start b <=? x) eqn:E3,
               (x <=? f_end (lastf b t)) eqn:E4; cbn [andb]; try reflexivity; lia.
Qed.

Theorem qc_partition : forall orig subs,
  f_start orig <= f_end orig ->
  Forall (fun f => f_name f = f_name orig /\ f_start orig <= f_start f /\ f_start f <= f_end f /\ f_end f <= f_end orig) subs ->
  qc_sub_fragments orig subs = Ok tt ->
  forall n x, coverage subs n x = coverage [orig] n x.
Proof.
  intros orig subs Worig F H n x. unfold qc_sub_fragments in H. fold qle in H.
  set (srtd := stable_sort qle subs) in *.
  destruct (f_len orig =? sumZ (map f_len subs)) eqn:ELen; cbn [negb] in H; [|discriminate].
  destruct (negb (zlen (filter (fun '(a, b) => overlaps a b) (combine srtd (tl srtd))) =? 0)); [discriminate|].
  destruct (zlen (filter (fun '(a, b) => abuts a b) (combine srtd (tl srtd))) =? zlen subs - 1) eqn:EAb;
    cbn [negb] in H; [|discriminate].
  clear H.
  assert (P : Permutation srtd subs) by apply ssort_perm.
  assert (Lsub : length srtd = length subs) by (apply Permutation_length, P).
  pose proof (filter_length_le' (fun '(a, b) => abuts a b) (combine srtd (tl srtd))) as Le.
  pose proof (combine_tl_length srtd) as Lc.
  unfold zlen in EAb.
  assert (AB : Forall (fun p : frag * frag => (let '(a, b) := p in abuts a b) = true) (combine srtd (tl srtd))).
  { apply filter_length_all. lia. }
  assert (Fs : Forall (fun f => f_name f = f_name orig /\ f_start orig <= f_start f /\ f_start f <= f_end f /\ f_end f <= f_end orig) srtd)
    by (eapply Permutation_Forall; [apply Permutation_sym, P | exact F]).
  assert (C : chain srtd).
  { apply sorted_abut_chain; [apply ssort_sorted; [apply qle_trans | apply qle_total] | | exact AB].
    eapply Forall_impl; [|exact Fs]. cbv beta. intros f Hf. lia. }
  rewrite <- (coverage_perm _ _ n x P).
  assert (ES : sumZ (map f_len subs) = sumZ (map f_len srtd))
    by (apply sumZ_perm, Permutation_map, Permutation_sym, P).
  destruct srtd as [|a t] eqn:Es.
  { cbn [length] in *. assert (length subs = 0)%nat by lia. lia. }
  destruct (chain_cov (f_name orig) t a C) as (B1 & B2 & B3).
  { eapply Forall_impl; [|exact Fs]. cbv beta. intros f Hf. split; [apply Hf | lia]. }
  rewrite Forall_forall in Fs.
  pose proof (Fs a (or_introl eq_refl)) as (_ & Ha & _ & _).
  pose proof (Fs _ (lastf_in t a)) as (_ & _ & _ & Hz).
  change (f_len orig) with (f_end orig - f_start orig + 1) in ELen.
  assert (f_start a = f_start orig /\ f_end (lastf a t) = f_end orig) as [E1 E2] by lia.
  rewrite B3, E1, E2, coverage_cons, coverage_nil. unfold covers.
  destruct (str_eqb (f_name orig) n && (f_start orig <=? x) && (x <=? f_end orig)); reflexivity.
Qed.

Lemma get_ovr_rows store id :
  match get_ovr store id with Ok r => frags_of (o_rows r) | Err _ => [] end
  = match nth_error (map o_rows store) (Z.to_nat id) with Some rows => frags_of rows | None => [] end.
Proof. unfold get_ovr. rewrite nth_error_map. destruct (nth_error store (Z.to_nat id)); reflexivity. Qed.

Lemma result_frags_ext b b' :
  map o_rows (b_store b') = map o_rows (b_store b) -> b_added b' = b_added b ->
  result_frags b' = result_frags b.
Proof.
  intros E1 E2. unfold result_frags. rewrite E2. apply flat_map_ext. intro id.
  rewrite !get_ovr_rows, E1. reflexivity.
Qed.

(* [Post] only looks at the rows of the results, the added ids and found_fragments *)
Lemma Post_ext input b b' :
  map o_rows (b_store b') = map o_rows (b_store b) -> b_added b' = b_added b -> b_found b' = b_found b ->
  Post input b -> Post input b'.
Proof.
  intros E1 E2 E3 [PC PS]. unfold Post. rewrite (result_frags_ext b b' E1 E2).
  split; [|exact PS]. intros n x. rewrite PC.
  rewrite (filter_ext (is_found b') (is_found b)); [reflexivity|].
  intro f. unfold is_found. rewrite E3. reflexivity.
Qed.

Lemma wf_same_keys : forall a b, map key_of a = map key_of b ->
  Forall (fun f => f_start f <= f_end f) a -> Forall (fun f => f_start f <= f_end f) b.
Proof. intros a b E. apply RemapHead.wf_by_keys. symmetry. exact E. Qed.

Lemma conserved_same_keys i1 i2 o :
  map key_of (in_frags i1) = map key_of (in_frags i2) -> conserved i1 o -> conserved i2 o.
Proof.
  intros E [CC CS]. split.
  - intros n x. rewrite CC. apply coverage_same_keys, E.
  - eapply Forall_impl; [|exact CS]. intros f (c & Hc & H).
    assert (Hk : In (key_of c) (map key_of (in_frags i1))) by (apply in_map, Hc).
    rewrite E in Hk. apply in_map_iff in Hk. destruct Hk as (c2 & Ek & Hc2).
    unfold key_of in Ek. injection Ek as E1 E2 E3.
    exists c2. rewrite E1, E2, E3. split; assumption.
Qed.

Lemma remap_to_input_inv c g prefix bpt input0 pretext rs :
  remap_to_input c g prefix bpt input0 pretext = Ok rs ->
  exists b1 b2 b3,
    foldM (one_pretext_scaffold (number_input input0 0) (error_length bpt)) pretext
          (mkB [] [] [] [] (new_namer prefix) 0) = Ok b1
    /\ discard_loop (S (S (total_rows pretext + length (b_store b1)
                           + length (concat (map o_rows (b_store b1)))))) (error_length bpt) b1 = Ok b2
    /\ cut_remaining_overhangs c b2 = Ok b3
    /\ map o_rows (b_store (rs_b rs)) = map o_rows (b_store b3)
    /\ b_added (rs_b rs) = b_added b3
    /\ b_found (rs_b rs) = b_found b3
    /\ left_frags (rs_left rs) = filter (unfound (b_found b3)) (in_frags (number_input input0 0)).
Proof.
  intros H. destruct (RemapHead.remap_to_input_stages _ _ _ _ _ _ _ H)
    as (_ & b1 & b2 & b3 & st & [nm' left] & E1 & E2 & E3 & E4 & E5 & ->).
  exists b1, b2, b3. cbn [rs_b rs_left fst snd with_namer with_store b_store b_added b_found].
  repeat split; try assumption; try reflexivity.
  - apply (rename_results_rows _ _ _ E4).
  - apply add_missing_frags_gen in E5. exact E5.
Qed.

(* a second way to put the halves together, from [Post] of the state after the cuts
   (C01 itself is RemapFinal.remap_conserves) *)
Theorem remap_conserved_of_post : forall c g prefix bpt input0 pretext o,
  Forall (fun f => f_start f <= f_end f) (in_frags input0) ->
  (forall b1 b2 b3,
     foldM (one_pretext_scaffold (number_input input0 0) (error_length bpt)) pretext
           (mkB [] [] [] [] (new_namer prefix) 0) = Ok b1 ->
     discard_loop (S (S (total_rows pretext + length (b_store b1)
                         + length (concat (map o_rows (b_store b1)))))) (error_length bpt) b1 = Ok b2 ->
     cut_remaining_overhangs c b2 = Ok b3 ->
     Post (number_input input0 0) b3) ->
  remap c g prefix bpt input0 pretext = Ok o ->
  conserved input0 o.
Proof.
  intros c g prefix bpt input0 pretext o WF HP H0.
  destruct (remap_stages _ _ _ _ _ _ _ H0) as (rs & R & H).
  destruct (remap_to_input_inv _ _ _ _ _ _ _ R) as (b1 & b2 & b3 & E1 & E2 & E3 & Er & Ea & Ef & El).
  apply (conserved_same_keys (number_input input0 0) input0 o (number_input_keys input0 0)).
  apply (remap_tail_gen c g prefix (number_input input0 0) input0 rs o).
  - apply (wf_same_keys (in_frags input0)); [symmetry; apply number_input_keys | exact WF].
  - apply (Post_ext _ b3 _ Er Ea Ef), (HP b1 b2 b3 E1 E2 E3).
  - fold (left_frags (rs_left rs)). rewrite El. f_equal. apply filter_ext. intro f.
    unfold unfound, is_found. rewrite Ef. destruct (aget key_eqb (b_found b3) (key_of f)); reflexivity.
  - exact H.
Qed.

Lemma rename_results_nil st : rename_results st [] = Ok st.
Proof. reflexivity. Qed.

Lemma number_input_names : forall input n, map fst (number_input input n) = map fst input.
Proof.
  induction input as [|[name rows] input IH]; intro n; [reflexivity|].
  cbn [number_input]. destruct (number_rows rows n) as [rows' n']. cbn [map fst]. rewrite IH. reflexivity.
Qed.

Lemma has_dup_names_nodup l : NoDup l -> has_dup_names l = false.
Proof.
  induction 1 as [|x l Hx Hl IH]; [reflexivity|].
  cbn [has_dup_names]. rewrite IH, Bool.orb_false_r.
  destruct (mem_str x l) eqn:E; [|reflexivity]. apply mem_str_in in E. contradiction.
Qed.

Lemma has_dup_names_false l : has_dup_names l = false -> NoDup l.
Proof.
  induction l as [|n t IH]; cbn [has_dup_names]; intros H; [constructor|].
  apply Bool.orb_false_iff in H. destruct H as [H1 H2]. constructor; [|apply IH; exact H2].
  intros Hin. apply mem_str_in in Hin. congruence.
Qed.

Print Assumptions coverage_app.
Print Assumptions coverage_perm.
Print Assumptions coverage_same_keys.
Print Assumptions coverage_filter_split.
Print Assumptions sub_of_input_key.
Print Assumptions qc_partition.
Print Assumptions missing_rows_frags.
Print Assumptions add_missing_frags.
Print Assumptions fuse_all_keys.
Print Assumptions assemblies_keys.
Print Assumptions number_input_keys.
Print Assumptions rename_results_rows.
Print Assumptions remap_tail_needs_wf.
Print Assumptions remap_tail_gen.
Print Assumptions remap_tail.
Print Assumptions Post_ext.
Print Assumptions conserved_same_keys.
Print Assumptions remap_to_input_inv.
Print Assumptions remap_conserved_of_post.
