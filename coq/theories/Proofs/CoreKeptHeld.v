(* Deep cuts.  Carried through the overhang resolver next to GoodU:
   - [Held]: a result that holds fragment g as a row is listed under g's key
     in the found table (the membership form of the bookkeeping that
     RemapHead states as a counting equation);
   - the per-result predicate K of Proofs.CoreKeptLookup, which survives every
     discard the pipeline can justify ([just_start] / [just_end] of
     Proofs.CoreKeptGood).
   The resolver loop here is the only one: the plain core clause takes
   K := fun _ => True. *)
From Tola Require Import Py.Base Model.Fragment Model.Scaffold Model.Lookup
  Model.OverlapResult Model.OvrSpec Model.Namer Model.Remap Model.RemapSpec
  Proofs.BaseLemmas Proofs.Rows Proofs.Lookup Proofs.OverlapResult Proofs.RemapHead Proofs.PipelineInv
  Proofs.CoreKeptGood Proofs.CoreKeptResolver.
From Tola Require Export Proofs.CoreKeptLookup.
From Coq Require Import Lia ZifyBool.

Lemma fix_why_just err st pl p r :
  fix_why err st pl p -> get_ovr st (pr_rid p) = Ok r ->
  match pr_kind p with PStart => just_start err r | PEnd => just_end err r end.
Proof.
  intros [Hi | (q & v & _ & Hov & Hlt)] Hg.
  - destruct (improves_overhang _ _ _ _ Hi Hg) as (Hz & v & Hv & Hgt).
    destruct (pr_kind p); right; (split; [exact Hz|]); exists v; split; assumption.
  - unfold p_bait_overlap in Hov. rewrite Hg in Hov. cbn [bind] in Hov.
    destruct (pr_kind p); left; exists v; split; assumption.
Qed.

Definition listed (found : list (fkey * (frag * list rid))) (k : fkey) (id : rid) : Prop :=
  exists f0 ids, aget key_eqb found k = Some (f0, ids) /\ In id ids.

Definition Held (st : list ovr) (found : list (fkey * (frag * list rid))) : Prop :=
  forall id r g, 0 <= id -> get_ovr st id = Ok r -> In (RF g) (o_rows r) ->
    listed found (key_of g) id.

Lemma aget_aset_same {V} (d : list (fkey * V)) k v : aget key_eqb (aset key_eqb d k v) k = Some v.
Proof.
  induction d as [|[k' v'] d IH]; cbn [aset aget].
  - rewrite key_eqb_refl. reflexivity.
  - destruct (key_eqb k k') eqn:E; cbn [aget]; rewrite E; [reflexivity | exact IH].
Qed.

Lemma store_found_one_mono id g found multi found' multi' k id0 :
  listed found k id0 -> store_found_one id (found, multi) g = (found', multi') ->
  listed found' k id0.
Proof.
  intros (f0 & ids & Hg & Hin) H. unfold store_found_one in H.
  destruct (aget key_eqb found (key_of g)) as [[f1 ids1]|] eqn:E.
  - injection H as <- _. destruct (key_eqb k (key_of g)) eqn:Ek.
    + apply key_eqb_eq in Ek. subst k. rewrite E in Hg. injection Hg as <- <-.
      exists f1, (ids1 ++ [id]). split; [apply aget_aset_same|]. apply in_or_app. left. exact Hin.
    + apply key_eqb_neq in Ek. exists f0, ids. split; [|exact Hin].
      rewrite (aget_aset_other key_eqb key_eqb_eq) by exact Ek. exact Hg.
  - injection H as <- _. exists f0, ids. split; [|exact Hin].
    apply (aget_app_Some key_eqb). exact Hg.
Qed.

Lemma store_found_one_reg id g found multi found' multi' :
  store_found_one id (found, multi) g = (found', multi') -> listed found' (key_of g) id.
Proof.
  intros H. unfold store_found_one in H.
  destruct (aget key_eqb found (key_of g)) as [[f1 ids1]|] eqn:E.
  - injection H as <- _. exists f1, (ids1 ++ [id]). split; [apply aget_aset_same|].
    apply in_or_app. right. left. reflexivity.
  - injection H as <- _. exists g, [id]. split; [|left; reflexivity].
    rewrite (aget_app_None key_eqb) by exact E. cbn [fst snd]. rewrite key_eqb_refl. reflexivity.
Qed.

Lemma store_found_fold_mono id k id0 : forall gs found multi found' multi',
  listed found k id0 -> fold_left (store_found_one id) gs (found, multi) = (found', multi') ->
  listed found' k id0.
Proof.
  induction gs as [|g gs IH]; intros found multi found' multi' Hl H; cbn [fold_left] in H.
  - injection H as <- _. exact Hl.
  - destruct (store_found_one id (found, multi) g) as [f1 m1] eqn:E1.
    eapply IH; [|exact H]. eapply store_found_one_mono; eassumption.
Qed.

Lemma store_found_fold_reg id : forall gs found multi found' multi' g,
  In g gs -> fold_left (store_found_one id) gs (found, multi) = (found', multi') ->
  listed found' (key_of g) id.
Proof.
  induction gs as [|g0 gs IH]; intros found multi found' multi' g Hin H; cbn [fold_left] in H; [destruct Hin|].
  destruct (store_found_one id (found, multi) g0) as [f1 m1] eqn:E1.
  destruct Hin as [-> | Hin].
  - eapply store_found_fold_mono; [|exact H]. eapply store_found_one_reg. exact E1.
  - eapply IH; eassumption.
Qed.

Lemma one_bait_Held inp err tags orig b bait b' :
  Held (b_store b) (b_found b) -> one_bait inp err tags orig b bait = Ok b' ->
  Held (b_store b') (b_found b').
Proof.
  intros HH H. destruct (one_bait_spec _ _ _ _ _ _ _ H)
    as (rows & _ & [[_ ->] | (fo & nm & lab & r1 & _ & _ & _ & Hst & _ & _ & Hcase)]); [exact HH|].
  intros id r g H0 Hg Hin. rewrite Hst in Hg.
  assert (Hlt : id < zlen (b_store b ++ [r1])) by (eapply get_ovr_lt; eassumption).
  rewrite zlen_snoc in Hlt.
  destruct (Z.eq_dec id (zlen (b_store b))) as [-> | Hne].
  - rewrite get_ovr_app_new in Hg. injection Hg as <-.
    destruct Hcase as [(E & _) | (_ & _ & Efm)]; [rewrite E in Hin; destruct Hin|].
    destruct (fold_left _ _ _) as [found' multi'] eqn:Ef. injection Efm as -> _.
    eapply store_found_fold_reg; [|exact Ef]. apply In_frags_of_iff. exact Hin.
  - rewrite get_ovr_app in Hg by lia. pose proof (HH id r g H0 Hg Hin) as Hl.
    destruct Hcase as [(_ & _ & -> & _) | (_ & _ & Efm)]; [exact Hl|].
    destruct (fold_left _ _ _) as [found' multi'] eqn:Ef. injection Efm as -> _.
    eapply store_found_fold_mono; eassumption.
Qed.

Lemma Held_rows_eq st st' found :
  map o_rows st' = map o_rows st -> Held st found -> Held st' found.
Proof.
  intros Hm HH id r' g H0 Hg Hin.
  pose proof (get_ovr_nth_map o_rows _ _ _ Hg) as Hn. rewrite Hm, nth_error_map in Hn.
  destruct (nth_error st (Z.to_nat id)) as [r|] eqn:E; [|discriminate]. cbn [option_map] in Hn.
  injection Hn as Hn. apply (HH id r g H0); [unfold get_ovr; rewrite E; reflexivity|].
  rewrite Hn. exact Hin.
Qed.

Lemma Held_nil found : Held [] found.
Proof. intros id r g _ Hg. unfold get_ovr in Hg. destruct (Z.to_nat id); discriminate. Qed.

Lemma pretext_Held inp err pretext b0 b1 :
  Held (b_store b0) (b_found b0) -> foldM (one_pretext_scaffold inp err) pretext b0 = Ok b1 ->
  Held (b_store b1) (b_found b1).
Proof.
  intros HH0 H0. eapply (foldM_inv _ (fun b => Held (b_store b) (b_found b))); [|exact HH0 | exact H0].
  intros b [pname prows] b' HH H.
  destruct (one_pretext_spec _ _ _ _ _ _ H) as (nm & b2 & st & _ & Hb2 & Hst & ->).
  cbn [with_store b_store b_found].
  apply (Held_rows_eq (b_store b2)); [eapply rename_results_rows; exact Hst|].
  eapply (foldM_inv _ (fun b => Held (b_store b) (b_found b))); [| |exact Hb2]; [|exact HH].
  intros s a s' Hs Hf. exact (one_bait_Held _ _ _ _ _ _ _ Hs Hf).
Qed.

(* rows only shrink *)
Definition shrinks (st st' : list ovr) : Prop :=
  forall id r', 0 <= id -> get_ovr st' id = Ok r' ->
    exists r, get_ovr st id = Ok r /\ incl (o_rows r') (o_rows r).

Lemma shrinks_refl st : shrinks st st.
Proof. intros id r' _ Hg. exists r'. split; [exact Hg | apply incl_refl]. Qed.

Lemma shrinks_trans a b c : shrinks a b -> shrinks b c -> shrinks a c.
Proof.
  intros H1 H2 id r' H0 Hg. destruct (H2 id r' H0 Hg) as (r1 & Hg1 & I1).
  destruct (H1 id r1 H0 Hg1) as (r & Hg0 & I0). exists r. split; [exact Hg0|].
  eapply incl_tran; eassumption.
Qed.

Lemma Held_shrinks st st' found : shrinks st st' -> Held st found -> Held st' found.
Proof.
  intros Hs HH id r' g H0 Hg Hin. destruct (Hs id r' H0 Hg) as (r & Hg0 & I0).
  apply (HH id r g H0 Hg0). apply I0. exact Hin.
Qed.

(* after the fix, the result no longer holds a fragment with the fix's key *)
Definition gone (st : list ovr) (p : premise) : Prop :=
  forall r' g, get_ovr st (pr_rid p) = Ok r' -> In (RF g) (o_rows r') -> key_of g <> pkey p.

Lemma gone_shrinks st st' p : 0 <= pr_rid p -> shrinks st st' -> gone st p -> gone st' p.
Proof.
  intros H0 Hs Hg r' g Hget Hin. destruct (Hs _ _ H0 Hget) as (r & Hg0 & I0).
  apply (Hg r g Hg0). apply I0. exact Hin.
Qed.

Lemma In_remove_first_other x y : forall l, In x l -> x <> y -> In x (remove_first Z.eqb y l).
Proof.
  induction l as [|z l IH]; intros Hin Hne; [destruct Hin|]. cbn [remove_first].
  destruct (y =? z) eqn:E.
  - destruct Hin as [-> | Hin]; [lia | exact Hin].
  - destruct Hin as [-> | Hin]; [left; reflexivity | right; apply IH; assumption].
Qed.

Lemma Held_bookkeeping st : forall fixes found multi found' multi',
  Held st found -> (forall p, In p fixes -> gone st p) ->
  foldM apply_fix_bookkeeping fixes (found, multi) = Ok (found', multi') ->
  Held st found'.
Proof.
  induction fixes as [|p fixes IH]; intros found multi found' multi' HH Hg H; cbn [foldM] in H.
  - injection H as <- _. exact HH.
  - bind_inv H acc Hacc. destruct acc as [found1 multi1].
    eapply IH; [| |exact H]; [|intros q Hq; apply Hg; right; exact Hq].
    unfold apply_fix_bookkeeping in Hacc. fold (pkey p) in Hacc.
    destruct (existsb (key_eqb (pkey p)) multi); [|injection Hacc as <- _; exact HH].
    destruct (aget key_eqb found (pkey p)) as [[f0 ids]|] eqn:Eg; [|discriminate].
    destruct (existsb (Z.eqb (pr_rid p)) ids); [|discriminate].
    injection Hacc as <- _.
    intros id r g H0 Hget Hin. destruct (HH id r g H0 Hget Hin) as (f1 & ids1 & Ha & Hi).
    destruct (key_eqb (key_of g) (pkey p)) eqn:Ek.
    + apply key_eqb_eq in Ek. rewrite Ek in *. rewrite Eg in Ha. injection Ha as <- <-.
      exists f0, (remove_first Z.eqb (pr_rid p) ids). split; [apply aget_aset_same|].
      apply In_remove_first_other; [exact Hi|]. intros ->.
      apply (Hg p (or_introl eq_refl) r g Hget Hin). exact Ek.
    + apply key_eqb_neq in Ek. exists f1, ids1. split; [|exact Hi].
      rewrite (aget_aset_other key_eqb key_eqb_eq) by exact Ek. exact Ha.
Qed.

Lemma NoDup_snoc_notin {A} (a : list A) x : NoDup (a ++ [x]) -> ~ In x a.
Proof.
  intros H Hin. apply (proj2 (proj2 (NoDup_app_inv _ _ H)) x Hin). left. reflexivity.
Qed.

Section Plus.
  Variable inp : list (str * list row).
  Variable err : Z.
  Variable all : list frag.
  Hypothesis Hids : NoDup (map f_id (in_frags inp)).
  Hypothesis Hkeys : NoDup (map key_of (in_frags inp)).
  Hypothesis Hposr : forall name src, In (name, src) inp -> pos_rows src.
  Hypothesis Herr : 1 <= err.
  Hypothesis Hall : Forall (fun b => 1 <= f_start b <= f_end b) all.

  Variable K : ovr -> Prop.
  (* the instances identify the source scaffold of a result through its bait:
     hence the bait, the source and GoodU among the premises *)
  Hypothesis K_ds : forall src r r',
    In (o_bait r) all -> In (f_name (o_bait r), src) inp -> GoodU err src r -> K r ->
    just_start err r -> discard_start r = Ok r' -> K r'.
  Hypothesis K_de : forall src r r',
    In (o_bait r) all -> In (f_name (o_bait r), src) inp -> GoodU err src r -> K r ->
    just_end err r -> discard_end r = Ok r' -> K r'.

  Lemma p_apply_plus st pl p st' :
    SG inp err all st -> KS K st -> PLok st pl -> In p pl ->
    fix_why err st pl p -> p_apply st p = Ok st' ->
    KS K st' /\ shrinks st st' /\ gone st' p.
  Proof.
    intros HS HK (Hv & _ & _) Hin Hwhy Happ.
    rewrite Forall_forall in Hv. pose proof (Hv p Hin) as (H0 & r & Hg & Hk).
    pose proof (fix_why_just _ _ _ _ _ Hwhy Hg) as Hj.
    unfold p_apply in Happ. rewrite Hg in Happ. cbn [bind] in Happ.
    bind_inv Happ r' Hr'. injection Happ as <-.
    pose proof (HS r (get_ovr_In _ _ _ Hg)) as (Ha & src & Hsrc & HG).
    pose proof (HK r (get_ovr_In _ _ _ Hg)) as HKr.
    pose proof (GoodU_rows_nodup key_of _ _ _ (src_nodup_g key_of inp _ _ Hkeys Hsrc) HG) as Hnk.
    assert (G : K r' /\ incl (o_rows r') (o_rows r)
                /\ forall g, In (RF g) (o_rows r') -> key_of g <> pkey p).
    { destruct (pr_kind p) eqn:Ek.
      - destruct Hk as (t & Er). split; [eapply K_ds; eassumption|].
        split; [intros x Hx; eapply discard_start_incl; eassumption|].
        destruct (discard_start_rows _ _ Hr') as (d & gaps & E & Hgp).
        rewrite E in Er. injection Er as -> _. rewrite E in Hnk.
        rewrite frags_of_RF in Hnk. cbn [map] in Hnk. inversion Hnk as [|? ? Hn _]; subst.
        intros g Hin' Eg. apply Hn. unfold pkey in Eg. rewrite <- Eg. apply in_map.
        apply In_frags_of_iff. apply in_or_app. right. exact Hin'.
      - destruct Hk as (t & Er). split; [eapply K_de; eassumption|].
        split; [intros x Hx; eapply discard_end_incl; eassumption|].
        destruct (discard_end_rows _ _ Hr') as (d & gaps & E & Hgp).
        rewrite E in Er. rewrite app_assoc in Er. apply app_inj_tail in Er. destruct Er as [_ ->].
        rewrite E, app_assoc, frags_of_app, map_app in Hnk. cbn [frags_of flat_map app map] in Hnk.
        apply NoDup_snoc_notin in Hnk.
        intros g Hin' Eg. apply Hnk. unfold pkey in Eg. rewrite <- Eg. apply in_map.
        apply In_frags_of_iff. apply in_or_app. left. exact Hin'. }
    destruct G as (G1 & G2 & G3). split; [|split].
    - intros y Hy. apply put_ovr_In in Hy. destruct Hy as [-> | Hy]; [exact G1 | apply HK; exact Hy].
    - intros id r2 Hid Hget. destruct (Z.eq_dec (pr_rid p) id) as [<- | Hne].
      + rewrite (get_put_same _ _ _ _ Hg) in Hget. injection Hget as <-. exists r. split; [exact Hg | exact G2].
      + rewrite get_put_other in Hget by assumption. exists r2. split; [exact Hget | apply incl_refl].
    - intros r2 g Hget Hin'. rewrite (get_put_same _ _ _ _ Hg) in Hget. injection Hget as <-.
      apply G3. exact Hin'.
  Qed.

  Lemma make_fixes_plus : forall pls st st' fixes,
    SG inp err all st -> ForallOrdPairs Rdisj (map o_bait st) -> KS K st ->
    Forall (PLok st) pls -> ForallOrdPairs keys_apart pls ->
    make_fixes err st pls = Ok (st', fixes) ->
    SG inp err all st' /\ map o_bait st' = map o_bait st
    /\ KS K st' /\ shrinks st st' /\ (forall p, In p fixes -> gone st' p).
  Proof.
    induction pls as [|pl pls IH]; intros st st' fixes HS HF HK Hv Hop H; cbn [make_fixes] in H.
    - injection H as <- <-. split; [exact HS|]. split; [reflexivity|]. split; [exact HK|].
      split; [apply shrinks_refl | intros p []].
    - bind_inv H r1 Hr1. destruct r1 as [st1 fx]. bind_inv H r2 Hr2. destruct r2 as [st2 fxs].
      injection H as <- <-.
      inversion Hv as [|? ? Hvpl Hvpls]; subst. inversion Hop as [|? ? Hap Hop']; subst.
      apply fix_one_cases' in Hr1.
      destruct Hr1 as [(-> & ->) | (p & -> & Hpin & Happ & Hwhy)].
      + exact (IH _ _ _ HS HF HK Hvpls Hop' Hr2).
      + destruct (p_apply_good inp err all Hids Hposr Herr Hall _ _ _ _ HS HF Hvpl Hpin Hwhy Happ) as [HS1 HB1].
        assert (HF1 : ForallOrdPairs Rdisj (map o_bait st1)) by (rewrite HB1; exact HF).
        destruct (p_apply_plus _ _ _ _ HS HK Hvpl Hpin Hwhy Happ) as (HK1 & Hsh1 & Hgo1).
        pose proof (PLok_after _ _ _ _ _ Hvpl Hpin Hvpls Hap Happ) as Hv1.
        destruct (IH _ _ _ HS1 HF1 HK1 Hv1 Hop' Hr2) as (GS & GB & G1 & G2 & G3).
        split; [exact GS|]. split; [congruence|]. split; [exact G1|].
        split; [eapply shrinks_trans; eassumption|].
        intros q [<- | Hq]; [|apply G3; exact Hq].
        destruct Hvpl as (Hvp & _). rewrite Forall_forall in Hvp. destruct (Hvp p Hpin) as (P0 & _).
        eapply gone_shrinks; eassumption.
  Qed.
  Lemma discard_loop_plus : forall fuel b b',
    RemapHead.Inv inp b -> SG inp err all (b_store b) ->
    ForallOrdPairs Rdisj (map o_bait (b_store b)) -> NDI (b_found b) ->
    KS K (b_store b) -> Held (b_store b) (b_found b) ->
    discard_loop fuel err b = Ok b' ->
    RemapHead.Inv inp b' /\ SG inp err all (b_store b')
    /\ map o_bait (b_store b') = map o_bait (b_store b)
    /\ KS K (b_store b') /\ Held (b_store b') (b_found b') /\ NDI (b_found b').
  Proof.
    intros fuel b b' HI HS HF Hndi HK HH H.
    set (Q := fun b0 => RQ inp err all b0 /\ KS K (b_store b0) /\ Held (b_store b0) (b_found b0)).
    assert (G : RemapHead.Inv inp b' /\ Q b').
    { apply (discard_loop_rule inp Hids err Q) with (fuel := fuel) (b := b);
        [|exact HI | exact (conj (conj HS (conj HF Hndi)) (conj HK HH)) | exact H].
      intros b0 pls st fixes HI0 ((HS0 & HF0 & Hndi0) & HK0 & HH0) Hpls pls' Hr G1 G2 _ _ _.
      pose proof (PLok_round b0 pls Hndi0 Hpls G1) as Hok.
      destruct (make_fixes_plus _ _ _ _ HS0 HF0 HK0 Hok G2 Hr) as (HS' & HB' & HK' & Hsh & Hgo).
      pose proof (Held_shrinks _ _ _ Hsh HH0) as HH'.
      assert (HF' : ForallOrdPairs Rdisj (map o_bait st)) by (rewrite HB'; exact HF0).
      split; [intros _ | intros found' multi' _ Hfm _]; unfold Q, RQ; cbn [with_store b_store b_found].
      - exact (conj (conj HS' (conj HF' Hndi0)) (conj HK' HH')).
      - split; [split; [exact HS' | split; [exact HF' | exact (NDI_bookkeeping _ _ _ _ _ Hndi0 Hfm)]]|].
        split; [exact HK' | exact (Held_bookkeeping _ _ _ _ _ _ HH' Hgo Hfm)]. }
    destruct G as (HI' & (HS' & _ & Hndi') & HK' & HH').
    split; [exact HI'|]. split; [exact HS'|].
    split; [apply (discard_loop_kept o_bait (fun _ _ _ _ => eq_refl) err fuel b b' H)|].
    split; [exact HK'|]. split; assumption.
  Qed.
End Plus.
