(* From the fused list of a two-haplotype run to the input of MultiHap's
   ChrNamer theorems.  The fused scaffolds come sorted by the position of their
   Pretext scaffold in the map, so the rank-1 ones are the ChrNamer items in
   map order ([items_by_names]); consecutive items h1, h2 pair up into the
   [chrom2] groups of Proofs.MultiHap ([pair_up_explicit]). *)
From Tola Require Import Py.Base Model.Scaffold Model.Remap Proofs.BaseLemmas Proofs.UniqueNames
  Proofs.MultiHap Proofs.ChromosomeNumbersHead.
From Coq Require Import Lia Sorted.

(* h1 h2 h1 h2 ... *)
Fixpoint alternating (h1 h2 : str) (k : nat) : list str :=
  match k with O => [] | S k' => h1 :: h2 :: alternating h1 h2 k' end.

Lemma alternating_in h1 h2 x : forall k, In x (alternating h1 h2 k) -> x = h1 \/ x = h2.
Proof.
  induction k as [|k IH]; cbn [alternating]; [intros []|].
  intros [X|[X|X]]; [left; auto | right; auto | exact (IH X)].
Qed.

Lemma index_of_app_later : forall done x t todo, ~ In x done -> x <> t ->
  (length done < index_of x (done ++ t :: todo))%nat.
Proof.
  induction done as [|y done IH]; intros x t todo NI NE; cbn [app index_of length].
  - destruct (str_eqb x t) eqn:E; [|lia]. apply str_eqb_eq in E. contradiction.
  - destruct (str_eqb x y) eqn:E.
    + apply str_eqb_eq in E. exfalso. apply NI. left. auto.
    + assert (~ In x done) by (intro; apply NI; right; assumption).
      specialize (IH x t todo H NE). lia.
Qed.

(* the i-th item of the map: index i holds a scaffold painted in nm; [l] is the
   fused list from position [a] on, so that the induction below can drop its head *)
Definition at_off (l : list scaffold) (a : nat) (nm : str) (i : nat) : Prop :=
  nm <> [] /\ (a <= i)%nat /\ exists sc, nth_error l (i - a) = Some sc /\ sc_orig sc = Some nm.

Lemma at_off_cons x l a nm i : at_off l (S a) nm i -> at_off (x :: l) a nm i.
Proof.
  intros (N1 & L & sc & Hn & Osc).
  split; [exact N1|]. split; [lia|]. exists sc. split; [|exact Osc].
  replace (i - a)%nat with (S (i - S a)) by lia. exact Hn.
Qed.

(* [done] are the Pretext names already met, [todo] those still to come.  [l] is
   sorted by the position of sc_orig in done ++ todo and holds exactly one rank-1
   scaffold per name of [todo]: its first rank-1 scaffold is therefore painted in
   the head of [todo], and the items come out in the order of [todo]. *)
Lemma items_by_names : forall (hapf : str -> str) (l : list scaffold) (a : nat) (done todo : list str),
  NoDup (done ++ todo) ->
  Forall (fun sc => sc_rank sc = 1 ->
            exists nm, In nm todo /\ nm <> [] /\ sc_orig sc = Some nm /\ hap_str (asm_k sc) = hapf nm) l ->
  StronglySorted le (map (skey (done ++ todo)) l) ->
  (forall i j x y, nth_error l i = Some x -> nth_error l j = Some y ->
     sc_rank x = 1 -> sc_rank y = 1 -> sc_orig x = sc_orig y -> i = j) ->
  (forall nm, In nm todo -> exists sc, In sc l /\ sc_rank sc = 1 /\ sc_orig sc = Some nm) ->
  exists idxs, chr_items_from a l = combine (map hapf todo) idxs /\ Forall2 (at_off l a) todo idxs.
Proof.
  intros hapf. induction l as [|x l IH]; intros a done todo ND F Hs AM AL.
  - destruct todo as [|t todo].
    + exists []. split; [reflexivity|constructor].
    + destruct (AL t (or_introl eq_refl)) as (sc & [] & _).
  - unfold chr_items_from. cbn [length seq combine flat_map]. fold (chr_items_from (S a) l).
    inversion F as [|? ? Fx Fl]; subst. cbn [map] in Hs. inversion Hs as [|? ? Sl Sx]; subst.
    assert (AM' : forall i j x y, nth_error l i = Some x -> nth_error l j = Some y ->
              sc_rank x = 1 -> sc_rank y = 1 -> sc_orig x = sc_orig y -> i = j).
    { intros i j u v Hi Hj Ru Rv E.
      assert (S i = S j) by (apply (AM _ _ u v); auto). lia. }
    destruct (sc_rank x =? 1) eqn:R.
    + apply Z.eqb_eq in R. destruct (Fx R) as (nm & Inm & NE & O & Hh).
      destruct todo as [|t todo]; [destruct Inm|].
      assert (NIt : ~ In t done).
      { intro I. apply NoDup_remove_2 in ND. apply ND. apply in_or_app. left. exact I. }
      assert (nm = t).
      { destruct (AL t (or_introl eq_refl)) as (sc & Isc & Rsc & Osc).
        destruct Isc as [<-|Isc]; [congruence|].
        destruct (list_eq_dec Ascii.ascii_dec nm t) as [|NEt]; [assumption|exfalso].
        rewrite Forall_forall in Sx. specialize (Sx (skey (done ++ t :: todo) sc) (in_map _ _ _ Isc)).
        unfold skey in Sx. rewrite O, Osc in Sx. cbn [pos] in Sx.
        rewrite (index_of_app_new done t todo NIt) in Sx.
        assert (~ In nm done).
        { intro I. destruct Inm as [->|Inm]; [congruence|].
          apply (proj2 (proj2 (NoDup_app_inv _ _ ND)) nm I). right. exact Inm. }
        pose proof (index_of_app_later done nm t todo H NEt). lia. }
      subst nm.
      assert (NDt : ~ In t todo).
      { intro I. apply NoDup_remove_2 in ND. apply ND. apply in_or_app. right. exact I. }
      destruct (IH (S a) (done ++ [t]) todo) as (idxs & E & F2).
      * rewrite <- app_assoc. exact ND.
      * rewrite Forall_forall in Fl |- *. intros sc Isc Rsc.
        destruct (Fl sc Isc Rsc) as (nm & I & NEn & Osc & Hsc). exists nm. repeat split; auto.
        destruct I as [<-|I]; [|exact I]. exfalso.
        apply In_nth_error in Isc as [n Hn].
        assert (0%nat = S n) by (apply (AM _ _ x sc); auto; congruence). discriminate.
      * rewrite <- app_assoc. exact Sl.
      * exact AM'.
      * intros nm I. destruct (AL nm (or_intror I)) as (sc & Isc & Rsc & Osc).
        exists sc. repeat split; auto. destruct Isc as [<-|Isc]; [|exact Isc].
        exfalso. assert (t = nm) by congruence. subst. contradiction.
      * exists (a :: idxs). cbn [map combine app]. rewrite E. split.
        { unfold asm_k in Hh. rewrite Hh. reflexivity. }
        constructor.
        { split; [exact NE|]. split; [lia|]. exists x. rewrite Nat.sub_diag. split; [reflexivity|exact O]. }
        eapply Forall2_impl'; [|exact F2]. intros nm i. apply at_off_cons.
    + assert (R' : sc_rank x <> 1) by (intro X; rewrite X in R; discriminate).
      destruct (IH (S a) done todo) as (idxs & E & F2); auto.
      * intros nm I. destruct (AL nm I) as (sc & Isc & Rsc & Osc).
        exists sc. repeat split; auto. destruct Isc as [<-|Isc]; [contradiction|exact Isc].
      * exists idxs. cbn [app]. split; [exact E|].
        eapply Forall2_impl'; [|exact F2]. intros nm i. apply at_off_cons.
Qed.

(* names and indices two by two: the H1 scaffold of a chromosome and its H2 homologue *)
Notation sub2 := ((str * list nat) * (str * list nat))%type (only parsing).
Fixpoint pairs_of (names : list str) (idxs : list nat) : list sub2 :=
  match names, idxs with
  | n1 :: n2 :: ns, i1 :: i2 :: is' => ((n1, [i1]), (n2, [i2])) :: pairs_of ns is'
  | _, _ => []
  end.

(* pair j: Pretext scaffolds 2j and 2j+1, the fused scaffolds painted in them *)
Definition pair_at (l : list scaffold) (names : list str) (hapf : str -> str) h1 h2 (j : nat) (p : sub2) : Prop :=
  exists n1 i1 n2 i2 s1 s2, p = ((n1, [i1]), (n2, [i2]))
    /\ nth_error names (2 * j) = Some n1 /\ nth_error names (2 * j + 1) = Some n2
    /\ hapf n1 = h1 /\ hapf n2 = h2
    /\ nth_error l i1 = Some s1 /\ sc_orig s1 = Some n1
    /\ nth_error l i2 = Some s2 /\ sc_orig s2 = Some n2.

(* the first three parts are what the ChrNamer theorems of Proofs.MultiHap ask
   for; the last one says which pair is which, for the names of the output *)
Lemma pair_up_explicit : forall (l : list scaffold) (hapf : str -> str) h1 h2 k (names : list str) (idxs : list nat),
  map hapf names = alternating h1 h2 k -> Forall2 (at_off l 0) names idxs ->
  length (pairs_of names idxs) = k
  /\ combine (alternating h1 h2 k) idxs = items_of (map (chrom2 h1 h2) (pairs_of names idxs))
  /\ Forall (fun p => sub_ok l (fst p) /\ sub_ok l (snd p)) (pairs_of names idxs)
  /\ (forall j p, nth_error (pairs_of names idxs) j = Some p -> pair_at l names hapf h1 h2 j p).
Proof.
  intros l hapf h1 h2. induction k as [|k IH]; intros names idxs L F2.
  - destruct names; [|discriminate]. inversion F2; subst. cbn. repeat split; try constructor.
    intros [|j] p H; discriminate.
  - destruct names as [|n1 [|n2 names]]; try discriminate. cbn [map alternating] in L.
    injection L as L1 L2 L.
    inversion F2 as [|? i1 ? idxs1 P1 F2']; subst. inversion F2' as [|? i2 ? idxs2 P2 F2'']; subst.
    destruct (IH names idxs2 L F2'') as (Lp & E & Fp & Hp).
    destruct P1 as (N1 & _ & sc1 & H1 & O1). destruct P2 as (N2 & _ & sc2 & H2 & O2).
    rewrite Nat.sub_0_r in H1, H2.
    cbn [pairs_of]. split; [cbn [length]; lia|]. split; [|split].
    + cbn [alternating combine map]. rewrite E. reflexivity.
    + constructor; [|exact Fp]. cbn [fst snd].
      split; (split; [assumption|]; split; [discriminate|]; constructor; [|constructor]; cbn [fst]).
      * exists sc1. auto.
      * exists sc2. auto.
    + intros [|j] p H; cbn [nth_error] in H.
      * injection H as <-. exists n1, i1, n2, i2, sc1, sc2. repeat split; auto.
      * destruct (Hp j p H) as (m1 & j1 & m2 & j2 & s1 & s2 & -> & A1 & A2 & A3).
        exists m1, j1, m2, j2, s1, s2. split; [reflexivity|].
        replace (2 * S j)%nat with (S (S (2 * j))) by lia.
        replace (S (S (2 * j)) + 1)%nat with (S (S (2 * j + 1))) by lia.
        cbn [nth_error]. auto.
Qed.
