(* C01: composition of the two halves of the pipeline proof; C11: the cut counter. *)
From Tola Require Import Py.Base Model.Fragment Model.Scaffold Model.Lookup Model.OverlapResult
  Model.Namer Model.Remap Model.RemapSpec Proofs.OverlapResult Proofs.RemapHead.
From Tola Require Proofs.RemapTail.
From Coq Require Import Lia ZifyBool Permutation.

Lemma qc_ok : Proofs.RemapHead.qc_partition_ok.
Proof. exact Proofs.RemapTail.qc_partition. Qed.

(* Whenever the remapping completes without an error, the output fragments
   exactly partition the input contigs -- for every input assembly with
   well-formed, pairwise distinct contigs, every Pretext assembly whatsoever,
   every texel size, prefix, join gap and tag combination. *)
Theorem remap_conserves : forall c g prefix bpt input pretext o,
  input_ok input ->
  remap c g prefix bpt input pretext = Ok o ->
  conserved input o.
Proof.
  intros c g prefix bpt input pretext o Hok H0.
  destruct (Proofs.RemapTail.remap_stages _ _ _ _ _ _ _ H0) as (rs & R & H).
  destruct (Proofs.RemapHead.remap_head qc_ok c g prefix bpt input pretext rs Hok R) as [HP HL].
  pose proof (Proofs.RemapTail.number_input_keys input 0) as K.
  apply (Proofs.RemapTail.conserved_same_keys (number_input input 0) input o K).
  apply (Proofs.RemapTail.remap_tail_gen c g prefix (number_input input 0) input rs o); try assumption.
  apply (Proofs.RemapTail.wf_same_keys (in_frags input) (in_frags (number_input input 0))).
  - symmetry. exact K.
  - exact (proj1 Hok).
Qed.

(* the number of output fragments covering a base equals the number of input
   contigs covering it: with disjoint input contigs that is "exactly one" *)
Corollary remap_exactly_once : forall c g prefix bpt input pretext o n x,
  input_ok input ->
  remap c g prefix bpt input pretext = Ok o ->
  coverage (in_frags input) n x = 1%nat ->
  coverage (out_frags o) n x = 1%nat.
Proof.
  intros c g prefix bpt input pretext o n x Hok H C.
  destruct (remap_conserves c g prefix bpt input pretext o Hok H) as [CC _]. rewrite CC. exact C.
Qed.

(* The cut counter (C11): (fragments held by the results) + (left-over fragments)
   = (input contigs) + b_cuts.  Counting analogue of the coverage equation of
   RemapHead.v:  #result fragments = sum over found entries of |ids|  before
   the cuts; a cut of a fragment held by m results adds m - 1 to b_cuts and
   replaces rows one for one.  qc_partition_ok is not needed. *)
(* the number of fragments is the sum of the weight 1 *)
Definition one : fkey -> Z := fun _ => 1.

Lemma length_flat_map_zsum {A B} (h : A -> list B) l :
  Z.of_nat (length (flat_map h l)) = zsum (fun x => Z.of_nat (length (h x))) l.
Proof. induction l as [|a l IH]; cbn [flat_map zsum length]; [reflexivity|]. rewrite app_length. lia. Qed.

Lemma result_count b : Z.of_nat (length (result_frags b)) = ssum one (b_store b) (b_added b).
Proof.
  rewrite result_frags_alt, length_flat_map_zsum. apply zsum_ext. intros id _.
  symmetry. apply zsum_const_len.
Qed.

Lemma fsum_one_nil found : tsum one [] found = Z.of_nat (length found).
Proof. unfold tsum. rewrite <- zsum_const_len. apply zsum_ext. intros e _. reflexivity. Qed.

Lemma one_pretext_cuts inp err b psc b' :
  one_pretext_scaffold inp err b psc = Ok b' -> b_cuts b' = b_cuts b.
Proof.
  destruct psc as [pname prows]. intros H.
  destruct (one_pretext_spec _ _ _ _ _ _ H) as (nm & b1 & st & _ & Hb1 & _ & ->).
  cbn [with_store b_cuts].
  eapply (foldM_inv _ (fun s => b_cuts s = b_cuts b)); [| | exact Hb1]; [|reflexivity].
  intros s a s' Hs Hf. rewrite <- Hs.
  destruct (one_bait_spec _ _ _ _ _ _ _ Hf) as (rows & _ & [(_ & ->) | (fo & nm' & lab & r1 & _ & _ & _ & _ & _ & E & _)]);
    [reflexivity | exact E].
Qed.

Lemma discard_loop_cuts err : forall fuel b b', discard_loop fuel err b = Ok b' -> b_cuts b' = b_cuts b.
Proof.
  induction fuel as [|fuel IH]; intros b b' H; cbn [discard_loop] in H; [discriminate|].
  destruct (b_multi b); [injection H as <-; reflexivity|].
  bind_inv H pls Hpls. bind_inv H r Hr. destruct r as [st fixes].
  destruct fixes; [injection H as <-; reflexivity|].
  bind_inv H fm Hfm. destruct fm as [found' multi']. apply IH in H. exact H.
Qed.

Section Cuts.
  Variable inp : list (str * list row).
  Hypothesis Hids : NoDup (map f_id (in_frags inp)).
  Hypothesis Hpos : Forall (fun f => 0 <= f_id f) (in_frags inp).

  (* through the cuts the number of result fragments stays [total], and b_cuts
     plus the entries still to cut, each counted once per holder, makes [total] *)
  Definition CntInv (total : Z) (todo : list fkey) (b : bstate) : Prop :=
    store_cut inp (b_store b) /\ AddedOk (b_store b) (b_added b)
    /\ FInv inp (b_added b) (b_found b) (b_multi b)
    /\ ssum one (b_store b) (b_added b) = total
    /\ b_cuts b + tsum one todo (b_found b) = total.

  Lemma cut_fragments_cnt c total todo b k b' :
    CntInv total (k :: todo) b -> ~ In k todo -> cut_fragments c b k = Ok b' ->
    CntInv total todo b' /\ b_found b' = b_found b.
  Proof.
    intros (C1 & (A1 & A2) & HF & C4 & C5) Hn H.
    destruct (cut_fragments_parts inp Hids Hpos c b k b' C1 (conj A1 A2) HF H)
      as (f & ids & st & subs & Eg & K1 & K2 & -> & Hu & T1 & T2 & T3 & T4 & T5).
    split; [|reflexivity]. unfold CntInv. cbn [b_store b_added b_found b_multi b_cuts].
    split; [exact T1|]. split; [split; [exact A1 | unfold zlen; rewrite T2; exact A2]|]. split; [exact HF|].
    pose proof (T5 one) as Ht5. rewrite zsum_const_len in Ht5.
    destruct HF as (F1 & _). rewrite (tsum_step one todo _ k f ids F1 Eg Hn) in C5.
    unfold zlen, one in *. unfold rid in *. rewrite T3 in *. split; lia.
  Qed.

  Lemma cut_fold_cnt c total : forall todo b b',
    NoDup todo -> CntInv total todo b -> foldM (cut_fragments c) todo b = Ok b' ->
    CntInv total [] b' /\ b_found b' = b_found b.
  Proof.
    induction todo as [|k todo IH]; intros b b' Hnd HC H; cbn [foldM] in H.
    - injection H as <-. split; [exact HC | reflexivity].
    - bind_inv H b1 Hb1. inversion Hnd as [|? ? Hn Hnd']; subst.
      destruct (cut_fragments_cnt c total todo b k b1 HC Hn Hb1) as (HC1 & E1).
      destruct (IH _ _ Hnd' HC1 H) as (HC2 & E2). split; [exact HC2 | congruence].
  Qed.
End Cuts.

Lemma found_count inp b : NoDup (map key_of (in_frags inp)) -> Inv inp b ->
  length (b_found b) = length (filter (is_found b) (in_frags inp)).
Proof.
  intros Hkeys (_ & _ & (F1 & _ & F3 & _) & _).
  rewrite <- (map_length fst (b_found b)), <- (map_length key_of (filter _ _)).
  apply Permutation_length, found_keys_perm; [exact Hkeys | exact F1|].
  eapply Forall_impl; [|exact F3]. intros e (K1 & K2 & _). split; assumption.
Qed.

Lemma filter_split_length {A} (p : A -> bool) l :
  (length (filter p l) + length (filter (fun x => negb (p x)) l) = length l)%nat.
Proof. induction l as [|x l IH]; cbn [filter length]; [reflexivity|]. destruct (p x); cbn [negb length]; lia. Qed.

Theorem cuts_spec_head : forall c g prefix bpt input pretext rs,
  input_ok input -> remap_to_input c g prefix bpt input pretext = Ok rs ->
  Z.of_nat (length (result_frags (rs_b rs)))
  + Z.of_nat (length (flat_map (fun sc => frags_of (sc_rows sc)) (rs_left rs)))
  = Z.of_nat (length (in_frags input)) + b_cuts (rs_b rs).
Proof.
  (* b_cuts is 0 and every weight balances after the resolver loop; [CntInv]
     through the cuts; found entries are the found inputs, the left-overs the rest *)
  intros c g prefix bpt input pretext rs (Hwf0 & Hkeys0) H.
  set (inp := number_input input 0).
  destruct (number_input_spec input 0) as (Ek & Hpos & Hids). fold inp in Ek, Hpos, Hids.
  assert (Hkeys : NoDup (map key_of (in_frags inp))) by (rewrite Ek; exact Hkeys0).
  assert (Hlen : length (in_frags inp) = length (in_frags input)).
  { rewrite <- (map_length key_of (in_frags inp)), Ek, map_length. reflexivity. }
  assert (Hwf' : Forall (fun f => f_start f <= f_end f) (in_frags inp)) by (eapply wf_by_keys; eassumption).
  destruct (remap_to_input_stages _ _ _ _ _ _ _ H) as (_ & b1 & b2 & b3 & st & nl & Hb1 & Hb2 & Hb3 & Hst & Hnl & ->).
  fold inp in Hb1, Hnl. cbn [rs_b rs_left].
  assert (I1 : InvW inp (fun _ => True) b1) by (eapply pretext_invW; exact Hb1).
  assert (I2 : InvW inp (fun _ => True) b2) by (eapply discard_loop_invW; [exact Hids | exact I1 | exact Hb2]).
  assert (Z2 : b_cuts b2 = 0).
  { rewrite (discard_loop_cuts _ _ _ _ Hb2).
    eapply (foldM_inv _ (fun s => b_cuts s = 0)); [| | exact Hb1]; [|reflexivity].
    intros s a s' Hs Hf. rewrite (one_pretext_cuts _ _ _ _ _ Hf). exact Hs. }
  destruct I2 as (S2 & A2 & HF & B2). pose proof HF as (F1 & F2 & _).
  assert (HI2 : Inv inp b2).
  { split; [exact S2|]. split; [exact A2|]. split; [exact HF|]. intros n x. apply B2. exact I. }
  unfold cut_remaining_overhangs in Hb3. bind_inv Hb3 b3' Hb3'. injection Hb3 as <-.
  assert (HC : CntInv inp (fsum one (b_found b2)) (b_multi b2) b2).
  { split; [apply store_in_cut; [exact Hwf' | exact S2]|]. split; [exact A2|]. split; [exact HF|].
    split; [apply B2; exact I|]. rewrite Z2, (tsum_multi inp one _ _ _ HF). lia. }
  destruct (cut_fold_cnt inp Hids Hpos c _ _ _ _ F2 HC Hb3') as ((_ & _ & _ & E3 & E4) & E1).
  rewrite fsum_one_nil in E4.
  rewrite result_count. cbn [with_namer with_store b_store b_added b_found b_cuts] in *.
  rewrite (ssum_map _ _ _ _ (rename_results_rows _ _ _ Hst)).
  destruct nl as [nm left]. cbn [fst snd].
  pose proof (add_missing_fold _ _ _ _ _ _ _ _ Hnl) as Hl. unfold left_frags in Hl. cbn [flat_map app] in Hl.
  rewrite Hl, E1.
  assert (Hnf : filter (not_found (b_found b2)) (in_frags inp)
                = filter (fun f => negb (is_found b2 f)) (in_frags inp)).
  { apply filter_ext. intros f. unfold not_found, is_found.
    destruct (aget key_eqb (b_found b2) (key_of f)); reflexivity. }
  rewrite Hnf.
  pose proof (found_count inp b2 Hkeys HI2) as Hfc.
  pose proof (filter_split_length (is_found b2) (in_frags inp)) as Hsp.
  rewrite E1 in E4. unfold rid in *. lia.
Qed.

Print Assumptions cuts_spec_head.

Lemma assemblies_cuts : forall c g prefix input rs o,
  assemblies_with_scaffolds_fused c g prefix input rs = Ok o -> out_cuts o = b_cuts (rs_b rs).
Proof.
  intros c g prefix input rs o H.
  destruct (Proofs.RemapTail.assemblies_stages _ _ _ _ _ _ H) as (f0 & fu & asms & stt & _ & _ & _ & _ & ->).
  reflexivity.
Qed.

Theorem cuts_spec : forall c g prefix bpt input pretext o,
  input_ok input ->
  remap c g prefix bpt input pretext = Ok o ->
  Z.of_nat (length (out_frags o)) = Z.of_nat (length (in_frags input)) + out_cuts o.
Proof.
  intros c g prefix bpt input pretext o Hok H0.
  destruct (Proofs.RemapTail.remap_stages _ _ _ _ _ _ _ H0) as (rs & R & H).
  pose proof (cuts_spec_head c g prefix bpt input pretext rs Hok R) as C.
  pose proof (Proofs.RemapTail.assemblies_keys _ _ _ _ _ _ H) as K.
  apply Permutation_length in K. rewrite !map_length, app_length in K.
  rewrite (assemblies_cuts _ _ _ _ _ _ H). lia.
Qed.
