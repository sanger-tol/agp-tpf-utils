(* str(int) / int(str) round trip for the model in Py/Dec.v *)
From Tola Require Import Py.Base Py.Dec Proofs.BaseLemmas.
From Coq Require Import Decimal DecimalZ DecimalPos Lia.

Lemma chars_of_uint_digits u : forallb is_digit (chars_of_uint u) = true.
Proof.
  induction u; cbn [chars_of_uint forallb]; try reflexivity; rewrite IHu; reflexivity.
Qed.

Lemma uint_of_digits_chars u : uint_of_digits (chars_of_uint u) = Some u.
Proof.
  induction u; cbn [chars_of_uint uint_of_digits]; try reflexivity; rewrite IHu; reflexivity.
Qed.

Lemma chars_of_uint_nil u : chars_of_uint u = [] -> u = Nil.
Proof. destruct u; cbn; intro H; try discriminate H; reflexivity. Qed.

Lemma chars_of_uint_inj u v : chars_of_uint u = chars_of_uint v -> u = v.
Proof.
  intro H. assert (E : uint_of_digits (chars_of_uint u) = uint_of_digits (chars_of_uint v))
    by (rewrite H; reflexivity).
  rewrite !uint_of_digits_chars in E. congruence.
Qed.

Lemma Z_of_digits_chars u : u <> Nil -> Z_of_digits (chars_of_uint u) = Some (Z.of_uint u).
Proof.
  intro Hn. unfold Z_of_digits.
  destruct (chars_of_uint u) eqn:E.
  - apply chars_of_uint_nil in E. contradiction.
  - rewrite <- E, uint_of_digits_chars. reflexivity.
Qed.

Lemma digit_cons_digit c u : is_digit c = true -> exists u', digit_cons c u = Some u'.
Proof.
  unfold is_digit, digit_cons. intro H. apply andb_true_iff in H as [H1 H2].
  apply N.leb_le in H1, H2. remember (code c) as n eqn:En. clear En.
  assert (E : (n = 48 \/ n = 49 \/ n = 50 \/ n = 51 \/ n = 52 \/ n = 53 \/ n = 54 \/ n = 55
               \/ n = 56 \/ n = 57)%N) by lia.
  clear H1 H2. repeat (destruct E as [->|E]; [eexists; reflexivity|]). subst n. eexists; reflexivity.
Qed.

Lemma uint_of_digits_total d : forallb is_digit d = true -> exists u, uint_of_digits d = Some u.
Proof.
  induction d as [|c d IH]; cbn [forallb uint_of_digits]; intro H; [eexists; reflexivity|].
  apply andb_true_iff in H as [Hc Hd]. destruct (IH Hd) as [u ->]. apply digit_cons_digit, Hc.
Qed.

Lemma strip_underscores_digit b c t : is_digit c = true ->
  strip_underscores b (c :: t) = do' r <- strip_underscores true t; Some (c :: r).
Proof.
  intro Hc. cbn [strip_underscores]. rewrite (is_digit_neq c "_" Hc eq_refl), Hc. reflexivity.
Qed.

Lemma strip_underscores_digits_true d :
  forallb is_digit d = true -> strip_underscores true d = Some d.
Proof.
  induction d as [|c d IH]; cbn [forallb]; intro H; [reflexivity|].
  apply andb_true_iff in H as [Hc Hd]. rewrite (strip_underscores_digit _ _ _ Hc), (IH Hd). reflexivity.
Qed.

Lemma strip_underscores_digits d :
  d <> [] -> forallb is_digit d = true -> strip_underscores false d = Some d.
Proof.
  destruct d as [|c d]; [congruence|]. intros _ H.
  cbn [forallb] in H. apply andb_true_iff in H as [Hc Hd].
  rewrite (strip_underscores_digit _ _ _ Hc), (strip_underscores_digits_true d Hd). reflexivity.
Qed.

Lemma lstrip_space_nonspace c t : is_space c = false -> lstrip_space (c :: t) = c :: t.
Proof. intro H. cbn. rewrite H. reflexivity. Qed.

Lemma rstrip_space_last x d :
  x <> [] -> is_space (last x d) = false -> rstrip_space x = x.
Proof.
  intros Hx Hl. unfold rstrip_space.
  rewrite (app_removelast_last d Hx) at 1.
  rewrite rev_app_distr. cbn [List.rev List.app].
  rewrite lstrip_space_nonspace by exact Hl.
  cbn [List.rev]. rewrite rev_involutive. symmetry. apply app_removelast_last. exact Hx.
Qed.

Lemma strip_space_id c t d :
  is_space c = false -> is_space (last (c :: t) d) = false -> strip_space (c :: t) = c :: t.
Proof.
  intros Hc Hl. unfold strip_space. rewrite lstrip_space_nonspace by exact Hc.
  apply rstrip_space_last with (d := d); [discriminate | exact Hl].
Qed.

(* the one step common to zero, positive and negative numbers in int_of_str_of_Z *)
Lemma int_of_str_signed (neg : bool) d : d <> [] -> forallb is_digit d = true ->
  int_of_str (if neg then "-"%char :: d else d)
  = match Z_of_digits d with Some z => Ok (if neg then - z else z) | None => Err ValueError end.
Proof.
  intros Hd H. destruct d as [|c t]; [congruence|].
  pose proof H as Hc. cbn [forallb] in Hc. apply andb_true_iff in Hc as [Hc _].
  assert (Hl : is_space (last (c :: t) c) = false)
    by (apply is_digit_not_space, last_forallb; [discriminate | exact H]).
  unfold int_of_str. destruct neg.
  - rewrite (strip_space_id "-" (c :: t) c eq_refl) by (rewrite last_cons_ne by discriminate; exact Hl).
    change (Ascii.eqb "-" "-") with true. cbv iota beta.
    rewrite Hc, (strip_underscores_digits _ Hd H). reflexivity.
  - rewrite (strip_space_id c t c (is_digit_not_space c Hc) Hl).
    rewrite (is_digit_neq c "-" Hc eq_refl), (is_digit_neq c "+" Hc eq_refl). cbv iota beta.
    rewrite Hc, (strip_underscores_digits _ Hd H). reflexivity.
Qed.

Lemma int_of_str_digits_ok d :
  d <> [] -> forallb is_digit d = true -> exists z, int_of_str d = Ok z.
Proof.
  intros Hd H. rewrite (int_of_str_signed false d Hd H).
  destruct (uint_of_digits_total d H) as [u Hu].
  unfold Z_of_digits. destruct d; [congruence|]. rewrite Hu. eauto.
Qed.

Lemma str_of_Z_nonneg n : 0 <= n ->
  exists u, str_of_Z n = chars_of_uint u /\ u <> Nil /\ Z.of_uint u = n.
Proof.
  intro H. pose proof (DecimalZ.of_to n) as R. unfold str_of_Z.
  destruct n as [|p|p]; [| |lia].
  - exists (D0 Nil). split; [reflexivity|]. split; [discriminate | exact R].
  - exists (Pos.to_uint p). split; [reflexivity|]. split; [apply Unsigned.to_uint_nonnil | exact R].
Qed.

Lemma str_of_Z_digits : forall n, 0 <= n ->
  str_of_Z n <> [] /\ forallb is_digit (str_of_Z n) = true.
Proof.
  intros n H. destruct (str_of_Z_nonneg n H) as (u & -> & Hu & _). split.
  - intro E. apply chars_of_uint_nil in E. contradiction.
  - apply chars_of_uint_digits.
Qed.

Lemma Z_of_digits_str_of_Z : forall n, 0 <= n -> Z_of_digits (str_of_Z n) = Some n.
Proof.
  intros n H. destruct (str_of_Z_nonneg n H) as (u & -> & Hu & <-).
  apply Z_of_digits_chars, Hu.
Qed.

Theorem int_of_str_of_Z : forall z, int_of_str (str_of_Z z) = Ok z.
Proof.
  assert (Hs : forall n (neg : bool), 0 <= n ->
    int_of_str (if neg then "-"%char :: str_of_Z n else str_of_Z n) = Ok (if neg then - n else n)).
  { intros n neg Hn. destruct (str_of_Z_digits n Hn) as [Hne Hd].
    rewrite (int_of_str_signed neg _ Hne Hd), (Z_of_digits_str_of_Z n Hn). reflexivity. }
  intros [|p|p].
  - exact (Hs 0 false (Z.le_refl 0)).
  - exact (Hs (Z.pos p) false (Pos2Z.is_nonneg p)).
  - exact (Hs (Z.pos p) true (Pos2Z.is_nonneg p)).
Qed.

Lemma str_of_Z_inj : forall a b, str_of_Z a = str_of_Z b -> a = b.
Proof.
  intros a b H. pose proof (int_of_str_of_Z a) as Ha. rewrite H, int_of_str_of_Z in Ha.
  congruence.
Qed.

Print Assumptions str_of_Z_digits.
Print Assumptions int_of_str_of_Z.
Print Assumptions Z_of_digits_str_of_Z.
Print Assumptions str_of_Z_inj.
