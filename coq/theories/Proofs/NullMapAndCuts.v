(* Ingredients of C08 and C02: the error length against the texel size, the
   lookup of a bait that covers a whole segment of a scaffold, when
   trim_large_overhangs does nothing, and what trim_fragment returns for the
   first or the last row of a result (the keep flags and the strand handling
   of the Python code; the keep-flag order of the pinned commit is refuted). *)
From Tola Require Import Py.Base Model.Fragment Model.Lookup
  Model.OverlapResult Model.Namer Model.Remap
  Proofs.BaseLemmas Proofs.Rows Proofs.Lookup.
From Tola Require Proofs.OverlapResult.
From Coq Require Import Lia ZifyBool.

Theorem error_length_spec : forall n d, 0 <= n -> 0 < d ->
  d * (error_length (n, d) - 1) <= n < d * error_length (n, d).
Proof.
  intros n d Hn Hd. unfold error_length. cbn [fst snd].
  Z.div_mod_to_equations. lia.
Qed.

Corollary error_length_pos : forall n d, 0 <= n -> 0 < d -> 1 <= error_length (n, d).
Proof.
  intros n d Hn Hd. unfold error_length. cbn [fst snd].
  assert (0 <= n / d) by (apply Z.div_pos; lia). lia.
Qed.

Lemma within_texel n d x : 0 <= n -> 0 < d -> d * x < n -> x < error_length (n, d).
Proof.
  intros Hn Hd H. pose proof (error_length_spec n d Hn Hd) as G.
  assert (L : d * x < d * error_length (n, d)) by lia.
  apply Z.mul_lt_mono_pos_l in L; lia.
Qed.

Definition c1 : frag := mkFrag 0 (s "c1") 1 1000 (-1) [].
Definition wit_store : list ovr :=
  [ mkOvr (mkFrag (-1) (s "S1") 1 500 1 []) 1 1000 [RF c1] [] None None 0 None [];
    mkOvr (mkFrag (-1) (s "S1") 501 1000 1 []) 1 1000 [RF c1] [] None None 0 None [] ].
Definition wit_b : bstate :=
  mkB wit_store [0; 1] [(key_of c1, (c1, [0; 1]))] [key_of c1] (new_namer (s "x")) 0.

Theorem legacy_keep_flags_refuted :
  exists (b : bstate) (k : fkey), cut_fragments (mkCfg false true true true true) b k = Err ValueError
    /\ exists b', cut_fragments repaired b k = Ok b' /\ b_cuts b' = b_cuts b + 1.
Proof.
  exists wit_b, (key_of c1). split.
  - vm_compute. reflexivity.
  - eexists. split.
    + vm_compute. reflexivity.
    + vm_compute. reflexivity.
Qed.

(* the two pieces the repaired code produces are cut at the bait boundary
   500 | 501, in contig coordinates mirrored because the contig is reversed *)
Lemma repaired_cut_pieces :
  exists b', cut_fragments repaired wit_b (key_of c1) = Ok b' /\
    map o_rows (b_store b') =
      [ [RF (mkFrag (-2) (s "c1") 501 1000 (-1) [s "Cut"])];
        [RF (mkFrag (-2) (s "c1") 1 500 (-1) [s "Cut"])] ]
    /\ map o_start (b_store b') = [1; 501] /\ map o_end (b_store b') = [500; 1000].
Proof. eexists. split; [vm_compute; reflexivity|]. vm_compute. auto. Qed.

Lemma rows_len_nonneg rows : pos_rows rows -> 0 <= rows_len rows.
Proof.
  induction 1 as [|r t Hr Ht IH]; [rewrite rows_len_nil; lia|].
  rewrite rows_len_cons. lia.
Qed.

Lemma pre_app_r a x k : pre (a ++ x) (length a + k) = rows_len a + pre x k.
Proof. unfold pre. rewrite firstn_app_2, rows_len_app. reflexivity. Qed.

(* A bait that begins in the first row of the segment [m] of [a ++ m ++ b] and
   ends in or after its last row, both fragments, but does not reach the next row
   of [b], finds exactly [m].  The proof exhibits the row indices i = |a| and
   j = |a| + |t2| of the first and the last row of [m], checks the nine clauses
   of lookup_spec for them and concludes by lookup_spec_unique. *)
Lemma find_overlaps_segment a m b bs be f1 t1 f2 t2 :
  pos_rows (a ++ m ++ b) -> m = RF f1 :: t1 -> m = t2 ++ [RF f2] ->
  rows_len a < bs <= rows_len a + f_len f1 -> bs <= be ->
  rows_len a + rows_len t2 < be -> (b = [] \/ be <= rows_len a + rows_len m) ->
  find_overlaps (a ++ m ++ b) bs be = Ok (Some (mkFound (rows_len a + 1) (rows_len a + rows_len m) m)).
Proof.
  intros Hp E1 E2 [B1 B2] B3 B4 B5.
  set (rows := a ++ m ++ b) in *.
  assert (Hne : rows <> []) by (unfold rows; rewrite E1; destruct a; discriminate).
  assert (Ha : 0 <= rows_len a).
  { apply rows_len_nonneg. unfold rows in Hp. apply pos_rows_app in Hp. tauto. }
  assert (Ht1 : 0 <= rows_len t1).
  { apply rows_len_nonneg. unfold rows in Hp. rewrite E1 in Hp.
    apply pos_rows_app in Hp as [_ Hp]. apply pos_rows_app in Hp as [Hp _]. inversion Hp; assumption. }
  assert (Lm : length m = S (length t2)) by (rewrite E2, app_length; cbn [length]; lia).
  assert (Lr : length rows = (length a + S (length t2) + length b)%nat).
  { unfold rows. rewrite !app_length, Lm. lia. }
  assert (Lf : rows_len m = f_len f1 + rows_len t1) by (rewrite E1, rows_len_cons; reflexivity).
  set (i := length a). set (j := (length a + length t2)%nat).
  assert (Si : pre rows i = rows_len a).
  { unfold i. rewrite <- (Nat.add_0_r (length a)). unfold rows. rewrite pre_app_r, pre_0. lia. }
  assert (Ei : span_end rows i = rows_len a + f_len f1).
  { rewrite span_end_pre. unfold i. replace (S (length a)) with (length a + 1)%nat by lia.
    unfold rows. rewrite pre_app_r, E1. reflexivity. }
  assert (Sj : pre rows j = rows_len a + rows_len t2).
  { unfold j, rows. rewrite pre_app_r, E2, <- app_assoc, pre_app_l, pre_all by lia. reflexivity. }
  assert (Ej : pre rows (S j) = rows_len a + rows_len m).
  { unfold j. replace (S (length a + length t2)) with (length a + length m)%nat by lia.
    unfold rows. rewrite pre_app_r, pre_app_l, pre_all by lia. reflexivity. }
  destruct (find_overlaps_spec rows bs be Hne Hp ltac:(lia)) as (r & Er & Hr).
  rewrite Er. f_equal.
  apply (lookup_spec_unique rows bs be _ _ Hp Hr).
  cbn [lookup_spec fo_rows fo_start fo_end]. exists i, j.
  split; [unfold i, j; lia|]. split.
  { unfold i, j, rows. rewrite skipn_length_app.
    replace (S (length a + length t2) - length a)%nat with (length m) by lia.
    rewrite firstn_length_app. reflexivity. }
  split; [rewrite span_start_pre, Si; lia|]. split; [rewrite span_end_pre, Ej; reflexivity|].
  split. { exists f1. unfold i, rows. rewrite nth_error_app2, Nat.sub_diag, E1 by lia. reflexivity. }
  split. { exists f2. unfold j, rows. rewrite nth_error_app2 by lia.
           replace (length a + length t2 - length a)%nat with (length t2) by lia.
           rewrite E2, <- app_assoc, nth_error_app2, Nat.sub_diag by lia. reflexivity. }
  split. { unfold meets. rewrite span_start_pre, Si, Ei. lia. }
  split. { unfold meets. rewrite span_start_pre, span_end_pre, Sj, Ej. lia. }
  intros k Fk [M1 M2]. apply frag_at_lt in Fk. rewrite span_start_pre in M1. rewrite span_end_pre in M2.
  split.
  - destruct (le_lt_dec i k) as [L|L]; [exact L|]. exfalso.
    assert (G := pre_mono_le rows Hp (S k) i ltac:(unfold i in *; lia)). lia.
  - destruct (le_lt_dec k j) as [L|L]; [exact L|]. exfalso.
    assert (G := pre_mono_le rows Hp (S j) k ltac:(unfold j in *; lia)).
    destruct B5 as [->|B5]; [cbn [length] in Lr; unfold j in *; lia | lia].
Qed.

Theorem whole_scaffold_bait : forall rows E,
  rows <> [] -> pos_rows rows ->
  (exists f t, rows = RF f :: t) -> (exists f t, rows = t ++ [RF f]) ->
  rows_len (removelast rows) < E ->
  find_overlaps rows 1 E = Ok (Some (mkFound 1 (rows_len rows) rows)).
Proof.
  intros rows E Hne Hp (f0 & t0 & H0) (fl & tl & Hl) HE.
  rewrite Hl, removelast_last in HE.
  assert (Htl : 0 <= rows_len tl).
  { apply rows_len_nonneg. rewrite Hl in Hp. apply pos_rows_app in Hp. tauto. }
  assert (H1 : 1 <= f_len f0) by (rewrite H0 in Hp; inversion Hp; assumption).
  pose proof (find_overlaps_segment [] rows [] 1 E f0 t0 fl tl) as G.
  rewrite app_nil_r in G. apply G; try assumption; rewrite ?rows_len_nil; try lia. left. reflexivity.
Qed.

Lemma trim_large_keep r err :
  (start_overhang r <= err \/ exists v, start_row_bait_overlap r = Ok v /\ err <= v) ->
  (end_overhang r <= err \/ exists v, end_row_bait_overlap r = Ok v /\ err <= v) ->
  trim_large_overhangs r err = Ok r.
Proof.
  intros A B. unfold trim_large_overhangs.
  destruct ((zlen (o_rows r) =? 1) && (f_len (o_bait r) >? err)); [reflexivity|].
  assert (A' : (if start_overhang r >? err
                then do ov <- start_row_bait_overlap r; if ov <? err then discard_start r else Ok r
                else Ok r) = Ok r).
  { destruct (start_overhang r >? err) eqn:E; [|reflexivity].
    destruct A as [A|(v & -> & A)]; [lia|]. cbn [bind]. replace (v <? err) with false by lia. reflexivity. }
  rewrite A'. cbn [bind].
  assert (B' : (if end_overhang r >? err
                then do ov <- end_row_bait_overlap r; if ov <? err then discard_end r else Ok r
                else Ok r) = Ok r
               /\ (if end_overhang r >? err then do ov <- end_row_bait_overlap r; Ok r else Ok r) = Ok r).
  { destruct (end_overhang r >? err) eqn:E; [|split; reflexivity].
    destruct B as [B|(v & -> & B)]; [lia|]. cbn [bind]. replace (v <? err) with false by lia. split; reflexivity. }
  destruct B' as [B1 B2]. destruct (o_rows r); [|exact B1].
  destruct (_ && _); [reflexivity | exact B2].
Qed.

Theorem trim_large_noop : forall bait fo err,
  f_start bait = fo_start fo ->
  0 <= err -> fo_end fo - f_end bait <= err ->
  trim_large_overhangs (ovr_of_found bait fo) err = Ok (ovr_of_found bait fo).
Proof.
  intros bait fo err Hs He Ho. apply trim_large_keep; left.
  - unfold start_overhang. cbn [ovr_of_found o_bait o_start]. lia.
  - unfold end_overhang. cbn [ovr_of_found o_bait o_end]. lia.
Qed.

Corollary null_bait_result : forall rows name E strand tags n d,
  rows <> [] -> pos_rows rows -> (exists f t, rows = RF f :: t) -> (exists f t, rows = t ++ [RF f]) ->
  1 <= E -> rows_len (removelast rows) < E -> 0 <= n -> 0 < d ->
  d * (rows_len rows - E) < n ->
  let bait := mkFrag (-1) name 1 E strand tags in
  exists fo, find_overlaps rows 1 E = Ok (Some fo) /\ fo_rows fo = rows /\ fo_start fo = 1
    /\ fo_end fo = rows_len rows
    /\ trim_large_overhangs (ovr_of_found bait fo) (error_length (n, d)) = Ok (ovr_of_found bait fo).
Proof.
  intros rows name E strand tags n d Hne Hp Hf Hl HE1 HE Hn Hd Hr bait.
  exists (mkFound 1 (rows_len rows) rows).
  split; [apply whole_scaffold_bait; assumption|].
  split; [reflexivity|]. split; [reflexivity|]. split; [reflexivity|].
  apply trim_large_noop.
  - reflexivity.
  - assert (G := error_length_pos n d Hn Hd). lia.
  - cbn [fo_end f_end bait]. pose proof (within_texel n d _ Hn Hd Hr). lia.
Qed.


(* what trim_fragment does to a first row that is not also the last row:
   [ds] is how far the start of the result moves *)
Lemma trim_first_inv r f t ks ke new r' :
  o_rows r = RF f :: t -> t <> [] ->
  (forall g, last_opt (o_rows r) = Some (RF g) -> f_id g <> f_id f) ->
  trim_fragment r f ks ke = Ok (new, r') ->
  let ds := if (start_overhang r >? 0) && negb ks then start_overhang r else 0 in
  f_start new = f_start f + (if f_strand f =? 1 then ds else 0)
  /\ f_end new = f_end f - (if f_strand f =? 1 then 0 else ds)
  /\ o_start r' = o_start r + ds /\ o_end r' = o_end r /\ o_rows r' = RF new :: t.
Proof.
  intros Er Ht Hid H.
  destruct (Proofs.OverlapResult.trim_fragment_spec _ _ _ _ _ _ H)
    as (x0 & xl & ds & de & E0 & El & _ & Eds & Ede & _ & _ & En & _ & ->).
  destruct (exists_last Ht) as (t' & x & ->).
  unfold first_row in E0. rewrite Er, py_nth_0 in E0. injection E0 as <-.
  unfold last_row in El. rewrite Er, Proofs.OverlapResult.py_nth_last_cons in El. injection El as <-.
  assert (Hx : row_is x f = false).
  { destruct x as [g|g]; [|reflexivity]. cbn [row_is].
    assert (G : f_id g <> f_id f).
    { apply Hid. rewrite Er. change (RF f :: t' ++ [RF g]) with ((RF f :: t') ++ [RF g]).
      apply last_opt_snoc. }
    lia. }
  cbn [row_is] in Eds. rewrite Z.eqb_refl in Eds. rewrite Hx in Ede, En |- *. cbn [andb] in Eds, Ede.
  subst ds de. rewrite En, Er. cbn [f_start f_end set_span_rows o_start o_end o_rows set_nth].
  destruct (f_strand f =? 1); repeat split; lia.
Qed.

(* ... and to a last row that is not also the first row: [de] is how far the end moves *)
Lemma trim_last_inv r f t ks ke new r' :
  o_rows r = t ++ [RF f] -> t <> [] ->
  (forall g, hd_error (o_rows r) = Some (RF g) -> f_id g <> f_id f) ->
  trim_fragment r f ks ke = Ok (new, r') ->
  let de := if (end_overhang r >? 0) && negb ke then end_overhang r else 0 in
  f_start new = f_start f + (if f_strand f =? 1 then 0 else de)
  /\ f_end new = f_end f - (if f_strand f =? 1 then de else 0)
  /\ o_start r' = o_start r /\ o_end r' = o_end r - de /\ o_rows r' = t ++ [RF new].
Proof.
  intros Er Ht Hid H.
  destruct (Proofs.OverlapResult.trim_fragment_spec _ _ _ _ _ _ H)
    as (x0 & xl & ds & de & E0 & El & _ & Eds & Ede & _ & _ & En & _ & ->).
  destruct t as [|x t']; [congruence|].
  unfold first_row in E0. rewrite Er in E0. cbn [app] in E0. rewrite py_nth_0 in E0. injection E0 as <-.
  unfold last_row in El. rewrite Er, py_nth_m1 in El. injection El as <-.
  assert (Hx : row_is x f = false).
  { destruct x as [g|g]; [|reflexivity]. cbn [row_is].
    assert (G : f_id g <> f_id f) by (apply Hid; rewrite Er; reflexivity).
    lia. }
  cbn [row_is] in Ede, En |- *. rewrite Z.eqb_refl in Ede, En |- *. rewrite Hx in Eds. cbn [andb] in Eds, Ede.
  subst ds de. rewrite En, Er, set_last_snoc. cbn [f_start f_end set_span_rows o_start o_end o_rows].
  destruct (f_strand f =? 1); repeat split; lia.
Qed.

Lemma py_nth_0_app {A} (l : list A) x : exists x0, py_nth (l ++ [x]) 0 = Ok x0.
Proof. destruct l as [|y l]; cbn [app]; rewrite py_nth_0; eauto. Qed.

(* the last row of a result cut back to the end of the bait, the start kept *)
Lemma trim_end_ok r t f :
  o_rows r = t ++ [RF f] -> f_strand f = 1 \/ f_strand f = -1 ->
  0 < end_overhang r < f_len f ->
  let e := end_overhang r in
  let new := mkFrag (-2) (f_name f) (if f_strand f =? 1 then f_start f else f_start f + e)
                    (if f_strand f =? 1 then f_end f - e else f_end f) (f_strand f) (cut_tags (o_bait r)) in
  trim_fragment r f true false
  = Ok (new, set_span_rows r (o_start r) (f_end (o_bait r)) (t ++ [RF new])).
Proof.
  intros Er SF E e new. destruct (py_nth_0_app t (RF f)) as (x0 & F0).
  unfold trim_fragment, first_row, last_row. rewrite Er, F0, py_nth_m1. cbn [bind]. cbv zeta. cbn [row_is].
  rewrite Z.eqb_refl, !Bool.andb_false_r, Bool.orb_true_r. cbn [negb andb].
  fold (end_overhang r). fold e. replace (e >? 0) with true by (unfold e; lia). cbn [andb].
  replace (o_end r - e) with (f_end (o_bait r)) by (unfold e, end_overhang; lia).
  unfold new_frag, strand_ok. unfold f_len in E. subst new.
  destruct SF as [SF|SF]; rewrite SF in *.
  - change (1 =? 1) with true. change (1 =? 0) with false. cbn [negb orb andb].
    replace (f_start f >? f_end f - e) with false by (unfold e; lia).
    cbn [bind]. rewrite set_last_snoc. reflexivity.
  - change (-1 =? 1) with false. change (-1 =? 0) with false. change (-1 =? -1) with true.
    cbn [negb orb andb].
    replace (f_start f + e >? f_end f) with false by (unfold e; lia).
    cbn [bind]. rewrite set_last_snoc. reflexivity.
Qed.

(* ... and the first row cut back to the start of the bait, the end kept; the
   copy counts as made at the end when the result has this one row *)
Lemma trim_start_ok r f t :
  o_rows r = RF f :: t -> (forall x, In x t -> row_is x f = false) ->
  f_strand f = 1 \/ f_strand f = -1 ->
  0 < start_overhang r < f_len f ->
  let m := start_overhang r in
  let new := mkFrag (match t with [] => -2 | _ => -1 end) (f_name f)
                    (if f_strand f =? 1 then f_start f + m else f_start f)
                    (if f_strand f =? 1 then f_end f else f_end f - m) (f_strand f) (cut_tags (o_bait r)) in
  trim_fragment r f false true
  = Ok (new, set_span_rows r (f_start (o_bait r)) (o_end r) (RF new :: t)).
Proof.
  intros Er NI SF E m new.
  assert (LY : exists y, py_nth (RF f :: t) (-1) = Ok y
                         /\ row_is y f = match t with [] => true | _ => false end).
  { destruct (list_snoc_cases t) as [->|(t' & y & ->)].
    - exists (RF f). split; [apply (py_nth_m1 [] (RF f))|]. cbn [row_is]. apply Z.eqb_refl.
    - exists y. split; [apply (py_nth_m1 (RF f :: t') y)|].
      rewrite (NI y) by (apply in_or_app; right; left; reflexivity). destruct t'; reflexivity. }
  destruct LY as (y & LY & RY).
  unfold trim_fragment, first_row, last_row. rewrite Er, py_nth_0, LY. cbn [bind]. cbv zeta. cbn [row_is].
  rewrite Z.eqb_refl, RY, !Bool.andb_false_r. cbn [negb andb orb].
  fold m. replace (m >? 0) with true by (unfold m; lia). cbn [andb].
  replace (o_start r + m) with (f_start (o_bait r)) by (unfold m, start_overhang; lia).
  unfold new_frag, strand_ok. unfold f_len in E. subst new.
  destruct SF as [SF|SF]; rewrite SF in *.
  - change (1 =? 1) with true. change (1 =? 0) with false. cbn [negb orb andb].
    replace (f_start f + m >? f_end f) with false by (unfold m; lia).
    cbn [bind]. destruct t; reflexivity.
  - change (-1 =? 1) with false. change (-1 =? 0) with false. change (-1 =? -1) with true.
    cbn [negb orb andb].
    replace (f_start f >? f_end f - m) with false by (unfold m; lia).
    cbn [bind]. destruct t; reflexivity.
Qed.

Theorem trim_first_exact : forall r f t new r',
  o_rows r = RF f :: t -> t <> [] ->
  (forall g, last_opt (o_rows r) = Some (RF g) -> f_id g <> f_id f) ->
  0 < start_overhang r ->
  trim_fragment r f false true = Ok (new, r') ->
  o_start r' = f_start (o_bait r)
  /\ o_end r' = o_end r
  /\ f_len new = f_len f - start_overhang r
  /\ (if f_strand f =? 1 then f_start new = f_start f + start_overhang r /\ f_end new = f_end f
      else f_end new = f_end f - start_overhang r /\ f_start new = f_start f)
  /\ o_rows r' = RF new :: t.
Proof.
  intros r f t new r' Er Ht Hid Hov H.
  destruct (trim_first_inv r f t false true new r' Er Ht Hid H) as (N1 & N2 & R1 & R2 & R3).
  replace (start_overhang r >? 0) with true in * by lia. cbn [andb negb] in *.
  unfold f_len. unfold start_overhang in *.
  destruct (f_strand f =? 1); repeat split; (exact R3 || lia).
Qed.

Theorem trim_last_exact : forall r f t new r',
  o_rows r = t ++ [RF f] -> t <> [] ->
  (forall g, hd_error (o_rows r) = Some (RF g) -> f_id g <> f_id f) ->
  0 < end_overhang r ->
  trim_fragment r f true false = Ok (new, r') ->
  o_end r' = f_end (o_bait r)
  /\ o_start r' = o_start r
  /\ f_len new = f_len f - end_overhang r
  /\ (if f_strand f =? 1 then f_end new = f_end f - end_overhang r /\ f_start new = f_start f
      else f_start new = f_start f + end_overhang r /\ f_end new = f_end f)
  /\ o_rows r' = t ++ [RF new].
Proof.
  intros r f t new r' Er Ht Hid Hov H.
  destruct (trim_last_inv r f t true false new r' Er Ht Hid H) as (N1 & N2 & R1 & R2 & R3).
  replace (end_overhang r >? 0) with true in * by lia. cbn [andb negb] in *.
  unfold f_len. unfold end_overhang in *.
  destruct (f_strand f =? 1); repeat split; (exact R3 || lia).
Qed.

Theorem trim_first_kept : forall r f t new r',
  o_rows r = RF f :: t -> t <> [] ->
  (forall g, last_opt (o_rows r) = Some (RF g) -> f_id g <> f_id f) ->
  trim_fragment r f true true = Ok (new, r') ->
  f_start new = f_start f /\ f_end new = f_end f /\ o_start r' = o_start r /\ o_end r' = o_end r.
Proof.
  intros r f t new r' Er Ht Hid H.
  destruct (trim_first_inv r f t true true new r' Er Ht Hid H) as (N1 & N2 & R1 & R2 & _).
  rewrite Bool.andb_false_r in *. destruct (f_strand f =? 1); repeat split; lia.
Qed.

Theorem trim_last_kept : forall r f t new r',
  o_rows r = t ++ [RF f] -> t <> [] ->
  (forall g, hd_error (o_rows r) = Some (RF g) -> f_id g <> f_id f) ->
  trim_fragment r f true true = Ok (new, r') ->
  f_start new = f_start f /\ f_end new = f_end f /\ o_start r' = o_start r /\ o_end r' = o_end r.
Proof.
  intros r f t new r' Er Ht Hid H.
  destruct (trim_last_inv r f t true true new r' Er Ht Hid H) as (N1 & N2 & R1 & R2 & _).
  rewrite Bool.andb_false_r in *. destruct (f_strand f =? 1); repeat split; lia.
Qed.

(* where cut_fragments expects the copy of [f] made from [r] to start *)
Lemma start_if_trimmed_first r f t : o_rows r = RF f :: t -> f_strand f = 1 ->
  fragment_start_if_trimmed r f = Ok (f_start f + start_overhang r).
Proof.
  intros Er SF. unfold fragment_start_if_trimmed, first_row. rewrite SF, Er, py_nth_0.
  cbn [bind row_is]. rewrite !Z.eqb_refl. reflexivity.
Qed.

Lemma start_if_trimmed_last r t f : o_rows r = t ++ [RF f] -> f_strand f <> 1 ->
  fragment_start_if_trimmed r f = Ok (f_start f + end_overhang r).
Proof.
  intros Er SF. unfold fragment_start_if_trimmed, last_row.
  replace (f_strand f =? 1) with false by lia. rewrite Er, py_nth_m1.
  cbn [bind row_is]. rewrite Z.eqb_refl. reflexivity.
Qed.

Lemma start_if_trimmed_cases r f : o_rows r <> [] ->
  exists v, fragment_start_if_trimmed r f = Ok v
    /\ (v = f_start f
        \/ v = f_start f + (if f_strand f =? 1 then start_overhang r else end_overhang r)).
Proof.
  intro NE. unfold fragment_start_if_trimmed, first_row, last_row.
  destruct (list_snoc_cases (o_rows r)) as [E|(l & y & E)]; [contradiction|].
  destruct (py_nth_0_app l y) as (x0 & F0). rewrite E, F0, py_nth_m1. cbn [bind].
  destruct (f_strand f =? 1); [destruct (row_is x0 f) | destruct (row_is y f)]; eauto.
Qed.

Theorem start_if_trimmed_agrees : forall r f t new r' st,
  o_rows r = RF f :: t -> t <> [] ->
  (forall g, last_opt (o_rows r) = Some (RF g) -> f_id g <> f_id f) ->
  f_strand f = 1 -> 0 < start_overhang r ->
  fragment_start_if_trimmed r f = Ok st -> trim_fragment r f false true = Ok (new, r') ->
  f_start new = st.
Proof.
  intros r f t new r' st Er Ht Hid Hs Hov Hst H.
  destruct (trim_first_exact r f t new r' Er Ht Hid Hov H) as (_ & _ & _ & G & _).
  rewrite (start_if_trimmed_first r f t Er Hs) in Hst. injection Hst as <-.
  rewrite Hs in G. apply G.
Qed.

(* the mirrored prediction for a reverse (or unstranded) contig at the END of a result *)
Theorem start_if_trimmed_agrees_rev : forall r f t new r' st,
  o_rows r = t ++ [RF f] -> t <> [] ->
  (forall g, hd_error (o_rows r) = Some (RF g) -> f_id g <> f_id f) ->
  f_strand f <> 1 -> 0 < end_overhang r ->
  fragment_start_if_trimmed r f = Ok st -> trim_fragment r f true false = Ok (new, r') ->
  f_start new = st.
Proof.
  intros r f t new r' st Er Ht Hid Hs Hov Hst H.
  destruct (trim_last_exact r f t new r' Er Ht Hid Hov H) as (_ & _ & _ & G & _).
  rewrite (start_if_trimmed_last r t f Er Hs) in Hst. injection Hst as <-.
  replace (f_strand f =? 1) with false in G by lia. apply G.
Qed.

Print Assumptions error_length_spec.
Print Assumptions legacy_keep_flags_refuted.
Print Assumptions whole_scaffold_bait.
Print Assumptions trim_large_noop.
Print Assumptions null_bait_result.
Print Assumptions trim_first_exact.
Print Assumptions trim_last_exact.
Print Assumptions trim_first_kept.
Print Assumptions trim_last_kept.
Print Assumptions start_if_trimmed_agrees.
Print Assumptions start_if_trimmed_agrees_rev.
