(* C02, first clause, for PAINTED maps: the curator paints scaffolds, so baits
   carry the tag "Painted".  The tag changes what the namer does (rank 1, the
   Pretext scaffold name, chromosome grouping later) but not the geometry:
   [Completion.completion_core] is proved for baits whose tag list is [] or
   ["Painted"].

   remap_to_input completes, and the WHOLE pipeline [remap] completes (fusing,
   ChrNamer, sorting, statistics) under three more hypotheses, each shown
   necessary by a computed run: every input contig is on strand +1 or -1
   (make_stats raises on strand 0); a painted Pretext scaffold has a non-empty
   name (ChrNamer raises); the map has no haplotype-shaped names,
   [no_haplotypes pretext] (ChrGroup "Consecutive" error).
   [no_haplotypes input] (contig names) is NOT needed. *)
From Tola Require Import Py.Base Model.Fragment Model.Scaffold Model.Lookup
  Model.OverlapResult Model.Namer Model.Remap Model.RemapSpec
  Proofs.BaseLemmas Proofs.Rows Proofs.OverlapResult Proofs.RemapHead Proofs.PipelineInv Proofs.CoreKept
  Proofs.Junctions Proofs.Routing Proofs.NaturalKey Proofs.Naming Proofs.UniqueNames
  Proofs.CompletionLookup Proofs.Completion.
From Tola Require Proofs.RemapTail Proofs.JoinGaps Proofs.GapProvenance.
From Coq Require Import Lia ZifyBool Permutation.

Theorem completion_of_painted_tiling_maps : forall g prefix n d input pretext,
  0 < d -> d <= n ->
  Forall input_ok input -> NoDup (map fst input) ->
  NoDup (map key_of (in_frags input)) ->
  Forall (fun f => f_tags f = []) (in_frags input) ->
  Forall (fun p => exists b t, snd p = RF b :: t) pretext ->
  Forall (fun b => (f_tags b = [] \/ f_tags b = [s "Painted"]) /\ (f_strand b = 1 \/ f_strand b = -1)
                   /\ In (f_name b) (map fst input)) (baits_of pretext) ->
  Forall (scaffold_tiled n d (baits_of pretext)) input ->
  exists rs, remap_to_input repaired g prefix (n, d) input pretext = Ok rs.
Proof. exact completion_core. Qed.

Definition spm (rows : list row) : Prop := forall f, In (RF f) rows -> pm f.

Lemma spm_frags rows : spm rows -> Forall pm (frags_of rows).
Proof. intro H. apply Forall_forall. intros f Hf. apply H, In_frags_of_iff, Hf. Qed.

Lemma trim_fragment_strand r t ks ke new r' :
  trim_fragment r t ks ke = Ok (new, r') -> f_strand new = f_strand t.
Proof.
  intros H. destruct (trim_fragment_spec _ _ _ _ _ _ H) as (x0 & xl & ds & de & _ & _ & _ & _ & _ & _ & _ & -> & _).
  reflexivity.
Qed.

Lemma number_input_pm input n : Forall pm (in_frags input) -> Forall pm (in_frags (number_input input n)).
Proof. apply number_input_frags. intros f id H. exact H. Qed.

Lemma store_pm c g prefix bpt input pretext rs :
  Forall pm (in_frags input) ->
  remap_to_input c g prefix bpt input pretext = Ok rs ->
  forall r, In r (b_store (rs_b rs)) -> spm (o_rows r).
Proof.
  intros Hpm H.
  pose proof (number_input_pm input 0 Hpm) as Hpm'. rewrite Forall_forall in Hpm'.
  refine (store_invariant (fun r => spm (o_rows r)) c g prefix bpt input pretext rs _ _ _ _ _ H).
  - intros r r' E _ _ P. rewrite E. exact P.
  - intros name rows bait fo Hin Hfo f Hf. cbn [ovr_of_found o_rows] in Hf.
    apply Hpm'. eapply src_frag_in; [exact Hin|]. eapply find_overlaps_rows; eassumption.
  - intros r r' P Hd f Hf. apply P. eapply discard_start_incl; eassumption.
  - intros r r' P Hd f Hf. apply P. eapply discard_end_incl; eassumption.
  - intros r t ks ke new r' Ht P Htf f Hf.
    assert (Pn : pm new)
      by (unfold pm; rewrite (trim_fragment_strand _ _ _ _ _ _ Htf); exact (Hpm' t Ht)).
    destruct (trim_fragment_rows _ _ _ _ _ _ Htf)
      as [(tl & g0 & Er & _ & Er' & _) | (g0 & tl & Er & _ & Er' & _)]; rewrite Er' in Hf.
    + apply in_app_or in Hf. destruct Hf as [Hf | [Hf | []]]; [|injection Hf as <-; exact Pn].
      apply P. rewrite Er. apply in_or_app. left. exact Hf.
    + destruct Hf as [Hf | Hf]; [injection Hf as <-; exact Pn|].
      apply P. rewrite Er. right. exact Hf.
Qed.

Lemma left_pm c g prefix bpt input pretext rs :
  Forall pm (in_frags input) ->
  remap_to_input c g prefix bpt input pretext = Ok rs ->
  forall sc, In sc (rs_left rs) -> spm (sc_rows sc).
Proof.
  intros Hpm H sc Hsc f Hf.
  pose proof (number_input_pm input 0 Hpm) as Hpm'. rewrite Forall_forall in Hpm'.
  destruct (GapProvenance.leftovers_from_missing _ _ _ _ _ _ _ H sc Hsc) as (_ & isc & Hisc & E).
  rewrite E in Hf. apply In_frags_of_iff in Hf. rewrite missing_rows_frags in Hf.
  apply filter_In in Hf as [Hf _]. cbn [app] in Hf.
  apply Hpm'. unfold in_frags. apply in_flat_map. exists isc. split; assumption.
Qed.

Lemma spm_reverse rows : spm rows -> spm (rows_reverse rows).
Proof.
  intros H f Hf. unfold rows_reverse in Hf. apply in_map_iff in Hf as (x & E & Hx).
  apply in_rev in Hx. destruct x as [f0|gp]; cbn [row_reverse] in E; [|discriminate].
  injection E as <-. destruct (H f0 Hx) as [P|P]; unfold pm, frag_reverse; cbn [f_strand]; lia.
Qed.

Lemma spm_append a b og : spm a -> spm b -> spm (append_rows a b og).
Proof.
  intros Ha Hb f Hf. unfold append_rows in Hf.
  destruct og as [g'|]; [destruct a as [|a0 a']|].
  - apply Hb. exact Hf.
  - apply in_app_or in Hf as [Hf|Hf]; [apply Ha; exact Hf|].
    cbn [app] in Hf. destruct Hf as [Hf|Hf]; [discriminate | apply Hb; exact Hf].
  - apply in_app_or in Hf as [Hf|Hf]; [apply Ha | apply Hb]; exact Hf.
Qed.

Lemma fuse_all_spm c g rs fused :
  (forall r, In r (b_store (rs_b rs)) -> spm (o_rows r)) ->
  (forall sc, In sc (rs_left rs) -> spm (sc_rows sc)) ->
  fuse_all c g rs = Ok fused -> forall sc, In sc fused -> spm (sc_rows sc).
Proof.
  intros FR FL H. apply (GapProvenance.fuse_all_preserves c g spm) with (4 := H).
  - intros self othr isr [-> | Hs] Ho; apply spm_append; [intros f [] | exact Ho | exact Hs | exact Ho].
  - intros r Hr. right. unfold to_scaffold_rows.
    destruct (f_strand (o_bait r) =? -1); [apply spm_reverse|]; apply FR, Hr.
  - intros sc Hsc. right. apply FL, Hsc.
Qed.

(* the ids in b_added index the store: fuse_all cannot fail *)
Lemma mapM_get_total st : forall ids, Forall (fun a => 0 <= a < zlen st) ids ->
  exists rs, mapM (get_ovr st) ids = Ok rs.
Proof.
  intros ids F. apply mapM_total. intros id Hid. rewrite Forall_forall in F.
  exact (get_ovr_ok st id (F id Hid)).
Qed.

Lemma added_in_range c g prefix bpt input pretext rs :
  remap_to_input c g prefix bpt input pretext = Ok rs ->
  Forall (fun a => 0 <= a < zlen (b_store (rs_b rs))) (b_added (rs_b rs)).
Proof.
  intros H.
  destruct (remap_to_input_stages _ _ _ _ _ _ _ H)
    as (_ & b1 & b2 & b3 & st & [nm left] & E1 & E2 & E3 & E4 & _ & ->).
  pose proof (pretext_invW _ coverage_weight _ _ _ _ E1) as (_ & (_ & A1) & _).
  (* the later stages keep the length of the store and the added ids *)
  destruct (store_pointwise (fun _ _ => True) (fun _ => I) (fun _ _ _ _ _ => I) (fun _ _ _ => I)
              (fun _ _ _ => I) (fun _ _ _ _ _ _ _ => I) (fun _ _ => I) _ _ _ _ _ _ _ _ E2 E3 E4)
    as (S & A & _).
  cbn [rs_b with_namer with_store b_store b_added]. rewrite A.
  unfold zlen in *. rewrite <- (Forall2_length _ _ _ S). exact A1.
Qed.

Lemma fuse_all_ok c g prefix bpt input pretext rs :
  remap_to_input c g prefix bpt input pretext = Ok rs ->
  exists fused, fuse_all c g rs = Ok fused.
Proof.
  intros H. unfold fuse_all.
  destruct (mapM_get_total _ _ (added_in_range _ _ _ _ _ _ _ H)) as (results & E).
  rewrite E. cbn [bind]. eexists. reflexivity.
Qed.

(* every piece is untagged (no Contaminant: no Target tag anywhere) and either
   of rank 3 or carries a non-empty original (Pretext) name *)
Definition tro_of (l : labs) : option str * Z * option str :=
  let '(_, tag, _, rank, orig) := l in (tag, rank, orig).
Definition fine3 (t : option str * Z * option str) : Prop :=
  let '(tag, rank, orig) := t in tag = None /\ (rank = 3 \/ exists o, orig = Some o /\ o <> []).
Definition fineL (l : labs) : Prop := fine3 (tro_of l).
Definition tro (r : ovr) : option str * Z * option str := (o_tag r, o_rank r, o_orig r).
Definition ofine (r : ovr) : Prop := fine3 (tro r).

Lemma map_tro_labs st st' : map o_labs st' = map o_labs st -> map tro st' = map tro st.
Proof.
  intro M. change tro with (fun r => tro_of (o_labs r)).
  rewrite <- !(map_map o_labs tro_of), M. reflexivity.
Qed.

Lemma ofine_map st st' : map tro st' = map tro st -> Forall ofine st -> Forall ofine st'.
Proof. exact (Forall_map_eq tro fine3 st st'). Qed.

Definition TI (b : bstate) : Prop := nm_target (b_namer b) = false /\ Forall ofine (b_store b).

Lemma label_plain nm id ft st nm' l :
  nm_target nm = false -> tags_ok ft -> label_scaffold nm id ft st = Ok (nm', l) ->
  nm' = nm /\ lb_tag l = None /\ lb_rank l = nm_cur_rank nm.
Proof.
  intros T Ht H.
  destruct (label_scaffold_inv _ _ _ _ _ _ H) as [F | _ F | _ _ F _ | _ _ _];
    try (destruct Ht as [-> | ->]; discriminate F).
  assert (C : contaminant nm ft st = false)
    by (unfold contaminant; rewrite T; destruct Ht as [-> | ->]; reflexivity).
  cbn [lb_tag lb_rank]. rewrite C. repeat split.
Qed.

Lemma one_bait_TI inp err sc_tags orig b bait b' :
  tags_ok (f_tags bait) -> (nm_cur_rank (b_namer b) = 3 \/ orig <> []) ->
  TI b -> one_bait inp err sc_tags orig b bait = Ok b' -> TI b' /\ b_namer b' = b_namer b.
Proof.
  intros Ht Hr [T1 T2] H.
  destruct (one_bait_spec _ _ _ _ _ _ _ H)
    as (rows & _ & [(_ & ->) | (fo & nm & lab & r1 & _ & EL & ET & E1 & E2 & _)]);
    [split; [split; assumption | reflexivity]|].
  destruct (label_plain _ _ _ _ _ _ T1 Ht EL) as (-> & Lt & Lr).
  split; [|exact E2]. unfold TI. rewrite E1, E2. split; [exact T1|].
  apply Forall_app. split; [exact T2|]. constructor; [|constructor].
  pose proof (trim_large_labs _ _ _ ET) as L. unfold o_labs in L.
  cbn [set_labels o_name o_tag o_hap o_rank o_orig] in L. injection L as _ L2 _ L4 L5.
  unfold ofine, tro, fine3. rewrite L2, L4, L5, Lt, Lr. split; [reflexivity|].
  destruct Hr as [Hr|Hr]; [left; exact Hr | right; exists orig; split; [reflexivity | exact Hr]].
Qed.

Lemma msn_untagged_rank nm name rows f t nm' :
  rows = RF f :: t -> fragment_tags rows = [] ->
  make_scaffold_name nm name rows [] = Ok nm' -> nm_cur_rank nm' = 3.
Proof.
  intros -> Ht H.
  destruct (make_scaffold_name_inv _ _ _ _ _ H)
    as (sc & hap & lc1 & prim & lc2 & nme & rank & Es & _ & _ & En & ->).
  unfold eff_tags in Es. rewrite Ht in Es. cbn [foldM] in Es. injection Es as <-.
  cbn in En. injection En as _ <-. reflexivity.
Qed.

Lemma one_pretext_scaffold_TI inp err b pname prows b' :
  (exists b0 t, prows = RF b0 :: t) ->
  Forall (fun f => tags_ok (f_tags f)) (frags_of prows) ->
  (painted_b (pname, prows) = true -> pname <> []) ->
  TI b -> one_pretext_scaffold inp err b (pname, prows) = Ok b' -> TI b'.
Proof.
  intros (f & t & Hrows) Hb Hnm [T1 T2] H.
  destruct (one_pretext_spec _ _ _ _ _ _ H) as (nm & b1 & st & EM & EF & ER & ->).
  pose proof (fragment_tags_painted prows Hb) as Ht.
  destruct (make_scaffold_name_painted (b_namer b) pname prows f t Hrows Ht) as (nm' & Em & _ & _ & Htg).
  rewrite Em in EM. injection EM as ->.
  assert (Hr : nm_cur_rank nm = 3 \/ pname <> []).
  { destruct Ht as [Ht|Ht].
    - left. rewrite Ht in Em. exact (msn_untagged_rank _ _ _ _ _ _ Hrows Ht Em).
    - right. apply Hnm. unfold painted_b. cbn [snd]. rewrite Ht. reflexivity. }
  assert (I1 : TI b1 /\ b_namer b1 = nm).
  { apply (foldM_inv_In (one_bait inp err (fragment_tags prows) pname)
             (fun b => TI b /\ b_namer b = nm) (frags_of prows)) with (3 := EF).
    - intros s0 a s1 Ia [Hs En] E. rewrite Forall_forall in Hb.
      destruct (one_bait_TI _ _ _ _ _ _ _ (Hb a Ia) ltac:(rewrite En; exact Hr) Hs E) as [K1 K2].
      split; [exact K1 | congruence].
    - split; [|reflexivity]. split; [cbn [with_namer b_namer]; congruence | exact T2]. }
  destruct I1 as [[J1 J2] J3]. destruct (rename_results_spec _ _ _ ER) as [R1 _].
  split; [exact J1|]. cbn [with_store b_store].
  apply (ofine_map (b_store b1)); [apply R1; reflexivity | exact J2].
Qed.

Lemma leftovers_fine c g found : forall inp nm left nm' left',
  Forall (fun f => f_tags f = []) (in_frags inp) -> nm_target nm = false ->
  Forall (fun sc => sc_tag sc = None /\ sc_rank sc = 3) left ->
  foldM (add_missing_one c g found) inp (nm, left) = Ok (nm', left') ->
  Forall (fun sc => sc_tag sc = None /\ sc_rank sc = 3) left'.
Proof.
  induction inp as [|[name rows] inp IH]; intros nm left nm' left' Hun T F H; cbn [foldM] in H.
  - injection H as _ <-. exact F.
  - unfold in_frags in Hun. cbn [flat_map snd] in Hun. apply Forall_app in Hun as [Hu1 Hu2].
    unfold bind in H.
    destruct (add_missing_one c g found (nm, left) (name, rows)) as [[nm1 left1]|] eqn:E; [|discriminate].
    assert (K : nm_target nm1 = false /\ Forall (fun sc => sc_tag sc = None /\ sc_rank sc = 3) left1).
    { unfold add_missing_one in E.
      pose proof (missing_rows_frags c found g rows [] 0 None) as Hfr.
      destruct (JoinGaps.missing_rows_first c found g rows [] 0) as [E0|(f & t & E0)].
      - rewrite E0 in E. injection E as <- <-. split; assumption.
      - assert (Hnt : fragment_tags (missing_rows c found g rows [] 0 None) = []).
        { apply fragment_tags_untagged. rewrite Hfr. rewrite Forall_forall in Hu1 |- *.
          intros x Hx. apply filter_In in Hx. destruct Hx as [Hx _]. apply Hu1, Hx. }
        destruct (make_scaffold_name_untagged nm name _ f t E0 Hnt) as (nm2 & Hm & _ & _ & Htg).
        rewrite E0 in E, Hm. rewrite Hm in E. cbn [bind] in E. injection E as <- <-.
        split; [congruence|]. apply Forall_app. split; [exact F|]. constructor; [|constructor].
        cbn [sc_tag sc_rank]. rewrite Htg, T. cbn [andb]. split; reflexivity. }
    destruct K as [T1 F1]. exact (IH nm1 left1 nm' left' Hu2 T1 F1 H).
Qed.

(* what the ChrNamer needs of a fused scaffold: no tag; of rank 3, or without
   haplotype and with a non-empty original name *)
Definition goodL (l : labs) : Prop :=
  let '(_, tag, hap, rank, orig) := l in
  tag = None /\ (rank = 3 \/ (hap = None /\ exists o, orig = Some o /\ o <> [])).

Lemma fused_good c g prefix bpt input pretext rs fused :
  Forall (fun f => f_tags f = []) (in_frags input) ->
  Forall (fun p => exists b t, snd p = RF b :: t) pretext ->
  Forall (fun b => tags_ok (f_tags b)) (baits_of pretext) ->
  Forall (fun p => painted_b p = true -> fst p <> []) pretext ->
  no_haplotypes pretext ->
  remap_to_input c g prefix bpt input pretext = Ok rs -> fuse_all c g rs = Ok fused ->
  Forall (fun sc => goodL (sc_labs sc)) fused.
Proof.
  intros Hunt Hpre Hb Hnm NHp H HF.
  destruct (remap_to_input_stages _ _ _ _ _ _ _ H)
    as (_ & b1 & b2 & b3 & st & [nm left] & E1 & E2 & E3 & E4 & E5 & ->).
  assert (Hunt' : Forall (fun f => f_tags f = []) (in_frags (number_input input 0))).
  { apply number_input_frags; [intros f id P; exact P | exact Hunt]. }
  assert (O1 : TI b1 /\ HNone b1).
  { apply (foldM_inv_In _ (fun b => TI b /\ HNone b) pretext) with (3 := E1).
    - intros s0 [pname prows] s1 Ia [Hs Hh] E. rewrite Forall_forall in Hpre, Hb, Hnm. split.
      + apply (one_pretext_scaffold_TI _ _ _ _ _ _ (Hpre _ Ia)) with (4 := E); [| |exact Hs].
        * apply Forall_forall. intros x Hx. apply Hb. unfold baits_of. apply in_flat_map.
          exists (pname, prows). split; [exact Ia | exact Hx].
        * exact (Hnm _ Ia).
      + exact (one_pretext_scaffold_no_hap _ pretext NHp _ _ _ _ _ Ia Hh E).
    - split; split; [reflexivity | constructor | reflexivity | constructor]. }
  destruct (discard_loop_labs _ _ _ _ E2) as (L2 & _ & N2).
  destruct (cut_remaining_labs _ _ _ E3) as (L3 & _ & N3).
  destruct O1 as [[T1 F1] [_ G1]].
  assert (F3 : Forall ofine (b_store b3)).
  { apply (ofine_map (b_store b1)); [|exact F1]. apply map_tro_labs. congruence. }
  assert (G3 : Forall (fun r => o_hap r = None) (b_store b3)).
  { apply (Forall_map_eq o_hap (fun h => h = None) (b_store b1)); [|exact G1].
    apply map_hap_labs. congruence. }
  destruct (rename_results_spec _ _ _ E4) as [R1 _].
  assert (F4 : Forall ofine st) by (apply (ofine_map (b_store b3)); [apply R1; reflexivity | exact F3]).
  assert (G4 : Forall (fun r => o_hap r = None) st).
  { apply (Forall_map_eq o_hap (fun h => h = None) (b_store b3)); [apply R1; reflexivity | exact G3]. }
  assert (T3 : nm_target (b_namer b3) = false) by (rewrite N3, N2; exact T1).
  pose proof (leftovers_fine c g _ _ _ _ _ _ Hunt' T3 (Forall_nil _) E5) as FL.
  apply (fuse_all_labs goodL c g _ fused) with (3 := HF).
  - cbn [rs_b with_namer with_store b_store]. rewrite Forall_forall in *. intros r Hr.
    destruct (F4 r Hr) as [K1 K2]. unfold goodL, o_labs. split; [exact K1|].
    destruct K2 as [K2|K2]; [left; exact K2 | right; split; [exact (G4 r Hr) | exact K2]].
  - cbn [rs_left]. eapply Forall_impl; [|exact FL]. intros sc [K1 K2].
    unfold goodL, sc_labs. split; [exact K1 | left; exact K2].
Qed.

Lemma make_stats_total c inp asms :
  (forall isc, In isc inp -> Forall pm (frags_of (snd isc))) ->
  (forall a sc, In a asms -> In sc (oa_scaffolds a) -> Forall pm (frags_of (sc_rows sc))) ->
  exists r, make_stats c inp asms = Ok r.
Proof.
  intros Hi Ho. unfold make_stats.
  assert (E1 : exists ijs, input_junctions_by_prefix c inp = Ok ijs).
  { unfold input_junctions_by_prefix. apply foldM_total. intros acc [nm rows] Ia.
    pose proof (Hi _ Ia) as Hp. cbn [snd] in Hp.
    destruct (junction_set_ok c rows Hp) as (js & Ej).
    destruct (frags_of rows) as [|f t]; [eexists; reflexivity|].
    rewrite Ej. cbn [bind]. eexists. reflexivity. }
  destruct E1 as (ijs & ->). cbn [bind].
  assert (E2 : exists ojs,
    mapM (fun a => do js <- asm_junctions c (oa_scaffolds a); Ok (oa_key a, js)) asms = Ok ojs).
  { apply mapM_total. intros a Ia.
    assert (E : exists js, asm_junctions c (oa_scaffolds a) = Ok js).
    { unfold asm_junctions. apply foldM_total. intros acc sc Isc.
      destruct (junction_set_ok c (sc_rows sc) (Ho a sc Ia Isc)) as (js & ->).
      cbn [bind]. eexists; reflexivity. }
    destruct E as (js & ->). cbn [bind]. eexists; reflexivity. }
  destruct E2 as (ojs & ->). cbn [bind]. eexists. reflexivity.
Qed.

(* what is left of [remap] once the ChrNamer has answered: grouping, sorting and
   the statistics cannot fail when every contig is on strand +1 / -1 *)
Lemma tail_after_namer g prefix input rs fused0 fused :
  Forall pm (in_frags input) ->
  fuse_all repaired g rs = Ok fused0 ->
  name_chromosomes prefix (map (prefix_rank2 prefix) fused0)
    (chr_items (map (prefix_rank2 prefix) fused0)) = Ok fused ->
  (forall sc, In sc fused -> spm (sc_rows sc)) ->
  exists o, assemblies_with_scaffolds_fused repaired g prefix input rs = Ok o.
Proof.
  intros Hpm HF NC Hrows.
  unfold assemblies_with_scaffolds_fused. rewrite HF. cbn [bind].
  change (map (fun sc => if (sc_rank sc =? 2) && negb (starts_with prefix (sc_name sc))
                         then with_name sc (prefix ++ sc_name sc) else sc) fused0)
    with (map (prefix_rank2 prefix) fused0).
  set (fused1 := map (prefix_rank2 prefix) fused0) in *.
  change (flat_map _ (combine (seq 0 (length fused1)) fused1)) with (chr_items fused1).
  rewrite NC. cbn [bind].
  change (fold_left _ fused []) with (fold_left RemapTail.group_step fused []).
  match goal with |- context [mapM ?f ?a0] => destruct (mapM_total f a0) as (asms & MM) end.
  { intros [k [cur scs]] _. destruct (smart_sort_total sc_rank sc_name scs) as (r & Er & _).
    rewrite Er. cbn [bind]. eexists; reflexivity. }
  rewrite MM. cbn [bind].
  destruct (make_stats_total repaired (number_input input 0) asms) as ([[breaks joins] per] & MS).
  { intros isc Iisc. pose proof (number_input_pm input 0 Hpm) as Hp. rewrite Forall_forall in Hp |- *.
    intros f If. apply Hp. unfold in_frags. apply in_flat_map. exists isc. split; assumption. }
  { intros a sc Ia Isc. apply spm_frags, Hrows.
    destruct (mapM_In _ _ _ MM a Ia) as ([k [cur scs]] & I & E).
    destruct (smart_sort_total sc_rank sc_name scs) as (r & Er & Pr). rewrite Er in E. cbn [bind] in E.
    injection E as <-. cbn [oa_scaffolds] in Isc.
    pose proof (Permutation_in _ Pr Isc) as Is. rewrite (grouping_spec _ _ _ _ I) in Is.
    apply filter_In in Is as [Is _]. exact Is. }
  rewrite MS. eexists. reflexivity.
Qed.

Theorem painted_tiling_maps_complete : forall g prefix n d input pretext,
  0 < d -> d <= n ->
  Forall input_ok input -> NoDup (map fst input) ->
  NoDup (map key_of (in_frags input)) ->
  Forall (fun f => f_tags f = []) (in_frags input) ->
  Forall (fun p => exists b t, snd p = RF b :: t) pretext ->
  Forall (fun b => (f_tags b = [] \/ f_tags b = [s "Painted"]) /\ (f_strand b = 1 \/ f_strand b = -1)
                   /\ In (f_name b) (map fst input)) (baits_of pretext) ->
  Forall (scaffold_tiled n d (baits_of pretext)) input ->
  (* for the second half of the pipeline *)
  Forall (fun f => f_strand f = 1 \/ f_strand f = -1) (in_frags input) ->  (* no contig of unknown strand *)
  Forall (fun p => painted_b p = true -> fst p <> []) pretext ->          (* painted scaffolds are named *)
  no_haplotypes pretext ->                                                (* no <hap>_..._<n> scaffold names *)
  exists o, remap repaired g prefix (n, d) input pretext = Ok o.
Proof.
  intros g prefix n d input pretext Hd Hdn Hin Hnm Hkeys Hunt Hpre Hb Htile Hpm Hnames NHp.
  destruct (completion_of_painted_tiling_maps g prefix n d input pretext
              Hd Hdn Hin Hnm Hkeys Hunt Hpre Hb Htile) as (rs & Hrs).
  unfold remap. rewrite Hrs. cbn [bind].
  assert (Hb' : Forall (fun b => tags_ok (f_tags b)) (baits_of pretext)).
  { eapply Forall_impl; [|exact Hb]. intros b (T & _). exact T. }
  destruct (fuse_all_ok _ g _ _ _ _ _ Hrs) as (fused0 & HF).
  pose proof (fused_good _ _ _ _ _ _ _ _ Hunt Hpre Hb' Hnames NHp Hrs HF) as Hgood.
  rewrite Forall_forall in Hgood.
  assert (Hrows0 : forall sc, In sc fused0 -> spm (sc_rows sc)).
  { apply (fuse_all_spm repaired g rs fused0);
      [exact (store_pm _ _ _ _ _ _ _ Hpm Hrs) | exact (left_pm _ _ _ _ _ _ _ Hpm Hrs) | exact HF]. }
  set (fused1 := map (prefix_rank2 prefix) fused0).
  (* the ChrNamer: one haplotype ("None"), every rank-1 scaffold has an original name *)
  destruct (name_chromosomes_single_total prefix fused1 (s "None") (chr_items fused1))
    as (fused & NC & Hlen & Hsame & _).
  { apply Forall_forall. intros [h i] Hi. cbn [fst]. apply chr_items_in in Hi as (_ & sc & Hn & Hr & ->).
    apply nth_error_In in Hn. apply in_map_iff in Hn as (sc0 & <- & I0).
    rewrite (same_but_name_asm_k _ _ (prefix_rank2_sbn prefix sc0)).
    destruct (prefix_rank2_sbn prefix sc0) as (_ & _ & _ & Rk & _). rewrite Rk in Hr.
    destruct (Hgood sc0 I0) as [Tg K]. unfold sc_labs in Tg, K.
    destruct K as [K | [Hh _]]; [lia|]. unfold asm_k, asm_key_of. rewrite Tg, Hh. reflexivity. }
  { apply Forall_forall. intros [h i] Hi. cbn [snd]. apply chr_items_in in Hi as (_ & sc & Hn & Hr & _).
    rewrite Nat.sub_0_r in Hn. exists sc. pose proof (nth_error_In _ _ Hn) as I1.
    apply in_map_iff in I1 as (sc0 & <- & I0).
    destruct (prefix_rank2_sbn prefix sc0) as (_ & _ & _ & Rk & Ro & _). rewrite Rk in Hr.
    destruct (Hgood sc0 I0) as [_ K]. unfold sc_labs in K.
    destruct K as [K | (_ & o & Eo & Ho)]; [lia|]. exists o.
    split; [exact Hn|]. split; [rewrite Ro; exact Eo | exact Ho]. }
  (* every scaffold that comes out of the ChrNamer has +-1 fragments only *)
  apply (tail_after_namer g prefix input rs fused0 fused Hpm HF NC).
  intros sc Isc. apply In_nth_error in Isc as (i & Ei).
  destruct (nth_error fused1 i) as [sc1|] eqn:E1.
  - destruct (Hsame i sc1 E1) as (sc' & E' & Er & _). rewrite Ei in E'. injection E' as <-. rewrite Er.
    apply nth_error_In in E1. apply in_map_iff in E1 as (sc0 & <- & I0).
    destruct (prefix_rank2_sbn prefix sc0) as (Rr & _). rewrite Rr. exact (Hrows0 sc0 I0).
  - apply nth_error_None in E1. assert (i < length fused)%nat by (apply nth_error_Some; congruence). lia.
Qed.

(* the statement with each added hypothesis switched on or off *)
Definition painted_statement (stranded named nohap : bool) : Prop :=
  forall g prefix n d input pretext,
  0 < d -> d <= n ->
  Forall input_ok input -> NoDup (map fst input) ->
  NoDup (map key_of (in_frags input)) ->
  Forall (fun f => f_tags f = []) (in_frags input) ->
  Forall (fun p => exists b t, snd p = RF b :: t) pretext ->
  Forall (fun b => (f_tags b = [] \/ f_tags b = [s "Painted"]) /\ (f_strand b = 1 \/ f_strand b = -1)
                   /\ In (f_name b) (map fst input)) (baits_of pretext) ->
  Forall (scaffold_tiled n d (baits_of pretext)) input ->
  (stranded = true -> Forall (fun f => f_strand f = 1 \/ f_strand f = -1) (in_frags input)) ->
  (named = true -> Forall (fun p => painted_b p = true -> fst p <> []) pretext) ->
  (nohap = true -> no_haplotypes pretext) ->
  exists o, remap repaired g prefix (n, d) input pretext = Ok o.

Corollary painted_statement_holds : painted_statement true true true.
Proof.
  intros g prefix n d input pretext Hd Hdn Hin Hnm Hkeys Hunt Hpre Hb Htile H1 H2 H3.
  apply painted_tiling_maps_complete; auto.
Qed.

Module Needs.
  Definition g10 := mkGap 10 (s "scaffold").
  Definition ctg (name : str) (strand : Z) : frag := mkFrag 0 name 1 100 strand [].
  Definition pbait (name : str) (E : Z) : frag := mkFrag 0 name 1 E 1 [s "Painted"].

  (* a contig of unknown strand with a neighbour: make_stats raises ValueError *)
  Definition input1 := [(s "scaf1", [RF (ctg (s "cA") 0); RG g10; RF (ctg (s "cB") 1)])].
  Definition pretext1 := [(s "P1", [RF (pbait (s "scaf1") 210)])].
  Lemma run1 : remap repaired g10 (s "SUPER_") (2, 1) input1 pretext1 = Err ValueError.
  Proof. vm_compute. reflexivity. Qed.

  (* a painted Pretext scaffold without a name: ChrNamer raises ValueError *)
  Definition input2 := [(s "scaf1", [RF (ctg (s "cB") 1)])].
  Definition pretext2 : list (str * list row) := [(s "", [RF (pbait (s "scaf1") 100)])].
  Lemma run2 : remap repaired g10 (s "SUPER_") (2, 1) input2 pretext2 = Err ValueError.
  Proof. vm_compute. reflexivity. Qed.

  (* haplotype-shaped scaffold names: two painted scaffolds of HAP1 in a row *)
  Definition input3 := [(s "HAP1_a_1", [RF (ctg (s "cB") 1)]); (s "HAP1_b_1", [RF (ctg (s "cC") 1)]);
                        (s "HAP2_c_1", [RF (ctg (s "cD") 1)])].
  Definition pretext3 := [(s "P1", [RF (pbait (s "HAP1_a_1") 100)]); (s "P2", [RF (pbait (s "HAP1_b_1") 100)]);
                          (s "P3", [RF (pbait (s "HAP2_c_1") 100)])].
  Lemma run3 : remap repaired g10 (s "SUPER_") (2, 1) input3 pretext3 = Err ChrNamerError.
  Proof. vm_compute. reflexivity. Qed.

  (* haplotype-shaped CONTIG names are harmless ([no_haplotypes input] is not needed) *)
  Definition input4 := [(s "a", [RF (ctg (s "HAP1_x_1") 1)]); (s "b", [RF (ctg (s "HAP1_y_1") 1)]);
                        (s "c", [RF (ctg (s "HAP2_z_1") 1)])].
  Definition pretext4 := [(s "P1", [RF (pbait (s "a") 100)]); (s "P2", [RF (pbait (s "b") 100)])].
  Lemma run4 : exists o, remap repaired g10 (s "SUPER_") (2, 1) input4 pretext4 = Ok o
                         /\ no_haplotypes_b input4 = false.
  Proof. eexists. split; vm_compute; reflexivity. Qed.
End Needs.

(* the statement applied to a small map of texel 2 bp: what remains to show is the
   hypotheses on tags and the three switched ones *)
Lemma painted_statement_at stranded named nohap g prefix input pretext :
  painted_statement stranded named nohap ->
  tiling_map_okb 2 1 input pretext = true ->
  Forall (fun f => f_tags f = []) (in_frags input) ->
  Forall (fun b => f_tags b = [] \/ f_tags b = [s "Painted"]) (baits_of pretext) ->
  (stranded = true -> Forall (fun f => f_strand f = 1 \/ f_strand f = -1) (in_frags input)) ->
  (named = true -> Forall (fun p => painted_b p = true -> fst p <> []) pretext) ->
  (nohap = true -> no_haplotypes pretext) ->
  exists o, remap repaired g prefix (2, 1) input pretext = Ok o.
Proof.
  intros H Hok Hu Ht Hs Hn Hh.
  destruct (tiling_map_okb_sound 2 1 input pretext Hok) as (H1 & H2 & H3 & H4 & H5 & H7 & H8 & H9).
  apply H; try assumption. apply Forall_and; assumption.
Qed.

Theorem painted_tiling_maps_complete_needs_stranded_contigs : ~ painted_statement false true true.
Proof.
  intros H.
  destruct (painted_statement_at _ _ _ Needs.g10 (s "SUPER_") Needs.input1 Needs.pretext1 H) as (o & Ho).
  - vm_compute. reflexivity.
  - repeat constructor.
  - repeat (apply Forall_cons; [right; reflexivity|]). apply Forall_nil.
  - discriminate.
  - intros _. repeat constructor. intros _. discriminate.
  - intros _. apply no_haplotypes_b_sound. vm_compute. reflexivity.
  - rewrite Needs.run1 in Ho. discriminate.
Qed.

Theorem painted_tiling_maps_complete_needs_named_painted_scaffolds : ~ painted_statement true false true.
Proof.
  intros H.
  destruct (painted_statement_at _ _ _ Needs.g10 (s "SUPER_") Needs.input2 Needs.pretext2 H) as (o & Ho).
  - vm_compute. reflexivity.
  - repeat constructor.
  - repeat (apply Forall_cons; [right; reflexivity|]). apply Forall_nil.
  - intros _. repeat constructor; cbn; auto.
  - discriminate.
  - intros _. apply no_haplotypes_b_sound. vm_compute. reflexivity.
  - rewrite Needs.run2 in Ho. discriminate.
Qed.

Theorem painted_tiling_maps_complete_needs_no_haplotypes : ~ painted_statement true true false.
Proof.
  intros H.
  destruct (painted_statement_at _ _ _ Needs.g10 (s "SUPER_") Needs.input3 Needs.pretext3 H) as (o & Ho).
  - vm_compute. reflexivity.
  - repeat constructor.
  - repeat (apply Forall_cons; [right; reflexivity|]). apply Forall_nil.
  - intros _. repeat constructor; cbn; auto.
  - intros _. repeat constructor; intros _; discriminate.
  - discriminate.
  - rewrite Needs.run3 in Ho. discriminate.
Qed.

(* the three-piece map of Proofs/Completion.v, the scaffold P2 painted (one of
   its two baits only), P1 not: every hypothesis of the theorem holds *)
Module PaintedThreePieces.
  Import Completion.ThreePieces.
  Definition p1 := mkFrag 0 (s "scaf1") 1 200 (-1) [s "Painted"].
  Definition p2 := mkFrag 0 (s "scaf1") 201 350 1 [].
  Definition p3 := mkFrag 0 (s "scaf1") 351 520 (-1) [].
  Definition pretext := [(s "P1", [RF p3]); (s "P2", [RF p2; RF p1])].
End PaintedThreePieces.

Lemma painted_three_pieces_hyps :
  Forall (fun p => exists b t, snd p = RF b :: t) PaintedThreePieces.pretext
  /\ Forall (fun b => (f_tags b = [] \/ f_tags b = [s "Painted"]) /\ (f_strand b = 1 \/ f_strand b = -1)
                      /\ In (f_name b) (map fst ThreePieces.input)) (baits_of PaintedThreePieces.pretext)
  /\ Forall (scaffold_tiled 7 2 (baits_of PaintedThreePieces.pretext)) ThreePieces.input
  /\ Forall (fun p => painted_b p = true -> fst p <> []) PaintedThreePieces.pretext
  /\ no_haplotypes PaintedThreePieces.pretext.
Proof.
  destruct (tiling_map_okb_sound 7 2 ThreePieces.input PaintedThreePieces.pretext)
    as (_ & _ & _ & _ & _ & H7 & H8 & H9); [vm_compute; reflexivity|].
  split; [exact H7|]. split; [|split; [exact H9|split]].
  - apply Forall_and; [|exact H8].
    repeat (apply Forall_cons; [(left; reflexivity) || (right; reflexivity)|]). apply Forall_nil.
  - repeat constructor; intros _; discriminate.
  - apply no_haplotypes_b_sound. vm_compute. reflexivity.
Qed.

Example painted_three_piece_map_completes :
  exists o, remap repaired ThreePieces.g10 (s "SUPER_") (7, 2)
                  ThreePieces.input PaintedThreePieces.pretext = Ok o.
Proof.
  destruct three_pieces_hyps as (H1 & H2 & H3 & H4 & H5 & H6 & Hpm & _).
  destruct painted_three_pieces_hyps as (H7 & H8 & H9 & Hn & Hh).
  apply painted_tiling_maps_complete; assumption.
Qed.

(* the same run, by computation: P2 becomes chromosome SUPER_1, P1's piece keeps
   the input scaffold name *)
Example painted_three_piece_map_by_computation :
  exists o, remap repaired ThreePieces.g10 (s "SUPER_") (7, 2)
                  ThreePieces.input PaintedThreePieces.pretext = Ok o
            /\ map (fun a => map sc_name (oa_scaffolds a)) (out_asms o) = [[s "SUPER_1"; s "scaf1"]].
Proof. eexists. split; vm_compute; reflexivity. Qed.

Print Assumptions completion_of_painted_tiling_maps.
Print Assumptions painted_tiling_maps_complete.
Print Assumptions painted_statement_holds.
Print Assumptions painted_tiling_maps_complete_needs_stranded_contigs.
Print Assumptions painted_tiling_maps_complete_needs_named_painted_scaffolds.
Print Assumptions painted_tiling_maps_complete_needs_no_haplotypes.
Print Assumptions Needs.run4.
Print Assumptions painted_three_piece_map_completes.
