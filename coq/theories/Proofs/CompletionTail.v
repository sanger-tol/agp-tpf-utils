(* Progress of the last stage of remap_to_input: renaming an empty list of
   results, and re-adding the input contigs that no bait found
   (add_missing_scaffolds_from_input) when no input contig carries a tag. *)
From Tola Require Import Py.Base Model.Fragment Model.Scaffold Model.Lookup Model.Remap Model.RemapSpec Proofs.Rows Proofs.Routing Proofs.RemapHead Proofs.JoinGaps.

Lemma rename_results_nil st : rename_results st [] = Ok st.
Proof. reflexivity. Qed.

Lemma add_missing_one_ok c dg found nm left isc :
  Forall (fun f => f_tags f = []) (frags_of (snd isc)) ->
  exists r, add_missing_one c dg found (nm, left) isc = Ok r.
Proof.
  destruct isc as [name rows]. cbn [snd]. intro Hun. unfold add_missing_one.
  pose proof (missing_rows_frags c found dg rows [] 0 None) as Hfr.
  destruct (missing_rows_first c found dg rows [] 0) as [E|(f & t & E)].
  - rewrite E. eexists. reflexivity.
  - assert (Hnt : fragment_tags (missing_rows c found dg rows [] 0 None) = []).
    { apply fragment_tags_untagged. rewrite Hfr. rewrite Forall_forall in Hun |- *.
      intros g Hg. apply filter_In in Hg. destruct Hg as [Hg _]. apply Hun, Hg. }
    destruct (make_scaffold_name_untagged nm name _ f t E Hnt) as (nm' & Hm & _).
    rewrite E in Hm |- *. rewrite Hm. cbn [bind]. eexists. reflexivity.
Qed.

Lemma add_missing_fold_ok c dg found : forall input nm left,
  Forall (fun f => f_tags f = []) (in_frags input) ->
  exists r, foldM (add_missing_one c dg found) input (nm, left) = Ok r.
Proof.
  induction input as [|isc input IH]; intros nm left Hun; cbn [foldM].
  - eexists. reflexivity.
  - unfold in_frags in Hun. cbn [flat_map] in Hun. apply Forall_app in Hun.
    destruct Hun as [H1 H2].
    destruct (add_missing_one_ok c dg found nm left isc H1) as ([nm1 left1] & E).
    rewrite E. cbn [bind]. apply IH. exact H2.
Qed.

Print Assumptions rename_results_nil.
Print Assumptions add_missing_one_ok.
Print Assumptions add_missing_fold_ok.
